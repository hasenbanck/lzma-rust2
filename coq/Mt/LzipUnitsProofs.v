(* Mt/LzipUnitsProofs.v — the data side of LZIPReaderMT / LZIPWriterMT with the concrete LZMA
   payload codec: a file of members m_1 .. m_n (what LZIPWriterMT writes: one member per work
   unit; any concatenation of members)
     * is cut by the backward scan of LZIPReaderMT exactly into its members,
     * each member alone is decoded by a fresh LZIPReader to its own content (the worker's job),
     * and the single-threaded reader decodes the file to the concatenation of the contents.
   Restatement of C12_lzip_multi_lzma1_thm (Format/ComposeProofs.v) member by member, plus the
   well-formedness that lzip_scan_sound (Mt/UnitsProofs.v) asks for. *)
From LzVerif Require Import Base.Bytes Codec.LzmaEnc Format.Crc Format.XzFormat Format.LzipFormat
  Format.LzipDict Format.LzipProofs Format.ComposeProofs Mt.Units Mt.UnitsProofs.
Local Open Scope Z_scope.

(* a member written by the writer model is well formed in the sense of the backward scan *)
Lemma lm_bytes_wf penc m : lm_ok penc m -> wf_member (lm_bytes penc m).
Proof.
  intros (_ & _ & _ & Hp64). unfold wf_member, lm_bytes, lz_member.
  set (payload := penc (lm_dict m) (lm_content m)) in *.
  assert (Hlen : zlen (LZIP_MAGIC ++ [1; lm_byte m] ++ payload ++ le_bytes 4 (crc32 (lm_content m)) ++
                       le_bytes 8 (zlen (lm_content m)) ++
                       le_bytes 8 (LZIP_HEADER_SIZE + zlen payload + LZIP_TRAILER_SIZE)) = 26 + zlen payload).
  { rewrite !zlen_app, !zlen_le_bytes. unfold LZIP_MAGIC, zlen. cbn [length]. lia. }
  assert (Hpn : 0 <= zlen payload) by (unfold zlen; lia).
  split; [rewrite Hlen; lia|]. split; [reflexivity|].
  rewrite Hlen.
  rewrite !app_assoc.
  rewrite skipn_app_exact.
  - unfold LZIP_HEADER_SIZE, LZIP_TRAILER_SIZE. rewrite le_value_bytes; [lia|].
    change (256 ^ Z.of_nat 8) with (2 ^ 64). lia.
  - rewrite app_length, le_bytes_length. lia.
Qed.

Section Lzip.
  Variable ch : Z -> list Z -> list sym.
  Variable calls : nat.

  Theorem lzip_units_data : forall m ms,
    Forall (lm_ok_l1 ch calls) (m :: ms) ->
    scan_members (lm_file (l1_penc ch) (m :: ms)) = Ok (member_table 0 (map (lm_bytes (l1_penc ch)) (m :: ms))) /\
    Forall (fun x => lz_decode (lzip_payload_dec_n calls) lz_fixed (lm_bytes (l1_penc ch) x) = Ok (lm_content x, []))
           (m :: ms) /\
    lz_decode (lzip_payload_dec_n calls) lz_fixed (lm_file (l1_penc ch) (m :: ms)) =
      Ok (concat (map lm_content (m :: ms)), []).
  Proof.
    intros m ms Hok. split; [|split].
    - unfold lm_file. apply lzip_scan_sound; [discriminate|].
      apply Forall_map. eapply Forall_impl; [|exact Hok]. intros x (Hx & _). apply lm_bytes_wf. exact Hx.
    - eapply Forall_impl; [|exact Hok]. intros x Hx.
      pose proof (C12_lzip_multi_lzma1_thm ch calls x [] (Forall_cons _ Hx (Forall_nil _))) as H.
      unfold lm_file, lm_data in H. cbn [map concat] in H. rewrite !app_nil_r in H. exact H.
    - exact (C12_lzip_multi_lzma1_thm ch calls m ms Hok).
  Qed.
End Lzip.
