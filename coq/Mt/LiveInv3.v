(* Mt/LiveInv3.v — the data and condvar clauses of the invariant I3 of the repaired protocol, and
   its assembly. *)
From LzVerif Require Import Base.Bytes Mt.Protocol Mt.ProtocolLemmas Mt.ProtocolInv Mt.SafetyProofs Mt.CountProofs
  Mt.LiveInv.
Local Open Scope nat_scope.

Section P.
Context {R : Type}.
Variable f : nat -> R + Z.
Implicit Types (s : state R) (c : cfg).

(* the shutdown flag is only raised by an error or by Drop / finish *)
Lemma step_i3_shut c s t s' : Fx c -> ctl_ok (k_kind c) (pc s) (ph s) = true -> I3 c s ->
  step f c s t = Some s' -> shut s' = true -> shut_pc (pc s') = true \/ errd s'.
Proof.
  intros Hfx OK H3 Hst Hs.
  destruct (shut s) eqn:Hsh.
  - destruct (i3_shut c s H3 Hsh) as [Hp|He].
    + left. clear Hs. dfx Hfx. step_split t Hst; pre; try assumption; try discriminate; try reflexivity.
      all: try solve [ destruct fin; reflexivity ].
      all: try solve [ rewrite Fc; reflexivity ].
    + right. eapply step_errd; eauto.
  - dfx Hfx. revert Hs. step_split t Hst; intros Hs; pre; try congruence.
    all: try solve [ right; right; reflexivity ].
    all: try solve [ right; left; unfold first_err; destruct (err s); discriminate ].
    all: try solve [ left; rewrite ?Fc; reflexivity ].
Qed.

(* Draining / Finishing: last_sequence_id = number of dispatched units - 1, at least one unit.
   A helper effect leaves phase and last_sequence_id alone, or enters Draining in this way. *)
Definition eff_drain (e : ceff R) s : Prop :=
  e_ph e = None /\ e_last e = None \/
  e_ph e = Some PDrain /\ e_last e = Some (Some (nd s - 1)) /\ 1 <= nd s.

Lemma eff_drain_all c s e : fx_empty c = true -> is_eff c s e -> eff_drain e s.
Proof.
  intros Fe [g v|r| | |[]]; unfold eff_drain, disp_eff, src_eff, finish_eff;
    rewrite ?ret_eff_ph, ?ret_eff_last, ?flush_eff_ph, ?flush_eff_last, ?Fe; auto;
    try destruct r; try destruct (Nat.eqb_spec (nd s) 0); cbn; auto; right; repeat split; lia.
Qed.

Lemma step_i3_drain c s t s' : fx_empty c = true -> ctl_ok (k_kind c) (pc s) (ph s) = true -> I2 f s -> I3 c s ->
  step f c s t = Some s' ->
  (ph s' = PDrain \/ ph s' = PFin -> last s' = Some (nd s' - 1) /\ 1 <= nd s') /\
  (ph s' = PFin -> nd s' <= nr s').
Proof.
  intros Fe OK H2 H3 Hst.
  pose proof (i3_drain c s H3) as DR. pose proof (i3_pfin c s H3) as PF. pose proof (i2_nr f s H2) as NR.
  pose proof (ctl_quiet _ _ _ OK) as Q.
  destruct t as [k|i]; cbn [step] in Hst;
    [|destruct (wk_step_co f c s i s' Hst) as [_ -> -> -> -> _ _ _ _ _ _ _ _ _]; exact (conj DR PF)].
  co_cases Hst; msimpl; pre.
  all: try match goal with c0 : cfg |- context [e_ph ?e] =>
         destruct (eff_drain_all c0 _ e Fe ltac:(constructor)) as [[-> ->]|(-> & -> & Hnd)]; try mcbn_in Hnd; mcbn
       end.
  all: rw_goal; split; intros X.
  (* State::Error, or Draining just entered *)
  all: try discriminate X; try (destruct X; discriminate); try (split; [reflexivity|lia]).
  (* the dispatch sequences are not run in Draining / Finished *)
  all: try solve [ exfalso; first [specialize (Q X)|specialize (Q (or_intror X))]; discriminate Q ].
  (* nothing but next_sequence_to_return has changed *)
  all: try exact (DR X); try (specialize (PF X); lia).
  (* CTake: Draining -> Finished, when last_sequence_id < next_sequence_to_return *)
  - exact (DR (or_introl eq_refl)).
  - destruct (DR (or_introl eq_refl)) as [L1 _]. rewrite L1 in *. split_andb. lia.
Qed.

(* a queued unit is dispatched and not yet handed out *)
Lemma queue_nonempty_lt s : I2 f s -> I4 s -> post_push (pc s) = false -> q_items s <> [] -> nr s < nd s.
Proof.
  intros H2 H4 Hp Hq. destruct (q_items s) as [|x l] eqn:E; [congruence|].
  assert (Hx : In x (q_items s)) by (rewrite E; left; reflexivity).
  pose proof (i4_ge s x H4 (or_introl Hx)).
  pose proof (i2_lt f s H2 x) as L. unfold nde in L. rewrite Hp in L.
  specialize (L ltac:(apply in_app_iff; left; assumption)). lia.
Qed.

(* of the loop tops, a helper effect leads to that of its own caller only, and to that of flush()
   only while a dispatched unit is outstanding *)
Definition eff_top (e : ceff R) s : Prop :=
  forall g, gk_of (e_pc e) = Some g -> e_pc e = CTop g /\ (waits g = true -> nr s < nd s).

Lemma eff_top_all c s e : is_eff c s e -> eff_top e s.
Proof.
  intros [g v|r| | |[]] g0; unfold disp_eff, ret_eff, src_eff, flush_eff, finish_eff;
    repeat match goal with
           | |- context [match ?x with _ => _ end] => destruct x eqn:?
           | |- context [if ?b then _ else _] => destruct b eqn:?
           end;
    cbn; intros H; try discriminate H; injection H as <-;
    (split; [reflexivity|cbn; try discriminate; intros _; apply Nat.ltb_lt; assumption]).
Qed.

(* a blocking recv() always waits for a unit that was dispatched and not yet returned *)
Lemma step_i3_back c s t s' : ctl_ok (k_kind c) (pc s) (ph s) = true -> I2 f s -> I4 s -> I3 c s ->
  step f c s t = Some s' ->
  (forall g, gk_of (pc s') = Some g -> waits g = true -> nr s' < nd s') /\
  (pc s' = CRecv KRead true -> ph s' = PRun -> nr s' < nd s').
Proof.
  intros OK H2 H4 H3 Hst.
  pose proof (i3_back c s H3) as BK. pose proof (i3_rdrecv c s H3) as RR.
  pose proof (queue_nonempty_lt s H2 H4) as QN.
  destruct t as [k|i]; cbn [step] in Hst;
    [|destruct (wk_step_co f c s i s' Hst) as [-> -> -> -> _ _ _ _ _ _ _ _ _ _]; exact (conj BK RR)].
  pose proof (ctl_kind _ _ _ OK) as KO.
  co_cases Hst; msimpl; pre; (split; [intros g0 Hg Hw|intros X Y; pc_cases; try discriminate X]).
  (* a helper effect *)
  all: try match goal with c0 : cfg, Hg : gk_of (e_pc ?e) = Some _ |- _ =>
         exact (proj2 (eff_top_all c0 _ e ltac:(constructor) _ Hg) Hw)
       end.
  (* the same loop, with the same counters *)
  all: try (cbn [gk_of] in Hg; try discriminate Hg; injection Hg as <-).
  all: try solve [ eapply BK; [reflexivity|exact Hw] ].
  all: try solve [ apply RR; congruence ].
  (* the queue holds four units or more *)
  all: try solve [ apply QN; [reflexivity|]; intros E0; unfold qlen in *; rewrite E0 in *; simpl in *; lia ].
  (* a writer never calls the reader's get_next *)
  injection X as ->. discriminate KO.
Qed.

(* a stored error is always followed by a wake-up message *)
Lemma step_i3_wake1 c s t s' : fx_wake c = true -> I1 c s -> I3 c s -> step f c s t = Some s' ->
  err s' <> None -> unsafe_pc (pc s') = true -> In MWake (ch s') \/ In WWake (ws s').
Proof.
  intros Fw H1 H3 Hst. pose proof (i3_wake c s H3) as WK. pose proof (i1_rx c s H1) as RX.
  destruct t as [k|i]; cbn [step] in Hst.
  - (* the region is entered past the error check of CTake; inside it the coordinator touches
       neither the store, nor the workers, nor a non-empty channel *)
    co_cases Hst; msimpl; rw_pc; intros He Hu; pc_cases; try discriminate Hu; try congruence.
    all: first [ apply WK; auto; fail | destruct (WK He eq_refl) as [X|X]; [rw_eqs; destruct X|right; exact X] ].
  - (* a worker that stores an error goes on to send the wake-up; the send puts it into the channel *)
    wk_cases Hst; msimpl; try discriminate Fw; intros He Hu;
      try (destruct (WK He Hu) as [X|X];
           [left; auto using in_or_app|right; eapply In_upd_keep; eauto; discriminate]).
    + right. eapply upd_nat_In_new; eassumption.
    + left. apply in_or_app. right. left. reflexivity.
    + rewrite (RX eq_refl) in Hu. discriminate Hu.
Qed.

Lemma step_i3_wake234 c s t s' : Fx c -> ctl_ok (k_kind c) (pc s) (ph s) = true -> I3 c s ->
  step f c s t = Some s' ->
  (rwake s' = true -> errd s') /\ (In MWake (ch s') -> errd s') /\ (In WWake (ws s') -> errd s').
Proof.
  intros Hfx OK H3 Hst.
  pose proof (i3_rwake c s H3) as W2. pose proof (i3_chwake c s H3) as W3. pose proof (i3_wswake c s H3) as W4.
  assert (ST : errd s -> errd s') by (intros E; eapply step_errd; eauto).
  destruct t as [k|i]; cbn [step] in Hst.
  - (* the coordinator moves the wake-up from the channel into the reorder map *)
    assert (W : forall w, In w (ws s') -> In w (ws s) \/ w = WWoken \/ w = WTop)
      by (intros w; exact (co_step_ws_In c s k s' w Hst)).
    co_cases Hst; msimpl; mcbn_in W; (split; [|split]); intros X; rw_eqs;
      try (destruct (W _ X) as [X0|[X0|X0]]; [|discriminate X0..]); auto using in_eq, in_cons.
    all: inversion X.
  - (* only a worker on its error path produces one *)
    wk_cases Hst; msimpl; (split; [|split]); intros X;
      try (apply in_app_iff in X; destruct X as [X|[X|[]]]; [|try discriminate X]);
      try (apply upd_nat_In in X; destruct X as [X|X]; [try discriminate X|]); auto.
    + left. apply first_err_some.
    + apply ST, W4. eapply nth_opt_In; eassumption.
Qed.

(* the tail of finish() is entered from get_next's clean end, or directly when nothing was written *)
Lemma ret_eff_fin_chain s g v : fin_chain (e_pc (ret_eff s g v)) = true -> g = KFinish /\ v = RNone \/ v = ROk.
Proof.
  unfold ret_eff, with_out, goto, creturn, freturn.
  destruct g, v; repeat match goal with |- context [match ?x with _ => _ end] => destruct x end;
    cbn; intros H; try discriminate H; auto.
Qed.

Lemma finish_eff_fin_chain s : fin_chain (e_pc (finish_eff s)) = true -> nd s = 0.
Proof. unfold finish_eff. destruct (Nat.eqb_spec (nd s) 0); [auto|discriminate]. Qed.

Lemma src_eff_no_fin c s r : fin_chain (e_pc (src_eff c s r)) = false.
Proof. unfold src_eff. destruct r; [|destruct (_ && _)|]; reflexivity. Qed.

Lemma flush_eff_no_fin s : fin_chain (e_pc (flush_eff s)) = false.
Proof. unfold flush_eff. destruct (nr s <? nd s); reflexivity. Qed.

Lemma disp_eff_fin_chain c s d : fin_chain (e_pc (disp_eff c s d)) = true -> nd s = 0.
Proof.
  destruct d; cbn [disp_eff]; rewrite ?src_eff_no_fin, ?flush_eff_no_fin; try discriminate.
  apply finish_eff_fin_chain.
Qed.

Lemma step_i3_fin c s t s' : ctl_ok (k_kind c) (pc s) (ph s) = true -> I3 c s -> step f c s t = Some s' ->
  fin_chain (pc s') = true -> nd s' <= nr s'.
Proof.
  intros OK H3 Hst. pose proof (i3_pfin c s H3) as PF. pose proof (i3_fin c s H3) as IH.
  destruct t as [k|i]; cbn [step] in Hst;
    [|destruct (wk_step_co f c s i s' Hst) as [-> _ -> -> _ _ _ _ _ _ _ _ _ _]; exact IH].
  co_cases Hst; msimpl; rw_pc; intros X; try discriminate X; auto.
  all: try match goal with
       | X : fin_chain (e_pc (ret_eff ?s0 ?g ?v)) = true |- _ =>
           destruct (ret_eff_fin_chain s0 g v X) as [[-> E]|E]; try discriminate E
       | X : fin_chain (e_pc (finish_eff ?s0)) = true |- _ => apply finish_eff_fin_chain in X; mcbn_in X; lia
       | X : fin_chain (e_pc (disp_eff ?c0 ?s0 ?d)) = true |- _ => apply disp_eff_fin_chain in X; discriminate X
       end.
  all: rewrite ?src_eff_no_fin, ?flush_eff_no_fin in X; try discriminate X.
  all: try solve [ destruct fin; try discriminate X; destruct (fx_close c); apply IH; reflexivity ].
  (* a non-blocking recv() of finish() does not exist *)
  exfalso. destruct (ctl_recv _ _ _ _ OK) as [_ Hrun]. rewrite (Hrun eq_refl) in OK.
  exact (ctl_finish_norun _ (CRecv KFinish false) eq_refl OK).
Qed.

(* the reorder map holds dispatched numbers only *)
Lemma reo_lt s q r : I2 f s -> post_push (pc s) = false -> In (q, r) (reo s) -> q < nd s.
Proof.
  intros H2 Hp Hi. pose proof (i2_lt f s H2 q) as L. unfold nde in L. rewrite Hp in L. apply L.
  apply in_app_iff. right. exact (proj2 (i2_reo f s H2 q r Hi)).
Qed.

(* what the coordinator has seen when it is about to block *)
Lemma step_i3_top c s t s' : ctl_ok (k_kind c) (pc s) (ph s) = true -> I2 f s -> I4 s -> I3 c s ->
  step f c s t = Some s' ->
  (after_top (pc s') = true -> lookup (nr s') (reo s') = None) /\
  (forall g, pc s' = CRecv g true -> ph s' = PDrain -> nr s' < nd s').
Proof.
  intros OK H2 H4 H3 Hst. pose proof (i3_notin c s H3) as NI. pose proof (i3_drecv c s H3) as DR.
  destruct t as [k|i]; cbn [step] in Hst;
    [|destruct (wk_step_co f c s i s' Hst) as [-> -> -> -> _ -> _ _ _ _ _ _ _ _]; exact (conj NI DR)].
  pose proof (i3_drain c s H3) as D3. pose proof (i3_rwake c s H3) as RW. unfold errd in RW.
  co_cases Hst; msimpl; rw_pc; (split; [intros X|intros g0 X Y]); pc_cases; try discriminate X; auto;
    try congruence.
  - (* CTake in Draining goes on to recv(): a unit is outstanding, or a result waits in the reorder map *)
    destruct (D3 (or_introl eq_refl)) as [L1 L2].
    match goal with H : (_ && _) = false |- _ => apply andb_false_iff in H; destruct H as [Hab|Hme] end.
    + rewrite L1 in Hab. apply Nat.ltb_ge in Hab. lia.
    + destruct (k_kind c); [discriminate|]. destruct (reo s) as [|[q r] tl] eqn:Er.
      * apply negb_false_iff in Hme. destruct (RW Hme); congruence.
      * assert (nr s <= q) by (apply (i4_ge s q H4); rewrite Er; simpl; eauto).
        assert (q < nd s) by (apply (reo_lt s q r H2); [rewrite Hpc; reflexivity|rewrite Er; left; reflexivity]). lia.
  - (* CLenR runs in phase Running *)
    pose proof (ctl_run _ _ _ OK eq_refl). congruence.
Qed.

Lemma live_classify (w : wpc R) :
  exited_like w = false -> sees_empty w = false -> is_sleep w = false -> live w = true.
Proof. destruct w; simpl; congruence. Qed.

Lemma sleeper_dec (l : list (wpc R)) :
  (exists i, nth_opt l i = Some WSleep) \/ (forall w, In w l -> is_sleep w = false).
Proof.
  induction l as [|w t IH].
  - right. intros w [].
  - destruct (is_sleep w) eqn:E.
    + left. exists 0. destruct w; try discriminate. reflexivity.
    + destruct IH as [[i Hi]|H].
      * left. exists (S i). assumption.
      * right. intros x [<-|Hx]; auto.
Qed.

Lemma live_not_sleep (w : wpc R) : live w = true -> is_sleep w = false.
Proof. destruct w; simpl; congruence. Qed.

(* a non-empty queue has a worker that will look at it *)
Lemma step_i3_live c s t s' : I1 c s -> I3 c s -> step f c s t = Some s' ->
  q_items s' <> [] -> shut s' = false -> q_closed s' = false -> rx_alive s' = true ->
  (exists w, In w (ws s') /\ live w = true) \/ (exists d, pc s' = CNotify d) \/
  (ws s' = [] /\ spawn_chain (pc s') = true).
Proof.
  intros H1 H3 Hst Hq Hs Hc Hr. destruct (step_flags f c s t s' Hst) as (F1 & F2 & F3).
  pose proof (i3_noexit c s H3 (F1 Hs) (F2 Hc) (F3 Hr)) as NE.
  pose proof (fun Hq0 => i3_live c s H3 Hq0 (F1 Hs) (F2 Hc) (F3 Hr)) as LV.
  destruct t as [k|i]; cbn [step] in Hst.
  - destruct (co_step_items c s k s' Hst) as [Eq|N]; [|right; left; exact N]. rewrite Eq in Hq.
    destruct (LV Hq) as [(w & Hw & Hl)|[[d Hd]|[Hn Hsc]]].
    + (* a live worker is not asleep: the coordinator leaves it alone *)
      left. exists w. split; [|exact Hl]. eapply co_step_ws_In_keep; eauto using live_not_sleep.
    + (* notify_one wakes a sleeper, or nobody sleeps and every worker is busy *)
      unfold co_step in Hst. rewrite Hd in Hst. apply Some_inj in Hst. subst s'. mcbn.
      destruct (sleeper_dec (ws s)) as [[j Hj]|Hns].
      * left. destruct (wake_one_some k (ws s) (ex_intro _ j Hj)) as [j' Hk].
        exists WWoken; split; [eapply nth_opt_In; eauto|reflexivity].
      * destruct (ws s) as [|w0 tl] eqn:Ew; [right; right; split; reflexivity|left]. exists w0. split.
        -- apply nth_opt_In with 0. apply wake_one_keep; [reflexivity|apply Hns; left; reflexivity].
        -- apply live_classify; [apply NE; left; reflexivity| |apply Hns; left; reflexivity].
           destruct (sees_empty w0) eqn:E; [|reflexivity]. destruct Hq.
           eapply (i1_empty c s H1); [rewrite Ew; left; reflexivity|exact E].
    + (* no worker yet: the spawn rule fires *)
      co_cases Hst; rw_pc; try discriminate Hsc; msimpl; rewrite ?Hn; auto.
      * exfalso. rewrite (i3_act1 c s H3 _ _ Hpc Hn), Hn in *. unfold qlen in *. pose proof (maxw_pos c).
        destruct (q_items s); [congruence|]. simpl in *.
        match goal with H : (_ <? maxw _) = false |- _ => apply Nat.ltb_ge in H; lia end.
      * left. exists WTop. split; [left|]; reflexivity.
  - (* a worker: its own step keeps it live while the flags are good and the queue is not empty *)
    wk_cases Hst; mcbn_in Hq; mcbn_in Hs; mcbn_in Hc; mcbn_in Hr; msimpl;
      try (left; eexists; split; [eapply upd_nat_In_new; eassumption|reflexivity]); try congruence.
    all: destruct (LV Hq) as [(w0 & Hw0 & Hl)|[[d' L]|[L1 L2]]];
         [|right; left; eauto|destruct (nth_opt_nonnil _ _ _ Hwpc L1)].
    all: destruct (In_nth_opt _ _ Hw0) as [j Hj]; destruct (Nat.eq_dec j i) as [->|Hne];
         [|left; exists w0; split; [eapply upd_nat_In_old; eauto|assumption]].
    all: rewrite Hwpc in Hj; injection Hj as <-; try discriminate Hl.
    all: specialize (NE _ Hw0); discriminate NE.
Qed.

(* after close() nobody is, or goes, to sleep *)
Lemma step_i3_nosleep c s t s' : fx_close c = true -> I1 c s -> I3 c s -> step f c s t = Some s' ->
  q_closed s' = true ->
  (exists fin, pc s' = CCloseNotify fin) \/ forall w, In w (ws s') -> asleep w = false.
Proof.
  intros Fc H1 H3 Hst Hc. pose proof (i3_nosleep c s H3) as NS.
  destruct t as [k|i]; cbn [step] in Hst.
  - destruct (q_closed s) eqn:Hc0; [|left; co_cases Hst; mcbn_in Hc; try congruence; eauto].
    right. intros w Hw. destruct (NS eq_refl) as [[fin Hp]|L].
    + (* notify_all under the mutex: every sleeper is woken, nobody is between the check and wait() *)
      unfold co_step in Hst. rewrite Hp, Fc in Hst. apply Some_inj in Hst. subst s'. mcbn_in Hw.
      pose proof (wake_all_no_sleep _ _ Hw) as Hns. apply wake_all_In in Hw. destruct Hw as [Hw| ->]; [|reflexivity].
      destruct w; try reflexivity; try discriminate Hns.
      destruct (In_nth_opt _ _ Hw) as [j Hj]. pose proof (i1_lock_w c s H1 _ _ Hj eq_refl) as LW.
      rewrite (i1_lock_c' c s H1 Fc) in LW by (rewrite Hp; reflexivity). discriminate LW.
    + destruct (co_step_ws_In c s k s' w Hst Hw) as [H|[->| ->]]; auto.
  - (* a worker that finds the queue closed exits instead of waiting *)
    destruct (wk_step_co f c s i s' Hst) as [Epc _ _ _ _ _ _ _ _ _ _ _ Ecl _]. rewrite Epc, Ecl in *.
    destruct (NS Hc) as [Hp|L]; [left; exact Hp|right].
    intros w Hw. wk_cases Hst; mcbn_in Hw; apply upd_nat_In in Hw; destruct Hw as [->|Hw]; auto; try reflexivity;
      try congruence.
    specialize (L _ (nth_opt_In _ _ _ Hwpc)). discriminate L.
Qed.

Theorem inv_I3 c src p s : Fx c -> reachable f c src p s -> I3 c s.
Proof.
  intros Hfx Hr. induction Hr as [|s t s' Hr IH Hst].
  - constructor; unfold init, errd; simpl; try discriminate; try tauto; try congruence.
    all: try solve [ intros; destruct (k_spawn_new c); simpl in *; intuition (try discriminate; subst; auto) ].
  - pose proof (inv_I1 f c src p s Hr) as H1. pose proof (inv_I2 f c src p s Hr) as H2.
    pose proof (inv_ctl f c src p s Hfx Hr) as OK.
    destruct (step_i3_act f c s t s' IH Hst) as [A0 A1].
    destruct (step_i3_drain c s t s' (proj1 (proj2 (proj2 Hfx))) OK H2 IH Hst) as [D1 D2].
    destruct (step_i3_back c s t s' OK H2 (inv_I4 f c src p s Hr) IH Hst) as [B1 B2].
    destruct (step_i3_wake234 c s t s' Hfx OK IH Hst) as (W2 & W3 & W4).
    destruct (step_i3_top c s t s' OK H2 (inv_I4 f c src p s Hr) IH Hst) as [T1 T2].
    pose proof (step_i3_fin c s t s' OK IH Hst) as FI.
    constructor; auto.
    + eapply step_i3_noexit; eauto.
    + eapply step_i3_shut; eauto.
    + eapply step_i3_wake1; eauto. apply Hfx.
    + eapply step_i3_live; eauto.
    + eapply step_i3_nosleep; eauto. apply Hfx.
Qed.

End P.
