(* Mt/Lzma2Units.v — the CONCRETE chunk decoder that instantiates the abstract one of Mt/Units.v
   (Section Decode): what one LZMA2 chunk does to the part of the reader state that the decoding
   of later chunks depends on, and what it outputs.  Definitions only; Mt/Lzma2UnitsSimProofs.v shows
   that this is what the reader model (Codec/Lzma2Dec.v) computes, for every sequence of
   destination buffer sizes, Mt/Lzma2UnitsAbsProofs.v ([astep_indep]) that a dictionary-reset chunk
   forgets the state before it.

   State kept between chunks (everything else of LZMA2Reader is either re-initialised by every
   chunk header or does not influence later output):
     d_hist   the bytes decoded since the last dictionary reset (or the kept part of the preset
              dictionary), newest first - the logical content of LZDecoder's cyclic buffer;
     d_coder / d_probs   self.lzma (state, reps, lc/lp/pb, probability tables) - only meaningful
              while need_props = false: a chunk that sets need_props also drops them here;
     d_need_props / d_need_dict_reset   the two flags of LZMA2Reader.
   The range decoder is not part of the state: rc.prepare() re-initialises it in every LZMA chunk
   and at a chunk boundary it is always "finished" (checked at the end of every chunk). *)
From LzVerif Require Export Mt.Units Codec.Lzma2Dec Codec.LzmaAbs Codec.LzmaWriters.
Local Open Scope Z_scope.

Record dstate := mkD {
  d_hist : list Z;
  d_coder : option coder;
  d_probs : probs;
  d_need_props : bool;
  d_need_dict_reset : bool
}.

(* LZMA2Reader::new(_, dict_size, preset_dict) with [ds] = the buffer size the reader allocates.
   A non-empty preset dictionary: its last min(len, ds) bytes are the history and no dictionary
   reset is demanded.  (LZMA2ReaderMT hands the same preset dictionary to every worker.) *)
Definition d_init (ds : Z) (preset : option (list Z)) : dstate :=
  match preset with
  | Some (x :: p) =>
      mkD (rev (lastn (Z.to_nat (Z.min (zlen (x :: p)) ds)) (x :: p))) None PLeaf true false
  | _ => mkD [] None PLeaf true true
  end.

(* the end of an LZMA chunk of [n] bytes, given the result of the specification decoder
   (Codec/LzmaAbs.v) run against the range decoder: the status must be Ok, no match may be left
   half copied, the range decoder must have consumed exactly the chunk's payload *)
Definition alz_fin (n : nat) (r : outcome (astate * outcome unit * rdec * probs)) : option (dstate * list Z) :=
  match r with
  | Ok (a2, Ok _, rc2, t2) =>
      if rdec_is_finished (rdec_normalize rc2) && (a_pend_len a2 <=? 0) then
        Some (mkD (a_hist a2) (Some (a_coder a2)) t2 false false, rev (firstn n (a_hist a2)))
      else None
  | _ => None
  end.

(* [usize] bytes of an LZMA chunk, from history [hist], coder [c], range decoder [rc], tables [t];
   [pl]/[pd]: a match of the same chunk that is still being copied (0 0 at the start of a chunk) *)
Definition alz (ds : Z) (hist : list Z) (c : coder) (rc : rdec) (t : probs) (usize pl pd : Z)
  : option (dstate * list Z) :=
  alz_fin (Z.to_nat usize) (run_rc (aproduce (Z.to_nat usize) (mkAstate c hist ds pl pd)) rc t).

(* one whole chunk.  [c_bytes k] = control byte, header, payload; [c_ctrl k] must be its first
   byte.  Field by field what decode_chunk_header + the copy/decode loop + the end-of-chunk check
   of LZMA2Reader::read_decode do. *)
Definition astep (ds : Z) (d : dstate) (k : chunk) : option (dstate * list Z) :=
  match c_bytes k with
  | [] => None
  | c :: b =>
      if negb (c =? c_ctrl k) then None else
      let reset := (224 <=? c) || (c =? 1) in
      if negb reset && d_need_dict_reset d then None else
      let hist1 := if reset then [] else d_hist d in
      let np1 := if reset then true else d_need_props d in
      if 128 <=? c then
        match b with
        | u1 :: u2 :: c1 :: c2 :: b1 =>
            let usize := Z.shiftl (Z.land c 31) 16 + (u1 * 256 + u2) + 1 in
            let csize := c1 * 256 + c2 + 1 in
            match (if 192 <=? c then
                     match lzma2_decode_props b1 with
                     | Ok (cd, b2) => Some (cd, PLeaf, b2)
                     | _ => None
                     end
                   else if np1 then None
                   else match d_coder d with
                        | None => None
                        | Some cd => if 160 <=? c then Some (coder_reset cd, PLeaf, b1)
                                     else Some (cd, d_probs d, b1)
                        end) with
            | None => None
            | Some (cd, t, payload) =>
                match rdec_prepare payload csize with
                | Ok (rc, []) => alz ds hist1 cd rc t usize 0 0
                | _ => None
                end
            end
        | _ => None
        end
      else if (c =? 1) || (c =? 2) then
        match b with
        | s0 :: s1 :: payload =>
            if zlen payload =? s0 * 256 + s1 + 1 then
              Some (mkD (rev payload ++ hist1)
                        (if np1 then None else d_coder d) (if np1 then PLeaf else d_probs d) np1 false,
                    payload)
            else None
        | _ => None
        end
      else None
  end.

(* a whole stream: chunks up to the 0x00 control byte; the bytes after it are returned *)
Fixpoint parse_all (fuel : nat) (bytes : list Z) : option (list chunk * list Z) :=
  match fuel with
  | O => None
  | S n =>
      match parse_chunk bytes with
      | PTerm rest => Some ([], rest)
      | PChunk k rest =>
          match parse_all n rest with
          | Some (ks, r) => Some (k :: ks, r)
          | None => None
          end
      | _ => None
      end
  end.

Definition stream_chunks (bytes : list Z) : option (list chunk * list Z) :=
  parse_all (S (length bytes)) bytes.

(* the single decoder over a byte stream: the data and the bytes after the end marker *)
Definition adecode (ds : Z) (d : dstate) (bytes : list Z) : option (list Z * list Z) :=
  match stream_chunks bytes with
  | Some (ks, rest) =>
      match decode_chunks dstate (astep ds) d ks with
      | Some o => Some (o, rest)
      | None => None
      end
  | None => None
  end.

(* the bytes of a work unit as LZMA2ReaderMT dispatches it: the chunks and the 0x00 it appends *)
Definition flat (ks : list chunk) : list Z := concat (map c_bytes ks).
Definition unit_bytes (ks : list chunk) : list Z := flat ks ++ [0].

(* ------------------------------------------------------------------------------------------ *)
(* the reader model as a whole-stream decoder: LZMA2Reader::new, then read() calls with the
   destination sizes [sizes] (cyclically) until one returns 0 bytes.  "Decodes to [data]": status
   0 and the end-of-stream control byte was reached. *)
Definition l2_read_result (fuel : nat) (input : list Z) (dict : Z) (preset : option (list Z)) (sizes : list Z)
  : outcome (list Z * Z * lzma2) :=
  do s0 <- lzma2_new input dict preset;
  lzma2_read_all fuel s0 sizes sizes [].

Definition l2_done (r : outcome (list Z * Z * lzma2)) (data : list Z) : Prop :=
  exists s_end, r = Ok (data, 0, s_end) /\ m_end_reached s_end = true.

(* for every history of destination sizes and every sufficient number of calls *)
Definition l2_decodes (input : list Z) (dict : Z) (preset : option (list Z)) (data : list Z) : Prop :=
  forall sizes fuel, Forall (fun z => 0 < z) sizes -> (length data + 2 <= fuel)%nat ->
    l2_done (l2_read_result fuel input dict preset sizes) data.

(* the buffer size LZMA2Reader::new allocates (get_dict_size) *)
Definition l2_wsize (dict : Z) : Z := (Z.min (Z.max dict 4096) 4294967280 + 15) / 16 * 16.

(* ------------------------------------------------------------------------------------------ *)
(* one work unit of LZMA2WriterMT: the worker's LZMA2Writer (fresh, options without preset
   dictionary) is fed the unit's [data] and flushed; [body] is what it wrote - the writer model's
   stream (Codec/LzmaWriters.v, any trace [evs] of encoder decisions the model accepts) without
   the end marker that finish() would append.  The coordinator writes the bodies in order and
   one 0x00 at the end. *)
Definition mt_unit_written (lc lp pb dict : Z) (u : list Z * list l2ev * list Z) : Prop :=
  let '(data, evs, body) := u in
  bytes_ok data = true /\ (forall ev, In ev evs -> ev <> L2Sym SEnd) /\
  lzma2_write lc lp pb dict None data evs = Ok (body ++ [0]).

Definition mt_bodies (us : list (list Z * list l2ev * list Z)) : list Z := concat (map snd us).
Definition mt_data (us : list (list Z * list l2ev * list Z)) : list Z := concat (map (fun u => fst (fst u)) us).
