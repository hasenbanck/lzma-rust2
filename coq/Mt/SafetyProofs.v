(* Mt/SafetyProofs.v — C08 (and the schedule-independence clause of C13) on the protocol model:
   whatever the schedule, worker count, unit list and caller program,
     * the payloads handed to the caller (reader) / written to the sink (writer) are exactly
       f 0, f 1, .., f (k-1) in this order (k = next_sequence_to_return), all of them successes;
     * every unit is taken from the queue at most once, and only units that were dispatched.
   Valid for every configuration (pinned and repaired code alike). *)
From LzVerif Require Import Base.Bytes Mt.Protocol Mt.ProtocolLemmas.
From Coq Require Import Permutation.
Local Open Scope nat_scope.

(* the unit with number [nd] is already in the queue, the counter is incremented a few steps later *)
Definition post_push (p : cpc) : bool :=
  match p with CNotify _ | CLoadAct _ | CLenS _ _ | CSpawn _ => true | _ => false end.

Section P.
Context {R : Type}.
Variable f : nat -> R + Z.
Implicit Types (s : state R) (c : cfg).

Definition nde s : nat := if post_push (pc s) then S (nd s) else nd s.

Definition holds_unit (w : wpc R) (q : nat) : Prop :=
  w = WInc q \/ exists r, w = WSend q r.

(* the payload [r] is the result of unit [q], and a worker took that unit from the queue *)
Definition tagged s (q : nat) (r : R) : Prop := f q = inl r /\ In q (popped s).

Record I2 s : Prop := {
  i2_out : map inl (out s) = map f (seq 0 (nr s));
  i2_ch : forall q r, In (MRes q r) (ch s) -> tagged s q r;
  i2_reo : forall q r, In (q, r) (reo s) -> tagged s q r;
  i2_send : forall q r, In (WSend q r) (ws s) -> tagged s q r;
  i2_inc : forall q, In (WInc q) (ws s) -> In q (popped s);
  i2_pret : forall q, q < nr s -> In q (popped s);
  i2_nodup : NoDup (q_items s ++ popped s);
  i2_lt : forall x, In x (q_items s ++ popped s) -> x < nde s;
  i2_nr : nr s <= nd s
}.

Lemma ret_eff_out s g v : e_out (ret_eff s g v) = match v with RSome r => [r] | _ => [] end.
Proof.
  unfold ret_eff, with_out, goto, creturn, freturn.
  destruct g, v; repeat match goal with |- context [match ?x with _ => _ end] => destruct x end; reflexivity.
Qed.

Lemma step_i2_out c s t s' : I2 s -> step f c s t = Some s' -> map inl (out s') = map f (seq 0 (nr s')).
Proof.
  intros [O CH RE _ _ _ _ _ _] Hst. step_split t Hst; rewrite ?ret_eff_out, ?app_nil_r; auto.
  - (* CTop: the chunk comes from the reorder map *)
    rewrite map_app, seq_S, map_app, O. simpl. f_equal. f_equal. symmetry. apply RE. apply lookup_In; assumption.
  - (* CRecv: the chunk comes from the channel *)
    split_andb. subst. rewrite map_app, seq_S, map_app, O. simpl. f_equal. f_equal. symmetry.
    apply CH. left; reflexivity.
Qed.

Lemma step_popped c s t s' q : step f c s t = Some s' -> In q (popped s) -> In q (popped s').
Proof. intros Hst. step_split t Hst; auto using in_or_app. Qed.

(* A result travels worker -> channel -> reorder map -> caller and keeps its tag on the way; the
   coordinator moves it along the last two legs, a worker creates it from the unit it popped. *)
Lemma step_i2_flight c s t s' : I2 s -> step f c s t = Some s' ->
  (forall q r, In (MRes q r) (ch s') -> tagged s' q r) /\
  (forall q r, In (q, r) (reo s') -> tagged s' q r) /\
  (forall q r, In (WSend q r) (ws s') -> tagged s' q r) /\
  (forall q, In (WInc q) (ws s') -> In q (popped s')) /\
  (forall q, q < nr s' -> In q (popped s')).
Proof.
  intros [_ CH RE SE IN PN _ _ _] Hst.
  assert (UP : forall q r, tagged s q r -> tagged s' q r)
    by (intros q r [E Hp]; split; [exact E|exact (step_popped c s t s' q Hst Hp)]).
  destruct t as [k|i]; cbn [step] in Hst.
  - assert (W : forall w, In w (ws s') -> In w (ws s) \/ w = WWoken \/ w = WTop)
      by (intros w; exact (co_step_ws_In c s k s' w Hst)).
    co_cases Hst; msimpl; mcbn_in UP; mcbn_in W;
      (split; [intros u v Hi|split; [intros u v Hi|split; [intros u v Hi|split; [intros u Hi|intros u Hi]]]]).
    all: try (destruct (W _ Hi) as [Hi0|[Hi0|Hi0]]; [|discriminate Hi0..]).
    all: try (apply remove_key_In in Hi; destruct Hi as [Hi _]).
    all: try (apply insert_In in Hi; destruct Hi as [[-> ->]|Hi]).
    all: rw_eqs; eauto using in_eq, in_cons.
    all: try solve [inversion Hi].
    (* the unit [nr s] is handed out: it came from the reorder map or from the head of the channel *)
    all: destruct (Nat.eq_dec u (nr s)) as [->|]; [|apply PN; lia].
    + eapply proj2, RE, lookup_In; eassumption.
    + split_andb; subst. exact (proj2 (CH _ _ (in_eq _ _))).
  - wk_cases Hst; msimpl; mcbn_in UP;
      (split; [intros u v Hi|split; [intros u v Hi|split; [intros u v Hi|split; [intros u Hi|intros u Hi]]]]).
    all: try (apply upd_nat_In in Hi; destruct Hi as [Hi|Hi]; [try discriminate Hi|]).
    all: try (apply in_app_iff in Hi; destruct Hi as [Hi|[Hi|[]]]; [|try discriminate Hi]).
    all: eauto using in_or_app.
    + (* pop: the unit enters [popped] *)
      injection Hi as ->. apply in_or_app. right. left. reflexivity.
    + (* the unit function has produced the payload *)
      injection Hi as -> ->. split; [assumption|]. apply IN. eapply nth_opt_In; eassumption.
    + (* send: the message inherits the tag of the sender *)
      injection Hi as -> ->. apply UP, SE. eapply nth_opt_In; eassumption.
Qed.
Lemma nde_upd_ws s w : nde (set_ws s w) = nde s. Proof. reflexivity. Qed.

Lemma NoDup_app_r {A} (l1 l2 : list A) : NoDup (l1 ++ l2) -> NoDup l2.
Proof. induction l1 as [|x t IH]; simpl; [auto|]. intros H; inversion H; auto. Qed.

Lemma NoDup_head_to_end {A} (x : A) l1 l2 : NoDup ((x :: l1) ++ l2) -> NoDup (l1 ++ l2 ++ [x]).
Proof.
  apply Permutation_NoDup. rewrite app_assoc. simpl. apply Permutation_cons_append.
Qed.

Lemma NoDup_insert_mid {A} (x : A) l1 l2 : NoDup (l1 ++ l2) -> ~ In x (l1 ++ l2) -> NoDup ((l1 ++ [x]) ++ l2).
Proof.
  intros Hn Hx. apply (Permutation_NoDup (l := x :: l1 ++ l2)); [|constructor; assumption].
  rewrite <- app_assoc. apply Permutation_middle.
Qed.

Lemma step_i2_nodup c s t s' : I2 s -> step f c s t = Some s' ->
  NoDup (q_items s' ++ popped s') /\ forall x, In x (q_items s' ++ popped s') -> x < nde s'.
Proof.
  intros [_ _ _ _ _ _ ND LT _] Hst. unfold nde in *.
  step_split t Hst; rw_pc; cbn [post_push] in *;
    try match goal with H : q_items _ = [] |- _ => rewrite ?H end; try (split; assumption);
    try (split; [assumption|]; intros x Hx; specialize (LT _ Hx); lia).
  all: try solve [ split; [assumption|]; intros x Hx; specialize (LT _ Hx); pc_cases; cbn [post_push]; lia ].
  - (* CPush: the number [nd s] is above everything queued or popped so far *)
    split.
    + apply NoDup_insert_mid; [assumption|]. intros Hx. specialize (LT _ Hx). lia.
    + intros x Hx. rewrite !in_app_iff in Hx. simpl in Hx.
      assert (Hc : In x (q_items s ++ popped s) \/ x = nd s) by (rewrite in_app_iff; intuition).
      destruct Hc as [Hx'|Hx'].
      * specialize (LT _ Hx'). lia.
      * lia.
  - (* WPop: the head of the queue moves to the end of [popped] *)
    split.
    + apply NoDup_head_to_end. assumption.
    + intros x Hx. apply LT. rewrite !in_app_iff in *. simpl in *. intuition.
Qed.

Lemma holds_unit_inv (w : wpc R) q : holds_unit w q -> (w = WInc q \/ exists r, w = WSend q r).
Proof. auto. Qed.

Lemma step_i2_nr c s t s' : I2 s -> step f c s t = Some s' -> nr s' <= nd s'.
Proof.
  intros [_ CH RE _ _ _ _ LT NR] Hst. unfold nde in LT.
  step_split t Hst; rw_pc; cbn [post_push] in LT; try lia.
  - assert (nr s < nd s); [|lia]. apply LT, in_app_iff. right. eapply proj2, RE, lookup_In. eassumption.
  - split_andb. subst. assert (nr s < nd s); [|lia]. apply LT, in_app_iff. right. exact (proj2 (CH _ _ (in_eq _ _))).
Qed.

Theorem inv_I2 c src p s : reachable f c src p s -> I2 s.
Proof.
  apply reach_inv.
  - constructor; unfold init, nde; simpl; try tauto; try (intros; lia); try constructor;
      intros; destruct (k_spawn_new c); simpl in *; intuition discriminate.
  - intros s0 t s' _ IH Hst.
    destruct (step_i2_nodup c s0 t s' IH Hst) as [ND LT].
    destruct (step_i2_flight c s0 t s' IH Hst) as (CH & RE & SE & IN & PN).
    constructor; eauto using step_i2_out, step_i2_nr.
Qed.

(* In every reachable state the payloads handed out so far are the successful results of the first
   [nr] units, in input order — for all worker counts, unit functions, source scripts, caller
   programs and schedules. *)
Theorem mt_safety c src p s :
  reachable f c src p s -> map inl (out s) = map f (seq 0 (nr s)) /\ nr s <= nd s.
Proof.
  intros Hr. pose proof (inv_I2 c src p s Hr) as [O _ _ _ _ _ _ _ NR]. auto.
Qed.

(* every unit is taken from the queue at most once, and only dispatched units are taken *)
Theorem mt_once c src p s :
  reachable f c src p s -> NoDup (popped s) /\ forall q, In q (popped s) -> q < nd s + 1.
Proof.
  intros Hr. pose proof (inv_I2 c src p s Hr) as [_ _ _ _ _ _ ND LT _].
  split.
  - eapply NoDup_app_r; eassumption.
  - intros q Hq. assert (q < nde s) by (apply LT; apply in_app_iff; right; assumption).
    unfold nde in *. destruct (post_push (pc s)); lia.
Qed.

(* every payload that is in flight (channel, reorder map, a worker about to send) is the result of
   the unit whose number it carries *)
Theorem mt_tagged c src p s q r :
  reachable f c src p s ->
  In (MRes q r) (ch s) \/ In (q, r) (reo s) \/ In (WSend q r) (ws s) -> f q = inl r.
Proof.
  intros Hr. pose proof (inv_I2 c src p s Hr) as [_ CH RE SE _ _ _ _ _]. intros [H|[H|H]]; [apply CH|apply RE|apply SE]; exact H.
Qed.

Lemma map_inl_inj (a b : list R) : map (@inl R Z) a = map inl b -> a = b.
Proof.
  revert b; induction a as [|x t IH]; intros [|y u] H; simpl in H; try discriminate; [reflexivity|].
  inversion H; subst. f_equal. auto.
Qed.

(* C13, schedule clause: the payloads handed out are a function of how many were handed out *)
Theorem mt_output_schedule_free c1 c2 src1 src2 p1 p2 s1 s2 :
  reachable f c1 src1 p1 s1 -> reachable f c2 src2 p2 s2 -> nr s1 = nr s2 -> out s1 = out s2.
Proof.
  intros H1 H2 E. destruct (mt_safety c1 src1 p1 s1 H1) as [O1 _]. destruct (mt_safety c2 src2 p2 s2 H2) as [O2 _].
  apply map_inl_inj. rewrite O1, O2, E. reflexivity.
Qed.

End P.
