(* Mt/LiveInv.v — invariants of the REPAIRED protocol (all four fx_* flags set) that the liveness
   theorems (C09, C10) need: phase / program-point consistency, "an error is always followed by a
   wake-up", "a non-empty queue has a worker that is not asleep", "after close() nobody sleeps".
   This file: the vocabulary ([Fx], [ctl_ok], [I3]) and the control part; LiveInv3.v proves the
   data and condvar clauses of I3. *)
From LzVerif Require Import Base.Bytes Mt.Protocol Mt.ProtocolLemmas Mt.ProtocolInv Mt.SafetyProofs Mt.CountProofs.
Local Open Scope nat_scope.

Definition Fx (c : cfg) : Prop :=
  fx_close c = true /\ fx_wake c = true /\ fx_empty c = true /\ fx_finish c = true.

Ltac dfx Hfx := destruct Hfx as (Fc & Fw & Fe & Ff).

(* the coordinator is inside Drop / the tail of finish(): the shutdown flag is (about to be) set *)
Definition shut_pc (p : cpc) : bool :=
  match p with
  | CCloseLock _ | CCloseStore _ | CCloseNotify _ | CCloseUnlock _ | CShut false | CDropRx | CDone => true
  | _ => false
  end.
Definition gk_of (p : cpc) : option gk :=
  match p with CTop g | CTake g | CTakeE g | CRecv g _ => Some g | _ => None end.
(* the dispatch sequence (with its back-pressure loop) a program point belongs to *)
Definition dk_chain (p : cpc) : option dk :=
  match p with
  | CLenB d | CPushChk d | CPush d | CNotify d | CLoadAct d | CLenS d _ | CSpawn d => Some d
  | CTop (KBack d) | CTake (KBack d) | CTakeE (KBack d) | CRecv (KBack d) _ => Some d
  | _ => None
  end.
(* between the error check at the loop top and a blocking recv() *)
Definition unsafe_pc (p : cpc) : bool := match p with CRecv _ _ | CLenR => true | _ => false end.
Definition spawn_chain (p : cpc) : bool :=
  match p with CLoadAct _ | CLenS _ _ | CSpawn _ => true | _ => false end.
(* program points at which nothing is dispatched any more *)
Definition quiet_pc (k : kind) (p : cpc) : bool :=
  match p with
  | CIdle => match k with Reader => true | Writer => false end
  | CShut _ | CCloseLock _ | CCloseStore _ | CCloseNotify _ | CCloseUnlock _ | CDropRx | CDone => true
  | CTop g | CTake g | CTakeE g | CRecv g _ =>
      match g, k with KRead, Reader => true | KFinish, Writer => true | _, _ => false end
  | _ => false
  end.

(* between the lookup at the loop top and a blocking recv() *)
Definition after_top (p : cpc) : bool := match p with CTake _ | CRecv _ _ | CLenR => true | _ => false end.
(* the tail of finish(): shutdown, close, Ok(inner) *)
Definition fin_chain (p : cpc) : bool :=
  match p with CShut true | CCloseLock true | CCloseStore true | CCloseNotify true | CCloseUnlock true => true | _ => false end.

(* callers of get_next that need a unit which is still outstanding *)
Definition waits (g : gk) : bool := match g with KBack _ | KFlush => true | _ => false end.

Definition is_run (h : phase) : bool := match h with PRun => true | _ => false end.
Definition is_perr (h : phase) : bool := match h with PErr => true | _ => false end.

Definition is_reader (k : kind) : bool := match k with Reader => true | Writer => false end.
(* program points that only one kind of object has *)
Definition kind_ok (k : kind) (p : cpc) : bool :=
  match p with
  | CLenR | CSetErr _ => is_reader k
  | CLenB d => match d with DRead _ => false | _ => negb (is_reader k) end
  | CTop g | CTake g | CTakeE g | CRecv g _ =>
      match g with KRead => is_reader k | KBack (DRead _) => false | _ => negb (is_reader k) end
  | CPushChk d | CPush d | CNotify d | CLoadAct d | CLenS d _ | CSpawn d =>
      match d with DRead _ => is_reader k | _ => negb (is_reader k) end
  | _ => true
  end.

(* which phases a program point can be in (finite-control invariant) *)
Definition ctl_ok (k : kind) (p : cpc) (h : phase) : bool :=
  (match p with CRecv _ b => match h with PRun => true | PDrain => b | _ => false end | _ => true end) &&
  (match p with CTakeE _ => is_perr h | _ => true end) &&
  (match p with CLenR | CSetErr _ => is_run h | _ => true end) &&
  (match dk_chain p with Some (DRead _) | Some DFinish => is_run h | _ => true end) &&
  (match h with PDrain | PFin => quiet_pc k p | _ => true end) &&
  (match p, h with
   | CRecv g b, PRun => match g with KRead => true | KDrain => negb b | KFinish => false | _ => b end
   | _, _ => true
   end) &&
  (match gk_of p, h with Some KFinish, PRun => false | _, _ => true end) &&
  (match p with
   | CShut true | CCloseLock true | CCloseStore true | CCloseNotify true | CCloseUnlock true => negb (is_perr h)
   | _ => true
   end) &&
  kind_ok k p.

Section P.
Context {R : Type}.
Variable f : nat -> R + Z.
Implicit Types (s : state R) (c : cfg).

Definition exited_like (w : wpc R) : bool := match w with WExit | WDecX | WWake => true | _ => false end.
(* a worker that will take a step without being notified *)
Definition live (w : wpc R) : bool :=
  match w with
  | WTop | WLock | WPop | WWoken | WInc _ | WSend _ _ | WDec | WDecE _ | WSetErr _ | WWake => true
  | _ => false
  end.
Definition asleep (w : wpc R) : bool := match w with WSleep | WWait => true | _ => false end.

(* an error has been stored and not yet been returned, or was returned *)
Definition errd s : Prop := err s <> None \/ ph s = PErr.

Record I3 c s : Prop := {
  i3_act0 : ws s = [] -> act s = 0%Z;
  i3_act1 : forall d a, pc s = CLenS d a -> ws s = [] -> a = 0%Z;
  i3_noexit : shut s = false -> q_closed s = false -> rx_alive s = true ->
              forall w, In w (ws s) -> exited_like w = false;
  i3_shut : shut s = true -> shut_pc (pc s) = true \/ errd s;
  i3_drain : ph s = PDrain \/ ph s = PFin -> last s = Some (nd s - 1) /\ 1 <= nd s;
  i3_pfin : ph s = PFin -> nd s <= nr s;
  i3_fin : fin_chain (pc s) = true -> nd s <= nr s;
  i3_notin : after_top (pc s) = true -> lookup (nr s) (reo s) = None;
  i3_drecv : forall g, pc s = CRecv g true -> ph s = PDrain -> nr s < nd s;
  i3_back : forall g, gk_of (pc s) = Some g -> waits g = true -> nr s < nd s;
  i3_rdrecv : pc s = CRecv KRead true -> ph s = PRun -> nr s < nd s;
  i3_wake : err s <> None -> unsafe_pc (pc s) = true -> In MWake (ch s) \/ In WWake (ws s);
  i3_rwake : rwake s = true -> errd s;
  i3_chwake : In MWake (ch s) -> errd s;
  i3_wswake : In WWake (ws s) -> errd s;
  i3_live : q_items s <> [] -> shut s = false -> q_closed s = false -> rx_alive s = true ->
            (exists w, In w (ws s) /\ live w = true) \/ (exists d, pc s = CNotify d) \/
            (ws s = [] /\ spawn_chain (pc s) = true);
  i3_nosleep : q_closed s = true ->
               (exists fin, pc s = CCloseNotify fin) \/ forall w, In w (ws s) -> asleep w = false
}.

Lemma step_i3_act c s t s' : I3 c s -> step f c s t = Some s' ->
  (ws s' = [] -> act s' = 0%Z) /\ (forall d a, pc s' = CLenS d a -> ws s' = [] -> a = 0%Z).
Proof.
  intros H3 Hst. pose proof (i3_act0 c s H3) as A0. pose proof (i3_act1 c s H3) as A1.
  assert (Hnil : ws s' = [] -> ws s = [] /\ exists k, t = Co k).
  { intros E. apply (f_equal (@length _)) in E. destruct t as [k|i]; cbn [step] in Hst.
    - split; [|eauto]. destruct (co_step_ws c s k s' Hst) as [E'|[E'|[E'|[_ E']]]]; rewrite E' in E;
        rewrite ?wake_one_length, ?wake_all_length, ?app_length in E; simpl in E;
        [destruct (ws s); [reflexivity|discriminate]..|exfalso; lia].
    - destruct (wk_step_ws f c s i s' Hst) as (w & w' & Hw & E'). rewrite E', upd_nat_length in E.
      apply nth_opt_lt in Hw. simpl in E. exfalso. lia. }
  split; [intros E|intros d a Hp E]; destruct (Hnil E) as [E0 [k ->]]; cbn [step] in Hst.
  - co_cases Hst; msimpl; eauto.
  - co_cases Hst; msimpl_in Hp; rw_pc; pc_cases; try discriminate; eauto.
    all: injection Hp as <- <-; eauto.
Qed.

(* no exited worker while everything is up *)
Lemma step_i3_noexit c s t s' : I3 c s -> step f c s t = Some s' ->
  shut s' = false -> q_closed s' = false -> rx_alive s' = true -> forall w, In w (ws s') -> exited_like w = false.
Proof.
  intros H3 Hst Hs Hc Hr w Hw. destruct (step_flags f c s t s' Hst) as (F1 & F2 & F3).
  pose proof (i3_noexit c s H3 (F1 Hs) (F2 Hc) (F3 Hr)) as NE.
  destruct t as [k|i]; cbn [step] in Hst.
  - destruct (co_step_ws_In c s k s' w Hst Hw) as [H|[->| ->]]; auto.
  - (* the worker moves on to an exit path only when one of the three flags tells it to *)
    wk_cases Hst; mcbn_in Hs; mcbn_in Hc; mcbn_in Hr; mcbn_in Hw;
      apply upd_nat_In in Hw; destruct Hw as [->|Hw]; auto; try reflexivity; try congruence.
    all: match goal with H : nth_opt (ws _) _ = Some ?w0 |- _ => specialize (NE w0 (nth_opt_In _ _ _ H)) end;
         discriminate NE.
Qed.

(* phase / program point: finite control, by exhaustive case analysis over program point, phase, caller
   and flags; the only facts used are [i1_closed] (closed implies the coordinator is past close()) and
   the four [fx_*] flags *)
Ltac brute :=
  repeat match goal with
         | g : gk |- _ => destruct g
         | d : dk |- _ => destruct d
         | r : src_res |- _ => destruct r
         | b : bool |- _ => destruct b
         | |- context [if ?b then _ else _] => destruct b eqn:?
         | |- context [match ?x with _ => _ end] =>
             lazymatch x with
             | ph _ => destruct x eqn:?
             | k_kind _ => destruct x eqn:?
             end
         | H : context [match ?x with _ => _ end] |- _ =>
             lazymatch x with
             | ph _ => destruct x eqn:?
             | k_kind _ => destruct x eqn:?
             end
         end.

Lemma step_ctl c s t s' : Fx c -> I1 c s -> ctl_ok (k_kind c) (pc s) (ph s) = true -> step f c s t = Some s' ->
  ctl_ok (k_kind c) (pc s') (ph s') = true.
Proof.
  intros Hfx H1 OK Hst. dfx Hfx. pose proof (i1_closed c s H1) as CLd. clear H1.
  destruct t as [k|i]; cbn [step] in Hst;
    [|destruct (wk_step_co f c s i s' Hst) as [-> -> _ _ _ _ _ _ _ _ _ _ _ _]; exact OK].
  co_cases Hst; msimpl; rw_pc; try assumption;
    try (specialize (CLd ltac:(first [assumption|reflexivity])); discriminate CLd); clear CLd;
    unfold disp_eff in *;
    unfold ret_eff, src_eff, finish_eff, flush_eff, with_out, goto, creturn, freturn, dk_is_finish,
           blocking_of in *;
    rewrite ?Fc, ?Fw, ?Fe, ?Ff in *;
    unfold ctl_ok, quiet_pc, kind_ok, dk_chain, gk_of, is_run, is_perr, is_reader in *; cbn [e_pc e_ph e_out e_res e_fin e_last andb] in *;
    repeat (progress (brute; cbn [e_pc e_ph e_out e_res e_fin e_last andb] in * ));
    try reflexivity; try discriminate; try congruence.
Qed.

Theorem inv_ctl c src p s : Fx c -> reachable f c src p s -> ctl_ok (k_kind c) (pc s) (ph s) = true.
Proof.
  intros Hfx Hr. induction Hr as [|s t s' Hr IH Hst].
  - unfold init; simpl. destruct (k_kind c); reflexivity.
  - eapply step_ctl; eauto. eapply inv_I1; eauto.
Qed.

Lemma ctl_recv k g b h : ctl_ok k (CRecv g b) h = true -> (h = PRun \/ h = PDrain) /\ (b = false -> h = PRun).
Proof. unfold ctl_ok. destruct h, b; cbn; intros H; split; auto; try discriminate; intros; try discriminate; auto. Qed.

Lemma ctl_takee k g h : ctl_ok k (CTakeE g) h = true -> h = PErr.
Proof. unfold ctl_ok. destruct h; cbn; intros H; auto; repeat (apply andb_true_iff in H; destruct H as [H ?]); discriminate. Qed.

(* the reader's source handling and the dispatch sequences of the reader and of finish() *)
Definition run_pc (p : cpc) : bool :=
  match p with
  | CLenR | CSetErr _ => true
  | _ => match dk_chain p with Some (DRead _) | Some DFinish => true | _ => false end
  end.

Lemma ctl_run k p h : ctl_ok k p h = true -> run_pc p = true -> h = PRun.
Proof.
  unfold ctl_ok, run_pc. intros H. repeat (apply andb_true_iff in H; destruct H as [H ?]).
  destruct h; auto; destruct p; try discriminate; destruct (dk_chain _) as [[]|]; discriminate.
Qed.

Lemma ctl_quiet k p h : ctl_ok k p h = true -> h = PDrain \/ h = PFin -> quiet_pc k p = true.
Proof.
  unfold ctl_ok. intros H. repeat (apply andb_true_iff in H; destruct H as [H ?]).
  intros [->| ->]; assumption.
Qed.

Lemma ctl_drain_nb k b : ctl_ok k (CRecv KDrain b) PRun = true -> b = false.
Proof. unfold ctl_ok. destruct b; cbn; intros H; auto; repeat (apply andb_true_iff in H; destruct H as [H ?]); discriminate. Qed.

Lemma ctl_back_nb k d h : ctl_ok k (CRecv (KBack d) false) h = true -> False.
Proof.
  unfold ctl_ok. intros H. repeat (apply andb_true_iff in H; destruct H as [H ?]). destruct h; discriminate.
Qed.

Lemma ctl_finish_norun k p : gk_of p = Some KFinish -> ctl_ok k p PRun = true -> False.
Proof.
  unfold ctl_ok. intros E H. rewrite E in H. repeat (apply andb_true_iff in H; destruct H as [H ?]); discriminate.
Qed.

Lemma ctl_kind k p h : ctl_ok k p h = true -> kind_ok k p = true.
Proof. unfold ctl_ok. intros H. apply andb_true_iff in H. tauto. Qed.

(* State::Error is never left: the effects that set the phase start from Running *)
Lemma step_ph_err c s t s' : Fx c -> ctl_ok (k_kind c) (pc s) (ph s) = true -> ph s = PErr ->
  step f c s t = Some s' -> ph s' = PErr.
Proof.
  intros Hfx OK Hp Hst. dfx Hfx.
  destruct t as [k|i]; cbn [step] in Hst; [|rewrite (same_ph _ _ (wk_step_co f c s i s' Hst)); exact Hp].
  co_cases Hst; msimpl; rw_pc; try assumption; try reflexivity; try congruence.
  all: try (pose proof (ctl_run _ _ _ OK eq_refl); congruence).
  all: destruct d; cbn [disp_eff]; rewrite ?flush_eff_ph; try assumption;
       pose proof (ctl_run _ _ _ OK eq_refl); congruence.
Qed.

Lemma first_err_some o e : first_err o e <> None.
Proof. destruct o; discriminate. Qed.

(* once an error was stored it stays visible: in the store, or as State::Error *)
Lemma step_errd c s t s' : Fx c -> ctl_ok (k_kind c) (pc s) (ph s) = true -> errd s ->
  step f c s t = Some s' -> errd s'.
Proof.
  intros Hfx OK [E|E] Hst; [|right; eapply step_ph_err; eassumption].
  (* the store is emptied only by the coordinator's take(), which enters or is in State::Error *)
  unfold errd. step_split t Hst; rw_pc; auto using first_err_some.
  right. eapply ctl_takee; eassumption.
Qed.

End P.
