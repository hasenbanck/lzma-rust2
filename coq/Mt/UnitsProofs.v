(* Mt/UnitsProofs.v — unit cutting (Mt/Units.v).  Writers: the units concatenate to the data and do not
   depend on the split into write()/flush() calls ([cut_fixed_concat], [cut_writes_partition],
   [cut_history_concat]), each has 1..size bytes ([cut_fixed_sizes]).  LZMA2 reader, Section Decode, over an
   abstract chunk decoder that forgets its state at a dictionary-reset chunk: decoding the units one by one
   = decoding the whole chunk sequence ([unit_cut_sound]).  LZIP reader: on a concatenation of well-formed
   members the backward scan returns the member table ([lzip_scan_sound]). *)
From LzVerif Require Import Base.Bytes Mt.Units.
Local Open Scope nat_scope.

(* everything written so far = dispatched units (oldest first) ++ current_work_unit *)
Definition written (st : wstate) : list Z := concat (rev (snd st)) ++ rev (fst st).

Lemma feed_byte_written size st b : written (feed_byte size st b) = written st ++ [b].
Proof.
  unfold feed_byte, written. destruct st as [cur acc]; cbn [fst snd].
  destruct (Nat.eqb (length (b :: cur)) size); cbn [fst snd rev app].
  - rewrite concat_app. cbn [concat]. rewrite !app_nil_r. rewrite <- app_assoc. reflexivity.
  - rewrite <- app_assoc. reflexivity.
Qed.

Lemma feed_written size buf : forall st, written (feed size st buf) = written st ++ buf.
Proof.
  unfold feed. induction buf as [|b t IH]; intros st; simpl; [rewrite app_nil_r; reflexivity|].
  rewrite IH, feed_byte_written, <- app_assoc. reflexivity.
Qed.

Lemma units_of_concat st : concat (units_of st) = written st.
Proof.
  unfold units_of, flush_units, written. destruct st as [cur acc]; simpl.
  destruct cur as [|b t]; simpl.
  - rewrite app_nil_r. reflexivity.
  - rewrite concat_app. simpl. rewrite app_nil_r. reflexivity.
Qed.

(* the units, concatenated, are the data ([0 < size] is not used here or in [cut_writes_partition]: it is
   the domain of the writers' constructors) *)
Theorem cut_fixed_concat size data : 0 < size -> concat (cut_fixed size data) = data.
Proof. intros _. unfold cut_fixed. rewrite units_of_concat, feed_written. reflexivity. Qed.

Lemma feed_app size a b st : feed size st (a ++ b) = feed size (feed size st a) b.
Proof. unfold feed. apply fold_left_app. Qed.

Lemma fold_feed_concat size parts : forall st, fold_left (feed size) parts st = feed size st (concat parts).
Proof.
  induction parts as [|p t IH]; intros st; simpl; [reflexivity|].
  rewrite IH, feed_app. reflexivity.
Qed.

(* the units do not depend on how the data was split into write() calls *)
Theorem cut_writes_partition size parts : 0 < size -> cut_writes size parts = cut_fixed size (concat parts).
Proof. intros _. unfold cut_writes, cut_fixed. rewrite fold_feed_concat. reflexivity. Qed.

(* with flushes: still a partition of the data, whatever the history *)
Lemma hist_written size h : forall st,
  written (fold_left (hist_step size) h st) =
  written st ++ concat (map (fun o => match o with inl b => b | inr _ => [] end) h).
Proof.
  induction h as [|o t IH]; intros st; simpl; [rewrite app_nil_r; reflexivity|].
  rewrite IH. destruct o as [b|u]; simpl.
  - rewrite feed_written, <- app_assoc. reflexivity.
  - f_equal. unfold flush_units, written. destruct st as [cur acc]; simpl.
    destruct cur; simpl; [reflexivity|]. rewrite concat_app. simpl. rewrite !app_nil_r. reflexivity.
Qed.

Theorem cut_history_concat size h :
  concat (cut_history size h) = concat (map (fun o => match o with inl b => b | inr _ => [] end) h).
Proof. unfold cut_history. rewrite units_of_concat, hist_written. reflexivity. Qed.

(* every dispatched unit is non-empty and at most [size] bytes long *)
Definition st_ok (size : nat) (st : wstate) : Prop :=
  length (fst st) < size /\ Forall (fun u => 0 < length u <= size) (snd st).

Lemma feed_byte_ok size st b : 0 < size -> st_ok size st -> st_ok size (feed_byte size st b).
Proof.
  intros Hs [Hc Ha]. unfold feed_byte, st_ok. destruct st as [cur acc]; cbn [fst snd] in *.
  destruct (Nat.eqb_spec (length (b :: cur)) size); cbn [fst snd length] in *.
  - split; [lia|]. constructor; [|assumption]. rewrite rev_length. cbn [length]. lia.
  - split; [lia|assumption].
Qed.

Lemma feed_ok size buf : 0 < size -> forall st, st_ok size st -> st_ok size (feed size st buf).
Proof.
  intros Hs. unfold feed. induction buf as [|b t IH]; intros st H; simpl; [assumption|].
  apply IH. apply feed_byte_ok; assumption.
Qed.

Theorem cut_fixed_sizes size data : 0 < size -> Forall (fun u => 0 < length u <= size) (cut_fixed size data).
Proof.
  intros Hs. unfold cut_fixed, units_of.
  assert (H : st_ok size (feed size ([], []) data)) by (apply feed_ok; [assumption|split; simpl; [lia|constructor]]).
  destruct H as [Hc Ha]. unfold flush_units. destruct (feed size ([], []) data) as [cur acc]; simpl in *.
  apply Forall_rev. destruct cur as [|b t]; simpl; [assumption|].
  constructor; [|assumption]. rewrite app_length, rev_length. cbn [length] in *. lia.
Qed.

Section Decode.
Variable D : Type.
Variable step : D -> chunk -> option (D * list Z).
Variable d0 : D.
(* the state of the decoder after a dictionary-reset chunk does not depend on the state before it *)
Hypothesis indep : forall d k, chunk_independent k = true -> step d k = step d0 k.

Notation run := (run_chunks D step).

Lemma run_app d a b :
  run d (a ++ b) = match run d a with
                   | None => None
                   | Some (d1, o1) => match run d1 b with None => None | Some (d2, o2) => Some (d2, o1 ++ o2) end
                   end.
Proof.
  revert d; induction a as [|k t IH]; intros d; simpl.
  - destruct (run d b) as [[d2 o2]|]; reflexivity.
  - destruct (step d k) as [[d1 o1]|]; [|reflexivity]. rewrite IH.
    destruct (run d1 t) as [[d2 o2]|]; [|reflexivity].
    destruct (run d2 b) as [[d3 o3]|]; [|reflexivity]. rewrite app_assoc. reflexivity.
Qed.

Lemma cut_go_sound chunks : forall cur,
  decode_units D step d0 (cut_go cur chunks) =
  match run d0 cur with
  | None => None
  | Some (dc, oc) => match run dc chunks with None => None | Some (_, ot) => Some (oc ++ ot) end
  end.
Proof.
  induction chunks as [|k t IH]; intros cur; simpl.
  - destruct (run d0 cur) as [[dc oc]|]; reflexivity.
  - destruct (chunk_independent k && negb (is_nil cur)) eqn:E.
    + apply andb_true_iff in E. destruct E as [Ei _]. simpl. rewrite IH. simpl.
      destruct (run d0 cur) as [[dc oc]|]; [|reflexivity].
      rewrite (indep dc k Ei). destruct (step d0 k) as [[d1 o1]|]; [|reflexivity]. simpl.
      destruct (run d1 t) as [[d2 o2]|]; [|reflexivity]. rewrite app_nil_r. reflexivity.
    + rewrite IH, run_app. destruct (run d0 cur) as [[dc oc]|]; [|reflexivity]. simpl.
      destruct (step dc k) as [[d1 o1]|]; [|reflexivity].
      destruct (run d1 t) as [[d2 o2]|]; [|reflexivity]. rewrite app_nil_r, app_assoc. reflexivity.
Qed.

(* decoding the units one by one with a fresh decoder each (carrying the same preset dictionary),
   in order, gives exactly what the single decoder gives on the whole sequence — including the
   error case; dependent chunks stay in one unit; the first chunk need not be independent *)
Theorem unit_cut_sound chunks :
  decode_units D step d0 (cut_chunks chunks) = decode_chunks D step d0 chunks.
Proof. unfold cut_chunks, decode_chunks. rewrite cut_go_sound. simpl. destruct (run d0 chunks) as [[d o]|]; reflexivity. Qed.
End Decode.

(* the shape of a finest unit: it starts with a dictionary-reset chunk (or is the first) and contains no
   other; no lemma is stated over it *)
Definition unit_ok (first : bool) (u : list chunk) : Prop :=
  match u with
  | [] => first = true
  | k :: t => (first = true \/ chunk_independent k = true) /\ Forall (fun k' => chunk_independent k' = false) t
  end.

(* examples: non-vacuity, and the shapes the harness exercises *)
Example cut_fixed_example : cut_fixed 3 [1;2;3;4;5;6;7]%Z = [[1;2;3];[4;5;6];[7]]%Z.
Proof. reflexivity. Qed.
Example cut_history_example :
  cut_history 3 [inl [1;2]; inr tt; inl [3;4;5;6]; inl []; inr tt; inr tt]%Z = [[1;2];[3;4;5];[6]]%Z.
Proof. reflexivity. Qed.

(* two uncompressed chunks with dictionary reset, then one dependent uncompressed chunk, terminator *)
Example cut_lzma2_example :
  cut_lzma2 [1;0;1;104;105; 1;0;0;33; 2;0;0;34; 0]%Z =
  mkCut [[1;0;1;104;105;0]; [1;0;0;33;2;0;0;34;0]]%Z None [false; true; false; true].
Proof. reflexivity. Qed.
(* zero-length input: no unit, the source "ends cleanly" *)
Example cut_lzma2_empty : cut_lzma2 [] = mkCut [] None [false].
Proof. reflexivity. Qed.
(* missing terminator: the last unit is sent without its 0x00 *)
Example cut_lzma2_noterm : cut_lzma2 [1;0;0;33]%Z = mkCut [[1;0;0;33]]%Z None [false; true].
Proof. reflexivity. Qed.
(* truncated inside a chunk: the source fails *)
Example cut_lzma2_trunc : cut_lzma2 [1;0;0;33; 1;0]%Z = mkCut [[1;0;0;33;0]]%Z (Some E_UNEXPECTED_EOF) [false; true].
Proof. reflexivity. Qed.

Local Open Scope Z_scope.

(* a slice that lies inside the middle part of a concatenation *)
Lemma slice_mid (a m b : list Z) (off len : Z) :
  0 <= off -> 0 <= len -> off + len <= zlen m ->
  slice (a ++ m ++ b) (zlen a + off) len = Some (firstn (Z.to_nat len) (skipn (Z.to_nat off) m)).
Proof.
  intros Ho Hl Hb. unfold slice, zlen in *. rewrite !app_length, !Nat2Z.inj_add.
  destruct (Z.ltb_spec (Z.of_nat (length a) + off) 0); [lia|].
  destruct (Z.ltb_spec len 0); [lia|].
  destruct (Z.ltb_spec (Z.of_nat (length a) + (Z.of_nat (length m) + Z.of_nat (length b)))
                       (Z.of_nat (length a) + off + len)); [lia|].
  cbn [orb]. f_equal.
  replace (Z.to_nat (Z.of_nat (length a) + off)) with (length a + Z.to_nat off)%nat by lia.
  rewrite skipn_app.
  rewrite (skipn_all2 a) by lia. cbn [app].
  replace (length a + Z.to_nat off - length a)%nat with (Z.to_nat off) by lia.
  rewrite skipn_app, firstn_app.
  assert (L : (Z.to_nat len <= length (skipn (Z.to_nat off) m))%nat) by (rewrite skipn_length; lia).
  replace (Z.to_nat len - length (skipn (Z.to_nat off) m))%nat with 0%nat by lia.
  cbn [firstn]. rewrite app_nil_r. reflexivity.
Qed.

(* a well-formed member, as far as scan_members looks at it: at least header + trailer, the magic
   bytes, and the member_size field (last 8 bytes, little endian) holding the member's length *)
Definition wf_member (m : list Z) : Prop :=
  26 <= zlen m /\ firstn 4 m = [76; 90; 73; 80] /\
  le_value (skipn (length m - 8) m) = zlen m.

(* the member table of consecutive members starting at [start] *)
Fixpoint member_table (start : Z) (ms : list (list Z)) : list (Z * Z) :=
  match ms with
  | [] => []
  | m :: t => (start, zlen m) :: member_table (start + zlen m) t
  end.

Lemma member_table_app start a b :
  member_table start (a ++ b) = member_table start a ++ member_table (start + zlen (concat a)) b.
Proof.
  revert start; induction a as [|m t IH]; intros start; simpl.
  - unfold zlen; simpl. f_equal. lia.
  - rewrite IH. f_equal. f_equal. unfold zlen. rewrite app_length, Nat2Z.inj_add. f_equal. lia.
Qed.

Lemma scan_go_sound : forall (pre suf : list (list Z)) fuel acc,
  Forall wf_member pre -> (length pre < fuel)%nat ->
  scan_go fuel (concat (pre ++ suf)) (zlen (concat pre)) acc = Ok (member_table 0 pre ++ acc).
Proof.
  intros pre. induction pre as [|m pre' IH] using rev_ind; intros suf fuel acc Hwf Hf.
  - destruct fuel; [simpl in Hf; lia|]. reflexivity.
  - destruct fuel as [|n]; [lia|]. rewrite app_length in Hf. cbn [length] in Hf.
    apply Forall_app in Hwf. destruct Hwf as [Hpre Hm]. inversion Hm as [|? ? [L26 [Hmagic Hsz]] _]; subst.
    (* the file as prefix ++ member ++ rest *)
    assert (Hfile : concat ((pre' ++ [m]) ++ suf) = concat pre' ++ m ++ concat suf).
    { rewrite !concat_app. cbn [concat]. rewrite app_nil_r, <- app_assoc. reflexivity. }
    assert (Hpm : zlen (concat (pre' ++ [m])) = zlen (concat pre') + zlen m).
    { rewrite concat_app. cbn [concat]. rewrite app_nil_r. apply zlen_app. }
    rewrite Hpm.
    set (P := zlen (concat pre')). set (M := zlen m).
    assert (HP : 0 <= P) by (unfold P, zlen; lia).
    cbn [scan_go].
    destruct (Z.leb_spec (P + M) 0); [lia|]. destruct (Z.ltb_spec (P + M) 20); [lia|].
    rewrite Hfile.
    replace (P + M - 20) with (P + (M - 20)) by lia.
    unfold P at 1. rewrite slice_mid by (fold M; lia).
    replace (Z.to_nat 20) with 20%nat by reflexivity.
    assert (H20 : firstn 20 (skipn (Z.to_nat (M - 20)) m) = skipn (Z.to_nat (M - 20)) m).
    { apply firstn_all2. rewrite skipn_length. unfold M, zlen in *. lia. }
    rewrite H20, skipn_skipn.
    replace (Z.to_nat (M - 20) + 12)%nat with (length m - 8)%nat by (unfold M, zlen in *; lia).
    rewrite Hsz. fold M.
    destruct (Z.eqb_spec M 0); [lia|]. destruct (Z.ltb_spec (P + M) M); [lia|]. cbn [orb].
    replace (P + M - M) with (P + 0) by lia.
    unfold P at 1. rewrite slice_mid by (fold M; lia).
    change (Z.to_nat 4) with 4%nat. change (Z.to_nat 0) with 0%nat. cbn [skipn]. rewrite Hmagic.
    destruct (list_eq_dec Z.eq_dec [76; 90; 73; 80] [76; 90; 73; 80]) as [_|Hne]; [|congruence].
    replace (P + 0) with P by lia.
    assert (Hfile2 : concat pre' ++ m ++ concat suf = concat (pre' ++ m :: suf)).
    { rewrite concat_app. cbn [concat]. reflexivity. }
    rewrite Hfile2.
    unfold P. rewrite (IH (m :: suf) n ((zlen (concat pre'), M) :: acc) Hpre) by lia.
    rewrite member_table_app. cbn [member_table]. rewrite <- app_assoc. cbn [app].
    replace (0 + zlen (concat pre')) with (zlen (concat pre')) by lia. reflexivity.
Qed.

(* For a file that is the concatenation of well-formed members the backward scan returns exactly
   the member table, in forward order. *)
Theorem lzip_scan_sound (ms : list (list Z)) :
  ms <> [] -> Forall wf_member ms -> scan_members (concat ms) = Ok (member_table 0 ms).
Proof.
  intros Hne Hwf. unfold scan_members.
  assert (Hlen : 26 * Z.of_nat (length ms) <= zlen (concat ms)).
  { clear Hne. induction Hwf as [|m t [L _] _ IH]; [unfold zlen; simpl; lia|].
    cbn [concat length]. rewrite zlen_app. lia. }
  assert (Hpos : (0 < length ms)%nat) by (destruct ms; [congruence|simpl; lia]).
  destruct (Z.ltb_spec (zlen (concat ms)) 26); [lia|].
  pose proof (scan_go_sound ms [] (S (length (concat ms))) [] Hwf) as Hs.
  rewrite !app_nil_r in Hs. rewrite Hs by (unfold zlen in Hlen; lia).
  destruct ms as [|m t]; [congruence|]. reflexivity.
Qed.

Example lzip_scan_example :
  let m1 := [76;90;73;80;1;12] ++ repeatn 0 12 ++ [26;0;0;0;0;0;0;0] in
  let m2 := [76;90;73;80;1;12; 7;7;7] ++ repeatn 0 12 ++ [29;0;0;0;0;0;0;0] in
  wf_member m1 /\ wf_member m2 /\ scan_members (m1 ++ m2) = Ok [(0, 26); (26, 29)].
Proof. unfold wf_member; cbv; intuition congruence. Qed.
