(* Mt/Refuted.v — the PINNED code (orig_cfg: no fx_* flag) violates C09 and C10: concrete
   schedules, checked by vm_compute.  Each witness is a strict run (every scheduled thread is
   enabled), so the final state is reachable ([run_strict_reachable]); the same schedules are replayed on the real code by
   the harness (corpus/mt.txt).  The unit function used: unit 0 fails with InvalidData, all other
   units succeed. *)
From LzVerif Require Import Base.Bytes Mt.Protocol Mt.ProtocolLemmas.
Local Open Scope nat_scope.

Definition f_ok (q : nat) : Z + Z := inl (Z.of_nat q).
Definition f_bad0 (q : nat) : Z + Z := match q with O => inr E_INVALID_DATA | _ => inl (Z.of_nat q) end.

Definition rd0 := orig_cfg Reader 1 true.     (* LZMA2ReaderMT, one worker *)
Definition wr0 := orig_cfg Writer 1 true.     (* LZMA2WriterMT / LZIPWriterMT, one worker *)

(* a maximal state in which a call of the caller has not returned *)
Definition deadlocked (f : nat -> Z + Z) (c : cfg) (s : state Z) : bool := stuck f c s && in_call s.
(* Drop has completed, nothing can move, and some worker has not exited *)
Definition leaked (f : nat -> Z + Z) (c : cfg) (s : state Z) : bool :=
  stuck f c s && dropped s && negb (all_exited s).

(* F15 (C10): lost wake-up.  The worker sees closed == false (4 steps), Drop runs completely
   (shutdown.store, closed.store, notify_all: nobody waits yet), then the worker waits. *)
Definition sched_lost_wakeup : list tid :=
  [Wk 0; Wk 0; Wk 0; Wk 0;  Co 0; Co 0; Co 0; Co 0;  Wk 0;  Co 0].

Theorem lost_wakeup_refuted :
  exists sched s, run_strict f_ok rd0 (init rd0 [] [OpDrop]) sched = Some s /\ leaked f_ok rd0 s = true.
Proof. exists sched_lost_wakeup. eexists. split; [vm_compute; reflexivity|vm_compute; reflexivity]. Qed.

(* the state at the end of the same ten steps *)
Theorem lost_wakeup_window :
  let s := run f_ok rd0 (init rd0 [] [OpDrop]) sched_lost_wakeup in
  ws s = [WSleep] /\ q_closed s = true /\ pc s = CDone.
Proof. vm_compute. auto. Qed.

(* F14a (C09): a worker fails while the coordinator already waits in recv().
   One unit, terminator seen; coordinator: read call .. dispatch .. Draining .. recv() blocks;
   worker: pop, fetch_add, fails, fetch_sub, set_error, exit. *)
Definition sched_worker_error : list tid :=
  [Co 0; Co 0; Co 0; Co 0; Co 0;            (* OpRead, CTop, CTake, try_recv: empty, len < 4: dispatch *)
   Co 0; Co 0; Co 0; Co 0; Co 0;            (* closed.load, push, notify_one, active.load, len -> Draining *)
   Co 0; Co 0;                               (* CTop, CTake -> recv() *)
   Wk 0; Wk 0; Wk 0; Wk 0; Wk 0; Wk 0].     (* shutdown.load, lock, pop, fetch_add (fails), fetch_sub, set_error *)

Theorem mt_deadlock_refuted :
  exists sched s, run_strict f_bad0 rd0 (init rd0 [(true, SEnd)] [OpRead]) sched = Some s /\
                  deadlocked f_bad0 rd0 s = true /\ err s = Some E_INVALID_DATA /\ results s = [].
Proof. exists sched_worker_error. eexists. split; [vm_compute; reflexivity|vm_compute; auto]. Qed.

(* F14b (C09): zero-length input: last_sequence_id = Some(0) with nothing dispatched. *)
Definition sched_empty_input : list tid := [Co 0; Co 0; Co 0; Co 0; Co 0; Co 0; Co 0].

(* after these steps the coordinator blocks in recv() with last_sequence_id = Some 0 and nothing
   dispatched; the state is not yet stuck, since the worker can still move *)
Theorem mt_empty_input_refuted :
  exists sched s, run_strict f_ok rd0 (init rd0 [] [OpRead]) sched = Some s /\
                  deadlocked f_ok rd0 s = false /\ pc s = CRecv KRead true /\ last s = Some 0 /\ nd s = 0.
Proof. exists sched_empty_input. eexists. split; [vm_compute; reflexivity|vm_compute; auto]. Qed.

(* the worker goes to sleep, after which nothing can move *)
Theorem mt_empty_input_deadlock :
  exists sched s, run_strict f_ok rd0 (init rd0 [] [OpRead]) sched = Some s /\ deadlocked f_ok rd0 s = true.
Proof.
  exists (sched_empty_input ++ [Wk 0; Wk 0; Wk 0; Wk 0; Wk 0]). eexists.
  split; [vm_compute; reflexivity|vm_compute; reflexivity].
Qed.

(* F14c (C09): finish() after a worker error was returned by write().  One full unit fails;
   write() returns Err; finish() overwrites State::Error with Finishing and waits. *)
Definition sched_finish_after_error : list tid :=
  [Co 0; Co 0; Co 0; Co 0; Co 0; Co 0; Co 0;      (* OpWrite: len, closed.load, push, notify, active, len, (no spawn) *)
   Wk 0; Wk 0; Wk 0; Wk 0; Wk 0; Wk 0;            (* the worker fails and exits *)
   Co 0; Co 0;                                     (* drain loop: CTop, CTake -> Err returned to write() *)
   Co 0; Co 0; Co 0].                              (* OpFinish: Finishing; CTop, CTake -> recv() *)

Theorem mt_finish_after_error_refuted :
  exists sched s, run_strict f_bad0 wr0 (init wr0 [] [OpWrite true; OpFinish]) sched = Some s /\
                  deadlocked f_bad0 wr0 s = true /\ results s = [RErr E_INVALID_DATA].
Proof. exists sched_finish_after_error. eexists. split; [vm_compute; reflexivity|vm_compute; auto]. Qed.

(* the same scenarios on the repaired code end with the error returned and all workers exited *)
Definition rd1 := fixed_cfg Reader 1 true.
Definition wr1 := fixed_cfg Writer 1 true.

Example repaired_worker_error :
  let '(s, maximal) := run_auto f_bad0 rd1 (init rd1 [(true, SEnd)] [OpRead; OpDrop]) true 200 in
  maximal = true /\ results s = [RErr E_INVALID_DATA] /\ all_exited s = true /\ dropped s = true.
Proof. vm_compute. auto. Qed.

Example repaired_empty_input :
  let '(s, maximal) := run_auto f_ok rd1 (init rd1 [] [OpRead; OpDrop]) true 200 in
  maximal = true /\ results s = [RErr E_UNEXPECTED_EOF] /\ all_exited s = true /\ dropped s = true.
Proof. vm_compute. auto. Qed.

Example repaired_finish_after_error :
  let '(s, maximal) := run_auto f_bad0 wr1 (init wr1 [] [OpWrite true; OpFinish]) false 200 in
  maximal = true /\ results s = [RErr E_INVALID_DATA; RErr E_OTHER] /\ all_exited s = true /\ dropped s = true.
Proof. vm_compute. auto. Qed.

(* the worker is inside the window (it saw closed == false and holds the mutex); the repaired
   close() waits for the mutex, so the worker is asleep when notify_all runs *)
Example repaired_lost_wakeup :
  let s0 := run f_ok rd1 (init rd1 [] [OpDrop]) [Wk 0; Wk 0; Wk 0; Wk 0] in
  let '(s, maximal) := run_auto f_ok rd1 s0 true 200 in
  ws s0 = [WWait] /\ maximal = true /\ all_exited s = true /\ dropped s = true.
Proof. vm_compute. auto. Qed.
