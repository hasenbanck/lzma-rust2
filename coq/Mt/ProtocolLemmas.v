(* Mt/ProtocolLemmas.v — infrastructure for the proofs about Mt/Protocol.v: list lemmas, what
   notify_one / notify_all do to the worker list, the constant components of the coordinator's
   effect descriptors, the case-analysis tactics for one step, and who writes what: a worker's
   step leaves the coordinator's fields alone, the coordinator touches the worker list by
   waking and spawning only. *)
From LzVerif Require Import Base.Bytes Mt.Protocol.
Local Open Scope nat_scope.

Lemma Some_inj {A} (a b : A) : Some a = Some b -> a = b.
Proof. intros H; injection H; auto. Qed.

Lemma nth_opt_app_l {A} (l1 l2 : list A) i : i < length l1 -> nth_opt (l1 ++ l2) i = nth_opt l1 i.
Proof.
  revert i; induction l1 as [|x t IH]; intros i H; simpl in *; [lia|].
  destruct i; [reflexivity|]. apply IH; lia.
Qed.

Lemma nth_opt_app_r {A} (l1 l2 : list A) i : length l1 <= i -> nth_opt (l1 ++ l2) i = nth_opt l2 (i - length l1).
Proof.
  revert i; induction l1 as [|x t IH]; intros i H; simpl in *.
  - f_equal; lia.
  - destruct i; [lia|]. apply IH; lia.
Qed.

Lemma nth_opt_lt {A} (l : list A) i x : nth_opt l i = Some x -> i < length l.
Proof.
  revert i; induction l as [|y t IH]; intros i H; simpl in *; [discriminate|].
  destruct i; [lia|]. apply IH in H; lia.
Qed.

Lemma nth_opt_none {A} (l : list A) i : length l <= i -> nth_opt l i = None.
Proof.
  revert i; induction l as [|y t IH]; intros i H; simpl in *; [reflexivity|].
  destruct i; [lia|]. apply IH; lia.
Qed.

Lemma nth_opt_In {A} (l : list A) i x : nth_opt l i = Some x -> In x l.
Proof.
  revert i; induction l as [|y t IH]; intros i H; simpl in *; [discriminate|].
  destruct i; [inversion H; auto|]. right; eauto.
Qed.

Lemma In_nth_opt {A} (l : list A) x : In x l -> exists i, nth_opt l i = Some x.
Proof.
  induction l as [|y t IH]; intros H; simpl in *; [tauto|].
  destruct H as [->|H]; [exists 0; reflexivity|].
  destruct (IH H) as [i Hi]. exists (S i); assumption.
Qed.

Lemma nth_opt_upd {A} (l : list A) i j v :
  nth_opt (upd_nat l i v) j = if Nat.eqb i j then (if Nat.ltb j (length l) then Some v else None) else nth_opt l j.
Proof.
  revert i j; induction l as [|x t IH]; intros i j; simpl.
  - destruct (Nat.eqb i j); destruct i, j; reflexivity.
  - destruct i, j; simpl; try reflexivity.
    rewrite IH. destruct (Nat.eqb i j); [|reflexivity].
    destruct (Nat.ltb_spec j (length t)), (Nat.ltb_spec (S j) (S (length t))); try lia; reflexivity.
Qed.

Lemma nth_opt_upd_eq {A} (l : list A) i v w : nth_opt l i = Some w -> nth_opt (upd_nat l i v) i = Some v.
Proof.
  intros H. rewrite nth_opt_upd, Nat.eqb_refl.
  apply nth_opt_lt in H. destruct (Nat.ltb_spec i (length l)); [reflexivity|lia].
Qed.

Lemma upd_nat_In {A} (l : list A) i v x : In x (upd_nat l i v) -> x = v \/ In x l.
Proof.
  revert i; induction l as [|y t IH]; intros i H; simpl in *; [tauto|].
  destruct i; simpl in H.
  - destruct H; auto.
  - destruct H as [->|H]; auto. apply IH in H; tauto.
Qed.

Lemma upd_nat_In_new {A} (l : list A) i x y : nth_opt l i = Some x -> In y (upd_nat l i y).
Proof. intros H. eapply nth_opt_In. eapply nth_opt_upd_eq. eassumption. Qed.

Lemma upd_nat_In_old {A} (l : list A) i j x y : nth_opt l j = Some x -> i <> j -> In x (upd_nat l i y).
Proof. intros H Hn. eapply nth_opt_In. rewrite nth_opt_upd_other; eauto. Qed.

Lemma In_upd_keep {A} (l : list A) i x y z :
  nth_opt l i = Some x -> In z l -> z <> x -> In z (upd_nat l i y).
Proof.
  intros Hi Hz Hn. destruct (In_nth_opt _ _ Hz) as [j Hj].
  destruct (Nat.eq_dec i j) as [->|Hne]; [congruence|]. eapply upd_nat_In_old; eauto.
Qed.

Lemma nth_opt_nonnil {A} (l : list A) i x : nth_opt l i = Some x -> l <> [].
Proof. intros H E. subst. destruct i; discriminate. Qed.

Lemma nth_upd_cases {A} (l : list A) i j v w :
  nth_opt (upd_nat l i v) j = Some w -> (j = i /\ w = v) \/ (j <> i /\ nth_opt l j = Some w).
Proof.
  rewrite nth_opt_upd. destruct (Nat.eqb_spec i j).
  - destruct (Nat.ltb j (length l)); [|discriminate]. intros H; inversion H; subst; auto.
  - intros H; right; split; [congruence|assumption].
Qed.

Lemma nth_app_cases {A} (l : list A) x j w :
  nth_opt (l ++ [x]) j = Some w -> nth_opt l j = Some w \/ (j = length l /\ w = x).
Proof.
  intros H. destruct (Nat.lt_ge_cases j (length l)).
  - rewrite nth_opt_app_l in H by assumption. auto.
  - rewrite nth_opt_app_r in H by assumption. right.
    destruct (j - length l) eqn:E; simpl in H; [inversion H; subst; split; [lia|reflexivity]|].
    destruct n; discriminate.
Qed.

Section Wake.
Context {R : Type}.
Implicit Types (l : list (wpc R)) (w : wpc R).

(* notify_one is lost when nobody sleeps; otherwise it moves one sleeper to WWoken *)
Definition woken_one l l' : Prop :=
  (l' = l /\ forall i, nth_opt l i <> Some WSleep) \/
  exists i, nth_opt l i = Some WSleep /\ l' = upd_nat l i WWoken.

Lemma wake_first_spec l : woken_one l (wake_first l).
Proof.
  induction l as [|w t IH]; simpl.
  - left. split; [reflexivity|]. intros [|i]; discriminate.
  - destruct w; simpl; try (right; exists 0; split; reflexivity).
    all: destruct IH as [[-> Hn]|(i & Hi & ->)];
      [ left; split; [reflexivity|]; intros [|i]; [discriminate|apply Hn]
      | right; exists (S i); split; [exact Hi|reflexivity] ].
Qed.

Lemma wake_nth_spec n l l' :
  wake_nth n l = Some l' -> exists i, nth_opt l i = Some WSleep /\ l' = upd_nat l i WWoken.
Proof.
  revert n l'; induction l as [|w t IH]; intros n l' H; simpl in H; [discriminate|].
  assert (Hrec : forall m, match wake_nth m t with Some t' => Some (w :: t') | None => None end = Some l' ->
                 exists i, nth_opt (w :: t) i = Some WSleep /\ l' = upd_nat (w :: t) i WWoken).
  { intros m Hm. destruct (wake_nth m t) as [t'|] eqn:E; [|discriminate]. apply Some_inj in Hm. subst l'.
    destruct (IH _ _ E) as (i & Hi & ->). exists (S i). split; [exact Hi|reflexivity]. }
  destruct w; simpl in H; eauto.
  destruct n; [|eauto]. apply Some_inj in H. subst l'. exists 0. split; reflexivity.
Qed.

Lemma wake_one_spec n l : woken_one l (wake_one n l).
Proof.
  unfold wake_one. destruct (wake_nth n l) eqn:E; [right; eapply wake_nth_spec; eassumption|apply wake_first_spec].
Qed.

Lemma wake_one_length n l : length (wake_one n l) = length l.
Proof. destruct (wake_one_spec n l) as [[-> _]|(i & _ & ->)]; [reflexivity|apply upd_nat_length]. Qed.

(* pointwise: every worker keeps its program point or goes WSleep -> WWoken *)
Lemma wake_one_nth n l i w : nth_opt (wake_one n l) i = Some w ->
  nth_opt l i = Some w \/ (nth_opt l i = Some WSleep /\ w = WWoken).
Proof.
  destruct (wake_one_spec n l) as [[-> _]|(j & Hj & ->)]; [auto|]. intros H.
  apply nth_upd_cases in H. destruct H as [[-> ->]|[_ H]]; auto.
Qed.

Lemma wake_one_keep n l i w : nth_opt l i = Some w -> is_sleep w = false -> nth_opt (wake_one n l) i = Some w.
Proof.
  intros H Hs. destruct (wake_one_spec n l) as [[-> _]|(j & Hj & ->)]; [exact H|].
  rewrite nth_opt_upd_other; [exact H|]. intros ->. rewrite Hj in H. apply Some_inj in H. subst w. discriminate.
Qed.

Lemma wake_one_sleep n l i : nth_opt l i = Some WSleep ->
  nth_opt (wake_one n l) i = Some WSleep \/ nth_opt (wake_one n l) i = Some WWoken.
Proof.
  intros H. destruct (wake_one_spec n l) as [[-> _]|(j & Hj & ->)]; [auto|].
  destruct (Nat.eq_dec j i) as [->|Hne]; [right; eapply nth_opt_upd_eq; eassumption|left; rewrite nth_opt_upd_other; assumption].
Qed.

(* if somebody sleeps, notify_one wakes somebody *)
Lemma wake_one_some n l : (exists i, nth_opt l i = Some WSleep) -> exists j, nth_opt (wake_one n l) j = Some WWoken.
Proof.
  intros [i Hi]. destruct (wake_one_spec n l) as [[_ Hn]|(j & Hj & ->)]; [destruct (Hn i Hi)|].
  exists j. eapply nth_opt_upd_eq; eassumption.
Qed.

Lemma wake_one_In n l w : In w (wake_one n l) -> In w l \/ w = WWoken.
Proof.
  intros H. destruct (In_nth_opt _ _ H) as [i Hi].
  destruct (wake_one_nth _ _ _ _ Hi) as [E|[_ E]]; [left; eapply nth_opt_In; eauto|auto].
Qed.

(* notify_all: every waiter becomes runnable *)
Lemma wake_all_length l : length (wake_all l) = length l.
Proof. unfold wake_all. apply map_length. Qed.

Lemma wake_all_nth l i : nth_opt (wake_all l) i =
  match nth_opt l i with Some w => Some (if is_sleep w then WWoken else w) | None => None end.
Proof.
  revert i; induction l as [|w t IH]; intros i; simpl; [reflexivity|].
  destruct i; [reflexivity|]. apply IH.
Qed.

Lemma wake_all_nth_cases l i w : nth_opt (wake_all l) i = Some w ->
  nth_opt l i = Some w \/ (nth_opt l i = Some WSleep /\ w = WWoken).
Proof.
  rewrite wake_all_nth. destruct (nth_opt l i) as [x|]; [|discriminate].
  destruct x; simpl; intros H; inversion H; subst; auto.
Qed.

Lemma wake_all_keep l i w : nth_opt l i = Some w -> is_sleep w = false -> nth_opt (wake_all l) i = Some w.
Proof. intros H Hs. rewrite wake_all_nth, H, Hs. reflexivity. Qed.

Lemma wake_all_In l w : In w (wake_all l) -> In w l \/ w = WWoken.
Proof.
  unfold wake_all. rewrite in_map_iff. intros [x [E Hx]]. destruct (is_sleep x); subst; auto.
Qed.

Lemma wake_all_no_sleep l w : In w (wake_all l) -> is_sleep w = false.
Proof.
  unfold wake_all. rewrite in_map_iff. intros [x [E Hx]]. destruct (is_sleep x) eqn:Es; subst; auto.
Qed.

End Wake.

Section Reo.
Context {R : Type}.
Implicit Types (l : list (nat * R)).

Lemma remove_key_length l k : length (remove_key k l) <= length l.
Proof. induction l as [|[k' r] t IH]; simpl; [lia|]. destruct (Nat.eqb k k'); simpl; lia. Qed.

Lemma remove_key_lookup_length l k r : lookup k l = Some r -> length (remove_key k l) < length l.
Proof.
  induction l as [|[k' r'] t IH]; simpl; [discriminate|].
  destruct (Nat.eqb k k'); intros H.
  - pose proof (remove_key_length t k). lia.
  - simpl. apply IH in H. lia.
Qed.

Lemma remove_key_In l k q r : In (q, r) (remove_key k l) -> In (q, r) l /\ q <> k.
Proof.
  induction l as [|[k' r'] t IH]; simpl; [tauto|].
  destruct (Nat.eqb_spec k k'); intros H.
  - apply IH in H. tauto.
  - destruct H as [H|H]; [inversion H; subst; split; auto|]. apply IH in H. tauto.
Qed.

Lemma lookup_In l k r : lookup k l = Some r -> In (k, r) l.
Proof.
  induction l as [|[k' r'] t IH]; simpl; [discriminate|].
  destruct (Nat.eqb_spec k k'); intros H; [inversion H; subst; auto|auto].
Qed.

Lemma In_lookup l k r : In (k, r) l -> exists r', lookup k l = Some r'.
Proof.
  induction l as [|[k' r'] t IH]; simpl; [tauto|].
  destruct (Nat.eqb_spec k k'); intros H; [eauto|].
  destruct H as [H|H]; [inversion H; subst; congruence|auto].
Qed.

Lemma lookup_remove_other l k q : q <> k -> lookup q (remove_key k l) = lookup q l.
Proof.
  intros Hn. induction l as [|[k' r'] t IH]; simpl; [reflexivity|].
  destruct (Nat.eqb_spec k k'); simpl.
  - subst. destruct (Nat.eqb_spec q k'); [contradiction|assumption].
  - destruct (Nat.eqb q k'); [reflexivity|assumption].
Qed.

Lemma lookup_insert_other l k q r : q <> k -> lookup q (insert k r l) = lookup q l.
Proof.
  intros Hn. unfold insert; simpl. destruct (Nat.eqb_spec q k); [contradiction|].
  apply lookup_remove_other; assumption.
Qed.

Lemma insert_In l k r q x : In (q, x) (insert k r l) -> (q = k /\ x = r) \/ In (q, x) l.
Proof.
  unfold insert; simpl. intros [H|H]; [inversion H; auto|]. apply remove_key_In in H; tauto.
Qed.
End Reo.

Section Effects.
Context {R : Type}.
Implicit Types (s : state R) (g : gk) (v : cres R) (d : dk).

Ltac eff_cases :=
  repeat match goal with
         | |- context [match ?x with _ => _ end] => destruct x eqn:?
         | |- context [if ?b then _ else _] => destruct b eqn:?
         end; cbn; eauto 6.

Lemma ret_eff_ph s g v : e_ph (ret_eff s g v) = None.
Proof. unfold ret_eff, with_out, goto, creturn, freturn. eff_cases. Qed.
Lemma ret_eff_last s g v : e_last (ret_eff s g v) = None.
Proof. unfold ret_eff, with_out, goto, creturn, freturn. eff_cases. Qed.
Lemma flush_eff_ph s : e_ph (flush_eff s) = None.
Proof. unfold flush_eff, goto, creturn. eff_cases. Qed.
Lemma flush_eff_last s : e_last (flush_eff s) = None.
Proof. unfold flush_eff, goto, creturn. eff_cases. Qed.
Lemma flush_eff_fin s : e_fin (flush_eff s) = false.
Proof. unfold flush_eff, goto, creturn. eff_cases. Qed.
Lemma flush_eff_out s : e_out (flush_eff s) = [].
Proof. unfold flush_eff, goto, creturn. eff_cases. Qed.
Lemma src_eff_fin c s r : e_fin (src_eff c s r) = false.
Proof. unfold src_eff, goto. eff_cases. Qed.
Lemma src_eff_out c s r : e_out (src_eff c s r) = [].
Proof. unfold src_eff, goto. eff_cases. Qed.
Lemma src_eff_res c s r : e_res (src_eff c s r) = [].
Proof. unfold src_eff, goto. eff_cases. Qed.
Lemma finish_eff_fin s : e_fin (finish_eff s) = false.
Proof. unfold finish_eff, goto. eff_cases. Qed.
Lemma finish_eff_out s : e_out (finish_eff s) = [].
Proof. unfold finish_eff, goto. eff_cases. Qed.
Lemma finish_eff_res s : e_res (finish_eff s) = [].
Proof. unfold finish_eff, goto. eff_cases. Qed.
Lemma disp_eff_out c s d : e_out (disp_eff c s d) = [].
Proof. unfold disp_eff. destruct d; auto using src_eff_out, flush_eff_out, finish_eff_out. Qed.
Lemma disp_eff_fin c s d : e_fin (disp_eff c s d) = false.
Proof. unfold disp_eff. destruct d; auto using src_eff_fin, flush_eff_fin, finish_eff_fin. Qed.

(* only the reader's get_next returns the success-end value through [ret] *)
Lemma ret_eff_res_none s g v : e_res (ret_eff s g v) = [RNone] -> g = KRead /\ v = RNone.
Proof.
  unfold ret_eff, with_out, goto, creturn, freturn.
  destruct g, v; repeat match goal with |- context [match ?x with _ => _ end] => destruct x end;
    cbn; intros H; try discriminate H; auto.
Qed.

Lemma flush_eff_res s : e_res (flush_eff s) <> [RNone].
Proof. unfold flush_eff. destruct (nr s <? nd s); discriminate. Qed.

Lemma disp_eff_res c s d : e_res (disp_eff c s d) <> [RNone].
Proof.
  destruct d; cbn [disp_eff]; rewrite ?src_eff_res, ?finish_eff_res; try discriminate. apply flush_eff_res.
Qed.

(* the effect descriptors that the coordinator's step applies, and where they can lead *)
Inductive is_eff (c : cfg) s : ceff R -> Prop :=
| ie_ret g v : is_eff c s (ret_eff s g v)
| ie_src r : is_eff c s (src_eff c s r)
| ie_flush : is_eff c s (flush_eff s)
| ie_finish : is_eff c s (finish_eff s)
| ie_disp d : is_eff c s (disp_eff c s d).

Lemma eff_pc c s e : is_eff c s e ->
  e_pc e = CIdle \/ (exists g, e_pc e = CTop g) \/ (exists d, e_pc e = CLenB d) \/
  (exists x, e_pc e = CSetErr x) \/ exists b, e_pc e = CShut b.
Proof.
  destruct 1 as [g v|r| | |[]]; unfold disp_eff, ret_eff, src_eff, flush_eff, finish_eff, with_out, goto, creturn, freturn;
    eff_cases.
Qed.
End Effects.

Section Reach.
Context {R : Type}.
Variable f : nat -> R + Z.

Lemma reach_inv (P : state R -> Prop) c src p :
  P (init c src p) ->
  (forall s t s', reachable f c src p s -> P s -> step f c s t = Some s' -> P s') ->
  forall s, reachable f c src p s -> P s.
Proof. intros H0 Hs s Hr. induction Hr; eauto. Qed.

Lemma run_strict_reachable c src p sched s0 s :
  reachable f c src p s0 -> run_strict f c s0 sched = Some s -> reachable f c src p s.
Proof.
  revert s0; induction sched as [|t rest IH]; intros s0 H0 H; simpl in H.
  - inversion H; subst; assumption.
  - destruct (step f c s0 t) eqn:E; [|discriminate]. eapply IH; [|eassumption]. econstructor; eauto.
Qed.

Lemma run_reachable c src p sched s0 :
  reachable f c src p s0 -> reachable f c src p (run f c s0 sched).
Proof.
  revert s0; induction sched as [|t rest IH]; intros s0 H0; simpl; [assumption|].
  destruct (step f c s0 t) eqn:E; [|auto]. apply IH. econstructor; eauto.
Qed.
End Reach.

(* split a coordinator step into its cases; helper functions stay folded.  The program point of
   the stepping thread is recorded as [Hpc : pc s = ..] resp. [Hwpc : nth_opt (ws s) i = Some ..] *)

Ltac destr_matches H :=
  repeat (cbv beta iota in H;
          match type of H with
          | context [match ?x with _ => _ end] => destruct x eqn:?
          | context [if ?b then _ else _] => destruct b eqn:?
          end);
  cbv beta iota in H;
  try discriminate H; apply Some_inj in H; subst.

Ltac co_cases H :=
  unfold co_step in H;
  match type of H with context [match pc ?s with _ => _ end] => destruct (pc s) eqn:Hpc end;
  destr_matches H.

Ltac wk_cases H :=
  unfold wk_step in H;
  match type of H with context [match nth_opt ?l ?i with _ => _ end] => destruct (nth_opt l i) as [[]|] eqn:Hwpc end;
  destr_matches H.

(* project the fields out of the post-state of a step: setters and [apply_eff] are unfolded, the
   effect descriptors stay folded *)
Ltac mcbn := cbn [q_items q_closed q_lock ch rx_alive err shut act ws pc ph nd nr last reo rwake
  script prog pend out results popped set_q set_items set_closed set_lock set_ch set_err set_act set_ws set_pc
  set_ph set_nd set_last set_reo set_script set_prog set_out set_popped set_w call_return finish_return
  apply_eff ret after_src finish_cont flush_loop after_dispatch goto creturn freturn with_out
  e_pc e_out e_res e_fin e_ph e_last].
Ltac mcbn_in H := revert H; mcbn; intro H.

(* ... and the components of an effect descriptor that do not depend on its case are put in *)
Ltac msimpl := mcbn;
  rewrite ?ret_eff_ph, ?ret_eff_last, ?flush_eff_ph, ?flush_eff_last, ?flush_eff_fin, ?flush_eff_out,
          ?src_eff_fin, ?src_eff_out, ?src_eff_res, ?finish_eff_fin, ?finish_eff_out, ?finish_eff_res,
          ?disp_eff_out, ?disp_eff_fin, ?app_nil_r.

Ltac msimpl_in H := revert H; msimpl; intro H.

(* replace the program point an effect descriptor leads to by its possible values *)
Ltac pc_case e :=
  let X := fresh "Hpc" in
  match goal with c : cfg |- _ =>
    destruct (eff_pc c _ e ltac:(constructor)) as [X|[[? X]|[[? X]|[[? X]|[? X]]]]]; rewrite X in *; clear X
  end.

Ltac pc_cases :=
  repeat match goal with
         | H : context [e_pc ?e] |- _ => pc_case e
         | |- context [e_pc ?e] => pc_case e
         end.

Ltac split_andb :=
  repeat match goal with
         | H : (_ && _) = true |- _ => apply andb_true_iff in H; destruct H
         | H : Nat.ltb _ _ = true |- _ => apply Nat.ltb_lt in H
         | H : Nat.leb _ _ = true |- _ => apply Nat.leb_le in H
         | H : Nat.eqb _ _ = true |- _ => apply Nat.eqb_eq in H
         | H : Nat.eqb _ _ = false |- _ => apply Nat.eqb_neq in H
         | H : Nat.ltb _ _ = false |- _ => apply Nat.ltb_ge in H
         | H : Nat.leb _ _ = false |- _ => apply Nat.leb_gt in H
         | H : negb _ = true |- _ => apply negb_true_iff in H
         | H : negb _ = false |- _ => apply negb_false_iff in H
         end.

Lemma lock_free_none {R} (s : state R) : lock_free s = true -> q_lock s = None.
Proof. unfold lock_free. destruct (q_lock s); [discriminate|reflexivity]. Qed.

(* use the equation [pc s = ..] of the pre-state everywhere *)
Ltac rw_pc :=
  try match goal with
      | H : pc ?s = _ |- _ =>
          is_var s; rewrite ?H;
          repeat match goal with
                 | H' : context [pc s] |- _ => lazymatch H' with H => fail | _ => rewrite H in H' end
                 end
      end.

(* use the equations [proj s = ..] produced by the case analysis in the other hypotheses *)
Ltac rw_eqs :=
  repeat match goal with
         | H : ?p ?s = _ |- _ => is_var s; progress (rewrite H in * |-)
         end.

Ltac rw_goal :=
  repeat match goal with
         | H : ?p ?s = _ |- _ => is_var s; rewrite H
         end.

(* the guards of the pre-state, as propositions *)
Ltac pre :=
  rw_pc;
  repeat match goal with
         | H : lock_free _ = true |- _ => apply lock_free_none in H
         end;
  split_andb.

(* case analysis of one step of any thread; the goal is simplified *)
Ltac step_split t Hst :=
  destruct t as [?pick|?i]; cbn [step] in Hst; [co_cases Hst | wk_cases Hst]; msimpl.

Section Frame.
Context {R : Type}.
Implicit Types (s : state R) (c : cfg).

(* the coordinator touches the worker list by notify_one, notify_all and spawn only *)
Lemma co_step_ws c s k s' : co_step c s k = Some s' ->
  ws s' = ws s \/ ws s' = wake_one k (ws s) \/ ws s' = wake_all (ws s) \/
  ((exists d, pc s = CSpawn d) /\ ws s' = ws s ++ [WTop]).
Proof. intros Hst. co_cases Hst; msimpl; eauto 8. Qed.

Lemma co_step_ws_In c s k s' w : co_step c s k = Some s' -> In w (ws s') ->
  In w (ws s) \/ w = WWoken \/ w = WTop.
Proof.
  intros Hst Hw. destruct (co_step_ws c s k s' Hst) as [E|[E|[E|[_ E]]]]; rewrite E in Hw.
  - auto.
  - apply wake_one_In in Hw. tauto.
  - apply wake_all_In in Hw. tauto.
  - apply in_app_iff in Hw. destruct Hw as [Hw|[<-|[]]]; auto.
Qed.

Lemma co_step_ws_nth c s k s' i w : co_step c s k = Some s' -> nth_opt (ws s') i = Some w ->
  nth_opt (ws s) i = Some w \/ (nth_opt (ws s) i = Some WSleep /\ w = WWoken) \/
  (i = length (ws s) /\ w = WTop).
Proof.
  intros Hst Hw. destruct (co_step_ws c s k s' Hst) as [E|[E|[E|[_ E]]]]; rewrite E in Hw.
  - auto.
  - apply wake_one_nth in Hw. tauto.
  - apply wake_all_nth_cases in Hw. tauto.
  - apply nth_app_cases in Hw. tauto.
Qed.

Lemma co_step_ws_keep c s k s' i w : co_step c s k = Some s' -> nth_opt (ws s) i = Some w ->
  is_sleep w = false -> nth_opt (ws s') i = Some w.
Proof.
  intros Hst Hw Hs. destruct (co_step_ws c s k s' Hst) as [E|[E|[E|[_ E]]]]; rewrite E.
  - exact Hw.
  - apply wake_one_keep; assumption.
  - apply wake_all_keep; assumption.
  - rewrite nth_opt_app_l; [exact Hw|eapply nth_opt_lt; eassumption].
Qed.

Lemma co_step_ws_In_keep c s k s' w : co_step c s k = Some s' -> In w (ws s) -> is_sleep w = false -> In w (ws s').
Proof.
  intros Hst Hw Hs. destruct (In_nth_opt _ _ Hw) as [i Hi].
  eapply nth_opt_In, co_step_ws_keep; eassumption.
Qed.

(* the queue grows by push_back only, which is followed by notify_one *)
Lemma co_step_items c s k s' : co_step c s k = Some s' -> q_items s' = q_items s \/ exists d, pc s' = CNotify d.
Proof. intros Hst. co_cases Hst; msimpl; eauto. Qed.

Variable f : nat -> R + Z.

(* the fields that only the coordinator writes *)
Record co_same s s' : Prop := {
  same_pc : pc s' = pc s;
  same_ph : ph s' = ph s;
  same_nd : nd s' = nd s;
  same_nr : nr s' = nr s;
  same_last : last s' = last s;
  same_reo : reo s' = reo s;
  same_rwake : rwake s' = rwake s;
  same_script : script s' = script s;
  same_prog : prog s' = prog s;
  same_pend : pend s' = pend s;
  same_out : out s' = out s;
  same_results : results s' = results s;
  same_closed : q_closed s' = q_closed s;
  same_rx : rx_alive s' = rx_alive s
}.

Lemma wk_step_co c s i s' : wk_step f c s i = Some s' -> co_same s s'.
Proof. intros Hst. wk_cases Hst; constructor; msimpl; auto. Qed.

(* a worker's step rewrites its own program point *)
Lemma wk_step_ws c s i s' : wk_step f c s i = Some s' ->
  exists w w', nth_opt (ws s) i = Some w /\ ws s' = upd_nat (ws s) i w'.
Proof. intros Hst. wk_cases Hst; msimpl; eauto. Qed.

(* the flags shutdown, closed and "receiver dropped" are never lowered *)
Lemma step_flags c s t s' : step f c s t = Some s' ->
  (shut s' = false -> shut s = false) /\ (q_closed s' = false -> q_closed s = false) /\
  (rx_alive s' = true -> rx_alive s = true).
Proof. intros Hst. step_split t Hst; auto; repeat split; congruence. Qed.

End Frame.
