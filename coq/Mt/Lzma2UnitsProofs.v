(* Mt/Lzma2UnitsProofs.v — closed statements about work units of LZMA2 streams, obtained by
   instantiating Mt/UnitsProofs.v (Section Decode) with the concrete chunk decoder of
   Mt/Lzma2Units.v and tying it to the reader model by Mt/Lzma2UnitsSimProofs.v:
     * [reader_sound] / [reader_complete0]: LZMA2Reader (model) on a byte stream = [adecode];
     * [cut_lzma2_units]: the byte-level cutting of LZMA2ReaderMT = the chunk-level cutting;
     * [lzma2_mt_reader_data]: whatever the single-threaded reader decodes, the work units decode
       separately (fresh reader each, same preset dictionary, 0x00 appended) to pieces whose
       concatenation is the same data;
     * [lzma2_mt_writer_data]: the concatenation of streams written unit by unit decodes to the
       concatenation of the units' data;
     * [lzma2_mt_writer_mt_reader]: both together; [astep_indep_init], [lzma2_unit_cut_sound]: Section
       Decode of Mt/UnitsProofs.v closed with [astep] and [d_init]. *)
From LzVerif Require Import Base.Bytes Codec.Store Codec.Range Codec.ProbProofs
  Codec.LzWindow Codec.LzmaDec Codec.LzmaEnc Codec.LzmaAbs Codec.LzWindowProofs Codec.RangeEncProofs Codec.RangeProofs
  Codec.LzmaSymProofs Codec.LzmaRoundtrip Codec.LzmaChunkProofs Codec.LzmaWriters Codec.Lzma2Dec
  Codec.Lzma2SpecProofs Codec.Lzma2BitsProofs Codec.Lzma2FrameSyncProofs Codec.Lzma2ReadProofs Codec.Lzma2ExamplesProofs Mt.Units
  Mt.UnitsProofs Mt.Lzma2Units Mt.Lzma2UnitsAbsProofs Mt.Lzma2UnitsSimProofs.
Local Open Scope Z_scope.

Notation pos_sizes := (Forall (fun z : Z => 0 < z)).

Lemma l2_wsize_ok dict : 0 < l2_wsize dict /\ l2_wsize dict mod 16 = 0.
Proof. unfold l2_wsize. Z.div_mod_to_equations. lia. Qed.

Lemma lzwin_new_hist ds preset : 0 < ds -> ds mod 16 = 0 -> Rel (lzwin_new ds preset) (d_hist (d_init ds preset)).
Proof.
  intros Hds Hds16. destruct preset as [[|x p]|].
  - exact (lzwin_new_preset_rel ds [] Hds Hds16).
  - exact (lzwin_new_preset_rel ds (x :: p) Hds Hds16).
  - exact (lzwin_new_rel ds Hds Hds16).
Qed.

(* LZMA2Reader::new establishes the invariant *)
Lemma reader_init input dict preset : bytes_ok input = true ->
  exists s0, lzma2_new input dict preset = Ok s0 /\
    SInv (l2_wsize dict) false s0 (adecode (l2_wsize dict) (d_init (l2_wsize dict) preset) input).
Proof.
  intros Hb. destruct (l2_wsize_ok dict) as (Hds & Hds16).
  unfold lzma2_new, lzma2_get_dict_size. cbn [obind]. fold (l2_wsize dict).
  set (ds := l2_wsize dict) in *.
  eexists. split; [reflexivity|].
  split; [unfold live; cbn [m_end_reached m_error m_in]; auto|].
  left. exists (d_init ds preset). split; [|reflexivity].
  unfold at_boundary. cbn [m_uncompressed_size m_rc m_win m_need_dict_reset].
  split; [reflexivity|]. split; [reflexivity|].
  (* an empty preset dictionary counts as none *)
  destruct preset as [[|x p]|];
    (split;
     [split; [apply lzwin_new_hist; assumption|]; split; [reflexivity|]; split; [reflexivity|]; intros X; discriminate X|];
     split; [reflexivity|]; split; [reflexivity|]; split; [reflexivity|]; intros X; discriminate X).
Qed.

Theorem reader_sound dict preset input data tail : bytes_ok input = true ->
  adecode (l2_wsize dict) (d_init (l2_wsize dict) preset) input = Some (data, tail) ->
  forall sizes fuel, pos_sizes sizes -> (length data + 2 <= fuel)%nat ->
  exists s0 s_end, lzma2_new input dict preset = Ok s0 /\
    lzma2_read_all fuel s0 sizes sizes [] = Ok (data, 0, s_end) /\
    m_end_reached s_end = true /\ m_error s_end = None /\ m_in s_end = tail.
Proof.
  intros Hb Ha sizes fuel Hs Hf. destruct (l2_wsize_ok dict) as (Hds & Hds16).
  destruct (reader_init input dict preset Hb) as (s0 & Hnew & HI). rewrite Ha in HI.
  destruct (read_all_sound (l2_wsize dict) Hds tail false s0 data sizes fuel HI Hs Hf) as (s_end & Hr & (E1 & E2 & E3)).
  exists s0, s_end. auto.
Qed.

(* status 0 suffices: every error of the reader model is a non-zero io::Error kind *)
Theorem reader_complete0 dict preset input sizes fuel s0 data s_end : bytes_ok input = true ->
  lzma2_new input dict preset = Ok s0 -> pos_sizes sizes ->
  lzma2_read_all fuel s0 sizes sizes [] = Ok (data, 0, s_end) ->
  adecode (l2_wsize dict) (d_init (l2_wsize dict) preset) input = Some (data, m_in s_end) /\
  m_end_reached s_end = true.
Proof.
  intros Hb Hnew Hs Hr. destruct (l2_wsize_ok dict) as (Hds & Hds16).
  destruct (reader_init input dict preset Hb) as (s0' & Hnew' & HI). rewrite Hnew in Hnew'. inversion Hnew'; subst s0'.
  destruct (read_all_comp (l2_wsize dict) Hds fuel false s0 sizes sizes [] _ data 0 s_end HI Hs Hs Hr
              (or_introl eq_refl)) as (data' & D1 & D2 & _ & D4 & _).
  cbn [rev app] in D2. subst data'. split; assumption.
Qed.

Lemma l2_decodes_of_adecode dict preset input data tail : bytes_ok input = true ->
  adecode (l2_wsize dict) (d_init (l2_wsize dict) preset) input = Some (data, tail) ->
  l2_decodes input dict preset data.
Proof.
  intros Hb Ha sizes fuel Hs Hf.
  destruct (reader_sound dict preset input data tail Hb Ha sizes fuel Hs Hf) as (s0 & s_end & Hnew & Hr & He & _).
  unfold l2_done, l2_read_result. rewrite Hnew. cbn [obind]. exists s_end. split; assumption.
Qed.

(* a chunk whose bytes parse back to it in front of anything *)
Definition chunk_stable (k : chunk) : Prop :=
  c_bytes k <> [] /\ forall rest, parse_chunk (c_bytes k ++ rest) = PChunk k rest.

Lemma parse_chunk_stable input k rest : parse_chunk input = PChunk k rest ->
  input = c_bytes k ++ rest /\ chunk_stable k.
Proof.
  intros H. destruct (parse_chunk_app input k rest H) as (Hin & Hst & Hl).
  split; [exact Hin|]. split; [|exact Hst].
  intros X. rewrite X in Hin. cbn [app] in Hin. subst input. lia.
Qed.

Lemma parse_chunk_term input rest : parse_chunk input = PTerm rest -> input = 0 :: rest.
Proof.
  unfold parse_chunk. destruct input as [|c in1]; [discriminate|].
  destruct (Z.eqb_spec c 0) as [->|Hc]; [intros H; inversion H; reflexivity|].
  destruct (128 <=? c).
  - destruct (take_n _ in1) as [[hdr r1]|]; [|discriminate].
    destruct hdr as [|h0 [|h1 [|h2 [|h3 hr]]]]; try discriminate.
    destruct (take_n _ r1) as [[pay r2]|]; discriminate.
  - destruct ((c =? 1) || (c =? 2)); [|discriminate].
    destruct in1 as [|s0 [|s1 r1]]; try discriminate.
    destruct (take_n _ r1) as [[pay r2]|]; discriminate.
Qed.

Lemma flat_cons k ks : flat (k :: ks) = c_bytes k ++ flat ks.
Proof. reflexivity. Qed.

Lemma flat_app a b : flat (a ++ b) = flat a ++ flat b.
Proof. unfold flat. rewrite map_app, concat_app. reflexivity. Qed.

Lemma parse_all_inv fuel : forall bytes ks rest, parse_all fuel bytes = Some (ks, rest) ->
  bytes = flat ks ++ 0 :: rest /\ Forall chunk_stable ks.
Proof.
  induction fuel as [|n IH]; intros bytes ks rest H; [discriminate|].
  rewrite parse_all_S in H.
  destruct (parse_chunk bytes) as [|r|k r|e] eqn:E; try discriminate.
  - inversion H; subst ks rest. apply parse_chunk_term in E. split; [exact E | constructor].
  - destruct (parse_all n r) as [[ks' r']|] eqn:E2; [|discriminate]. inversion H; subst ks rest.
    destruct (IH r ks' r' E2) as (Hr & Hst). destruct (parse_chunk_stable _ _ _ E) as (Hb & Hk).
    split; [rewrite flat_cons, <- app_assoc, <- Hr; exact Hb | constructor; assumption].
Qed.

Lemma parse_all_flat ks rest : Forall chunk_stable ks -> forall fuel, (length ks < fuel)%nat ->
  parse_all fuel (flat ks ++ 0 :: rest) = Some (ks, rest).
Proof.
  induction 1 as [|k ks (Hne & Hk) _ IH]; intros fuel Hf; (destruct fuel as [|n]; [cbn [length] in Hf; lia|]).
  - reflexivity.
  - rewrite parse_all_S, flat_cons, <- app_assoc, Hk. rewrite IH by (cbn [length] in Hf; lia). reflexivity.
Qed.

Lemma flat_length ks : Forall chunk_stable ks -> (length ks <= length (flat ks))%nat.
Proof.
  induction 1 as [|k ks (Hne & _) _ IH]; [cbn; lia|]. rewrite flat_cons, app_length. cbn [length].
  destruct (c_bytes k); [congruence | cbn [length]; lia].
Qed.

Lemma stream_chunks_flat ks rest : Forall chunk_stable ks -> stream_chunks (flat ks ++ 0 :: rest) = Some (ks, rest).
Proof.
  intros H. unfold stream_chunks. apply parse_all_flat; [exact H|].
  pose proof (flat_length ks H). rewrite app_length. cbn [length]. lia.
Qed.

Lemma adecode_flat ds d ks rest : Forall chunk_stable ks ->
  adecode ds d (flat ks ++ 0 :: rest) =
  match decode_chunks dstate (astep ds) d ks with Some o => Some (o, rest) | None => None end.
Proof. intros H. unfold adecode. rewrite (stream_chunks_flat ks rest H). reflexivity. Qed.

Lemma adecode_inv ds d input data tail : adecode ds d input = Some (data, tail) ->
  exists ks, input = flat ks ++ 0 :: tail /\ Forall chunk_stable ks /\ decode_chunks dstate (astep ds) d ks = Some data.
Proof.
  unfold adecode, stream_chunks. intros H.
  destruct (parse_all (S (length input)) input) as [[ks rest]|] eqn:E; [|discriminate].
  destruct (decode_chunks dstate (astep ds) d ks) as [o|] eqn:E2; [|discriminate]. inversion H; subst o rest.
  destruct (parse_all_inv _ _ _ _ E) as (Hin & Hst). exists ks. auto.
Qed.

Lemma is_nil_flat cur : Forall chunk_stable cur -> is_nil (flat cur) = is_nil cur.
Proof.
  intros H. destruct H as [|k t (Hne & _) _]; [reflexivity|]. rewrite flat_cons.
  destruct (c_bytes k); [congruence | reflexivity].
Qed.

Lemma cut_bytes_go : forall ks rest cur units calls fuel,
  Forall chunk_stable ks -> Forall chunk_stable cur -> (length ks < fuel)%nat ->
  cr_units (cut_bytes None fuel (flat ks ++ 0 :: rest) (flat cur) units calls) =
    rev units ++ map unit_bytes (cut_go cur ks) /\
  cr_end (cut_bytes None fuel (flat ks ++ 0 :: rest) (flat cur) units calls) = None.
Proof.
  induction ks as [|k ks IH]; intros rest cur units calls fuel Hks Hcur Hf;
    (destruct fuel as [|n]; [cbn [length] in Hf; lia|]).
  - cbn [flat map concat app cut_bytes parse_chunk]. change (0 =? 0) with true. cbv iota.
    cbn [cr_units cr_end cut_go map rev]. split; reflexivity.
  - inversion Hks as [|k0 ks0 (Hne & Hk) Hks']; subst k0 ks0.
    cbn [cut_bytes]. rewrite flat_cons, <- app_assoc, Hk.
    rewrite (is_nil_flat cur Hcur). cbn [cut_go].
    assert (Hfk : flat [k] = c_bytes k) by (unfold flat; cbn [map concat]; apply app_nil_r).
    destruct (chunk_independent k && negb (is_nil cur)) eqn:E.
    + rewrite <- Hfk.
      destruct (IH rest [k] ((flat cur ++ [0]) :: units) (true :: calls) n Hks'
                  ltac:(constructor; [split; assumption | constructor]) ltac:(cbn [length] in Hf; lia)) as (H1 & H2).
      rewrite H1, H2. cbn [rev map]. rewrite <- app_assoc. split; reflexivity.
    + replace (flat cur ++ c_bytes k) with (flat (cur ++ [k])) by (rewrite flat_app, Hfk; reflexivity).
      apply IH; [exact Hks' | apply Forall_app; split; [exact Hcur | constructor; [split; assumption | constructor]] | cbn [length] in Hf; lia].
Qed.

Theorem cut_lzma2_units ks rest : Forall chunk_stable ks ->
  cr_units (cut_lzma2 (flat ks ++ 0 :: rest)) = map unit_bytes (cut_chunks ks) /\
  cr_end (cut_lzma2 (flat ks ++ 0 :: rest)) = None.
Proof.
  intros H. unfold cut_lzma2, cut_chunks.
  assert (Hl : (length ks < S (length (flat ks ++ 0%Z :: rest)))%nat).
  { pose proof (flat_length ks H). rewrite app_length. cbn [length]. lia. }
  exact (cut_bytes_go ks rest [] [] [] _ H (Forall_nil _) Hl).
Qed.

Lemma decode_units_inv D (step : D -> chunk -> option (D * list Z)) d0 : forall units out,
  decode_units D step d0 units = Some out ->
  exists outs, Forall2 (fun u o => exists d1, run_chunks D step d0 u = Some (d1, o)) units outs /\ concat outs = out.
Proof.
  induction units as [|u t IH]; intros out H; cbn [decode_units] in H.
  - inversion H. exists []. split; [constructor | reflexivity].
  - destruct (run_chunks D step d0 u) as [[d1 o1]|] eqn:E; [|discriminate].
    destruct (decode_units D step d0 t) as [o2|] eqn:E2; [|discriminate]. inversion H; subst out.
    destruct (IH o2 eq_refl) as (outs & HF & Hc). exists (o1 :: outs). split; [|cbn [concat]; rewrite Hc; reflexivity].
    constructor; [exists d1; exact E | exact HF].
Qed.

Lemma cut_go_forall (P : chunk -> Prop) : forall ks cur, Forall P cur -> Forall P ks -> Forall (Forall P) (cut_go cur ks).
Proof.
  induction ks as [|k ks IH]; intros cur Hc Hk; cbn [cut_go].
  - constructor; [exact Hc | constructor].
  - inversion Hk as [|k0 ks0 Hk0 Hks]; subst.
    destruct (chunk_independent k && negb (is_nil cur)).
    + constructor; [exact Hc|]. apply IH; [constructor; [exact Hk0 | constructor] | exact Hks].
    + apply IH; [apply Forall_app; split; [exact Hc | constructor; [exact Hk0 | constructor]] | exact Hks].
Qed.

Lemma bytes_ok_flat ks : bytes_ok (flat ks) = true <-> Forall (fun k => bytes_ok (c_bytes k) = true) ks.
Proof.
  induction ks as [|k ks IH]; [split; [constructor | reflexivity]|].
  rewrite flat_cons, bytes_ok_app, IH. split.
  - intros (A & B). constructor; assumption.
  - intros H. inversion H; subst. split; assumption.
Qed.

(* What LZMA2ReaderMT's workers compute, for a stream the single-threaded reader decodes. *)
Theorem lzma2_mt_reader_data dict preset stream sizes fuel data s_end :
  bytes_ok stream = true -> pos_sizes sizes ->
  l2_read_result fuel stream dict preset sizes = Ok (data, 0, s_end) ->
  cr_end (cut_lzma2 stream) = None /\
  exists datas, Forall2 (fun u du => l2_decodes u dict preset du) (cr_units (cut_lzma2 stream)) datas /\
                concat datas = data.
Proof.
  intros Hb Hs Hr. unfold l2_read_result in Hr.
  destruct (lzma2_new stream dict preset) as [s0|e|e|] eqn:Hnew; cbn [obind] in Hr; try discriminate.
  destruct (reader_complete0 dict preset stream sizes fuel s0 data s_end Hb Hnew Hs Hr) as (Ha & Hend).
  set (ds := l2_wsize dict) in *. set (d0 := d_init ds preset) in *.
  destruct (adecode_inv ds d0 stream data _ Ha) as (ks & Hin & Hks & Hdec).
  destruct (cut_lzma2_units ks (m_in s_end) Hks) as (Hu & He). rewrite <- Hin in Hu, He.
  split; [exact He|].
  rewrite <- (unit_cut_sound dstate (astep ds) d0 (astep_indep ds d0) ks) in Hdec.
  destruct (decode_units_inv _ _ _ _ _ Hdec) as (datas & HF & Hc).
  exists datas. split; [|exact Hc]. rewrite Hu.
  (* every unit: stable chunks, bytes *)
  assert (Hbk : Forall (fun k => bytes_ok (c_bytes k) = true) ks).
  { apply bytes_ok_flat. rewrite Hin in Hb. apply bytes_ok_app in Hb. apply Hb. }
  pose proof (cut_go_forall chunk_stable ks [] (Forall_nil _) Hks) as Hst_u.
  pose proof (cut_go_forall _ ks [] (Forall_nil _) Hbk) as Hb_u.
  fold (cut_chunks ks) in Hst_u, Hb_u.
  subst d0 ds. revert HF Hst_u Hb_u. generalize (cut_chunks ks). clear.
  intros units HF. induction HF as [|u du units datas (d1 & Hrun) _ IH]; intros Hst Hbu; cbn [map]; constructor.
  - inversion Hst; subst. inversion Hbu; subst.
    apply (l2_decodes_of_adecode dict preset (unit_bytes u) du []).
    + unfold unit_bytes. apply bytes_ok_app. split; [apply bytes_ok_flat; assumption | reflexivity].
    + unfold unit_bytes. rewrite adecode_flat by assumption. unfold decode_chunks. rewrite Hrun. reflexivity.
  - inversion Hst; subst. inversion Hbu; subst. apply IH; assumption.
Qed.

(* what the writer model writes consists of bytes *)
Lemma aget_list_bytes t : (forall i, 0 <= aget 0 t i < 256) -> forall n i, bytes_ok (aget_list t i n) = true.
Proof.
  intros Ht. induction n as [|k IH]; intros i; cbn [aget_list]; [reflexivity|].
  apply bytes_ok_cons. split; [apply Ht | apply IH].
Qed.

Lemma chunks_ok_bytes lc lp pb r h bytes : chunks_ok lc lp pb r h bytes ->
  (forall i, 0 <= aget 0 (h_data h) i < 256) -> h_dict h <= 2147483648 ->
  match r with RNone _ t => probs_ok t | _ => True end ->
  bytes_ok bytes = true.
Proof.
  induction 1 as [r h He | r h bytes _ IH | r h n bytes Hn Hle Hck IH | r h syms E c' h' usize csize bytes
                  Hne Hs Hp Hbits Hu Hur Hc Hcr Hck IH]; intros Hd Hdict Hr.
  - reflexivity.
  - apply IH; [exact Hd | exact Hdict | exact I].
  - apply bytes_ok_app. split.
    { unfold unc_header. apply bytes_ok_cons. split; [destruct r; cbn; lia|].
      apply bytes_ok_cons. split; [apply wrap8_range|]. apply bytes_ok_cons. split; [apply wrap8_range | reflexivity]. }
    apply bytes_ok_app. split; [apply aget_list_bytes; exact Hd|].
    apply IH; [exact Hd | exact Hdict | destruct r; exact I].
  - destruct (enc_syms_fields _ _ _ _ _ _ Hs) as (Hdata' & _ & _ & Hdict').
    assert (Ht0 : probs_ok (start_probs r)) by (destruct r; cbn [start_probs]; try exact probs_ok_empty; exact Hr).
    assert (Hok : forallb RangeEncProofs.ev_ok E = true).
    { rewrite forallb_ev_ok_same. eapply enc_syms_events_ok; [|exact Hs]. exact Hdict. }
    apply bytes_ok_app. split.
    { unfold lzma_header. apply bytes_ok_app. split.
      - repeat (apply bytes_ok_cons; split; [apply wrap8_range|]). reflexivity.
      - destruct (has_props r); [|reflexivity]. apply bytes_ok_cons. split; [apply wrap8_range | reflexivity]. }
    apply bytes_ok_app. split.
    { unfold chunk_body. apply renc_output_bytes_ok; assumption. }
    apply IH; [rewrite Hdata'; exact Hd | rewrite Hdict'; exact Hdict|].
    unfold RC_MAX_BITS in Hbits.
    apply (renc_events_ok E renc_init (start_probs r) renc_inv_init Ht0 Hok). cbn [renc_init re_cache_size]. lia.
Qed.

Lemma lzma2_write_bytes lc lp pb dict data evs stream : dict <= 2147483648 -> bytes_ok data = true ->
  l2_no_end evs -> lzma2_write lc lp pb dict None data evs = Ok stream -> bytes_ok stream = true.
Proof.
  intros Hdict Hb Hne Hw.
  pose proof (lzma2_frame_sync lc lp pb dict None data evs stream Hdict Hne Hw) as Hck.
  cbn [start_level preset_list] in Hck.
  apply (chunks_ok_bytes lc lp pb _ _ _ Hck).
  - intros i. apply (data_ok_new dict [] data eq_refl Hb i).
  - exact Hdict.
  - exact I.
Qed.

Lemma unit_body_bytes lc lp pb dict data evs body : dict <= 2147483648 ->
  mt_unit_written lc lp pb dict (data, evs, body) -> bytes_ok body = true.
Proof.
  intros Hdict (Hbd & Hne & Hw).
  pose proof (lzma2_write_bytes lc lp pb dict data evs _ Hdict Hbd Hne Hw) as X. apply bytes_ok_app in X. apply X.
Qed.

Lemma mt_bodies_bytes lc lp pb dict us tail : dict <= 2147483648 ->
  Forall (mt_unit_written lc lp pb dict) us -> bytes_ok tail = true ->
  bytes_ok (mt_bodies us ++ 0 :: tail) = true.
Proof.
  intros Hdict Hus Htail. apply bytes_ok_app. split; [|apply bytes_ok_cons; split; [lia | exact Htail]].
  unfold mt_bodies. induction Hus as [|[[data evs] body] us Hu _ IH]; [reflexivity|].
  cbn [map snd concat]. apply bytes_ok_app. split; [|exact IH].
  exact (unit_body_bytes lc lp pb dict data evs body Hdict Hu).
Qed.

(* a reader that demands a dictionary reset accepts only a dictionary-reset chunk *)
Lemma astep_first_indep ds d k r : d_need_dict_reset d = true -> astep ds d k = Some r -> chunk_independent k = true.
Proof.
  intros Hd H. unfold astep in H. destruct (c_bytes k) as [|c b]; [discriminate|].
  destruct (Z.eqb_spec c (c_ctrl k)) as [->|]; [|discriminate]. cbn [negb] in H.
  unfold chunk_independent. rewrite Hd in H.
  destruct ((224 <=? c_ctrl k) || (c_ctrl k =? 1)); [reflexivity | discriminate].
Qed.

Definition starts_indep (ks : list chunk) : Prop :=
  match ks with [] => True | k :: _ => chunk_independent k = true end.

Lemma run_indep_start ds d0 d ks : starts_indep ks -> ks <> [] ->
  run_chunks dstate (astep ds) d ks = run_chunks dstate (astep ds) d0 ks.
Proof.
  destruct ks as [|k t]; [congruence|]. intros Hk _. cbn [run_chunks].
  rewrite (astep_indep ds d0 d k Hk). reflexivity.
Qed.

Lemma run_concat ds d0 : forall kss datas,
  Forall2 (fun ks data => starts_indep ks /\ decode_chunks dstate (astep ds) d0 ks = Some data) kss datas ->
  forall d, exists d1, run_chunks dstate (astep ds) d (concat kss) = Some (d1, concat datas).
Proof.
  induction 1 as [|ks data kss datas (Hs & Hd) _ IH]; intros d; cbn [concat].
  - exists d. reflexivity.
  - rewrite run_app. unfold decode_chunks in Hd.
    destruct ks as [|k t].
    + cbn [run_chunks] in Hd |- *. inversion Hd; subst data. destruct (IH d) as (d1 & ->). exists d1. reflexivity.
    + rewrite (run_indep_start ds d0 d (k :: t) Hs ltac:(discriminate)).
      destruct (run_chunks dstate (astep ds) d0 (k :: t)) as [[d2 o2]|]; [|discriminate]. inversion Hd; subst o2.
      destruct (IH d2) as (d1 & ->). exists d1. reflexivity.
Qed.

Lemma flat_concat kss : flat (concat kss) = concat (map flat kss).
Proof. induction kss as [|ks t IH]; [reflexivity|]. cbn [concat map]. rewrite flat_app, IH. reflexivity. Qed.

(* one unit: its body is a chunk sequence that decodes from the initial state to the unit's data *)
Lemma unit_adecode lc lp pb dict data evs body :
  0 <= lc -> 0 <= lp -> lc + lp <= 4 -> 0 <= pb <= 4 -> dict <= 2147483648 ->
  mt_unit_written lc lp pb dict (data, evs, body) ->
  exists ks, body = flat ks /\ Forall chunk_stable ks /\ starts_indep ks /\
             decode_chunks dstate (astep (l2_wsize dict)) (d_init (l2_wsize dict) None) ks = Some data.
Proof.
  intros Hlc Hlp Hs Hpb Hdict Hu.
  pose proof (unit_body_bytes lc lp pb dict data evs body Hdict Hu) as Hbb. destruct Hu as (Hbd & Hne & Hw).
  assert (Hsz : pos_sizes [1]) by (constructor; [lia | constructor]).
  destruct (lzma2_roundtrip lc lp pb dict data evs (body ++ [0]) [] [1] Hlc Hlp Hs Hpb Hdict Hbd Hne Hw Hsz)
    as (s0 & Hnew & Hrun).
  destruct (Hrun (length data + 2)%nat (le_n _)) as (s_end & Hr & Hin).
  rewrite app_nil_r in Hnew.
  assert (Hbs : bytes_ok (body ++ [0]) = true) by (apply bytes_ok_app; split; [exact Hbb | reflexivity]).
  destruct (reader_complete0 dict None (body ++ [0]) [1] _ s0 data s_end Hbs Hnew Hsz Hr) as (Ha & _).
  rewrite Hin in Ha.
  destruct (adecode_inv _ _ _ _ _ Ha) as (ks & Hb & Hst & Hdec).
  exists ks. split; [apply (app_inv_tail [0]); exact Hb|]. split; [exact Hst|]. split; [|exact Hdec].
  destruct ks as [|k t]; [exact I|]. unfold decode_chunks in Hdec. cbn [run_chunks] in Hdec. cbn [starts_indep].
  destruct (astep (l2_wsize dict) (d_init (l2_wsize dict) None) k) as [r|] eqn:E; [|discriminate].
  eapply astep_first_indep; [|exact E]. reflexivity.
Qed.

(* What LZMA2WriterMT emits (the units' bodies in order, one end marker) decodes - by the
   single-threaded reader, for every history of destination sizes - to the units' data in order. *)
Theorem lzma2_mt_writer_data lc lp pb dict us tail :
  0 <= lc -> 0 <= lp -> lc + lp <= 4 -> 0 <= pb <= 4 -> dict <= 2147483648 ->
  Forall (mt_unit_written lc lp pb dict) us -> bytes_ok tail = true ->
  forall sizes fuel, pos_sizes sizes -> (length (mt_data us) + 2 <= fuel)%nat ->
  exists s0 s_end, lzma2_new (mt_bodies us ++ 0 :: tail) dict None = Ok s0 /\
    lzma2_read_all fuel s0 sizes sizes [] = Ok (mt_data us, 0, s_end) /\
    m_end_reached s_end = true /\ m_error s_end = None /\ m_in s_end = tail.
Proof.
  intros Hlc Hlp Hs Hpb Hdict Hus Htail.
  set (ds := l2_wsize dict). set (d0 := d_init ds None).
  assert (HK : exists kss, map snd us = map flat kss /\ Forall (Forall chunk_stable) kss /\
             Forall2 (fun ks data => starts_indep ks /\ decode_chunks dstate (astep ds) d0 ks = Some data)
                     kss (map (fun u => fst (fst u)) us)).
  { induction Hus as [|[[data evs] body] us Hu _ IH].
    - exists []. split; [reflexivity|]. split; constructor.
    - destruct IH as (kss & E1 & E2 & E3).
      destruct (unit_adecode lc lp pb dict data evs body Hlc Hlp Hs Hpb Hdict Hu) as (ks & Hb & Hst & Hsi & Hdec).
      exists (ks :: kss). cbn [map snd fst]. split; [rewrite Hb, E1; reflexivity|].
      split; [constructor; assumption|]. constructor; [split; assumption | exact E3]. }
  destruct HK as (kss & E1 & E2 & E3).
  assert (Hbod : mt_bodies us = flat (concat kss)) by (unfold mt_bodies; rewrite E1, flat_concat; reflexivity).
  assert (Hstab : Forall chunk_stable (concat kss)).
  { clear -E2. induction E2 as [|ks kss H _ IH]; [constructor|]. cbn [concat]. apply Forall_app. split; assumption. }
  pose proof (mt_bodies_bytes lc lp pb dict us tail Hdict Hus Htail) as Hbytes.
  destruct (run_concat ds d0 kss _ E3 d0) as (d1 & Hrun).
  assert (Ha : adecode ds d0 (mt_bodies us ++ 0 :: tail) = Some (mt_data us, tail)).
  { rewrite Hbod, (adecode_flat ds d0 _ tail Hstab). unfold decode_chunks. rewrite Hrun. reflexivity. }
  intros sizes fuel Hsz Hf.
  exact (reader_sound dict None _ _ tail Hbytes Ha sizes fuel Hsz Hf).
Qed.

(* writer and reader multi-threaded: the units LZMA2ReaderMT cuts from what LZMA2WriterMT wrote
   decode, each by a fresh reader, to pieces that concatenate to the written data *)
Theorem lzma2_mt_writer_mt_reader lc lp pb dict us tail :
  0 <= lc -> 0 <= lp -> lc + lp <= 4 -> 0 <= pb <= 4 -> dict <= 2147483648 ->
  Forall (mt_unit_written lc lp pb dict) us -> bytes_ok tail = true ->
  cr_end (cut_lzma2 (mt_bodies us ++ 0 :: tail)) = None /\
  exists datas, Forall2 (fun u du => l2_decodes u dict None du) (cr_units (cut_lzma2 (mt_bodies us ++ 0 :: tail))) datas /\
                concat datas = mt_data us.
Proof.
  intros Hlc Hlp Hs Hpb Hdict Hus Htail.
  destruct (lzma2_mt_writer_data lc lp pb dict us tail Hlc Hlp Hs Hpb Hdict Hus Htail [1] (length (mt_data us) + 2)%nat
              ltac:(constructor; [lia | constructor]) ltac:(lia)) as (s0 & s_end & Hnew & Hr & _).
  pose proof (mt_bodies_bytes lc lp pb dict us tail Hdict Hus Htail) as Hb.
  apply (lzma2_mt_reader_data dict None _ [1] (length (mt_data us) + 2)%nat (mt_data us) s_end Hb
           ltac:(constructor; [lia | constructor])).
  unfold l2_read_result. rewrite Hnew. cbn [obind]. exact Hr.
Qed.

(* the two closed forms of the chunk-level statements *)
Theorem astep_indep_init : forall (ds : Z) (preset : option (list Z)) (d : dstate) (k : chunk),
  chunk_independent k = true -> astep ds d k = astep ds (d_init ds preset) k.
Proof. intros ds preset. exact (astep_indep ds (d_init ds preset)). Qed.

Theorem lzma2_unit_cut_sound : forall (ds : Z) (preset : option (list Z)) (ks : list chunk),
  decode_units dstate (astep ds) (d_init ds preset) (cut_chunks ks) =
  decode_chunks dstate (astep ds) (d_init ds preset) ks.
Proof.
  intros ds preset. exact (unit_cut_sound dstate (astep ds) (d_init ds preset) (astep_indep ds (d_init ds preset))).
Qed.

(* for the evaluated examples of Properties/C08Units.v *)
Definition ex_done (r : outcome (list Z * Z * lzma2)) : option (list Z * Z * bool) :=
  match r with Ok (d, st, s) => Some (d, st, m_end_reached s) | _ => None end.
Definition ex_body : list Z := removelast ex_stream.
Definition ex_units : list (list Z * list l2ev * list Z) := [(ex_data, ex_evs, ex_body); (ex_data, ex_evs, ex_body)].
