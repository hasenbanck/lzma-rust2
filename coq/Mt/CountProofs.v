(* Mt/CountProofs.v — every dispatched unit is in exactly one place.
   cnt s q = number of places where sequence number q currently is: work queue, a worker that
   holds it (between pop and send), the channel, the reorder map, "already handed out" (q < nr).
   For every configuration:   cnt s q <= 1,  and cnt s q = 0 for numbers not yet dispatched.
   While no unit was lost (no error, receiver alive):  cnt s q = 1 for every dispatched q.
   Consequences: the reorder map and the channel only contain numbers >= nr. *)
From LzVerif Require Import Base.Bytes Mt.Protocol Mt.ProtocolLemmas Mt.SafetyProofs.
Local Open Scope nat_scope.

Fixpoint sumf {A} (g : A -> nat) (l : list A) : nat :=
  match l with [] => 0 | x :: t => g x + sumf g t end.

Lemma sumf_app {A} (g : A -> nat) l1 l2 : sumf g (l1 ++ l2) = sumf g l1 + sumf g l2.
Proof. induction l1 as [|x t IH]; simpl; [reflexivity|]. rewrite IH. lia. Qed.

Lemma sumf_upd {A} (g : A -> nat) l i x y :
  nth_opt l i = Some x -> sumf g (upd_nat l i y) + g x = sumf g l + g y.
Proof.
  revert i; induction l as [|z t IH]; intros i H; simpl in *; [discriminate|].
  destruct i; simpl.
  - inversion H; subst. lia.
  - specialize (IH _ H). lia.
Qed.

Lemma sumf_pos_In {A} (g : A -> nat) l : 0 < sumf g l -> exists x, In x l /\ 0 < g x.
Proof.
  induction l as [|z t IH]; simpl; [lia|]. intros H.
  destruct (g z) eqn:E.
  - destruct IH as [x [Hx Hg]]; [lia|]. exists x; auto.
  - exists z; split; [auto|lia].
Qed.

Lemma sumf_In_le {A} (g : A -> nat) l x : In x l -> g x <= sumf g l.
Proof.
  induction l as [|z t IH]; simpl; [tauto|]. intros [->|H]; [lia|]. specialize (IH H). lia.
Qed.

Lemma sumf_zero {A} (g : A -> nat) l : (forall x, In x l -> g x = 0) -> sumf g l = 0.
Proof.
  induction l as [|z t IH]; intros H; simpl; [reflexivity|].
  rewrite (H z (or_introl eq_refl)), IH; [reflexivity|]. intros x Hx. apply H. right; exact Hx.
Qed.

Definition eq1 (x q : nat) : nat := if Nat.eqb x q then 1 else 0.

Section P.
Context {R : Type}.
Variable f : nat -> R + Z.
Implicit Types (s : state R) (c : cfg).

Definition held1 (q : nat) (w : wpc R) : nat :=
  match w with WInc x => eq1 x q | WSend x _ => eq1 x q | _ => 0 end.
Definition msg1 (q : nat) (m : msg R) : nat :=
  match m with MRes x _ => eq1 x q | MWake => 0 end.
Definition reo1 (q : nat) (e : nat * R) : nat := eq1 (fst e) q.

Definition cnt s (q : nat) : nat :=
  sumf (fun x => eq1 x q) (q_items s) + sumf (held1 q) (ws s) + sumf (msg1 q) (ch s) +
  sumf (reo1 q) (reo s) + (if Nat.ltb q (nr s) then 1 else 0).

(* waking does not change any per-worker quantity that does not distinguish WSleep from WWoken *)
Section WakeSum.
Variable g : wpc R -> nat.
Hypothesis g_sleep : g WSleep = g WWoken.
Lemma sumf_wake_one n l : sumf g (wake_one n l) = sumf g l.
Proof.
  destruct (wake_one_spec n l) as [[-> _]|(i & Hi & ->)]; [reflexivity|].
  pose proof (sumf_upd g l i _ WWoken Hi). lia.
Qed.
Lemma sumf_wake_all l : sumf g (wake_all l) = sumf g l.
Proof.
  induction l as [|w t IH]; simpl; [reflexivity|]. rewrite IH. destruct w; simpl; try rewrite g_sleep; reflexivity.
Qed.
End WakeSum.

Definition fail1 (w : wpc R) : nat := match w with WDecE _ | WSetErr _ => 1 | _ => 0 end.

Lemma reo_remove q k (l : list (nat * R)) :
  sumf (reo1 q) (remove_key k l) = if Nat.eqb k q then 0 else sumf (reo1 q) l.
Proof.
  induction l as [|[k' r] t IH]; simpl.
  - destruct (Nat.eqb k q); reflexivity.
  - destruct (Nat.eqb_spec k k'); simpl.
    + subst. rewrite IH. unfold reo1, eq1; simpl. destruct (Nat.eqb k' q); reflexivity.
    + rewrite IH. unfold reo1, eq1; simpl. destruct (Nat.eqb_spec k q); [|reflexivity].
      subst. destruct (Nat.eqb_spec k' q); [congruence|reflexivity].
Qed.

Lemma reo_lookup q (l : list (nat * R)) r : lookup q l = Some r -> 1 <= sumf (reo1 q) l.
Proof.
  induction l as [|[k' r'] t IH]; simpl; [discriminate|].
  unfold reo1 at 1, eq1; simpl. destruct (Nat.eqb_spec q k'); intros H.
  - subst. rewrite Nat.eqb_refl. lia.
  - specialize (IH H). lia.
Qed.

Lemma reo_In q (l : list (nat * R)) r : In (q, r) l -> 1 <= sumf (reo1 q) l.
Proof.
  intros H. pose proof (sumf_In_le (reo1 q) l (q, r) H) as L. unfold reo1 at 1, eq1 in L; simpl in L.
  rewrite Nat.eqb_refl in L. assumption.
Qed.

Lemma ch_In q (l : list (msg R)) r : In (MRes q r) l -> 1 <= sumf (msg1 q) l.
Proof.
  intros H. pose proof (sumf_In_le (msg1 q) l _ H) as L. unfold msg1 at 1, eq1 in L.
  rewrite Nat.eqb_refl in L. assumption.
Qed.

Lemma items_In q (l : list nat) : In q l -> 1 <= sumf (fun x => eq1 x q) l.
Proof.
  intros H. pose proof (sumf_In_le (fun x => eq1 x q) l _ H) as L. cbv beta in L. unfold eq1 in L.
  rewrite Nat.eqb_refl in L. assumption.
Qed.

Lemma items_pos_In q (l : list nat) : 0 < sumf (fun x => eq1 x q) l -> In q l.
Proof.
  intros H. apply sumf_pos_In in H. destruct H as [x [Hx Hg]]. unfold eq1 in Hg.
  destruct (Nat.eqb_spec x q); [subst; assumption|lia].
Qed.

Lemma held_pos_In q (l : list (wpc R)) : 0 < sumf (held1 q) l -> exists w, In w l /\ holds_unit w q.
Proof.
  intros H. apply sumf_pos_In in H. destruct H as [w [Hw Hg]]. exists w. split; [assumption|].
  unfold held1, eq1 in Hg. destruct w; try lia; destruct (Nat.eqb_spec s q); try lia; subst;
    unfold holds_unit; eauto.
Qed.

Lemma ch_pos_In q (l : list (msg R)) : 0 < sumf (msg1 q) l -> exists r, In (MRes q r) l.
Proof.
  intros H. apply sumf_pos_In in H. destruct H as [m [Hm Hg]].
  unfold msg1, eq1 in Hg. destruct m; try lia. destruct (Nat.eqb_spec s q); [subst; eauto|lia].
Qed.

Lemma reo_pos_In q (l : list (nat * R)) : 0 < sumf (reo1 q) l -> exists r, In (q, r) l.
Proof.
  intros H. apply sumf_pos_In in H. destruct H as [[k r] [Hm Hg]].
  unfold reo1, eq1 in Hg; simpl in Hg. destruct (Nat.eqb_spec k q); [subst; eauto|lia].
Qed.

(* no unit has been lost so far: no error was ever stored (the shutdown flag is raised together
   with the first error and never lowered), the receiver is alive, no worker is on its error path *)
Definition lossless s : Prop :=
  shut s = false /\ rx_alive s = true /\ sumf fail1 (ws s) = 0.

Record I4 s : Prop := {
  i4_le : forall q, cnt s q <= 1;
  i4_zero : forall q, nde s <= q -> cnt s q = 0;
  i4_one : lossless s -> forall q, q < nde s -> cnt s q = 1
}.

(* the step is the coordinator's push_back *)
Definition pushing (t : tid) s : bool :=
  match t, pc s with Co _, CPush _ => true | _, _ => false end.

Ltac eqs :=
  unfold eq1 in *;
  repeat match goal with
         | |- context [Nat.eqb ?a ?b] => destruct (Nat.eqb_spec a b); subst
         | H : context [Nat.eqb ?a ?b] |- _ => destruct (Nat.eqb_spec a b); subst
         | |- context [Nat.ltb ?a ?b] => destruct (Nat.ltb_spec a b)
         | H : context [Nat.ltb ?a ?b] |- _ => destruct (Nat.ltb_spec a b)
         end; try lia.

(* the effect of one step on cnt, as linear facts *)
Ltac upd_facts :=
  repeat match goal with
         | H : nth_opt (ws ?s) ?i = Some ?w |- _ =>
             match goal with
             | |- context [sumf ?g (upd_nat (ws s) i ?w')] =>
                 let E := fresh "E" in
                 pose proof (sumf_upd g (ws s) i w w' H) as E; cbn [held1 fail1] in E;
                 generalize dependent (sumf g (upd_nat (ws s) i w')); intros
             | H2 : context [sumf ?g (upd_nat (ws s) i ?w')] |- _ =>
                 let E := fresh "E" in
                 pose proof (sumf_upd g (ws s) i w w' H) as E; cbn [held1 fail1] in E;
                 generalize dependent (sumf g (upd_nat (ws s) i w')); intros
             end
         end.

Ltac cnt_facts :=
  unfold cnt, nde in *; msimpl; rw_pc; rw_eqs; rw_goal; cbn [post_push] in *;
  try match goal with H : lookup _ _ = Some _ |- _ => pose proof (reo_lookup _ _ _ H) end;
  rewrite ?sumf_app, ?reo_remove in *; rewrite ?sumf_wake_one, ?sumf_wake_all in * by reflexivity;
  cbn [sumf held1 fail1 msg1 reo1 fst insert] in *;
  rewrite ?reo_remove in *;
  unfold reo1 in *; cbn [sumf held1 fail1 msg1 fst] in *;
  upd_facts.

(* [nde] counts the push_back steps -- except that a push refused because the queue is closed
   (which raises the shutdown flag) is counted as well *)
Lemma step_nde c s t s' : step f c s t = Some s' ->
  (if pushing t s then S (nde s) else nde s) <= nde s' /\
  (shut s' = false -> nde s' = if pushing t s then S (nde s) else nde s).
Proof.
  intros Hst. unfold nde, pushing.
  step_split t Hst; rw_pc; pc_cases; cbn [post_push]; split; try discriminate; auto.
Qed.

Lemma step_lossless c s t s' : step f c s t = Some s' -> lossless s' -> lossless s.
Proof.
  intros Hst (LS & LR & LF). destruct (step_flags f c s t s' Hst) as (F1 & _ & F3).
  split; [exact (F1 LS)|]. split; [exact (F3 LR)|].
  destruct t as [k|i]; cbn [step] in Hst.
  - destruct (co_step_ws c s k s' Hst) as [E|[E|[E|[_ E]]]]; rewrite E in LF;
      rewrite ?sumf_wake_one, ?sumf_wake_all, ?sumf_app in LF by reflexivity; [assumption..|lia].
  - wk_cases Hst; msimpl_in LS; msimpl_in LF; try discriminate;
      match type of LF with sumf fail1 (upd_nat (ws s) i ?w') = 0 =>
        match goal with H : nth_opt (ws s) i = Some ?w |- _ =>
          pose proof (sumf_upd fail1 (ws s) i w w' H) as E; cbn [fail1] in E; lia
        end
      end.
Qed.

(* One step moves a unit from one place to the next, or loses it (a failing unit function, a send
   to a dropped receiver, the receiver dropped with messages in the channel); only push_back adds
   one, the unit number [nde s].  A step into a lossless state has lost nothing. *)
Lemma step_cnt c s t s' q : cnt s q <= 1 -> step f c s t = Some s' ->
  let n := if pushing t s then eq1 (nde s) q else 0 in
  cnt s' q <= cnt s q + n /\ (lossless s' -> cnt s' q = cnt s q + n).
Proof.
  intros LE Hst. unfold lossless, pushing.
  step_split t Hst; cbv zeta; (split; [|intros (LS & LR & LF); msimpl_in LS; msimpl_in LR; msimpl_in LF; try discriminate]).
  all: try (unfold cnt; mcbn; lia).
  all: cnt_facts; split_andb; subst; eqs.
Qed.

Lemma step_I4 c s t s' : I4 s -> step f c s t = Some s' -> I4 s'.
Proof.
  intros [LE ZE ONE] Hst. destruct (step_nde c s t s' Hst) as [Hn1 Hn2].
  pose proof (fun q => step_cnt c s t s' q (LE q) Hst) as Hc. cbv zeta in Hc.
  constructor.
  - intros q. destruct (Hc q) as [L _]. pose proof (LE q). pose proof (ZE q).
    unfold eq1 in *. destruct (pushing t s); [destruct (Nat.eqb_spec (nde s) q)|]; lia.
  - intros q Hq. destruct (Hc q) as [L _].
    assert (cnt s q = 0) by (apply ZE; destruct (pushing t s); lia).
    unfold eq1 in *. destruct (pushing t s); [destruct (Nat.eqb_spec (nde s) q)|]; lia.
  - intros Hl q Hq. destruct (Hc q) as [_ E]. rewrite (E Hl). rewrite (Hn2 (proj1 Hl)) in Hq.
    pose proof (step_lossless c s t s' Hst Hl) as Hl0.
    unfold eq1. destruct (pushing t s).
    + destruct (Nat.eqb_spec (nde s) q); [rewrite ZE by lia; reflexivity|rewrite ONE by (auto; lia); lia].
    + rewrite ONE by auto. lia.
Qed.

Theorem inv_I4 c src p s : reachable f c src p s -> I4 s.
Proof.
  apply reach_inv.
  - constructor; unfold cnt, nde, init; simpl; intros; destruct (k_spawn_new c); simpl; lia.
  - intros s0 t s' _. apply step_I4.
Qed.

(* consequences: whatever is in the queue, the channel or the reorder map has not been handed out yet *)
Lemma i4_ge s q : I4 s ->
  In q (q_items s) \/ (exists r, In (MRes q r) (ch s)) \/ (exists r, In (q, r) (reo s)) -> nr s <= q.
Proof.
  intros H4 Hi. pose proof (i4_le _ H4 q) as L. unfold cnt in L.
  assert (1 <= sumf (fun x => eq1 x q) (q_items s) + sumf (msg1 q) (ch s) + sumf (reo1 q) (reo s)).
  { destruct Hi as [Hi|[[r Hi]|[r Hi]]];
      [pose proof (items_In _ _ Hi)|pose proof (ch_In _ _ _ Hi)|pose proof (reo_In _ _ _ Hi)]; lia. }
  destruct (Nat.ltb_spec q (nr s)); lia.
Qed.

Lemma ch_ge c src p s q r : reachable f c src p s -> In (MRes q r) (ch s) -> nr s <= q.
Proof. intros Hr Hi. apply (i4_ge s q (inv_I4 c src p s Hr)). eauto. Qed.

End P.
