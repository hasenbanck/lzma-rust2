(* Mt/LivenessProofs.v — C09 / C10 on the REPAIRED protocol model (all fx_* flags set):
     mt_no_deadlock   no reachable state with an unfinished call (or a pending operation) is stuck
     drop_nonblocking Drop is a fixed sequence of at most 6 coordinator steps; the only step that
                      can wait is the acquisition of the queue mutex, whose holder can always move
     drop_releases    once Drop has finished, a state in which nothing can move has all workers exited
     holder_releases  the worker holding the mutex releases it within three of its own steps
     spawn_bound      at most clamp(num_workers, 1, 256) workers are ever spawned (any configuration)
     mt_complete      success is only reported with all units returned, all of them successful
     mt_error_sticky  State::Error is never left, and no success is reported from it
   Termination (mt_measure) is in MeasureProofs.v; refutations for the pinned code in Refuted.v. *)
From LzVerif Require Import Base.Bytes Mt.Protocol Mt.ProtocolLemmas Mt.ProtocolInv Mt.SafetyProofs Mt.CountProofs
  Mt.LiveInv Mt.LiveInv3.
Local Open Scope nat_scope.

Section P.
Context {R : Type}.
Variable f : nat -> R + Z.
Implicit Types (s : state R) (c : cfg).

Lemma lookup_none_count (l : list (nat * R)) k : lookup k l = None -> sumf (reo1 k) l = 0.
Proof.
  induction l as [|[k' r] t IH]; simpl; [reflexivity|].
  unfold reo1 at 1, eq1; simpl. destruct (Nat.eqb_spec k k'); [discriminate|].
  intros H. rewrite (IH H). destruct (Nat.eqb_spec k' k); [congruence|reflexivity].
Qed.

Definition needs_lock (p : cpc) : bool :=
  match p with CLenR | CLenB _ | CPush _ | CLenS _ _ | CCloseLock _ => true | _ => false end.

Lemma co_blocked c s pick : co_step c s pick = None ->
  pc s = CDone \/ (pc s = CIdle /\ prog s = []) \/ (exists g, pc s = CRecv g true /\ ch s = []) \/
  (needs_lock (pc s) = true /\ lock_free s = false).
Proof.
  unfold co_step. destruct (pc s) eqn:Hpc; intros H; auto.
  all: repeat match type of H with
              | context [match ?x with _ => _ end] => destruct x eqn:?
              | context [if ?b then _ else _] => destruct b eqn:?
              end; try discriminate; eauto 8.
Qed.

Lemma wk_blocked c s i : wk_step f c s i = None ->
  nth_opt (ws s) i = None \/ nth_opt (ws s) i = Some WSleep \/ nth_opt (ws s) i = Some WExit \/
  ((nth_opt (ws s) i = Some WLock \/ nth_opt (ws s) i = Some WWoken) /\ lock_free s = false).
Proof.
  unfold wk_step. destruct (nth_opt (ws s) i) as [w|] eqn:E; [|auto]. intros H.
  destruct w; try discriminate; auto;
    repeat match type of H with
           | context [match ?x with _ => _ end] => destruct x eqn:?
           | context [if ?b then _ else _] => destruct b eqn:?
           end; try discriminate; auto 8.
Qed.

Lemma holder_enabled c s i w : nth_opt (ws s) i = Some w -> holds_lock w = true -> wk_step f c s i <> None.
Proof.
  intros H Hh. unfold wk_step. rewrite H. destruct w; try discriminate;
    repeat match goal with
           | |- context [match ?x with _ => _ end] => destruct x
           | |- context [if ?b then _ else _] => destruct b
           end; discriminate.
Qed.

(* whoever waits for the queue mutex waits for a worker inside steal()'s critical section, and
   that worker can move *)
Lemma lock_holder_enabled c s : I1 c s -> lock_free s = false -> co_holds (pc s) = false ->
  exists j w, q_lock s = Some (Wk j) /\ nth_opt (ws s) j = Some w /\ holds_lock w = true /\
              wk_step f c s j <> None.
Proof.
  intros H1 Hl Hc. unfold lock_free in Hl. destruct (q_lock s) as [[k|j]|] eqn:Eq; try discriminate.
  - destruct (i1_lock_c c s H1 _ Eq) as (_ & _ & X). congruence.
  - destruct (i1_lock_o c s H1 _ Eq) as (w & Hw & Hh). exists j, w. eauto using holder_enabled.
Qed.

Lemma any_worker_enabled_false c s n :
  any_worker_enabled f c s n = false -> forall i, i < n -> wk_step f c s i = None.
Proof.
  induction n as [|k IH]; intros H i Hi; [lia|]. simpl in H. apply orb_false_iff in H. destruct H as [H1 H2].
  destruct (Nat.eq_dec i k) as [->|Hne].
  - unfold enabled in H1. simpl in H1. destruct (wk_step f c s k); [discriminate|reflexivity].
  - apply IH; [assumption|lia].
Qed.

Lemma any_worker_enabled_true c s n :
  any_worker_enabled f c s n = true -> exists i, wk_step f c s i <> None.
Proof.
  induction n as [|k IH]; intros H; [discriminate|]. simpl in H. apply orb_true_iff in H. destruct H as [H|H].
  - exists k. unfold enabled in H. simpl in H. destruct (wk_step f c s k); [discriminate|discriminate].
  - auto.
Qed.

(* if no worker can move, every worker sleeps on the condvar or has exited *)
Lemma all_workers_blocked c src p s :
  reachable f c src p s -> co_holds (pc s) = false ->
  (forall i, i < length (ws s) -> wk_step f c s i = None) ->
  forall w, In w (ws s) -> w = WSleep \/ w = WExit.
Proof.
  intros Hr Hc Hb w Hw. pose proof (inv_I1 f c src p s Hr) as H1.
  destruct (In_nth_opt _ _ Hw) as [i Hi]. pose proof (nth_opt_lt _ _ _ Hi) as Li.
  destruct (wk_blocked c s i (Hb i Li)) as [E|[E|[E|[E Hl]]]];
    [congruence|left; congruence|right; congruence|].
  exfalso. destruct (lock_holder_enabled c s H1 Hl Hc) as (j & w' & _ & Hw' & _ & Hen).
  apply Hen, Hb. eapply nth_opt_lt; eauto.
Qed.

(* a state in which nothing can move *)
Lemma stuck_blocked c s : stuck f c s = true ->
  co_step c s 0 = None /\ forall i, i < length (ws s) -> wk_step f c s i = None.
Proof.
  unfold stuck. intros St. apply andb_true_iff in St. destruct St as [S1 S2].
  apply negb_true_iff in S1. apply negb_true_iff in S2. split.
  - unfold enabled in S1. simpl in S1. destruct (co_step c s 0); [discriminate|reflexivity].
  - exact (any_worker_enabled_false c s _ S2).
Qed.

(* the caller has something in progress or still to do *)
Definition busy s : bool :=
  match pc s with
  | CDone => false
  | CIdle => match prog s with [] => false | _ => true end
  | _ => true
  end.

Theorem mt_no_deadlock c src p s :
  Fx c -> reachable f c src p s -> busy s = true -> stuck f c s = false.
Proof.
  intros Hfx Hr Hb.
  destruct (stuck f c s) eqn:St; [|reflexivity]. exfalso.
  destruct (stuck_blocked c s St) as [Ec Wb].
  pose proof (inv_I1 f c src p s Hr) as H1. pose proof (inv_I3 f c src p s Hfx Hr) as H3.
  pose proof (inv_ctl f c src p s Hfx Hr) as OK.
  destruct (co_blocked c s 0 Ec) as [E|[[E1 E2]|[[g [E1 E2]]|[E1 E2]]]].
  - unfold busy in Hb. rewrite E in Hb. discriminate.
  - unfold busy in Hb. rewrite E1, E2 in Hb. discriminate.
  - (* blocking recv() on an empty channel *)
    assert (Hch : co_holds (pc s) = false) by (rewrite E1; reflexivity).
    pose proof (all_workers_blocked c src p s Hr Hch Wb) as AW.
    assert (He : err s = None).
    { destruct (err s) eqn:Ee; [|reflexivity]. exfalso.
      destruct (i3_wake c s H3) as [X|X]; [congruence|rewrite E1; reflexivity| |].
      - rewrite E2 in X. destruct X.
      - destruct (AW _ X); discriminate. }
    rewrite E1 in OK. destruct (ctl_recv _ _ _ _ OK) as [Hph _].
    assert (Hsh : shut s = false).
    { destruct (shut s) eqn:Es; [|reflexivity]. exfalso.
      destruct (i3_shut c s H3 Es) as [X|[X|X]]; [rewrite E1 in X; discriminate|congruence|].
      destruct Hph; congruence. }
    assert (Hrx : rx_alive s = true).
    { destruct (rx_alive s) eqn:Er; [reflexivity|]. pose proof (i1_rx c s H1 Er). congruence. }
    assert (Hcl : q_closed s = false).
    { destruct (q_closed s) eqn:Eq; [|reflexivity]. pose proof (i1_closed c s H1 Eq) as X. rewrite E1 in X. discriminate. }
    assert (Hlt : nr s < nd s).
    { destruct Hph as [Hph|Hph].
      - rewrite Hph in OK. destruct g.
        + apply (i3_rdrecv c s H3); assumption.
        + apply (i3_back c s H3 (KBack d)); [rewrite E1|]; reflexivity.
        + pose proof (ctl_drain_nb _ _ OK). discriminate.
        + apply (i3_back c s H3 KFlush); [rewrite E1|]; reflexivity.
        + exfalso. eapply ctl_finish_norun; [|exact OK]. reflexivity.
      - apply (i3_drecv c s H3 g); assumption. }
    (* the awaited unit is in exactly one place, and that place must be the queue *)
    pose proof (inv_I4 f c src p s Hr) as H4.
    assert (Hll : lossless s).
    { unfold lossless. repeat split; auto.
      apply sumf_zero. intros w Hw. destruct (AW w Hw); subst; reflexivity. }
    pose proof (i4_one _ H4 Hll (nr s)) as One.
    assert (Hnde : nr s < nde s) by (unfold nde; destruct (post_push (pc s)); lia).
    specialize (One Hnde). unfold cnt in One.
    rewrite E2 in One. cbn [sumf] in One.
    rewrite (lookup_none_count _ _ (i3_notin c s H3 ltac:(rewrite E1; reflexivity))) in One.
    assert (Hh : sumf (held1 (nr s)) (ws s) = 0).
    { apply sumf_zero. intros w Hw. destruct (AW w Hw); subst; reflexivity. }
    rewrite Hh in One. rewrite Nat.ltb_irrefl in One.
    assert (Hq : q_items s <> []).
    { intros Eq. rewrite Eq in One. simpl in One. lia. }
    destruct (i3_live c s H3 Hq Hsh Hcl Hrx) as [(w & Hw & Hl)|[[d X]|[_ X]]].
    + destruct (AW _ Hw); subst; discriminate.
    + congruence.
    + rewrite E1 in X. discriminate.
  - (* waiting for the queue mutex: its holder can move *)
    assert (Hc : co_holds (pc s) = false) by (destruct (pc s); try discriminate E1; reflexivity).
    destruct (lock_holder_enabled c s H1 E2 Hc) as (j & w' & _ & Hw' & _ & Hen).
    apply Hen, Wb. eapply nth_opt_lt; eauto.
Qed.

Theorem spawn_bound c src p s : reachable f c src p s -> length (ws s) <= Nat.max 1 (Nat.min (k_workers c) 256).
Proof. intros Hr. exact (i1_bound c s (inv_I1 f c src p s Hr)). Qed.

Definition drop_rank (p : cpc) : nat :=
  match p with
  | CShut false => 6 | CCloseLock false => 5 | CCloseStore false => 4 | CCloseNotify false => 3
  | CCloseUnlock false => 2 | CDropRx => 1 | _ => 0
  end.
Definition drop_pc (p : cpc) : bool :=
  match p with
  | CShut false | CCloseLock false | CCloseStore false | CCloseNotify false | CCloseUnlock false | CDropRx => true
  | _ => false
  end.
Definition hold_rank (w : wpc R) : nat := match w with WPop => 3 | WChk => 2 | WWait => 1 | _ => 0 end.

(* Every step of Drop (for every configuration, pinned or repaired) is enabled and leads to the next
   program point of the fixed sequence  shutdown.store, [lock], closed.store, notify_all, [unlock],
   drop(rx)  — except the acquisition of the queue mutex in the repaired close(), which waits for a
   worker that is inside the critical section of steal(); that worker is enabled. *)
Theorem drop_nonblocking c src p s :
  reachable f c src p s -> drop_pc (pc s) = true ->
  (exists s', co_step c s 0 = Some s' /\ drop_rank (pc s') < drop_rank (pc s) /\
              (drop_pc (pc s') = true \/ pc s' = CDone)) \/
  (pc s = CCloseLock false /\
   exists i w, q_lock s = Some (Wk i) /\ nth_opt (ws s) i = Some w /\ holds_lock w = true /\
               wk_step f c s i <> None).
Proof.
  intros Hr Hd. pose proof (inv_I1 f c src p s Hr) as H1.
  destruct (pc s) eqn:Hpc; try discriminate; try (destruct fin; try discriminate).
  all: unfold co_step; rewrite Hpc.
  all: try solve [ left; eexists; split; [reflexivity|]; msimpl; destruct (fx_close c); cbn; auto ].
  all: try solve [ left; destruct (fx_close c); eexists; (split; [reflexivity|]); msimpl; cbn; auto ].
  - (* CCloseLock: the mutex is free, or a worker inside steal() holds it *)
    destruct (lock_free s) eqn:El.
    + left; eexists; split; [reflexivity|]; msimpl; cbn; auto.
    + right. split; [reflexivity|]. apply (lock_holder_enabled c s H1 El). rewrite Hpc. reflexivity.
Qed.

(* the worker that holds the mutex releases it within three of its own steps *)
Theorem holder_releases c src p s i w s' :
  reachable f c src p s -> nth_opt (ws s) i = Some w -> holds_lock w = true ->
  wk_step f c s i = Some s' ->
  q_lock s' = None \/ exists w', nth_opt (ws s') i = Some w' /\ holds_lock w' = true /\ hold_rank w' < hold_rank w.
Proof.
  intros Hr Hw Hh Hst. unfold wk_step in Hst. rewrite Hw in Hst.
  destruct w; try discriminate Hh; destr_matches Hst; msimpl; auto.
  all: right; eexists; split; [eapply nth_opt_upd_eq; eauto|split; [reflexivity|cbn; lia]].
Qed.

(* a worker's step never moves the coordinator *)
Lemma wk_step_pc c s i s' : wk_step f c s i = Some s' -> pc s' = pc s.
Proof. intros Hst. wk_cases Hst; reflexivity. Qed.

Theorem drop_releases c src p s :
  Fx c -> reachable f c src p s -> pc s = CDone -> stuck f c s = true -> all_exited s = true.
Proof.
  intros Hfx Hr Hd St.
  destruct (stuck_blocked c s St) as [_ Wb].
  pose proof (inv_I1 f c src p s Hr) as H1. pose proof (inv_I3 f c src p s Hfx Hr) as H3.
  assert (Hch : co_holds (pc s) = false) by (rewrite Hd; reflexivity).
  pose proof (all_workers_blocked c src p s Hr Hch Wb) as AW.
  unfold all_exited. apply forallb_forall. intros w Hw.
  destruct (AW w Hw) as [->| ->]; [|reflexivity].
  exfalso. assert (Hc : q_closed s = true) by (apply (i1_stored c s H1); rewrite Hd; reflexivity).
  destruct (i3_nosleep c s H3 Hc) as [[fin X]|X]; [congruence|].
  specialize (X _ Hw). discriminate.
Qed.

Lemma map_inl_all (o : list R) a n :
  map inl o = map f (seq a n) -> forall q, a <= q < a + n -> exists r, f q = inl r.
Proof.
  revert o a. induction n as [|k IH]; intros o a H q Hq; [lia|].
  destruct o as [|r o]; [discriminate|]. simpl in H. inversion H.
  destruct (Nat.eq_dec q a) as [->|Hne]; [eauto|]. eapply IH; eauto. lia.
Qed.

(* the three places where the success-end value is returned: the reader's get_next in phase
   Finished, a get_next whose non-blocking recv() found nothing (writers only), the end of finish() *)
Lemma step_returns_none c s t s' : step f c s t = Some s' -> results s' = results s ++ [RNone] ->
  nd s' = nd s /\ nr s' = nr s /\
  ((pc s = CTake KRead /\ ph s = PFin) \/ (pc s = CRecv KRead false /\ k_kind c = Writer) \/
   fin_chain (pc s) = true).
Proof.
  intros Hst.
  assert (Hne : forall (l : list (cres R)) x, l <> l ++ [x]).
  { intros l x E. apply (f_equal (@length _)) in E. rewrite app_length in E. simpl in E. lia. }
  step_split t Hst; intros Hres; try (destruct (Hne _ _ Hres)); apply app_inv_head in Hres.
  all: try discriminate Hres.
  all: try (destruct (flush_eff_res _ Hres)); try (destruct (disp_eff_res _ _ _ Hres)).
  all: try (destruct (ret_eff_res_none _ _ _ Hres) as [-> E]; try discriminate E).
  all: rw_pc; auto 6.
Qed.

(* Whenever a call returns the success-end value (reader: Ok(None) = clean end of data; writer:
   finish() = Ok(inner)), every dispatched unit has been handed out, in order, and all of them were
   successes of the unit function: success is never reported with part of the data missing, and
   never when a unit failed. *)
Theorem mt_complete c src p s t s' :
  Fx c -> reachable f c src p s -> step f c s t = Some s' -> results s' = results s ++ [RNone] ->
  nr s' = nd s' /\ map inl (out s') = map f (seq 0 (nd s')) /\
  forall q, q < nd s' -> exists r, f q = inl r.
Proof.
  intros Hfx Hr Hst Hres.
  destruct (mt_safety f c src p s' ltac:(econstructor; eassumption)) as [O NR].
  assert (Hge : nd s' <= nr s').
  { pose proof (inv_ctl f c src p s Hfx Hr) as OK.
    destruct (step_returns_none c s t s' Hst Hres) as (-> & -> & [[_ Hf]|[[Hp Hk]|Hfc]]).
    - exact (i3_pfin c s (inv_I3 f c src p s Hfx Hr) Hf).
    - rewrite Hp, Hk in OK. apply ctl_kind in OK. discriminate OK.
    - exact (i3_fin c s (inv_I3 f c src p s Hfx Hr) Hfc). }
  assert (E : nr s' = nd s') by lia. split; [assumption|]. rewrite <- E. split; [assumption|].
  intros q Hq. eapply map_inl_all; [exact O|lia].
Qed.

Lemma ctl_fin_noerr k p : fin_chain p = true -> ctl_ok k p PErr = true -> False.
Proof.
  unfold ctl_ok. intros Hp H. repeat (apply andb_true_iff in H; destruct H as [H ?]).
  destruct p as [| | | | | | | | | | | | | | [] | [] | [] | [] | [] | |]; discriminate.
Qed.

(* C09: State::Error is final.
   Once the coordinator is in State::Error (a worker error or a source error was returned to the
   caller, or the source failed / the input was empty: the CSetErr step), it stays there, and the
   success-end value is never returned afterwards: every later call returns data that was already
   complete and in order (C08), or Err. *)
Theorem mt_error_sticky c src p s t s' :
  Fx c -> reachable f c src p s -> ph s = PErr -> step f c s t = Some s' ->
  ph s' = PErr /\ results s' <> results s ++ [RNone].
Proof.
  intros Hfx Hr Hp Hst. pose proof (inv_ctl f c src p s Hfx Hr) as OK.
  split; [exact (step_ph_err f c s t s' Hfx OK Hp Hst)|]. intros Hres.
  destruct (step_returns_none c s t s' Hst Hres) as (_ & _ & [[_ Hf]|[[Hq Hk]|Hfc]]).
  - congruence.
  - rewrite Hq, Hk in OK. apply ctl_kind in OK. discriminate OK.
  - rewrite Hp in OK. exact (ctl_fin_noerr _ _ Hfc OK).
Qed.

End P.
