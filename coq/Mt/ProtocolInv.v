(* Mt/ProtocolInv.v — structural invariants of the MT protocol model, valid for EVERY configuration
   (pinned or repaired code): thread bound, ownership of the queue mutex, the queue is empty while
   a worker is between "saw no item" and wait(), the closed flag / receiver follow the program
   point of the coordinator. *)
From LzVerif Require Import Base.Bytes Mt.Protocol Mt.ProtocolLemmas.
Local Open Scope nat_scope.

Definition holds_lock {R} (w : wpc R) : bool := match w with WPop | WChk | WWait => true | _ => false end.
Definition sees_empty {R} (w : wpc R) : bool := match w with WChk | WWait => true | _ => false end.
Definition co_holds (p : cpc) : bool :=
  match p with CCloseStore _ | CCloseNotify _ | CCloseUnlock _ => true | _ => false end.
(* the coordinator is at or past close(): it will never dispatch again *)
Definition closing (p : cpc) : bool :=
  match p with
  | CCloseNotify _ | CCloseUnlock _ | CShut false | CCloseLock false | CCloseStore false | CDropRx | CDone => true
  | _ => false
  end.
Definition after_store (p : cpc) : bool :=
  match p with CCloseNotify _ | CCloseUnlock _ | CDropRx | CDone => true | _ => false end.
Definition lock_pc (p : cpc) : bool :=
  match p with CCloseLock _ | CCloseUnlock _ => true | _ => false end.

Section P.
Context {R : Type}.
Variable f : nat -> R + Z.
Implicit Types (s : state R) (c : cfg).

Record I1 c s : Prop := {
  i1_bound : length (ws s) <= maxw c;
  i1_spawn : forall d, pc s = CSpawn d -> length (ws s) < maxw c;
  i1_lock_w : forall i w, nth_opt (ws s) i = Some w -> holds_lock w = true -> q_lock s = Some (Wk i);
  i1_lock_o : forall i, q_lock s = Some (Wk i) -> exists w, nth_opt (ws s) i = Some w /\ holds_lock w = true;
  i1_lock_c : forall k, q_lock s = Some (Co k) -> k = 0 /\ fx_close c = true /\ co_holds (pc s) = true;
  i1_lock_c' : fx_close c = true -> co_holds (pc s) = true -> q_lock s = Some (Co 0);
  i1_empty : forall w, In w (ws s) -> sees_empty w = true -> q_items s = [];
  i1_rx : rx_alive s = false -> pc s = CDone;
  i1_closed : q_closed s = true -> closing (pc s) = true;
  i1_stored : after_store (pc s) = true -> q_closed s = true;
  i1_fx : lock_pc (pc s) = true -> fx_close c = true
}.

Lemma maxw_pos c : 1 <= maxw c. Proof. unfold maxw. lia. Qed.

Lemma holds_not_sleep (w : wpc R) : holds_lock w = true -> is_sleep w = false.
Proof. destruct w; simpl; congruence. Qed.
Lemma sees_holds (w : wpc R) : sees_empty w = true -> holds_lock w = true.
Proof. destruct w; simpl; congruence. Qed.

Ltac ws_len := rewrite ?wake_one_length, ?wake_all_length, ?upd_nat_length, ?app_length; simpl.

Lemma step_i1_bound c s t s' : I1 c s -> step f c s t = Some s' -> length (ws s') <= maxw c.
Proof.
  intros [B S _ _ _ _ _ _ _ _ _] Hst. step_split t Hst; ws_len; try lia.
  specialize (S _ eq_refl). lia.
Qed.

Lemma step_i1_spawn c s t s' : I1 c s -> step f c s t = Some s' ->
  forall d, pc s' = CSpawn d -> length (ws s') < maxw c.
Proof.
  intros [B S _ _ _ _ _ _ _ _ _] Hst. step_split t Hst; intros d' Hd; ws_len;
    try discriminate; try congruence; pre; pc_cases; try discriminate; eauto.
Qed.

Lemma step_i1_lock_w c s t s' : I1 c s -> step f c s t = Some s' ->
  forall i w, nth_opt (ws s') i = Some w -> holds_lock w = true -> q_lock s' = Some (Wk i).
Proof.
  intros [_ _ LW LO LC LC' _ _ _ _ FX] Hst j w Hn Hh. destruct t as [k|i]; cbn [step] in Hst.
  - (* the coordinator creates no holder, and does not touch the mutex while a worker holds it *)
    destruct (co_step_ws_nth c s k s' j w Hst Hn) as [Hn0|[[_ ->]|[_ ->]]]; try discriminate Hh.
    specialize (LW _ _ Hn0 Hh).
    co_cases Hst; msimpl; pre; try assumption; try congruence.
    all: rewrite LC' in LW by (auto; apply FX; auto); discriminate.
  - wk_cases Hst; mcbn_in Hn; msimpl; pre; apply nth_upd_cases in Hn; destruct Hn as [[-> ->]|[Hne Hn]];
      try discriminate Hh; try reflexivity; eauto.
    all: pose proof (LW _ _ Hn Hh) as L1;
         try match goal with H : nth_opt (ws _) _ = Some _ |- _ => pose proof (LW _ _ H eq_refl) as L2 end;
         congruence.
Qed.

Lemma step_i1_lock_o c s t s' : I1 c s -> step f c s t = Some s' ->
  forall i, q_lock s' = Some (Wk i) -> exists w, nth_opt (ws s') i = Some w /\ holds_lock w = true.
Proof.
  intros [_ _ LW LO _ _ _ _ _ _ _] Hst j Hq. destruct t as [k|i]; cbn [step] in Hst.
  - (* the coordinator never hands the mutex to a worker, and a holder is not asleep *)
    assert (Hq0 : q_lock s = Some (Wk j)) by (co_cases Hst; mcbn_in Hq; pre; congruence).
    destruct (LO _ Hq0) as (w & Hw & Hh). exists w. split; [|exact Hh].
    eapply co_step_ws_keep; eauto using holds_not_sleep.
  - (* a worker takes the mutex for itself, or releases its own *)
    wk_cases Hst; mcbn_in Hq; msimpl; pre; try discriminate Hq;
      try (injection Hq as <-; eexists; split; [eapply nth_opt_upd_eq; eassumption|reflexivity]).
    all: destruct (LO _ Hq) as (w & Hw & Hh); destruct (Nat.eq_dec i j) as [->|Hne];
         [|exists w; split; [rewrite nth_opt_upd_other; assumption|assumption]].
    all: rewrite Hwpc in Hw; injection Hw as <-;
         first [ discriminate Hh | eexists; split; [eapply nth_opt_upd_eq; eassumption|reflexivity] ].
Qed.

Lemma step_i1_lock_c c s t s' : I1 c s -> step f c s t = Some s' ->
  forall k, q_lock s' = Some (Co k) -> k = 0 /\ fx_close c = true /\ co_holds (pc s') = true.
Proof.
  intros [_ _ LW LO LC LC' _ _ _ _ FX] Hst. step_split t Hst; intros k Hq; pre; try discriminate; try congruence.
  all: try solve [ destruct (LC _ Hq) as (? & ? & Hc); try discriminate Hc; auto; congruence ].
  all: try solve [ inversion Hq; subst; repeat split; auto ].
Qed.

Lemma step_i1_lock_c' c s t s' : I1 c s -> step f c s t = Some s' ->
  fx_close c = true -> co_holds (pc s') = true -> q_lock s' = Some (Co 0).
Proof.
  intros [_ _ LW LO LC LC' _ _ _ _ FX] Hst. step_split t Hst; intros Hfx Hc; pre; try discriminate; try congruence;
    pc_cases; try discriminate; auto.
  all: try solve [ apply LC'; auto ].
  (* workers: the coordinator holds the mutex, so no worker can take or release it *)
  all: try solve [ specialize (LC' Hfx Hc); first [congruence | specialize (LW _ _ Hwpc eq_refl); congruence] ].
Qed.

Lemma step_i1_empty c s t s' : I1 c s -> step f c s t = Some s' ->
  forall w, In w (ws s') -> sees_empty w = true -> q_items s' = [].
Proof.
  intros [_ _ LW LO LC LC' EM _ _ _ _] Hst w Hw Hs. destruct t as [k|i]; cbn [step] in Hst.
  - destruct (co_step_ws_In c s k s' w Hst Hw) as [Hw0|[->| ->]]; try discriminate Hs.
    co_cases Hst; msimpl; pre; eauto.
    (* CPush: the mutex was free, so nobody is between pop and wait *)
    destruct (In_nth_opt _ _ Hw0) as [j Hj]. specialize (LW _ _ Hj (sees_holds _ Hs)). congruence.
  - wk_cases Hst; mcbn_in Hw; msimpl; pre; apply upd_nat_In in Hw; destruct Hw as [->|Hw];
      try discriminate Hs; eauto.
    all: try solve [ specialize (EM _ Hw Hs); congruence ].
    all: eapply EM; [eapply nth_opt_In; eauto|reflexivity].
Qed.

Lemma step_i1_rx c s t s' : I1 c s -> step f c s t = Some s' -> rx_alive s' = false -> pc s' = CDone.
Proof.
  intros [_ _ _ _ _ _ _ RX _ _ _] Hst. step_split t Hst; intros Hr; try discriminate; try reflexivity;
    try (specialize (RX Hr); congruence); auto.
Qed.

Lemma step_i1_closed c s t s' : I1 c s -> step f c s t = Some s' -> q_closed s' = true -> closing (pc s') = true.
Proof.
  intros [_ _ _ _ _ _ _ _ CLd _ _] Hst. step_split t Hst; intros Hc; try reflexivity;
    try (specialize (CLd Hc); try discriminate CLd); auto.
  all: try solve [ destruct fin; try discriminate; reflexivity ].
  all: try solve [ destruct (fx_close c); destruct fin; try discriminate; reflexivity ].
  all: try congruence; auto.
Qed.

Lemma step_i1_stored c s t s' : I1 c s -> step f c s t = Some s' -> after_store (pc s') = true -> q_closed s' = true.
Proof.
  intros [_ _ _ _ _ _ _ _ _ ST _] Hst. step_split t Hst; intros Hc; pre; try reflexivity; try discriminate;
    pc_cases; try discriminate; auto.
  all: try solve [ apply ST; reflexivity ].
  all: try solve [ destruct (fx_close c); discriminate ].
  all: try solve [ specialize (ST Hc); congruence ].
Qed.

Lemma step_i1_fx c s t s' : I1 c s -> step f c s t = Some s' -> lock_pc (pc s') = true -> fx_close c = true.
Proof.
  intros [_ _ _ _ _ _ _ _ _ _ FX] Hst. step_split t Hst; intros Hc; pre; try discriminate;
    pc_cases; try discriminate; auto.
  all: try solve [ destruct (fx_close c); [reflexivity|discriminate] ].
Qed.

Theorem inv_I1 c src p s : reachable f c src p s -> I1 c s.
Proof.
  apply reach_inv.
  - pose proof (maxw_pos c). constructor; unfold init; simpl; try discriminate; try tauto.
    + destruct (k_spawn_new c); simpl; lia.
    + intros i w H1 H2. destruct (k_spawn_new c).
      * destruct i; simpl in H1; [inversion H1; subst; discriminate|destruct i; discriminate].
      * destruct i; discriminate.
  - intros s0 t s' _ HI Hst.
    constructor; eauto using step_i1_bound, step_i1_spawn, step_i1_lock_w, step_i1_lock_o, step_i1_lock_c,
      step_i1_lock_c', step_i1_empty, step_i1_rx, step_i1_closed, step_i1_stored, step_i1_fx.
Qed.

End P.
