(* Mt/Lzma2UnitsAbsProofs.v — facts about the chunk decoder of Mt/Lzma2Units.v that do not involve
   the reader model:
     * a dictionary-reset chunk forgets the state before it ([astep_indep]: the hypothesis of
       Mt/UnitsProofs.v, Section Decode);
     * the range decoder may be normalised between two decode calls without changing anything
       that is observed later ([run_rc_norm]) - this is what makes the result of an LZMA chunk
       independent of how the caller's buffer sizes cut it into decode calls;
     * [alz] composes along such cuts; unfolding equations of [adecode];
     * the specification run never returns an io::Error ([aproduce_pne], [run_rc_pne]); its status is Ok
       or the distance error E_OTHER = 6 ([aproduce_status6]). *)
From LzVerif Require Import Base.Bytes Codec.Store Codec.Range Codec.ProbProofs Codec.RangeArithProofs
  Codec.LzWindow Codec.LzmaDec Codec.LzmaAbs Codec.ProgProofs Codec.LzmaAbsProofs Codec.LzmaReadProofs
  Codec.LzmaTotalProofs Codec.Lzma2Dec Codec.Lzma2ReadAuxProofs Mt.Units Mt.Lzma2Units.
Local Open Scope Z_scope.

Theorem astep_indep ds d0 : forall d k, chunk_independent k = true -> astep ds d k = astep ds d0 k.
Proof.
  intros d k Hk. unfold chunk_independent in Hk. unfold astep.
  destruct (c_bytes k) as [|c b]; [reflexivity|].
  destruct (Z.eqb_spec c (c_ctrl k)) as [->|Hne]; [|reflexivity]. cbn [negb].
  rewrite Hk. cbn [negb andb].
  destruct (128 <=? c_ctrl k) eqn:E128.
  - destruct b as [|u1 [|u2 [|c1 [|c2 b1]]]]; reflexivity.
  - reflexivity.
Qed.

(* range decoder: one normalisation brings the range to at least 2^24 *)
Definition rng_ok (d : rdec) : Prop := 65536 <= rd_range d < 4294967296.

Lemma norm_range d : rng_ok d -> 16777216 <= rd_range (rdec_normalize d) < 4294967296.
Proof.
  intros H. unfold rng_ok in H. unfold rdec_normalize, P2_24.
  destruct (Z.ltb_spec (rd_range d) 16777216) as [Hlt|Hge]; [|lia].
  destruct (rdec_read d) as [b d1]. cbn [rd_range]. unfold wrap32.
  rewrite Z.mod_small by lia. lia.
Qed.

Lemma norm_rng d : rng_ok d -> rng_ok (rdec_normalize d).
Proof. intros H. pose proof (norm_range d H). unfold rng_ok. lia. Qed.

Lemma norm_idem d : rng_ok d -> rdec_normalize (rdec_normalize d) = rdec_normalize d.
Proof.
  intros H. pose proof (norm_range d H) as Hn.
  unfold rdec_normalize at 1. unfold P2_24.
  destruct (Z.ltb_spec (rd_range (rdec_normalize d)) 16777216) as [Hlt|Hge]; [lia | reflexivity].
Qed.

Lemma decode_bit_rng d t k b d' t' :
  probs_ok t -> rng_ok d -> decode_bit d t k = Some (b, d', t') -> rng_ok d' /\ probs_ok t'.
Proof.
  intros Ht Hd H.
  assert (Hwf : rdec_wf d) by (unfold rdec_wf, rng_ok in *; lia).
  destruct (decode_bit_wf d t k b d' t' Ht Hwf H) as (_ & Ht'). split; [|exact Ht'].
  pose proof (norm_range d Hd) as Hn.
  unfold decode_bit in H.
  destruct (P2_32 <=? Z.shiftr (rd_range (rdec_normalize d)) 11 * prob_get t k) eqn:E; [discriminate|].
  pose proof (probs_ok_get t k Ht) as Hp. apply prob_ok_iff in Hp.
  pose proof (bound_facts (rd_range (rdec_normalize d)) (prob_get t k) Hn Hp) as Hb. cbv zeta in Hb.
  rewrite shiftr_div in H by lia. change (2 ^ 11) with 2048 in H.
  destruct (rd_code (rdec_normalize d) <? _); inversion H; subst; clear H; unfold rng_ok; cbn [rd_range].
  - lia.
  - unfold wrap32. rewrite Z.mod_small by lia. lia.
Qed.

Lemma direct_bits_rng n : forall d acc v d', rng_ok d -> decode_direct_bits d n acc = (v, d') -> rng_ok d'.
Proof.
  induction n as [|m IH]; intros d acc v d' Hd H; cbn [decode_direct_bits] in H.
  - inversion H; subst. exact Hd.
  - eapply IH; [|exact H]. pose proof (norm_range d Hd) as Hn. unfold rng_ok. cbn [rd_range].
    rewrite shiftr_div by lia. change (2 ^ 1) with 2. Z.div_mod_to_equations. lia.
Qed.

Lemma run_rc_rng {A} (p : prog A) : forall d t a d' t',
  probs_ok t -> rng_ok d -> run_rc p d t = Ok (a, d', t') -> rng_ok d' /\ probs_ok t'.
Proof.
  induction p as [a0|e|key f IH|n f IH]; intros d t a d' t' Ht Hd H; cbn [run_rc] in H.
  - inversion H; subst. split; assumption.
  - destruct e; discriminate.
  - destruct (decode_bit d t key) as [[[b d1] t1]|] eqn:E; [|discriminate].
    destruct (decode_bit_rng _ _ _ _ _ _ Ht Hd E) as (Hd1 & Ht1). eapply IH; eassumption.
  - destruct (decode_direct_bits d n 0) as [v d1] eqn:E.
    pose proof (direct_bits_rng _ _ _ _ _ Hd E) as Hd1. eapply IH; eassumption.
Qed.

(* what is observed of a run: the result, the tables, and the range decoder up to a normalisation *)
Definition rc_obs {A B} (R : A -> B -> Prop) (x : outcome (A * rdec * probs)) (y : outcome (B * rdec * probs)) : Prop :=
  match x, y with
  | Ok (a, d1, t1), Ok (b, d2, t2) => R a b /\ rdec_normalize d1 = rdec_normalize d2 /\ t1 = t2
  | Err e1, Err e2 => e1 = e2
  | Panic e1, Panic e2 => e1 = e2
  | Fuel, Fuel => True
  | _, _ => False
  end.

Lemma rc_obs_refl {A} (x : outcome (A * rdec * probs)) : rc_obs eq x x.
Proof. destruct x as [[[a d] t]|e|e|]; cbn; auto. Qed.

Lemma decode_bit_norm d t k : rng_ok d -> decode_bit (rdec_normalize d) t k = decode_bit d t k.
Proof. intros H. unfold decode_bit. rewrite (norm_idem d H). reflexivity. Qed.

Lemma direct_bits_norm n d acc : rng_ok d -> (0 < n)%nat ->
  decode_direct_bits (rdec_normalize d) n acc = decode_direct_bits d n acc.
Proof. intros H Hn. destruct n as [|m]; [lia|]. cbn [decode_direct_bits]. rewrite (norm_idem d H). reflexivity. Qed.

(* starting from the normalised decoder instead *)
Lemma run_rc_norm {A} (p : prog A) : forall d t, rng_ok d ->
  rc_obs eq (run_rc p (rdec_normalize d) t) (run_rc p d t).
Proof.
  induction p as [a0|e|key f IH|n f IH]; intros d t Hd; cbn [run_rc].
  - cbn. split; [reflexivity|]. split; [apply norm_idem; exact Hd | reflexivity].
  - destruct e; cbn; auto.
  - rewrite (decode_bit_norm d t key Hd). destruct (decode_bit d t key) as [[[b d1] t1]|]; [apply rc_obs_refl | cbn; reflexivity].
  - destruct n as [|m].
    + cbn [decode_direct_bits]. apply IH. exact Hd.
    + rewrite (direct_bits_norm (S m) d 0 Hd) by lia.
      destruct (decode_direct_bits d (S m) 0) as [v d1]. apply rc_obs_refl.
Qed.

(* two programs asking the same questions, one started from the normalised decoder *)
Lemma run_rc_peq_norm {A B} (R : A -> B -> Prop) p q d t : peq R p q -> rng_ok d ->
  rc_obs R (run_rc p (rdec_normalize d) t) (run_rc q d t).
Proof.
  intros Hpq Hd.
  pose proof (run_rc_norm p d t Hd) as H1. pose proof (run_rc_peq R p q Hpq d t) as H2.
  destruct (run_rc p (rdec_normalize d) t) as [[[a1 d1] t1]|e1|e1|];
    destruct (run_rc p d t) as [[[a2 d2] t2]|e2|e2|]; cbn in H1; try contradiction;
    destruct (run_rc q d t) as [[[a3 d3] t3]|e3|e3|]; cbn in H2 |- *; try contradiction; try congruence; auto.
  destruct H1 as (-> & Hn & ->). destruct H2 as (HR & -> & ->). auto.
Qed.

(* the final state matters only through coder, history and pending length *)
Lemma alz_fin_obs n x y :
  rc_obs (fun r r' => pd_eq (fst r) (fst r') /\ snd r = snd r') x y -> alz_fin n x = alz_fin n y.
Proof.
  destruct x as [[[[a1 s1] d1] t1]|e1|e1|]; destruct y as [[[[a2 s2] d2] t2]|e2|e2|]; cbn [rc_obs];
    try contradiction; try reflexivity.
  intros (((Hc & Hh & _ & Hl & _) & Hs) & Hn & ->). cbn [fst snd] in *. subst s2.
  unfold alz_fin. rewrite Hn, Hc, Hh, Hl. reflexivity.
Qed.

(* a pending distance that is not in use, and a normalisation of the range decoder, do not matter *)
Lemma alz_norm ds hist c rc t u pl pd pd' : rng_ok rc -> (0 < pl -> pd = pd') ->
  alz ds hist c (rdec_normalize rc) t u pl pd = alz ds hist c rc t u pl pd'.
Proof.
  intros Hrc Hpd. unfold alz. apply alz_fin_obs.
  apply run_rc_peq_norm; [|exact Hrc]. apply aproduce_pd_eq.
  unfold pd_eq; cbn [a_coder a_hist a_dict a_pend_len a_pend_dist]. repeat split; auto.
Qed.

Lemma alz_pd ds hist c rc t u pl pd pd' : (0 < pl -> pd = pd') ->
  alz ds hist c rc t u pl pd = alz ds hist c rc t u pl pd'.
Proof.
  intros Hpd. unfold alz. apply alz_fin_obs.
  pose proof (run_rc_peq _ _ _ (aproduce_pd_eq (Z.to_nat u) (mkAstate c hist ds pl pd) (mkAstate c hist ds pl pd')
     ltac:(unfold pd_eq; cbn [a_coder a_hist a_dict a_pend_len a_pend_dist]; repeat split; auto)) rc t) as H.
  destruct (run_rc (aproduce (Z.to_nat u) (mkAstate c hist ds pl pd)) rc t) as [[[a1 d1] t1]|e1|e1|];
    destruct (run_rc (aproduce (Z.to_nat u) (mkAstate c hist ds pl pd')) rc t) as [[[a2 d2] t2]|e2|e2|];
    cbn [rc_obs]; try contradiction; auto.
  destruct H as (H1 & -> & ->). auto.
Qed.

(* prepending the bytes an earlier decode call of the same chunk produced *)
Definition out_pre (pre : list Z) (r : option (dstate * list Z)) : option (dstate * list Z) :=
  match r with Some (d, o) => Some (d, pre ++ o) | None => None end.

(* after a decode call that produced [b] bytes (history [new1 ++ hist]) the rest of the chunk:
   [u] bytes from the state [s1] the call left *)
Lemma alz_fin_cont (b u : nat) s1 new1 hist0 d t :
  a_hist s1 = new1 ++ hist0 -> length new1 = b ->
  alz_fin (b + u) (run_rc (aproduce u s1) d t) = out_pre (rev new1) (alz_fin u (run_rc (aproduce u s1) d t)).
Proof.
  intros Hh Hl.
  destruct (run_rc (aproduce u s1) d t) as [[[[a2 st2] d2] t2]|e|e|] eqn:Hrun; try reflexivity.
  unfold alz_fin. destruct st2 as [[]|e|e|]; try reflexivity.
  destruct (rdec_is_finished (rdec_normalize d2) && (a_pend_len a2 <=? 0)); [|reflexivity].
  cbn [out_pre]. do 2 f_equal.
  pose proof (run_rc_pall _ _ (aproduce_grows u s1) _ _ _ _ _ Hrun) as (_ & Hg & _). cbn [fst snd] in Hg.
  destruct (Hg eq_refl) as (new2 & Hh2 & Hl2).
  assert (E1 : firstn (b + u) (a_hist a2) = new2 ++ new1).
  { rewrite Hh2, Hh, app_assoc. apply firstn_app_exact. rewrite app_length; lia. }
  assert (E2 : firstn u (a_hist a2) = new2).
  { rewrite Hh2. apply firstn_app_exact. lia. }
  rewrite E1, E2, rev_app_distr. reflexivity.
Qed.

Lemma take_n_spec n l :
  match take_n n l with
  | Some (a, b) => a = firstn n l /\ b = skipn n l /\ l = a ++ b /\ length a = n
  | None => (length l < n)%nat
  end.
Proof.
  unfold take_n. destruct (Nat.leb_spec n (length l)) as [H|H]; [|exact H].
  split; [reflexivity|]. split; [reflexivity|].
  split; [symmetry; apply firstn_skipn | apply firstn_length_le; exact H].
Qed.

Lemma take_n_app n a b : length a = n -> take_n n (a ++ b) = Some (a, b).
Proof.
  intros H. unfold take_n. rewrite app_length.
  destruct (Nat.leb_spec n (length a + length b)) as [_|X]; [|lia].
  rewrite firstn_app_exact by (symmetry; exact H). rewrite skipn_app_exact by (symmetry; exact H). reflexivity.
Qed.

(* a parsed chunk is a prefix of the input, and parses the same in front of any other rest *)
Lemma parse_chunk_app input k rest :
  parse_chunk input = PChunk k rest ->
  input = c_bytes k ++ rest /\ (forall rest', parse_chunk (c_bytes k ++ rest') = PChunk k rest') /\
  (length rest < length input)%nat.
Proof.
  unfold parse_chunk. destruct input as [|c in1]; [discriminate|].
  destruct (c =? 0) eqn:E0; [discriminate|].
  destruct (128 <=? c) eqn:E128.
  - pose proof (take_n_spec (if 192 <=? c then 5%nat else 4%nat) in1) as Eh.
    destruct (take_n (if 192 <=? c then 5%nat else 4%nat) in1) as [[hdr r1]|]; [|discriminate].
    destruct Eh as (_ & _ & -> & Hlh).
    destruct hdr as [|h0 [|h1 [|h2 [|h3 hr]]]]; try discriminate.
    pose proof (take_n_spec (Z.to_nat (be16 h2 h3 + 1)) r1) as Ep.
    destruct (take_n (Z.to_nat (be16 h2 h3 + 1)) r1) as [[pay r2]|]; [|discriminate].
    destruct Ep as (_ & _ & -> & Hlp).
    intros H. inversion H; subst k rest. clear H. cbn [c_bytes].
    split; [cbn [app]; rewrite <- !app_assoc; reflexivity|]. split.
    + intros rest'. cbn [app]. rewrite E0, E128. rewrite <- app_assoc.
      change (h0 :: h1 :: h2 :: h3 :: hr ++ pay ++ rest') with ((h0 :: h1 :: h2 :: h3 :: hr) ++ pay ++ rest').
      rewrite (take_n_app _ (h0 :: h1 :: h2 :: h3 :: hr) (pay ++ rest') Hlh).
      rewrite (take_n_app _ pay rest' Hlp). reflexivity.
    + cbn [length]. rewrite !app_length. cbn [length]. lia.
  - destruct ((c =? 1) || (c =? 2)) eqn:E12; [|discriminate].
    destruct in1 as [|s0 [|s1 r1]]; try discriminate.
    pose proof (take_n_spec (Z.to_nat (be16 s0 s1 + 1)) r1) as Ep.
    destruct (take_n (Z.to_nat (be16 s0 s1 + 1)) r1) as [[pay r2]|]; [|discriminate].
    destruct Ep as (_ & _ & -> & Hlp).
    intros H. inversion H; subst k rest. clear H. cbn [c_bytes].
    split; [reflexivity|]. split.
    + intros rest'. cbn [app]. rewrite E0, E128, E12. rewrite (take_n_app _ pay rest' Hlp). reflexivity.
    + cbn [length]. rewrite !app_length. lia.
Qed.

Lemma parse_all_fuel f1 : forall f2 bytes, (length bytes < f1)%nat -> (length bytes < f2)%nat ->
  parse_all f1 bytes = parse_all f2 bytes.
Proof.
  induction f1 as [|n IH]; intros f2 bytes H1 H2; [lia|].
  destruct f2 as [|m]; [lia|]. cbn [parse_all].
  destruct (parse_chunk bytes) as [|r|k r|e] eqn:E; try reflexivity.
  apply parse_chunk_app in E as (_ & _ & Hl).
  rewrite (IH m r) by lia. reflexivity.
Qed.

Lemma parse_all_S n bytes :
  parse_all (S n) bytes =
  match parse_chunk bytes with
  | PTerm rest => Some ([], rest)
  | PChunk k rest => match parse_all n rest with Some (ks, r) => Some (k :: ks, r) | None => None end
  | _ => None
  end.
Proof. reflexivity. Qed.

Definition oapp (out : list Z) (o : option (list Z * list Z)) : option (list Z * list Z) :=
  match o with Some (r, t) => Some (out ++ r, t) | None => None end.

Lemma oapp_nil o : oapp [] o = o.
Proof. destruct o as [[r t]|]; reflexivity. Qed.

Lemma oapp_app a b o : oapp (a ++ b) o = oapp a (oapp b o).
Proof. destruct o as [[r t]|]; cbn [oapp]; [rewrite app_assoc|]; reflexivity. Qed.

Lemma adecode_unfold ds d input :
  adecode ds d input =
  match parse_chunk input with
  | PTerm rest => Some ([], rest)
  | PChunk k rest =>
      match astep ds d k with
      | Some (d1, o1) => oapp o1 (adecode ds d1 rest)
      | None => None
      end
  | _ => None
  end.
Proof.
  unfold adecode at 1. unfold stream_chunks. rewrite parse_all_S.
  destruct (parse_chunk input) as [|r|k r|e] eqn:E; try reflexivity.
  pose proof (parse_chunk_app _ _ _ E) as (_ & _ & Hl).
  rewrite (parse_all_fuel (length input) (S (length r)) r) by lia.
  unfold adecode, stream_chunks.
  destruct (parse_all (S (length r)) r) as [[ks r']|].
  - unfold decode_chunks. cbn [run_chunks].
    destruct (astep ds d k) as [[d1 o1]|]; [|reflexivity].
    destruct (run_chunks dstate (astep ds) d1 ks) as [[d2 o2]|]; reflexivity.
  - destruct (astep ds d k) as [[d1 o1]|]; reflexivity.
Qed.

Lemma adecode_nil ds d : adecode ds d [] = None.
Proof. rewrite adecode_unfold. reflexivity. Qed.

(* [adecode] on a stream with an explicit control byte: the cases of [parse_chunk] *)
Lemma adecode_cons ds d c in1 :
  adecode ds d (c :: in1) =
  if c =? 0 then Some ([], in1)
  else if 128 <=? c then
    match in1 with
    | u1 :: u2 :: c1 :: c2 :: in3 =>
        match (if 192 <=? c then match in3 with [] => None | pr :: in4 => Some ([pr], in4) end else Some ([], in3)) with
        | None => None
        | Some (prl, in4) =>
            match take_n (Z.to_nat (c1 * 256 + c2 + 1)) in4 with
            | None => None
            | Some (payload, rest) =>
                match astep ds d (mkChunk c (c :: u1 :: u2 :: c1 :: c2 :: prl ++ payload)) with
                | Some (d1, o1) => oapp o1 (adecode ds d1 rest)
                | None => None
                end
            end
        end
    | _ => None
    end
  else if (c =? 1) || (c =? 2) then
    match in1 with
    | s0 :: s1 :: in2 =>
        match take_n (Z.to_nat (s0 * 256 + s1 + 1)) in2 with
        | None => None
        | Some (payload, rest) =>
            match astep ds d (mkChunk c (c :: s0 :: s1 :: payload)) with
            | Some (d1, o1) => oapp o1 (adecode ds d1 rest)
            | None => None
            end
        end
    | _ => None
    end
  else None.
Proof.
  rewrite adecode_unfold. unfold parse_chunk, be16.
  destruct (c =? 0); [reflexivity|]. destruct (128 <=? c).
  - destruct in1 as [|u1 [|u2 [|c1 [|c2 in3]]]]; try (destruct (192 <=? c); reflexivity).
    destruct (192 <=? c).
    + destruct in3 as [|pr in4]; [reflexivity|]. cbn [take_n length Nat.leb firstn skipn].
      destruct (take_n (Z.to_nat (c1 * 256 + c2 + 1)) in4) as [[payload rest]|]; reflexivity.
    + cbn [take_n length Nat.leb firstn skipn].
      destruct (take_n (Z.to_nat (c1 * 256 + c2 + 1)) in3) as [[payload rest]|]; reflexivity.
  - destruct ((c =? 1) || (c =? 2)); [|reflexivity].
    destruct in1 as [|s0 [|s1 in2]]; try reflexivity.
    destruct (take_n (Z.to_nat (s0 * 256 + s1 + 1)) in2) as [[payload rest]|]; reflexivity.
Qed.

(* [astep] on an LZMA chunk with an explicit header *)
Lemma astep_lzma ds d c u1 u2 c1 c2 b1 : (128 <=? c) = true ->
  astep ds d (mkChunk c (c :: u1 :: u2 :: c1 :: c2 :: b1)) =
  if negb ((224 <=? c) || (c =? 1)) && d_need_dict_reset d then None else
  match (if 192 <=? c then
           match lzma2_decode_props b1 with
           | Ok (cd, b2) => Some (cd, PLeaf, b2)
           | _ => None
           end
         else if (if (224 <=? c) || (c =? 1) then true else d_need_props d) then None
         else match d_coder d with
              | None => None
              | Some cd => if 160 <=? c then Some (coder_reset cd, PLeaf, b1) else Some (cd, d_probs d, b1)
              end) with
  | None => None
  | Some (cd, t, payload) =>
      match rdec_prepare payload (c1 * 256 + c2 + 1) with
      | Ok (rc, []) => alz ds (if (224 <=? c) || (c =? 1) then [] else d_hist d) cd rc t
                           (Z.shiftl (Z.land c 31) 16 + (u1 * 256 + u2) + 1) 0 0
      | _ => None
      end
  end.
Proof. intros H. unfold astep. cbn [c_bytes c_ctrl]. rewrite Z.eqb_refl, H. reflexivity. Qed.

(* The decoder logic never raises an io::Error by itself (index problems are panics): a decision
   program of the LZMA decoder run against the range decoder never returns Err.  The only error of
   LZMADecoder::decode is the status "distance outside the dictionary" (E_OTHER). *)
Inductive pne {A : Type} : prog A -> Prop :=
| pne_ret a : pne (Ret a)
| pne_fail e : (forall c, e <> Err c) -> pne (Fail e)
| pne_bit key k : (forall b, pne (k b)) -> pne (Bit key k)
| pne_direct n k : (forall v, pne (k v)) -> pne (Direct n k).

Lemma run_rc_pne {A} (p : prog A) : pne p -> forall d t e, run_rc p d t <> Err e.
Proof.
  induction 1 as [a|e0 He|key k Hk IH|n k Hk IH]; intros d t e; cbn [run_rc].
  - discriminate.
  - destruct e0 as [u|c|c|]; try discriminate. exfalso. exact (He c eq_refl).
  - destruct (decode_bit d t key) as [[[b d1] t1]|]; [apply IH | discriminate].
  - destruct (decode_direct_bits d n 0) as [v d1]. apply IH.
Qed.

Lemma pne_bind {A B} (p : prog A) (f : A -> prog B) : pne p -> (forall a, pne (f a)) -> pne (pbind p f).
Proof. intros H Hf; induction H; cbn [pbind]; try constructor; auto. Qed.

Lemma pne_lift {A} (o : outcome A) : (forall c, o <> Err c) -> pne (lift o).
Proof.
  intros H. destruct o as [a|c|c|]; cbn [lift]; constructor; try discriminate.
  exfalso. exact (H c eq_refl).
Qed.

Lemma key1_ne base len i c : key1 base len i <> Err c.
Proof. unfold key1. destruct ((i <? 0) || (len <=? i)); discriminate. Qed.
Lemma key2_ne base rows cols i j c : key2 base rows cols i j <> Err c.
Proof. unfold key2. destruct ((i <? 0) || (rows <=? i) || (j <? 0) || (cols <=? j)); discriminate. Qed.
Lemma lit_base_ne cd prev pos c : lit_base cd prev pos <> Err c.
Proof.
  unfold lit_base. destruct (8 <? c_lc cd); [discriminate|]. cbv zeta.
  destruct (key1 0 _ _) as [a|e|e|] eqn:E; cbn [obind]; try discriminate.
  exfalso. exact (key1_ne _ _ _ _ E).
Qed.

(* The sub-decoders are binds of lifted table keys ([key1_ne], [key2_ne], [lit_base_ne]), bits and
   conditionals: no Err leaf.  [auto with pne] walks the term: [pne_bind] at a bind, [destruct] at a match,
   a constructor at a leaf; the depth given is the nesting of the term. *)
Create HintDb pne discriminated.
#[local] Hint Constructors pne : pne.
#[local] Hint Resolve pne_bind pne_lift key1_ne key2_ne lit_base_ne : pne.
#[local] Hint Extern 1 (pne (match ?x with _ => _ end)) => destruct x : pne.
#[local] Hint Extern 1 (_ <> Err _) => discriminate : pne.

Lemma bittree_pne base levels : forall sym, pne (bittree base levels sym).
Proof. induction levels; intros sym; cbn [bittree]; auto with pne. Qed.
Lemma rev_bittree_pne base levels : forall sym i res, pne (rev_bittree base levels sym i res).
Proof. induction levels; intros sym i res; cbn [rev_bittree]; auto with pne. Qed.
Lemma lit_matched_pne lbase n : forall mb off sym, pne (lit_matched lbase n mb off sym).
Proof. induction n; intros mb off sym; cbn [lit_matched]; auto with pne. Qed.
#[local] Hint Resolve bittree_pne rev_bittree_pne lit_matched_pne : pne.

Lemma decode_len_pne base ps : pne (decode_len base ps).
Proof. unfold decode_len, decode_bit_tree. auto 12 with pne. Qed.
#[local] Hint Resolve decode_len_pne : pne.

Lemma asym_pne c hist : pne (asym c hist).
Proof.
  unfold asym, lit_prog, decode_match, decode_rep_match, decode_bit_tree, decode_reverse_bit_tree. cbv zeta.
  auto 30 with pne.
Qed.

Lemma aproduce_pne n : forall s, pne (aproduce n s).
Proof.
  induction n as [|k IH]; intros s; cbn [aproduce]; [constructor|].
  destruct (0 <? a_pend_len s); [apply IH|].
  apply pne_bind; [apply asym_pne|]. intros r. destruct (snd r) as [b|dist len]; [apply IH|].
  destruct (a_full s <=? dist); [constructor|]. destruct (len <=? 0); [constructor; discriminate | apply IH].
Qed.

(* the status of a specification run: Ok, or the distance error *)
Lemma aproduce_status6 n : forall s, pall (fun r => snd r = Ok tt \/ snd r = Err E_OTHER) (aproduce n s).
Proof.
  induction n as [|k IH]; intros s; cbn [aproduce]; [constructor; left; reflexivity|].
  destruct (0 <? a_pend_len s); [apply IH|].
  eapply pall_bind; [apply pall_true|]. intros r _. destruct (snd r) as [b|dist len]; [apply IH|].
  destruct (a_full s <=? dist); [constructor; right; reflexivity|].
  destruct (len <=? 0); [constructor | apply IH].
Qed.
