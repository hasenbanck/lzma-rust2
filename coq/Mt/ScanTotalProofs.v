(* Mt/ScanTotalProofs.v — LZIPReaderMT::scan_members is total on arbitrary bytes: the backward scan
   over the member_size fields returns a member table or an error for EVERY file, within
   length(file)+1 iterations (each accepted member_size is >= 1, so the position strictly
   decreases). *)
From LzVerif Require Import Base.Bytes Mt.Units.
From Coq Require Import Lia ZArith List.
Import ListNotations.
Local Open Scope Z_scope.

Definition is_result {A} (r : outcome A) : Prop := match r with Ok _ | Err _ => True | _ => False end.

Lemma slice_bytes_ok file pos len r : bytes_ok file = true -> slice file pos len = Some r -> bytes_ok r = true.
Proof.
  unfold slice. intros Hb H. destruct ((pos <? 0) || (len <? 0) || (zlen file <? pos + len)); [discriminate|].
  injection H as <-. apply bytes_ok_firstn, bytes_ok_skipn, Hb.
Qed.

Lemma scan_go_total : forall fuel file pos acc, bytes_ok file = true ->
  (Z.to_nat pos < fuel)%nat -> is_result (scan_go fuel file pos acc).
Proof.
  induction fuel as [|n IH]; intros file pos acc Hb Hf; [lia|].
  cbn [scan_go].
  destruct (pos <=? 0) eqn:E0; [exact I|].
  destruct (pos <? 20) eqn:E20; [exact I|].
  destruct (slice file (pos - 20) 20) as [tr|] eqn:Etr; [|exact I].
  destruct ((le_value (skipn 12 tr) =? 0) || (pos <? le_value (skipn 12 tr))) eqn:Em; [exact I|].
  destruct (slice file (pos - le_value (skipn 12 tr)) 4) as [magic|]; [|exact I].
  destruct (list_eq_dec Z.eq_dec magic [76; 90; 73; 80]); [|exact I].
  apply IH; [exact Hb|].
  apply Bool.orb_false_iff in Em. destruct Em as [Ez El].
  apply Z.eqb_neq in Ez. apply Z.ltb_ge in El. apply Z.leb_gt in E0.
  assert (0 <= le_value (skipn 12 tr)) by (apply le_value_bound, bytes_ok_skipn; eapply slice_bytes_ok; eassumption).
  lia.
Qed.

Theorem scan_members_total : forall file, bytes_ok file = true -> is_result (scan_members file).
Proof.
  intros file Hb. unfold scan_members.
  destruct (zlen file <? 26); [exact I|].
  pose proof (scan_go_total (S (length file)) file (zlen file) []) as H.
  assert (Hlt : (Z.to_nat (zlen file) < S (length file))%nat) by (unfold zlen; lia).
  specialize (H Hb Hlt).
  destruct (scan_go (S (length file)) file (zlen file) []) as [[|x l]| | |]; try exact I; exact H.
Qed.
