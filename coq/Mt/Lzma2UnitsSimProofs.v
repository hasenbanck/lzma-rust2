(* Mt/Lzma2UnitsSimProofs.v — the LZMA2 reader model (Codec/Lzma2Dec.v) computes the chunk decoder
   of Mt/Lzma2Units.v: for ANY source bytes, whatever sizes the destination buffers of the read()
   calls have,
     * if [adecode] succeeds with (data, tail), every read history returns exactly [data] and ends
       at the end marker with [tail] left in the source;
     * if a read history returns [data] with status 0, it has reached the end marker and [adecode]
       succeeds with [data]; where [adecode] fails no read history ends with status 0.
   The invariant relates a reader state (between two iterations of read_decode's loop) to the
   result [o] that the specification still has to deliver. *)
From LzVerif Require Import Base.Bytes Codec.Store Codec.Range Codec.ProbProofs
  Codec.LzWindow Codec.LzmaDec Codec.LzmaAbs Codec.LzWindowProofs Codec.ProgProofs Codec.LzmaAbsProofs
  Codec.LzmaReadProofs Codec.Lzma2Dec Codec.Lzma2WindowProofs Codec.Lzma2LoopProofs
  Codec.Lzma2ReadProofs Codec.Lzma1ReadProofs Codec.Total2Proofs Mt.Units Mt.UnitsProofs
  Mt.Lzma2Units Mt.Lzma2UnitsAbsProofs.
Local Open Scope Z_scope.

(* rc.prepare on a source that is shorter than the announced payload fails *)
Lemma rdec_prepare_short input len : (length input < Z.to_nat len)%nat -> exists e, rdec_prepare input len = Err e.
Proof.
  intros H. unfold rdec_prepare. destruct (Z.ltb_spec len 5); [eexists; reflexivity|].
  destruct input as [|b0 rest0]; [eexists; reflexivity|]. destruct (negb (b0 =? 0)); [eexists; reflexivity|].
  destruct rest0 as [|b1 [|b2 [|b3 [|b4 rest]]]]; try (eexists; reflexivity).
  cbn [length] in H. destruct (Nat.ltb_spec (length rest) (Z.to_nat (len - 5))) as [_|X]; [eexists; reflexivity | lia].
Qed.

(* rc.prepare on exactly the payload, and on the payload followed by more of the source *)
Lemma rdec_prepare_exact payload rest len : length payload = Z.to_nat len ->
  match rdec_prepare payload len with
  | Ok (rc, r) => r = [] /\ rng_ok rc /\ rdec_prepare (payload ++ rest) len = Ok (rc, rest)
  | Err e => rdec_prepare (payload ++ rest) len = Err e
  | _ => False
  end.
Proof.
  intros H. unfold rdec_prepare. destruct (Z.ltb_spec len 5) as [|H5]; [reflexivity|].
  destruct payload as [|b0 [|b1 [|b2 [|b3 [|b4 r]]]]]; cbn [length] in H; try lia.
  cbn [app]. destruct (negb (b0 =? 0)); [reflexivity|].
  assert (Hr : length r = Z.to_nat (len - 5)) by lia.
  rewrite app_length.
  destruct (Nat.ltb_spec (length r) (Z.to_nat (len - 5))) as [X|_]; [lia|].
  destruct (Nat.ltb_spec (length r + length rest) (Z.to_nat (len - 5))) as [X|_]; [lia|].
  rewrite <- Hr. rewrite firstn_all, skipn_all.
  rewrite firstn_app_exact by reflexivity. rewrite skipn_app_exact by reflexivity.
  split; [reflexivity|]. split; [unfold rng_ok; cbn [rd_range]; lia | reflexivity].
Qed.

(* decode_chunk_header in parts *)
Definition win_part (s : lzma2) (control : Z) : outcome (lzwin * bool * bool) :=
  if (224 <=? control) || (control =? 1) then
    do w <- lzwin_reset (m_win s); Ok (w, true, false)
  else if m_need_dict_reset s then Err E_INVALID_INPUT
  else Ok (m_win s, m_need_props s, m_need_dict_reset s).

Definition lz_tail (s : lzma2) (w1 : lzwin) (usize csize : Z) (need_dict_reset1 : bool)
  (pc : option coder * probs * bool * list Z) : outcome lzma2 :=
  let '(coder1, probs1, need_props2, in4) := pc in
  do rp <- rdec_prepare in4 csize;
  let '(rc1, in5) := rp in
  Ok (mkLzma2 in5 w1 rc1 probs1 coder1 usize true need_dict_reset1 need_props2 false (m_error s)).

Definition lz_part (s : lzma2) (control : Z) (in1 : list Z) (w1 : lzwin) (need_props1 need_dict_reset1 : bool)
  : outcome lzma2 :=
  do u <- read_u16_be in1;
  let '(ulow, in2) := u in
  let usize := Z.shiftl (Z.land control 31) 16 + ulow + 1 in
  do cs <- read_u16_be in2;
  let '(clow, in3) := cs in
  let csize := clow + 1 in
  do pc <-
    (if 192 <=? control then
       do cp <- lzma2_decode_props in3;
       let '(c, in4) := cp in Ok (Some c, PLeaf, false, in4)
     else if need_props1 then Err E_INVALID_INPUT
     else if 160 <=? control then
       Ok (match m_coder s with Some c => Some (coder_reset c) | None => None end,
           match m_coder s with Some _ => PLeaf | None => m_probs s end, need_props1, in3)
     else Ok (m_coder s, m_probs s, need_props1, in3));
  lz_tail s w1 usize csize need_dict_reset1 pc.

Definition unc_part (s : lzma2) (in1 : list Z) (w1 : lzwin) (need_props1 need_dict_reset1 : bool) : outcome lzma2 :=
  do u <- read_u16_be in1;
  let '(ulow, in2) := u in
  Ok (mkLzma2 in2 w1 (m_rc s) (m_probs s) (m_coder s) (ulow + 1) false need_dict_reset1 need_props1 false (m_error s)).

Lemma chunk_header_eq s :
  lzma2_chunk_header s =
  do cr <- read_u8 (m_in s);
  let '(control, in1) := cr in
  if control =? 0 then
    Ok (mkLzma2 in1 (m_win s) (m_rc s) (m_probs s) (m_coder s) (m_uncompressed_size s) (m_is_lzma_chunk s)
                (m_need_dict_reset s) (m_need_props s) true (m_error s))
  else
  do st1 <- win_part s control;
  let '(w1, need_props1, need_dict_reset1) := st1 in
  if 128 <=? control then lz_part s control in1 w1 need_props1 need_dict_reset1
  else if 2 <? control then Err E_INVALID_INPUT
  else unc_part s in1 w1 need_props1 need_dict_reset1.
Proof.
  unfold lzma2_chunk_header, win_part, lz_part, unc_part, lz_tail.
  destruct (read_u8 (m_in s)) as [[control in1]|e|e|]; reflexivity.
Qed.

Section Sim.
  Variable ds : Z.                 (* the reader's buffer size *)
  Hypothesis Hds : 0 < ds.
  Hypothesis Hds16 : ds mod 16 = 0.

  (* self.lzma and the tables: only meaningful while need_props = false *)
  Definition coder_abs (s : lzma2) (co : option coder) (t : probs) (np : bool) (full : Z) : Prop :=
    m_need_props s = np /\
    (np = false -> m_coder s = co /\ m_probs s = t /\ probs_ok t /\ exists c, co = Some c /\ coder_ok c full).

  Definition live (s : lzma2) : Prop :=
    m_end_reached s = false /\ m_error s = None /\ bytes_ok (m_in s) = true.

  Definition at_boundary (st : bool) (s : lzma2) (d : dstate) : Prop :=
    m_uncompressed_size s = 0 /\ rdec_is_finished (m_rc s) = true /\
    win_ok ds st (m_win s) (d_hist d) /\ w_pending_len (m_win s) = 0 /\
    m_need_dict_reset s = d_need_dict_reset d /\
    coder_abs s (d_coder d) (d_probs d) (d_need_props d) (w_full (m_win s)).

  (* the state after a stored chunk of which the bytes [p] are still to come *)
  Definition d_after_unc (hist : list Z) (co : option coder) (t : probs) (np : bool) (p : list Z) : dstate :=
    mkD (rev p ++ hist) (if np then None else co) (if np then PLeaf else t) np false.

  Definition in_unc (st : bool) (s : lzma2) (o : option (list Z * list Z)) : Prop :=
    exists u hist co t np,
      0 < u /\ m_uncompressed_size s = u /\ m_is_lzma_chunk s = false /\
      rdec_is_finished (m_rc s) = true /\ win_ok ds st (m_win s) hist /\ w_pending_len (m_win s) = 0 /\
      m_need_dict_reset s = false /\ coder_abs s co t np (w_full (m_win s)) /\
      o = if zlen (m_in s) <? u then None
          else oapp (firstn (Z.to_nat u) (m_in s))
                    (adecode ds (d_after_unc hist co t np (firstn (Z.to_nat u) (m_in s))) (skipn (Z.to_nat u) (m_in s))).

  Definition in_lzma (st : bool) (s : lzma2) (o : option (list Z * list Z)) : Prop :=
    exists u c hist,
      0 < u /\ m_uncompressed_size s = u /\ m_is_lzma_chunk s = true /\
      m_need_props s = false /\ m_need_dict_reset s = false /\ m_coder s = Some c /\
      win_ok ds st (m_win s) hist /\ coder_ok c (w_full (m_win s)) /\
      (0 < w_pending_len (m_win s) -> 0 <= w_pending_dist (m_win s) < w_full (m_win s)) /\
      rng_ok (m_rc s) /\ probs_ok (m_probs s) /\
      o = match alz ds hist c (m_rc s) (m_probs s) u (w_pending_len (m_win s)) (w_pending_dist (m_win s)) with
          | Some (d1, out) => oapp out (adecode ds d1 (m_in s))
          | None => None
          end.

  Definition SInv (st : bool) (s : lzma2) (o : option (list Z * list Z)) : Prop :=
    live s /\
    ((exists d, at_boundary st s d /\ o = adecode ds d (m_in s)) \/ in_unc st s o \/ in_lzma st s o).

  Lemma SInv_live st s o : SInv st s o -> m_end_reached s = false /\ m_error s = None.
  Proof. intros ((H1 & H2 & _) & _). split; assumption. Qed.

  (* what one iteration must establish *)
  Definition step_post (st : bool) (o : option (list Z * list Z)) (len : Z) (out : list Z) (s' : lzma2) : Prop :=
    (st = true -> out <> []) /\ zlen out <= len /\ exists o', SInv true s' o' /\ o = oapp out o'.

  Lemma coder_abs_mono s co t np f1 f2 : coder_abs s co t np f1 -> f1 <= f2 -> coder_abs s co t np f2.
  Proof.
    intros (H1 & H2) Hle. split; [exact H1|]. intros Hnp. destruct (H2 Hnp) as (A & B & C & c & D & E).
    split; [exact A|]. split; [exact B|]. split; [exact C|]. exists c. split; [exact D|]. eapply coder_ok_mono; eassumption.
  Qed.

  Ltac err_tac :=
    repeat match goal with
           | |- Err _ = Err _ -> _ => let H := fresh "H" in intros H; inversion H; auto
           | |- Ok _ = Err _ -> _ => discriminate
           | |- Panic _ = Err _ -> _ => discriminate
           | |- Fuel = Err _ -> _ => discriminate
           | |- context [match ?x with _ => _ end] => destruct x; cbn [obind]
           end.

  (* the error of a failing iteration is an io::Error kind of the reader, never 0 (the model's
     "end of stream" status) *)
  Definition err_kind (e : Z) : Prop := e = E_INVALID_INPUT \/ e = E_UNEXPECTED_EOF \/ e = E_OTHER.

  Lemma err_kind_nonzero e : err_kind e -> e <> 0.
  Proof. unfold err_kind, E_INVALID_INPUT, E_UNEXPECTED_EOF, E_OTHER. lia. Qed.

  Lemma header_err s e : lzma2_chunk_header s = Err e -> err_kind e.
  Proof.
    unfold err_kind, lzma2_chunk_header, read_u8, read_u16_be, lzma2_decode_props, read_u8, rdec_prepare, lzwin_reset.
    err_tac.
  Qed.

  (* a stored chunk: one copy step *)
  Lemma body_unc st s o len : live s -> in_unc st s o -> 0 < len ->
    match iter_body s len with
    | Ok (out, s') => step_post st o len out s'
    | Err e => o = None /\ err_kind e
    | _ => o = None
    end.
  Proof.
    intros (Hend & Herr & Hbytes) (u & hist & co & t & np & Hu & Hus & Hlz & Hfin & Hw & Hpl & Hnd & Hca & Ho) Hlen.
    destruct Hw as (R & Hsz & Hst & Hps).
    pose proof R as [_ [[Hp0 Hp01] Hp2] _ _ _ _ _ _].
    unfold iter_body. rewrite Hlz, Hus. cbn [negb].
    set (m := Z.min u len).
    set (n := Z.min (w_size (m_win s) - w_pos (m_win s)) m).
    assert (Hn : 0 <= n <= u) by (unfold n, m; lia).
    assert (Hn1 : st = true -> 1 <= n) by (intros X; specialize (Hps X); unfold n, m; lia).
    destruct (Nat.ltb_spec (length (m_in s)) (Z.to_nat n)) as [Hshort|Hlin].
    { (* the source ends inside the chunk *)
      unfold lzwin_copy_uncompressed. fold n.
      destruct (Z.ltb_spec n 0) as [X|_]; [lia|].
      destruct (Nat.ltb_spec (length (m_in s)) (Z.to_nat n)) as [_|X]; [|lia].
      cbn [obind]. split; [|right; left; reflexivity].
      rewrite Ho. destruct (Z.ltb_spec (zlen (m_in s)) u) as [_|X]; [reflexivity|].
      unfold zlen in X. lia. }
    destruct (copy_uncompressed_rel (m_win s) hist (m_in s) m R ltac:(unfold m; lia) Hlin)
      as (w' & Hcp & R' & Hsz' & Hst' & Hps' & Hpl' & Hpd').
    fold n in Hcp, R', Hps'. rewrite Hcp. cbn [obind]. msimpl.
    set (l := firstn (Z.to_nat n) (m_in s)) in *.
    assert (Hll : length l = Z.to_nat n) by (unfold l; apply firstn_length_le; exact Hlin).
    pose proof (flush_rel w' _ R') as HF. pose proof (flush_facts w') as (Hff & Hfp & _).
    destruct (lzwin_flush w') as [out w3]. cbn [fst snd] in Hff, Hfp.
    destruct HF as (Hout & R3 & Hst3 & Hsz3 & _ & Hpl3 & _).
    assert (Hout' : out = l).
    { rewrite Hout. replace (Z.to_nat (w_pos w' - w_start w')) with (length (rev l)).
      - rewrite firstn_app_exact by reflexivity. apply rev_involutive.
      - rewrite rev_length. lia. }
    assert (Hzo : zlen out = n) by (rewrite Hout'; unfold zlen; lia).
    rewrite Hzo.
    destruct (Z.ltb_spec (u - n) 0) as [Hbad|_]; [lia|].
    msimpl. rewrite Hfin. cbn [negb orb].
    unfold lzwin_has_pending. rewrite Hpl3, Hpl', Hpl. change (0 <? 0) with false. rewrite andb_false_r.
    unfold step_post.
    split; [intros Y X; specialize (Hn1 Y); rewrite X in Hzo; unfold zlen in Hzo; cbn [length] in Hzo; lia|].
    split; [unfold n, m in Hzo |- *; lia|].
    assert (Hw3 : win_ok ds true w3 (rev l ++ hist)).
    { split; [exact R3|]. split; [lia|]. split; [exact Hst3|]. intros _. rewrite Hsz3. apply Hfp; lia. }
    set (s3 := mkLzma2 _ w3 _ _ _ _ _ _ _ _ _).
    assert (Hlive3 : live s3) by (unfold live, s3; msimpl; auto using bytes_ok_skipn).
    assert (Hfull3 : w_full (m_win s) <= w_full w3).
    { rewrite Hff. eapply rel_full_mono; [exact R | exact R' | lia|]. rewrite zlen_app. pose proof (zlen_nonneg (rev l)). lia. }
    assert (Hca3 : coder_abs s3 co t np (w_full w3)) by (eapply coder_abs_mono; [exact Hca | exact Hfull3]). subst s3.
    (* the specification's view: the payload splits at n *)
    assert (Hlong : zlen (m_in s) <? u = false -> (Z.to_nat u <= length (m_in s))%nat) by (intros X; apply Z.ltb_ge in X; unfold zlen in X; lia).
    assert (Hsplit : firstn (Z.to_nat u) (m_in s) = l ++ firstn (Z.to_nat (u - n)) (skipn (Z.to_nat n) (m_in s))).
    { rewrite <- (firstn_skipn (Z.to_nat n) (m_in s)) at 1. fold l.
      replace (Z.to_nat u) with (length l + Z.to_nat (u - n))%nat by lia. apply firstn_app_2. }
    assert (Hskip : skipn (Z.to_nat u) (m_in s) = skipn (Z.to_nat (u - n)) (skipn (Z.to_nat n) (m_in s))).
    { rewrite skipn_skipn. f_equal. lia. }
    destruct (Z.eq_dec (u - n) 0) as [Hz|Hnz].
    - (* the chunk is complete: back at a boundary *)
      exists (adecode ds (d_after_unc hist co t np l) (skipn (Z.to_nat n) (m_in s))).
      split.
      + split; [rewrite Hz in Hlive3; rewrite Hz; exact Hlive3|]. left.
        exists (d_after_unc hist co t np l). split; [|reflexivity].
        unfold at_boundary, d_after_unc. msimpl. cbn [d_hist d_coder d_probs d_need_props d_need_dict_reset].
        split; [exact Hz|]. split; [exact Hfin|]. split; [exact Hw3|]. split; [lia|]. split; [exact Hnd|].
        destruct Hca3 as (A & B). split; [exact A|]. intros X. rewrite X. apply B. exact X.
      + rewrite Ho. destruct (Z.ltb_spec (zlen (m_in s)) u) as [X|_]; [unfold zlen in X; lia|].
        rewrite Hsplit, Hskip, Hz. cbn [Z.to_nat firstn skipn]. rewrite app_nil_r, Hout'. reflexivity.
    - (* more of the chunk to come *)
      eexists. split.
      + split; [exact Hlive3|]. right. left.
        exists (u - n), (rev l ++ hist), co, t, np. msimpl.
        split; [lia|]. split; [reflexivity|]. split; [reflexivity|]. split; [exact Hfin|]. split; [exact Hw3|].
        split; [lia|]. split; [exact Hnd|]. split; [exact Hca3|]. reflexivity.
      + rewrite Ho. unfold zlen at 2. rewrite skipn_length.
        destruct (Z.ltb_spec (zlen (m_in s)) u) as [X|X];
          destruct (Z.ltb_spec (Z.of_nat (length (m_in s) - Z.to_nat n)) (u - n)) as [Y|Y];
          unfold zlen in X; try lia; [reflexivity|].
        rewrite Hsplit, Hskip, Hout'. rewrite oapp_app. f_equal. f_equal. f_equal.
        unfold d_after_unc. rewrite rev_app_distr, <- app_assoc. reflexivity.
  Qed.

  (* an LZMA chunk: one decode call with whatever budget the buffers allow *)
  Lemma body_lzma st s o len : live s -> in_lzma st s o -> 0 < len ->
    match iter_body s len with
    | Ok (out, s') => step_post st o len out s'
    | Err e => o = None /\ err_kind e
    | _ => o = None
    end.
  Proof.
    intros (Hend & Herr & Hbytes) (u & c & hist & Hu & Hus & Hlz & Hnp & Hnd & Hco & Hw & Hcok & Hpd & Hrng & Hpr & Ho) Hlen.
    destruct Hw as (R & Hsz & Hst & Hps). pose proof R as [_ [_ Hp2] _ _ _ _ _ Hpnn].
    unfold iter_body. rewrite Hlz, Hus, Hco. cbn [negb].
    set (m := Z.min u len).
    destruct (set_limit_rel (m_win s) hist m R ltac:(unfold m; lia)) as (Rl & Hpl).
    set (b := Z.min m (ds - w_pos (m_win s))).
    assert (Hb : 0 <= b <= u) by (unfold b, m; lia).
    assert (Hb1 : st = true -> 1 <= b) by (intros X; specialize (Hps X); unfold b, m; lia).
    assert (Hblen : b <= len) by (unfold b, m; lia).
    pose proof (lzma_decode_abs c (lzwin_set_limit (m_win s) m) hist (m_rc s) (m_probs s) (Z.to_nat b) Rl Hcok Hpl
                  ltac:(unfold b; cbn [lzwin_set_limit w_limit w_pos]; lia) Hpd) as HA.
    cbn [lzwin_set_limit w_size w_pending_len w_pending_dist] in HA. rewrite Hsz in HA.
    set (a0 := mkAstate c hist ds (w_pending_len (m_win s)) (w_pending_dist (m_win s))) in *.
    assert (Hsplit : run_rc (aproduce (Z.to_nat u) a0) (m_rc s) (m_probs s) =
                     match run_rc (aproduce (Z.to_nat b) a0) (m_rc s) (m_probs s) with
                     | Ok (s1, Ok _, d1, t1) => run_rc (aproduce (Z.to_nat (u - b)) s1) d1 t1
                     | Ok (s1, st, d1, t1) => Ok (s1, st, d1, t1)
                     | Err e => Err e
                     | Panic e => Panic e
                     | Fuel => Fuel
                     end).
    { rewrite <- run_rc_split. replace (Z.to_nat b + Z.to_nat (u - b))%nat with (Z.to_nat u) by lia. reflexivity. }
    unfold alz in Ho. fold a0 in Ho. rewrite Hsplit in Ho. clear Hsplit.
    destruct (run_rc (aproduce (Z.to_nat b) a0) (m_rc s) (m_probs s)) as [[[[s1 st1] d1] t1]|e|e|] eqn:Hrun;
      [|exfalso; exact (run_rc_pne _ (aproduce_pne _ a0) _ _ _ Hrun)|rewrite HA; cbn [obind]; exact Ho..].
    destruct HA as (w1 & Hdec & Hloop). rewrite Hdec. cbn [obind].
    (* the only error of the decode call is the distance error *)
    pose proof (run_rc_pall _ _ (aproduce_status6 _ a0) _ _ _ _ _ Hrun) as Hstat. cbn [snd] in Hstat.
    destruct st1 as [[]|e|e|]; [|split; [exact Ho|]; destruct Hstat as [X|X]; inversion X; right; right; reflexivity|exact Ho..].
    cbn [obind]. msimpl.
    unfold loop_rel in Hloop. cbn [lzwin_set_limit w_size w_limit w_start w_pos] in Hloop.
    destruct Hloop as (_ & _ & R1 & Hd1 & Hsz1 & Hli1 & Hst1 & Hpos1 & Hzl1 & Hpl1 & Hok1 & Hpd1).
    destruct (Hok1 eq_refl) as (Hcok1 & _). clear Hok1.
    pose proof (run_rc_pall _ _ (aproduce_grows (Z.to_nat b) a0) _ _ _ _ _ Hrun) as (_ & Hg1 & _).
    cbn [fst snd] in Hg1. destruct (Hg1 eq_refl) as (new1 & Hh1 & Hl1). clear Hg1.
    unfold a0 in Hh1; cbn [a_hist] in Hh1.
    destruct (run_rc_rng _ _ _ _ _ _ Hpr Hrng Hrun) as (Hrng1 & Hpr1).
    assert (Hadv : w_pos w1 - w_pos (m_win s) = b).
    { rewrite Hh1, zlen_app in Hzl1. unfold zlen in Hzl1 at 1. lia. }
    (* the flush *)
    pose proof (flush_rel w1 _ R1) as HF. pose proof (flush_facts w1) as (Hff & Hfp & _).
    destruct (lzwin_flush w1) as [out w3]. cbn [fst snd] in Hff, Hfp.
    destruct HF as (Hout & R3 & Hst3 & Hsz3 & _ & Hpl3 & Hpd3).
    assert (Hout' : out = rev new1).
    { rewrite Hout. f_equal. rewrite Hh1. apply firstn_app_exact. lia. }
    assert (Hzo : zlen out = b) by (rewrite Hout'; unfold zlen; rewrite rev_length; lia).
    rewrite Hzo.
    destruct (Z.ltb_spec (u - b) 0) as [Hbad|_]; [lia|].
    msimpl.
    assert (Hw3 : win_ok ds true w3 (a_hist s1)).
    { split; [exact R3|]. split; [lia|]. split; [exact Hst3|]. intros _. rewrite Hsz3. apply Hfp; [lia|].
      destruct R1 as [_ [_ X] _ _ _ _ _ _]. exact X. }
    assert (Hne : st = true -> out <> []).
    { intros Y X; specialize (Hb1 Y); rewrite X in Hzo; unfold zlen in Hzo; cbn [length] in Hzo; lia. }
    (* the specification: the rest of the chunk after these b bytes *)
    replace (Z.to_nat u) with (Z.to_nat b + Z.to_nat (u - b))%nat in Ho by lia.
    rewrite (alz_fin_cont (Z.to_nat b) (Z.to_nat (u - b)) s1 new1 hist d1 t1 Hh1 Hl1) in Ho.
    assert (Hlive3 : forall us, live (mkLzma2 (m_in s) w3 (rdec_normalize d1) t1 (Some (a_coder s1)) us true
                                       (m_need_dict_reset s) (m_need_props s) (m_end_reached s) (m_error s))).
    { intros us. unfold live. msimpl. auto. }
    destruct (Z.eqb_spec (u - b) 0) as [Hz|Hnz].
    - (* the chunk is complete *)
      rewrite Hz in Ho. cbn [Z.to_nat aproduce run_rc alz_fin] in Ho.
      unfold lzwin_has_pending. rewrite Hpl3, Hpl1.
      assert (Hpn : 0 <= a_pend_len s1) by (rewrite <- Hpl1; destruct R1; assumption).
      destruct (rdec_is_finished (rdec_normalize d1)) eqn:Efin.
      2:{ cbn [negb orb andb]. split; [exact Ho | left; reflexivity]. }
      destruct (Z.ltb_spec 0 (a_pend_len s1)) as [Hpos|Hzero].
      { cbn [negb orb andb]. split; [|left; reflexivity].
        destruct (Z.leb_spec (a_pend_len s1) 0) as [X|_]; [lia|]. exact Ho. }
      cbn [negb orb andb].
      destruct (Z.leb_spec (a_pend_len s1) 0) as [_|X]; [|lia]. cbn [andb out_pre firstn rev] in Ho.
      unfold step_post. split; [exact Hne|]. split; [lia|].
      exists (adecode ds (mkD (a_hist s1) (Some (a_coder s1)) t1 false false) (m_in s)). split.
      + split; [rewrite Hz; apply Hlive3|]. left. eexists. split; [|reflexivity].
        unfold at_boundary. msimpl. cbn [d_hist d_coder d_probs d_need_props d_need_dict_reset].
        split; [exact Hz|]. split; [exact Efin|]. split; [exact Hw3|]. split; [lia|]. split; [exact Hnd|].
        split; [exact Hnp|]. intros _. split; [reflexivity|]. split; [reflexivity|]. split; [exact Hpr1|].
        exists (a_coder s1). split; [reflexivity|]. rewrite Hff. exact Hcok1.
      + rewrite Ho, Hout', app_nil_r. reflexivity.
    - (* more of the chunk to come *)
      cbn [andb].
      unfold step_post. split; [exact Hne|]. split; [lia|].
      eexists. split.
      + split; [apply Hlive3|]. right. right.
        exists (u - b), (a_coder s1), (a_hist s1). msimpl.
        split; [lia|]. split; [reflexivity|]. split; [reflexivity|]. split; [exact Hnp|]. split; [exact Hnd|].
        split; [reflexivity|]. split; [exact Hw3|]. split; [rewrite Hff; exact Hcok1|].
        split.
        { rewrite Hpl3, Hpd3, Hff, Hpl1. intros Hpos. destruct (Hpd1 Hpos) as (X1 & X2). rewrite X1. exact X2. }
        split; [apply norm_rng; exact Hrng1|]. split; [exact Hpr1|]. reflexivity.
      + rewrite Ho.
        rewrite (alz_norm ds (a_hist s1) (a_coder s1) d1 t1 (u - b) (w_pending_len w3) (w_pending_dist w3) (a_pend_dist s1) Hrng1).
        2:{ rewrite Hpl3, Hpd3, Hpl1. intros Hpos. apply (Hpd1 Hpos). }
        unfold alz. rewrite Hpl3, Hpl1.
        replace (mkAstate (a_coder s1) (a_hist s1) ds (a_pend_len s1) (a_pend_dist s1)) with s1
          by (destruct s1 as [c1 h1 dd pl1 pd1]; cbn [a_coder a_hist a_dict a_pend_len a_pend_dist] in *; subst dd; rewrite Hsz; reflexivity).
        destruct (alz_fin (Z.to_nat (u - b)) (run_rc (aproduce (Z.to_nat (u - b)) s1) d1 t1)) as [[d2 o2]|]; [|reflexivity].
        cbn [out_pre]. rewrite oapp_app, Hout'. reflexivity.
  Qed.

  (* a chunk that does not reset the dictionary while the reader demands it *)
  Lemma adecode_ndr d c in1 : (c =? 0) = false -> ((224 <=? c) || (c =? 1)) = false ->
    d_need_dict_reset d = true -> adecode ds d (c :: in1) = None.
  Proof.
    intros H0 Hr Hd. rewrite adecode_cons, H0.
    destruct (128 <=? c) eqn:E128.
    - destruct in1 as [|u1 [|u2 [|c1 [|c2 in3]]]]; try reflexivity.
      destruct (if 192 <=? c then match in3 with [] => None | pr :: in4 => Some ([pr], in4) end else Some ([], in3))
        as [[prl in4]|]; [|reflexivity].
      destruct (take_n _ in4) as [[payload rest]|]; [|reflexivity].
      rewrite astep_lzma by exact E128. rewrite Hr, Hd. reflexivity.
    - destruct ((c =? 1) || (c =? 2)); [|reflexivity].
      destruct in1 as [|s0 [|s1 in2]]; try reflexivity.
      destruct (take_n _ in2) as [[payload rest]|]; [|reflexivity].
      unfold astep. cbn [c_bytes c_ctrl]. rewrite Z.eqb_refl, Hr, Hd. reflexivity.
  Qed.

  (* The chunk header after the control byte [c] and the window part: [w1] is the window after a
     possible dictionary reset, [hist1] and [np1] the history and the need_props flag after it. *)
  Section Header.
    Variables (st : bool) (s : lzma2) (d : dstate) (c : Z) (in1 : list Z) (w1 : lzwin) (hist1 : list Z) (np1 : bool).
    Hypothesis Hh1 : hist1 = if (224 <=? c) || (c =? 1) then [] else d_hist d.
    Hypothesis Hn1 : np1 = if (224 <=? c) || (c =? 1) then true else d_need_props d.
    Hypothesis Herr : m_error s = None.
    Hypothesis Hb1 : bytes_ok in1 = true.
    Hypothesis Hc : 0 <= c < 256.
    Hypothesis H0 : (c =? 0) = false.
    Hypothesis Hr : (negb ((224 <=? c) || (c =? 1)) && d_need_dict_reset d) = false.
    Hypothesis Hw : win_ok ds st w1 hist1.
    Hypothesis Hpl : w_pending_len w1 = 0.
    Hypothesis Hfin : rdec_is_finished (m_rc s) = true.
    Hypothesis Hco : np1 = false -> m_coder s = d_coder d /\ m_probs s = d_probs d /\ probs_ok (d_probs d) /\
                                    exists c0, d_coder d = Some c0 /\ coder_ok c0 (w_full w1).

    (* after the sizes and the properties: rc.prepare on the payload of [csize] bytes *)
    Lemma hdr_lz_tail hd cd t in4 usize csize :
      bytes_ok in4 = true -> 0 < usize -> coder_ok cd (w_full w1) -> probs_ok t ->
      (forall payload, astep ds d (mkChunk c (hd ++ payload)) =
          match rdec_prepare payload csize with
          | Ok (rc, []) => alz ds hist1 cd rc t usize 0 0
          | _ => None
          end) ->
      let o := match take_n (Z.to_nat csize) in4 with
               | None => None
               | Some (payload, rest) =>
                   match astep ds d (mkChunk c (hd ++ payload)) with
                   | Some (d1, o1) => oapp o1 (adecode ds d1 rest)
                   | None => None
                   end
               end in
      match lz_tail s w1 usize csize false (Some cd, t, false, in4) with
      | Ok s1 => live s1 /\ in_lzma st s1 o
      | _ => o = None
      end.
    Proof.
      intros Hb4 Husz Hcok Hpr Hast o. subst o. unfold lz_tail.
      pose proof (take_n_spec (Z.to_nat csize) in4) as Ht.
      destruct (take_n (Z.to_nat csize) in4) as [[payload rest]|].
      2:{ destruct (rdec_prepare_short in4 csize Ht) as (e & He). rewrite He. reflexivity. }
      destruct Ht as (_ & _ & Hin4 & Hlp).
      assert (Hbr : bytes_ok rest = true) by (rewrite Hin4 in Hb4; apply bytes_ok_app in Hb4; apply Hb4).
      pose proof (rdec_prepare_exact payload rest csize Hlp) as HE. rewrite Hast, Hin4.
      destruct (rdec_prepare payload csize) as [[rc r]|e|e|]; try contradiction.
      - destruct HE as (-> & Hrng & HE). rewrite HE. cbn [obind].
        split; [unfold live; msimpl; auto|].
        exists usize, cd, hist1. msimpl.
        split; [exact Husz|]. split; [reflexivity|]. split; [reflexivity|]. split; [reflexivity|]. split; [reflexivity|].
        split; [reflexivity|]. split; [exact Hw|]. split; [exact Hcok|]. split; [rewrite Hpl; intros X; lia|].
        split; [exact Hrng|]. split; [exact Hpr|].
        rewrite Hpl, (alz_pd ds hist1 cd rc t usize 0 (w_pending_dist w1) 0) by (intros X; lia). reflexivity.
      - rewrite HE. reflexivity.
    Qed.

    Lemma hdr_lz : (128 <=? c) = true ->
      match lz_part s c in1 w1 np1 false with
      | Ok s1 => live s1 /\ in_lzma st s1 (adecode ds d (c :: in1))
      | _ => adecode ds d (c :: in1) = None
      end.
    Proof.
      intros H128. unfold lz_part.
      rewrite adecode_cons, H0, H128.
      destruct in1 as [|u1 [|u2 [|c1 [|c2 in3]]]]; cbn [read_u16_be obind]; try reflexivity.
      apply bytes_ok_cons in Hb1 as (Hu1 & Hb). apply bytes_ok_cons in Hb as (Hu2 & Hb).
      apply bytes_ok_cons in Hb as (Hc1 & Hb). apply bytes_ok_cons in Hb as (Hc2 & Hb3).
      cbv zeta.
      set (usize := Z.shiftl (Z.land c 31) 16 + (u1 * 256 + u2) + 1).
      set (csize := c1 * 256 + c2 + 1).
      assert (Husz : 0 < usize).
      { unfold usize. change 31 with (Z.ones 5). rewrite Z.land_ones by lia. rewrite Z.shiftl_mul_pow2 by lia.
        change (2 ^ 5) with 32. change (2 ^ 16) with 65536. Z.div_mod_to_equations. lia. }
      assert (Hast : forall b1, astep ds d (mkChunk c (c :: u1 :: u2 :: c1 :: c2 :: b1)) = _)
        by (intros b1; rewrite astep_lzma, Hr, <- Hh1, <- Hn1 by exact H128; reflexivity).
      destruct (192 <=? c) eqn:E192.
      - destruct in3 as [|pr in4]; [reflexivity|].
        apply bytes_ok_cons in Hb3 as (Hpr & Hb4).
        unfold lzma2_decode_props at 1. cbn [read_u8 obind].
        destruct (224 <? pr) eqn:Epr.
        { cbn [obind]. destruct (take_n (Z.to_nat csize) in4) as [[payload rest]|]; [|reflexivity].
          cbn [app]. rewrite Hast. unfold lzma2_decode_props. cbn [read_u8 obind]. rewrite Epr. reflexivity. }
        cbv zeta.
        destruct (4 <? pr - pr / 45 * 45 - (pr - pr / 45 * 45) / 9 * 9 + (pr - pr / 45 * 45) / 9) eqn:Elclp.
        { cbn [obind]. destruct (take_n (Z.to_nat csize) in4) as [[payload rest]|]; [|reflexivity].
          cbn [app]. rewrite Hast. unfold lzma2_decode_props. cbn [read_u8 obind]. rewrite Epr. cbv zeta. rewrite Elclp. reflexivity. }
        cbn [obind].
        apply (hdr_lz_tail [c; u1; u2; c1; c2; pr] _ PLeaf in4 usize csize); try assumption.
        + apply Z.ltb_ge in Epr, Elclp. apply coder_new_ok; Z.div_mod_to_equations; lia.
        + apply probs_ok_empty.
        + intros payload. cbn [app]. rewrite Hast. unfold lzma2_decode_props. cbn [read_u8 obind].
          rewrite Epr. cbv zeta. rewrite Elclp. reflexivity.
      - destruct np1 eqn:Enp.
        + cbn [obind]. destruct (take_n (Z.to_nat csize) in3) as [[payload rest]|]; [|reflexivity].
          cbn [app]. rewrite Hast. reflexivity.
        + destruct (Hco eq_refl) as (Hc1' & Hp1 & Hpok & c0 & Hc0 & Hcok0).
          rewrite Hc1', Hc0, Hp1.
          destruct (160 <=? c) eqn:E160; cbn [obind].
          * apply (hdr_lz_tail [c; u1; u2; c1; c2] _ PLeaf in3 usize csize); try assumption.
            -- unfold coder_reset. destruct Hcok0 as ((A1 & A2 & A3) & _). apply coder_new_ok; assumption.
            -- apply probs_ok_empty.
            -- intros payload. cbn [app]. rewrite Hast, Hc0. reflexivity.
          * apply (hdr_lz_tail [c; u1; u2; c1; c2] _ (d_probs d) in3 usize csize); try assumption.
            intros payload. cbn [app]. rewrite Hast, Hc0. reflexivity.
    Qed.

    Lemma hdr_unc : (128 <=? c) = false -> ((c =? 1) || (c =? 2)) = true ->
      match unc_part s in1 w1 np1 false with
      | Ok s1 => live s1 /\ in_unc st s1 (adecode ds d (c :: in1))
      | _ => adecode ds d (c :: in1) = None
      end.
    Proof.
      intros H128 H12. unfold unc_part.
      rewrite adecode_cons, H0, H128, H12.
      destruct in1 as [|s0 [|s1 in2]]; cbn [read_u16_be obind]; try reflexivity.
      apply bytes_ok_cons in Hb1 as (Hs0 & Hb). apply bytes_ok_cons in Hb as (Hs1 & Hb2).
      set (n := s0 * 256 + s1 + 1). assert (Hn : 0 < n) by (unfold n; lia).
      split; [unfold live; msimpl; auto|].
      exists n, hist1, (d_coder d), (d_probs d), np1. msimpl.
      split; [exact Hn|]. split; [reflexivity|]. split; [reflexivity|]. split; [exact Hfin|]. split; [exact Hw|].
      split; [exact Hpl|]. split; [reflexivity|].
      split; [split; [reflexivity | exact Hco]|].
      fold n. pose proof (take_n_spec (Z.to_nat n) in2) as Ht.
      destruct (take_n (Z.to_nat n) in2) as [[payload rest]|].
      - destruct Ht as (-> & -> & Hin2 & Hlp).
        destruct (Z.ltb_spec (zlen in2) n) as [X|_]; [rewrite Hin2, zlen_app in X; unfold zlen in X; lia|].
        unfold astep. cbn [c_bytes c_ctrl]. rewrite Z.eqb_refl, Hr, H128, H12. cbn [negb].
        fold n. replace (zlen (firstn (Z.to_nat n) in2)) with n by (unfold zlen; lia). rewrite Z.eqb_refl.
        unfold d_after_unc. rewrite <- Hh1, <- Hn1. reflexivity.
      - destruct (Z.ltb_spec (zlen in2) n) as [_|X]; [reflexivity | unfold zlen in X; lia].
    Qed.

    Lemma hdr_parts :
      match (if 128 <=? c then lz_part s c in1 w1 np1 false
             else if 2 <? c then Err E_INVALID_INPUT else unc_part s in1 w1 np1 false) with
      | Ok s1 => m_end_reached s1 = false /\ live s1 /\
                 (in_unc st s1 (adecode ds d (c :: in1)) \/ in_lzma st s1 (adecode ds d (c :: in1)))
      | _ => adecode ds d (c :: in1) = None
      end.
    Proof.
      destruct (128 <=? c) eqn:E128.
      - pose proof (hdr_lz E128) as HL. destruct (lz_part s c in1 w1 np1 false); try exact HL.
        split; [apply HL|]. split; [apply HL | right; apply HL].
      - destruct (Z.ltb_spec 2 c) as [E2|E2].
        { rewrite adecode_cons, H0, E128.
          destruct (Z.eqb_spec c 1) as [X|_]; [lia|]. destruct (Z.eqb_spec c 2) as [X|_]; [lia | reflexivity]. }
        assert (H12 : ((c =? 1) || (c =? 2)) = true).
        { apply Z.eqb_neq in H0. apply orb_true_iff. destruct (Z.eq_dec c 1); [left | right]; apply Z.eqb_eq; lia. }
        pose proof (hdr_unc E128 H12) as HL. destruct (unc_part s in1 w1 np1 false); try exact HL.
        split; [apply HL|]. split; [apply HL | left; apply HL].
    Qed.
  End Header.

  Lemma header_sim st s d : live s -> at_boundary st s d ->
    match lzma2_chunk_header s with
    | Ok s1 =>
        (m_end_reached s1 = true /\ m_error s1 = None /\ adecode ds d (m_in s) = Some ([], m_in s1)) \/
        (m_end_reached s1 = false /\ live s1 /\
         (in_unc st s1 (adecode ds d (m_in s)) \/ in_lzma st s1 (adecode ds d (m_in s))))
    | _ => adecode ds d (m_in s) = None
    end.
  Proof.
    intros (Hend & Herr & Hbytes) (Hus & Hfin & (R & Hsz & Hst & Hps) & Hpl & Hndr & (Hnp & Hcoder)).
    rewrite chunk_header_eq.
    destruct (m_in s) as [|c in1] eqn:Ein; cbn [read_u8 obind]; [apply adecode_nil|].
    apply bytes_ok_cons in Hbytes as (Hc & Hb1).
    destruct (Z.eqb_spec c 0) as [Hc0|Hc0].
    { subst c. left. msimpl. split; [reflexivity|]. split; [exact Herr | rewrite adecode_cons; reflexivity]. }
    assert (H0 : (c =? 0) = false) by (apply Z.eqb_neq; exact Hc0).
    pose proof R as [[Hs0 Hs16] _ _ _ _ _ _ Hpe].
    destruct (reset_rel (m_win s) Hs0 Hs16 Hpe) as (wr & Hreset & Rr & Hszr & Hstr & Hpor & Hfur & Hplr & _).
    unfold win_part.
    destruct ((224 <=? c) || (c =? 1)) eqn:Er.
    - rewrite Hreset. cbn [obind].
      pose proof (hdr_parts st s d c in1 wr [] true ltac:(rewrite Er; reflexivity) ltac:(rewrite Er; reflexivity)
                    Herr Hb1 Hc H0 ltac:(rewrite Er; reflexivity)) as HL.
      assert (Hwr : win_ok ds st wr []) by (split; [exact Rr|]; split; [lia|]; split; [lia|]; intros _; lia).
      destruct (if 128 <=? c then _ else _) as [s1|e|e|]; [right|..]; apply HL; auto; try lia; discriminate.
    - destruct (m_need_dict_reset s) eqn:Endr.
      { cbn [obind]. apply adecode_ndr; [exact H0 | exact Er | symmetry; exact Hndr]. }
      cbn [obind]. rewrite Hnp.
      pose proof (hdr_parts st s d c in1 (m_win s) (d_hist d) (d_need_props d) ltac:(rewrite Er; reflexivity)
                    ltac:(rewrite Er; reflexivity) Herr Hb1 Hc H0 ltac:(rewrite <- Hndr; apply andb_false_r)) as HL.
      assert (Hw : win_ok ds st (m_win s) (d_hist d)) by (split; [exact R|]; split; [exact Hsz|]; split; assumption).
      destruct (if 128 <=? c then _ else _) as [s1|e|e|]; [right|..]; apply HL; auto.
  Qed.

  Definition iter_post (st : bool) (o : option (list Z * list Z)) (len : Z) (r : outcome (list Z * lzma2)) : Prop :=
    match r with
    | Ok (out, s') =>
        (out = [] /\ m_end_reached s' = true /\ m_error s' = None /\ o = Some ([], m_in s')) \/
        step_post st o len out s'
    | Err e => o = None /\ err_kind e
    | _ => o = None
    end.

  Lemma body_sim st s o len : live s -> in_unc st s o \/ in_lzma st s o -> 0 < len -> iter_post st o len (iter_body s len).
  Proof.
    intros Hl Hc Hlen.
    pose proof (match Hc with or_introl H => body_unc st s o len Hl H Hlen | or_intror H => body_lzma st s o len Hl H Hlen end) as HB.
    unfold iter_post. destruct (iter_body s len) as [[out s']|e|e|]; try exact HB. right. exact HB.
  Qed.

  (* one iteration of the loop of read_decode *)
  Lemma iter_sim st s o len : SInv st s o -> 0 < len -> iter_post st o len (lzma2_iter s len).
  Proof.
    intros (Hlive & [(d & Hb & Ho) | Hc]) Hlen; rewrite lzma2_iter_eq.
    - pose proof Hb as (Hus & _). rewrite Hus. change (0 =? 0) with true. cbv iota.
      pose proof (header_sim st s d Hlive Hb) as HH. rewrite <- Ho in HH.
      destruct (lzma2_chunk_header s) as [s1|e|e|] eqn:Hh; cbn [obind];
        [|split; [exact HH | exact (header_err s e Hh)]|exact HH..].
      destruct HH as [(He & Herr1 & Had) | (He & Hl1 & Hc1)]; rewrite He; [left; auto | apply body_sim; assumption].
    - assert (Hu : 0 < m_uncompressed_size s)
        by (destruct Hc as [(u & ? & ? & ? & ? & ? & <- & _) | (u & ? & ? & ? & <- & _)]; assumption).
      destruct (Z.eqb_spec (m_uncompressed_size s) 0) as [X|_]; [lia|]. cbn [obind].
      rewrite (proj1 Hlive). apply body_sim; assumption.
  Qed.

  (* from a read history to the specification *)
  Definition read_post (o : option (list Z * list Z)) (len : Z) (out : list Z) (s1 : lzma2) : Prop :=
    (m_end_reached s1 = true /\ m_error s1 = None /\ o = Some (out, m_in s1)) \/
    (m_end_reached s1 = false /\ zlen out = len /\ exists st1 o1, SInv st1 s1 o1 /\ o = oapp out o1).

  Lemma loop_comp : forall fuel st s len acc o, SInv st s o -> 0 <= len ->
    match lzma2_read_loop fuel s len acc with
    | Ok (res, s1) => exists out, res = rev acc ++ out /\ read_post o len out s1
    | Err e => err_kind e
    | _ => True
    end.
  Proof.
    induction fuel as [|f IH]; intros st s len acc o HI Hlen;
      (destruct (Z.leb_spec len 0) as [Hle|Hgt];
       [rewrite l2_read_loop_done by exact Hle; exists []; rewrite frev_rev, app_nil_r; split; [reflexivity|];
        right; split; [apply (SInv_live st s o HI)|]; split; [change (zlen (@nil Z)) with 0; lia|];
        exists st, o; split; [exact HI | symmetry; apply oapp_nil]|]).
    - cbn [lzma2_read_loop]. destruct (Z.leb_spec len 0); [lia | exact I].
    - rewrite l2_read_loop_step by exact Hgt.
      pose proof (iter_sim st s o len HI Hgt) as HS.
      destruct (lzma2_iter s len) as [[out s']|e|e|]; cbn [obind]; [|exact (proj2 HS)|exact I..].
      destruct HS as [(Hout & He & Herr & Ho) | (Hne & Hle & o' & HI' & Ho)].
      + rewrite He. exists []. rewrite frev_rev, app_nil_r. split; [reflexivity|]. left. auto.
      + destruct (SInv_live true s' o' HI') as (He' & _). rewrite He'.
        pose proof (zlen_nonneg out) as Hzn.
        specialize (IH true s' (len - zlen out) (rev_append out acc) o' HI' ltac:(lia)).
        destruct (lzma2_read_loop f s' (len - zlen out) (rev_append out acc)) as [[res s1]|e|e|]; try exact IH.
        destruct IH as (out2 & Hres & Hcase).
        exists (out ++ out2). rewrite Hres, rev_rev_append, <- app_assoc. split; [reflexivity|].
        destruct Hcase as [(E1 & E2 & E3) | (E1 & E2 & st1 & o1 & E3 & E4)].
        * left. split; [exact E1|]. split; [exact E2|]. rewrite Ho, E3. reflexivity.
        * right. split; [exact E1|]. split; [rewrite zlen_app; lia|].
          exists st1, o1. split; [exact E3|]. rewrite Ho, E4. symmetry. apply oapp_app.
  Qed.

  Lemma read_comp st s o sz : SInv st s o -> 0 < sz ->
    match lzma2_read s sz with
    | Ok (out, s1) => read_post o sz out s1
    | Err e => err_kind e
    | _ => True
    end.
  Proof.
    intros HI Hsz. destruct (SInv_live st s o HI) as (He & Herr).
    rewrite l2_read_live by assumption.
    pose proof (loop_comp (Z.to_nat (2 * sz + 4)) st s sz [] o HI ltac:(lia)) as HL.
    destruct (lzma2_read_loop _ s sz []) as [[out s1]|e|e|]; try exact HL.
    destruct HL as (out' & Hout & Hcase). cbn [rev app] in Hout. subst out'. exact Hcase.
  Qed.

  (* A read history that ends with status 0, or has reached the end marker, has done both, and
     has returned what the specification says.  (Status 0 alone suffices because every error of
     the reader is a non-zero kind.) *)
  Lemma read_all_comp : forall fuel st s sizes all acc o res stt s_end,
    SInv st s o -> Forall (fun z => 0 < z) sizes -> Forall (fun z => 0 < z) all ->
    lzma2_read_all fuel s sizes all acc = Ok (res, stt, s_end) -> stt = 0 \/ m_end_reached s_end = true ->
    exists data, o = Some (data, m_in s_end) /\ res = rev acc ++ data /\ stt = 0 /\
                 m_end_reached s_end = true /\ m_error s_end = None.
  Proof.
    induction fuel as [|f IH]; intros st s sizes all acc o res stt s_end HI Hs Ha Hr Hend; [discriminate|].
    destruct (next_size_pos sizes all Hs Ha) as (Hsz & Hnext).
    rewrite l2_read_all_step in Hr.
    pose proof (read_comp st s o _ HI Hsz) as HR.
    destruct (lzma2_read s (fst (next_size sizes all))) as [[out s1]|e|e|]; try discriminate.
    2:{ inversion Hr; subst res stt s_end. exfalso. destruct Hend as [Hz|Hend].
        - exact (err_kind_nonzero e HR Hz).
        - destruct (SInv_live st s o HI) as (He & _).
          unfold lzma2_set_error in Hend. cbn [m_end_reached] in Hend. congruence. }
    destruct (Z.ltb_spec 0 (fst (next_size sizes all))) as [_|X]; [|lia]. cbn [andb] in Hr.
    destruct HR as [(E1 & E2 & E3) | (E1 & E2 & st1 & o1 & E3 & E4)].
    - (* the end marker was reached in this call *)
      destruct (Z.eqb_spec (zlen out) 0) as [Hz|Hnz].
      + inversion Hr; subst res stt s_end. apply zlen_zero_nil in Hz. subst out.
        exists []. rewrite frev_rev, app_nil_r. auto.
      + destruct f as [|f']; [discriminate|].
        rewrite (read_all_ended (m_in s1) f' s1 _ all (rev_append out acc)) in Hr.
        * inversion Hr; subst res stt s_end. exists out. rewrite frev_rev, rev_rev_append. auto.
        * split; [exact E1|]. split; [exact E2 | reflexivity].
        * exact Hnext.
        * exact Ha.
    - destruct (Z.eqb_spec (zlen out) 0) as [Hz|Hnz]; [lia|].
      destruct (IH st1 s1 _ all (rev_append out acc) o1 res stt s_end E3 Hnext Ha Hr Hend)
        as (data & D1 & D2 & D3 & D4 & D5).
      exists (out ++ data). rewrite E4, D1, D2, rev_rev_append, <- app_assoc. auto.
  Qed.

  (* from the specification to every read history *)
  Section Sound.
    Variable tail : list Z.
    Definition RInv (st : bool) (s : lzma2) (rem : list Z) : Prop := SInv st s (Some (rem, tail)).

    Lemma riter st s rem len : RInv st s rem -> 0 < len ->
      exists out s' rem', lzma2_iter s len = Ok (out, s') /\ rem = out ++ rem' /\ zlen out <= len /\
        ((m_end_reached s' = true /\ rem' = [] /\ Ended tail s') \/
         (m_end_reached s' = false /\ (st = true -> out <> []) /\ RInv true s' rem')).
    Proof.
      intros HI Hlen. pose proof (iter_sim st s _ len HI Hlen) as HS.
      destruct (lzma2_iter s len) as [[out s']|e|e|]; [|discriminate (proj1 HS)|discriminate HS..].
      destruct HS as [(-> & He & Herr & [= -> Ht]) | (Hne & Hle & [[rem' tl']|] & HI' & [= -> <-])].
      - exists [], s', []. change (zlen (@nil Z)) with 0. unfold Ended. repeat split; [lia|]. left. auto.
      - exists out, s', rem'. split; [reflexivity|]. split; [reflexivity|]. split; [exact Hle|].
        right. split; [apply (SInv_live _ _ _ HI')|]. split; assumption.
    Qed.

    Lemma rread_live st s rem sz : RInv st s rem -> 0 < sz ->
      exists fuel, lzma2_read s sz = lzma2_read_loop fuel s sz [] /\ (Z.to_nat sz + 2 <= fuel)%nat.
    Proof.
      intros HI Hsz. destruct (SInv_live _ _ _ HI) as (Hend & Herr).
      exists (Z.to_nat (2 * sz + 4)). split; [apply l2_read_live; assumption | lia].
    Qed.

    Theorem read_all_sound st s rem sizes fuel :
      RInv st s rem -> Forall (fun z => 0 < z) sizes -> (length rem + 2 <= fuel)%nat ->
      exists s_end, lzma2_read_all fuel s sizes sizes [] = Ok (rem, 0, s_end) /\ Ended tail s_end.
    Proof.
      intros HI Hsz.
      apply (read_all_ok lzma2 _ lzma2_read lzma2_read_all (fun l s => (l, 0, s))
               (fun s rem => exists st, RInv st s rem) (Ended tail) l2_read_all_next);
        [|apply read_ended|exists st; exact HI|exact Hsz|exact Hsz].
      intros s0 rem0 sz (st0 & HI0) Hsz0.
      destruct (ReadLoopProofs.read_ok lzma2 lzma2_iter m_end_reached lzma2_read_loop lzma2_read RInv (Ended tail)
                  l2_read_loop_done l2_loop_step rread_live riter st0 s0 rem0 sz HI0 Hsz0)
        as (out & s' & rem' & Hr & Hrem & [(Hfull & HI') | (_ & H)]);
        exists out, s', rem'; (split; [exact Hr|]); (split; [exact Hrem|]); [left | right; exact H].
      split; [intros ->; change (zlen (@nil Z)) with 0 in Hfull; lia | exists true; exact HI'].
    Qed.
  End Sound.

End Sim.
