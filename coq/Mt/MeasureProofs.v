(* Mt/MeasureProofs.v — C09, termination: on the repaired protocol every step of every thread
   strictly decreases a natural-number measure, so every schedule is finite: a call of the caller
   returns (or the object is dropped and all workers have exited) after finitely many steps under
   every schedule.  The measure is a weighted sum of
     caller operations still to come, source-script entries still to read, units in the queue,
     messages in the channel, entries of the reorder map, the phase, the coordinator's program
     point (with the budget of the dispatch sequence / of finish it is in), each worker's program
     point.
   notify_one / notify_all raise the rank of the woken workers by 4 each; the notifying step pays
   for it (notify_all: 4 * clamp(num_workers)). *)
From LzVerif Require Import Base.Bytes Mt.Protocol Mt.ProtocolLemmas Mt.ProtocolInv Mt.SafetyProofs Mt.CountProofs
  Mt.LiveInv.
Local Open Scope nat_scope.

Section P.
Context {R : Type}.
Variable f : nat -> R + Z.
Implicit Types (s : state R) (c : cfg).

Definition rw (w : wpc R) : nat :=
  match w with
  | WExit => 0 | WSleep => 1 | WWait => 2 | WChk => 3 | WPop => 4 | WLock => 5 | WWoken => 5 | WTop => 6
  | WDec => 7 | WDecX => 7 | WWake => 25 | WSetErr _ => 26 | WDecE _ => 27 | WSend _ _ => 30 | WInc _ => 31
  end.

Definition rph (h : phase) : nat := match h with PErr => 0 | PFin => 5 | PDrain => 10 | PRun => 20 end.

(* budget of finish(): its tail (shutdown, close, return) and the Drop that follows *)
Definition Fb (c : cfg) : nat := 12 + 8 * maxw c.
Definition kd (c : cfg) (d : dk) : nat := match d with DFinish => Fb c | _ => 0 end.
Definition kb (c : cfg) (g : gk) : nat :=
  match g with KBack d => 80 + kd c d | KFinish => Fb c | _ => 0 end.

Definition rco (c : cfg) (p : cpc) : nat :=
  match p with
  | CIdle => 0
  | CTop g => 10 + kb c g
  | CTake g => 9 + kb c g
  | CTakeE g => 8 + kb c g
  | CRecv g false => 8 + kb c g
  | CRecv g true => 6 + kb c g
  | CLenR => 7
  | CSetErr _ => 5
  | CLenB d => 92 + kd c d
  | CPushChk d => 80 + kd c d
  | CPush d => 79 + kd c d
  | CNotify d => 38 + kd c d
  | CLoadAct d => 33 + kd c d
  | CLenS d _ => 32 + kd c d
  | CSpawn d => 31 + kd c d
  | CShut true => 11 + 8 * maxw c
  | CCloseLock true => 10 + 8 * maxw c
  | CCloseStore true => 9 + 8 * maxw c
  | CCloseNotify true => 8 + 8 * maxw c
  | CCloseUnlock true => 7 + 4 * maxw c
  | CShut false => 6 + 4 * maxw c
  | CCloseLock false => 5 + 4 * maxw c
  | CCloseStore false => 4 + 4 * maxw c
  | CCloseNotify false => 3 + 4 * maxw c
  | CCloseUnlock false => 2
  | CDropRx => 1
  | CDone => 0
  end.

Definition measure c s : nat :=
  sumf (fun _ => 200 + 8 * maxw c) (prog s) + 100 * length (script s) + 40 * length (q_items s) +
  20 * length (ch s) + 12 * length (reo s) + rph (ph s) + rco c (pc s) + sumf rw (ws s).

Lemma rw_wake_one n l : sumf rw (wake_one n l) <= sumf rw l + 4.
Proof.
  destruct (wake_one_spec n l) as [[-> _]|(i & Hi & ->)]; [lia|].
  pose proof (sumf_upd rw l i _ WWoken Hi) as E. cbn [rw] in E. lia.
Qed.
Lemma rw_wake_all l : sumf rw (wake_all l) <= sumf rw l + 4 * length l.
Proof. induction l as [|w t IH]; simpl; [lia|]. destruct w; simpl; lia. Qed.

Lemma sumf_drop {A} (g : A -> nat) (b : bool) l : sumf g (if b then [] else l) <= sumf g l.
Proof. destruct b; simpl; lia. Qed.

Lemma rco_recv c g b : 6 + kb c g <= rco c (CRecv g b) <= 8 + kb c g.
Proof. destruct b; simpl; lia. Qed.

(* The rank of what a helper effect leads to (program point and phase), against the budget of its
   caller: handing a chunk over may cost 12 (it is paid by the channel or reorder-map entry
   consumed), any other return from get_next at most 7, the end of a dispatch sequence at most 10. *)
Definition eff_rank c (h : phase) (e : ceff R) : nat :=
  rph (match e_ph e with Some p => p | None => h end) + rco c (e_pc e).

Lemma ret_eff_rank c s g v h :
  match v with RSome _ | RErr _ => True | _ => forall d, g = KBack d -> ph s <> PRun end ->
  eff_rank c h (ret_eff s g v) <= rph h + match v with RSome _ => 12 | _ => 7 end + kb c g.
Proof.
  intros Hb. unfold eff_rank. rewrite ret_eff_ph.
  destruct g as [|d| | |], v; cbn [ret_eff]; try destruct (nr s <? nd s);
    try (specialize (Hb d eq_refl); destruct (ph s); [congruence|..]); try destruct d;
    cbn [with_out goto creturn freturn dk_is_finish e_pc rco kb kd]; unfold Fb; lia.
Qed.

Lemma flush_eff_rank c s h : eff_rank c h (flush_eff s) <= rph h + 10.
Proof.
  unfold eff_rank. rewrite flush_eff_ph. unfold flush_eff.
  destruct (nr s <? nd s); cbn [goto creturn e_pc rco kb]; lia.
Qed.

Lemma finish_eff_rank c s h : eff_rank c h (finish_eff s) <= Nat.max (rph h + 11) 32 + 8 * maxw c.
Proof. unfold eff_rank, finish_eff. destruct (nd s =? 0); cbn [goto e_pc e_ph rco rph kb]; unfold Fb; lia. Qed.

Lemma src_eff_rank c s r : eff_rank c PRun (src_eff c s r) <= 30 /\ (r = SEnd -> eff_rank c PRun (src_eff c s r) <= 25).
Proof.
  unfold eff_rank, src_eff.
  destruct r; [|destruct (_ && _)|]; cbn [goto e_pc e_ph rco rph kb]; split; try discriminate; lia.
Qed.

Lemma disp_eff_rank c s d h :
  ((exists r, d = DRead r) \/ d = DFinish -> h = PRun) -> eff_rank c h (disp_eff c s d) <= rph h + 10 + kd c d.
Proof.
  intros Hrun. destruct d; cbn [disp_eff kd].
  - rewrite (Hrun (or_introl (ex_intro _ r eq_refl))). destruct (src_eff_rank c s r) as [L _]. cbn [rph]. lia.
  - unfold eff_rank. cbn [goto e_pc e_ph rco kb]. lia.
  - pose proof (flush_eff_rank c s h). lia.
  - rewrite (Hrun (or_intror eq_refl)). pose proof (finish_eff_rank c s PRun). cbn [rph] in *. unfold Fb. lia.
Qed.

(* C09 (termination): every step strictly decreases the measure *)
Theorem mt_measure c src p s t s' :
  Fx c -> reachable f c src p s -> step f c s t = Some s' -> measure c s' < measure c s.
Proof.
  intros Hfx Hr Hst.
  pose proof (inv_ctl f c src p s Hfx Hr) as OK.
  pose proof (i1_bound c s (inv_I1 f c src p s Hr)) as B.
  pose proof (maxw_pos c) as MW.
  destruct Hfx as (Fc & _).
  destruct t as [k|i]; cbn [step] in Hst; unfold measure.
  - co_cases Hst; mcbn; rw_pc; rewrite ?Fc.
    all: repeat match goal with
                | b : bool |- _ => destruct b
                | |- context [blocking_of ?g] => destruct (blocking_of g)
                end.
    all: try match goal with
         | |- context [disp_eff ?c0 ?s0 ?d] =>
             pose proof (disp_eff_rank c0 s0 d (ph s) ltac:(intros [[? ->]| ->]; exact (ctl_run _ _ _ OK eq_refl))) as RK
         | |- context [ret_eff ?s0 ?g ?v] =>
             pose proof (ret_eff_rank c s0 g v (ph s0)
               ltac:(try exact I; intros d ->; first [congruence|intros _; exact (ctl_back_nb _ _ _ OK)])) as RK
         | |- context [src_eff ?c0 ?s0 ?r] => pose proof (src_eff_rank c0 s0 r) as [? RE]; try specialize (RE eq_refl)
         | |- context [finish_eff ?s0] => pose proof (finish_eff_rank c s0 (ph s0)) as RK
         | |- context [flush_eff ?s0] => pose proof (flush_eff_rank c s0 (ph s0)) as RK
         end.
    (* the reader's source handling and the dispatch sequences of the reader and of finish() run
       in phase Running *)
    all: try (rewrite (ctl_run _ _ _ OK eq_refl) in * ).
    all: unfold eff_rank in *; try mcbn_in RK; rw_eqs; rw_goal.
    all: try match goal with |- context [sumf ?g (if ?b then [] else ?l)] => pose proof (sumf_drop g b l) end.
    all: try match goal with |- context [rco ?c0 (CRecv ?g ?b)] => pose proof (rco_recv c0 g b) end.
    all: try match goal with
         | |- context [wake_one ?n ?l] => pose proof (rw_wake_one n l)
         | |- context [wake_all ?l] => pose proof (rw_wake_all l)
         | H : lookup ?k ?l = Some _ |- _ => pose proof (remove_key_lookup_length l k _ H)
         | |- context [insert ?k ?r ?l] => pose proof (remove_key_length l k); unfold insert
         end.
    all: cbn [rco rph kb kd sumf length rw] in *; rewrite ?sumf_app, ?app_length;
         cbn [sumf length rw]; unfold Fb; lia.
  - wk_cases Hst; mcbn; rw_goal;
      match goal with
      | H : nth_opt (ws s) i = Some ?w |- context [sumf rw (upd_nat (ws s) i ?w')] =>
          pose proof (sumf_upd rw (ws s) i w w' H) as E; cbn [rw] in E
      end;
      rewrite ?app_length; cbn [length]; lia.
Qed.

(* every schedule is finite: its length is bounded by the measure of the state it starts from *)
Theorem mt_terminates c src p s sched s' :
  Fx c -> reachable f c src p s -> run_strict f c s sched = Some s' ->
  length sched + measure c s' <= measure c s.
Proof.
  intros Hfx. revert s. induction sched as [|t rest IH]; intros s Hr H; simpl in H.
  - inversion H; subst. simpl. lia.
  - destruct (step f c s t) as [s1|] eqn:E; [|discriminate].
    pose proof (mt_measure c src p s t s1 Hfx Hr E).
    assert (Hr1 : reachable f c src p s1) by (econstructor; eauto).
    specialize (IH s1 Hr1 H). simpl. lia.
Qed.

End P.
