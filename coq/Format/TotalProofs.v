(* Format/TotalProofs.v — C06 for the container reader models: on EVERY input (any list of
   integers, in particular any byte string) the whole-file reader functions of XzFormat.v and
   LzipFormat.v return Ok or Err - never Panic, never Fuel - whenever the payload decoder they are
   given does so and never returns more unread input than it received.  The XZ theorem is proved for
   sources with any property that suffixes inherit, so that it also serves a payload decoder that is
   total on byte strings only (TotalClosedProofs.v).

   Panic sites of the models: Panic 63 (stream flags not two bytes) and Panic 64 (empty block
   header) are unreachable because the preceding read_exact fixes the length; Panic 62 (index
   allocation) is the repaired F11 (needs fx11).  Fuel: the loops are started with
   fuel = S (length of the source); every iteration consumes at least one byte (a block header is
   at least 8 bytes, an index record at least 2, a stream at least 13, an LZIP member at least 26). *)
From LzVerif Require Import Base.Bytes Format.Crc Format.Vli Format.XzFormat Format.LzipFormat Format.LzipDict
  Format.XzHeaderProofs Format.XzSoundProofs.

Definition total {A} (o : outcome A) : Prop :=
  match o with Ok _ | Err _ => True | _ => False end.

(* a parser result: Ok or Err, and the rest is at least k bytes shorter than the source *)
Definition shrk {A} (k : nat) (src : list Z) (o : outcome (A * list Z)) : Prop :=
  match o with Ok (_, r) => (length r + k <= length src)%nat | Err _ => True | _ => False end.

(* Ok or Err, and an Ok value satisfies Q; [total] and [shrk] are instances *)
Definition post {A} (Q : A -> Prop) (o : outcome A) : Prop :=
  match o with Ok a => Q a | Err _ => True | _ => False end.

Lemma total_bind {A B} (x : outcome A) (f : A -> outcome B) :
  total x -> (forall a, x = Ok a -> total (f a)) -> total (obind x f).
Proof. destruct x; cbn [total obind]; intros H1 H2; auto. Qed.

Lemma shrk_bind {A B} k src (x : outcome A) (f : A -> outcome (B * list Z)) :
  total x -> (forall a, x = Ok a -> shrk k src (f a)) -> shrk k src (obind x f).
Proof. destruct x; cbn [total obind shrk]; intros H1 H2; auto. Qed.

(* One step of a parser: the first part [x] has a post-condition; any property [R] of results that
   holds of errors holds of [obind x f] if it holds of the continuation on what [x] returned. *)
Lemma post_step {A B} (Q : A -> Prop) (x : outcome A) (f : A -> outcome B) (R : outcome B -> Prop) :
  post Q x -> (forall e, R (Err e)) -> (forall a, x = Ok a -> Q a -> R (f a)) -> R (obind x f).
Proof. destruct x; cbn [post obind]; intros Hx He Hk; [auto | apply He | contradiction..]. Qed.

Lemma shrk_step {A B} k src (x : outcome (A * list Z)) (f : A * list Z -> outcome B) (R : outcome B -> Prop) :
  shrk k src x -> (forall e, R (Err e)) ->
  (forall a r, x = Ok (a, r) -> (length r + k <= length src)%nat -> R (f (a, r))) -> R (obind x f).
Proof. destruct x as [[a r]| | |]; cbn [shrk obind]; intros Hx He Hk; [auto | apply He | contradiction..]. Qed.

Lemma post_weaken {A} (Q Q' : A -> Prop) o : (forall a, Q a -> Q' a) -> post Q o -> post Q' o.
Proof. destruct o; cbn [post]; auto. Qed.

Lemma shrk_total {A} k src (o : outcome (A * list Z)) : shrk k src o -> total o.
Proof. destruct o as [[a r]| | |]; cbn; auto. Qed.

Lemma shrk_weaken {A} k k' src (o : outcome (A * list Z)) : (k' <= k)%nat -> shrk k src o -> shrk k' src o.
Proof. destruct o as [[a r]| | |]; cbn; auto. intros. lia. Qed.

Lemma shrk_trans {A} k src src' (o : outcome (A * list Z)) :
  (length src' <= length src)%nat -> shrk k src' o -> shrk k src o.
Proof. destruct o as [[a r]| | |]; cbn; auto. intros. lia. Qed.

Lemma shrk_ok {A} k src (o : outcome (A * list Z)) a r : shrk k src o -> o = Ok (a, r) -> (length r + k <= length src)%nat.
Proof. intros S ->. exact S. Qed.

Lemma post_ok {A} (Q : A -> Prop) o a : post Q o -> o = Ok a -> Q a.
Proof. intros S ->. exact S. Qed.

Lemma xz_take_spec n src :
  post (fun p => length (fst p) = Z.to_nat n /\ (length (snd p) + Z.to_nat n = length src)%nat) (xz_take n src).
Proof.
  unfold xz_take. destruct (Z.ltb_spec (zlen src) n) as [Hlt|Hge]; [exact I|].
  cbn [post fst snd]. unfold zlen in Hge. rewrite firstn_length, skipn_length. lia.
Qed.

Lemma vli_parse_slice_loop_total : forall data r s, total (vli_parse_slice_loop data r s).
Proof.
  induction data as [|b t IH]; intros r s; cbn [vli_parse_slice_loop]; [exact I|].
  destruct (63 <=? s); [exact I|]. destruct (Z.land b 128 =? 0); [exact I | apply IH].
Qed.

Lemma vli_parse_slice_total data : total (vli_parse_slice data).
Proof. apply vli_parse_slice_loop_total. Qed.

Lemma vli_parse_reader_loop_shr : forall n input r s, shrk 1 input (vli_parse_reader_loop n input r s).
Proof.
  induction n as [|k IH]; intros input r s; cbn [vli_parse_reader_loop]; [exact I|].
  destruct input as [|b t]; [exact I|]. destruct (63 <=? s); [exact I|].
  destruct (Z.land b 128 =? 0).
  - cbn [shrk length]. lia.
  - eapply shrk_trans; [|apply IH]. cbn [length]. lia.
Qed.

Lemma vli_parse_reader_shr input : shrk 1 input (vli_parse_reader input).
Proof. apply vli_parse_reader_loop_shr. Qed.

Lemma vli_encode_total v : total (vli_encode v).
Proof. unfold vli_encode. destruct (U63_MAX <? v); exact I. Qed.

Lemma vli_skip_len s : (length (vli_skip s) <= length s)%nat.
Proof. unfold vli_skip. rewrite skipn_length. lia. Qed.

Lemma bh_vli_total s : total (bh_vli s).
Proof. unfold bh_vli. apply total_bind; [apply vli_parse_slice_total | intros; exact I]. Qed.

Lemma xz_parse_flags_crc_shr src : shrk 0 src (xz_parse_flags_crc src).
Proof.
  unfold xz_parse_flags_crc.
  apply (post_step _ _ _ _ (xz_take_spec 2 src)); [intros; exact I|]. intros [flags r1] _ (L1 & L2).
  destruct flags as [|f0 [|f1 [|f2 fl]]]; try (cbn [length fst] in L1; change (Z.to_nat 2) with 2%nat in L1; lia).
  destruct (negb (f0 =? 0)); [exact I|]. destruct (negb (check_known f1)); [exact I|].
  apply (post_step _ _ _ _ (xz_take_spec 4 r1)); [intros; exact I|]. intros [crc r2] _ (_ & L4).
  destruct (negb (le_value crc =? crc32 [f0; f1])); [exact I|]. cbn [shrk snd] in *. lia.
Qed.

Lemma xz_parse_stream_header_shr src : shrk 0 src (xz_parse_stream_header src).
Proof.
  unfold xz_parse_stream_header.
  apply (post_step _ _ _ _ (xz_take_spec 6 src)); [intros; exact I|]. intros [magic r1] _ (_ & L2).
  destruct (negb (bytes_eqb magic XZ_MAGIC)); [exact I|].
  eapply shrk_trans; [|apply xz_parse_flags_crc_shr]. cbn [snd] in L2. lia.
Qed.

Lemma xz_decode_dict_total p : total (xz_decode_dict p).
Proof. unfold xz_decode_dict. destruct (40 <? p); [exact I|]. destruct (p =? 40); exact I. Qed.

Lemma bh_filter_props_total k s : total (bh_filter_props k s).
Proof.
  assert (Hv : forall (g : Z * list Z -> outcome (Z * list Z)), (forall pr, total (g pr)) ->
            total (match s with [] => Err E_INVALID_DATA | _ :: _ => do pr <- bh_vli s; g pr end)).
  { intros g Hg. destruct s; [exact I|]. apply total_bind; [apply bh_vli_total | intros; apply Hg]. }
  destruct (fkind_is_bcj k) eqn:Ek.
  - rewrite (bh_filter_props_bcj k s Ek). unfold bh_bcj_props. apply Hv. intros [psize s1].
    destruct (psize =? 0); [exact I|]. destruct (psize =? 4); [|exact I].
    destruct s1 as [|b0 [|b1 [|b2 [|b3 s2]]]]; try exact I. cbv zeta. destruct (negb _); exact I.
  - destruct k; try discriminate; cbn [bh_filter_props]; apply Hv; intros [psize s1];
      (destruct (negb (psize =? 1)); [exact I|]); (destruct s1 as [|b s2]; [exact I|]).
    + exact I.
    + apply total_bind; [apply xz_decode_dict_total | intros; exact I].
Qed.

Lemma bh_filters_loop_total : forall n s acc, total (bh_filters_loop n s acc).
Proof.
  induction n as [|k IH]; intros s acc; cbn [bh_filters_loop]; [exact I|].
  destruct s as [|x s']; [exact I|].
  apply total_bind; [apply vli_parse_slice_total|]. intros id _.
  destruct (fkind_of_id id) as [fk|]; [|exact I].
  apply total_bind; [apply bh_filter_props_total|]. intros [prop s1] _. apply IH.
Qed.

Lemma bh_padding_total : forall s, total (bh_padding s).
Proof.
  induction s as [|b t IH]; cbn [bh_padding]; [exact I|].
  destruct (4 <? zlen (b :: t)); [|exact I]. destruct (b =? 0); [exact IH | exact I].
Qed.

(* an index indicator consumes one byte, a block header at least eight *)
Lemma xz_parse_block_header_shr src : shrk 1 src (xz_parse_block_header src).
Proof.
  unfold xz_parse_block_header. destruct src as [|enc r0]; [exact I|].
  destruct (enc =? 0); [cbn [shrk length]; lia|]. cbv zeta.
  destruct ((enc + 1) * 4 <? 8) eqn:Hlo; [exact I|]. destruct (1024 <? (enc + 1) * 4); [exact I|]. cbn [orb].
  apply (post_step _ _ _ _ (xz_take_spec ((enc + 1) * 4 - 1) r0)); [intros; exact I|]. intros [hd rest] _ (L1 & L2).
  cbn [fst snd] in L1, L2. apply Z.ltb_ge in Hlo.
  destruct hd as [|flags s0]; [cbn [length] in L1; lia|].
  apply shrk_bind.
  { destruct (negb (Z.land flags 64 =? 0)); [|exact I]. destruct (zlen s0 <? 8); [exact I|].
    apply total_bind; [apply bh_vli_total | intros; exact I]. }
  intros [csize s1] _.
  apply shrk_bind.
  { destruct (negb (Z.land flags 128 =? 0)); [|exact I]. destruct s1; [exact I|].
    apply total_bind; [apply bh_vli_total | intros; exact I]. }
  intros [usize s2] _.
  apply shrk_bind; [apply bh_filters_loop_total|]. intros [filters s3] _.
  destruct (negb (last_is_lzma2 filters)); [exact I|].
  apply shrk_bind; [apply bh_padding_total|]. intros s4 _.
  destruct (negb (zlen s4 =? 4)); [exact I|]. destruct (negb _); [exact I|].
  cbn [shrk length]. lia.
Qed.

Lemma xz_consume_padding_spec pos src : post (fun r => (length r <= length src)%nat) (xz_consume_padding pos src).
Proof.
  unfold xz_consume_padding. cbv zeta. destruct (pad4 pos =? 0); [cbn [post]; lia|].
  destruct (negb _); [exact I|]. destruct (negb _); [exact I|]. cbn [post]. rewrite skipn_length. lia.
Qed.

Lemma xz_verify_check_spec ct computed src : post (fun r => (length r <= length src)%nat) (xz_verify_check ct computed src).
Proof.
  unfold xz_verify_check. destruct (ct =? 0); [cbn [post]; lia|].
  apply (post_step _ _ _ _ (xz_take_spec (check_size ct) src)); [intros; exact I|]. intros [stored rest] _ (_ & L2).
  destruct (bytes_eqb stored computed); [cbn [post snd] in *; lia | exact I].
Qed.

Lemma xz_index_records_loop_shr : forall fuel count src acc, (length src < fuel)%nat ->
  shrk 0 src (xz_index_records_loop fuel count src acc).
Proof.
  induction fuel as [|f IH]; intros count src acc Hf; [lia|].
  cbn [xz_index_records_loop]. destruct (count <=? 0); [cbn [shrk]; lia|].
  apply (shrk_step _ _ _ _ _ (vli_parse_reader_shr src)); [intros; exact I|]. intros unpadded r1 _ S1.
  apply (shrk_step _ _ _ _ _ (vli_parse_reader_shr r1)); [intros; exact I|]. intros uncompressed r2 _ S2.
  destruct (unpadded =? 0); [exact I|].
  eapply shrk_trans; [|apply IH]; lia.
Qed.

Lemma xz_index_records_total : forall rs, total (xz_index_records rs).
Proof.
  induction rs as [|[u c] t IH]; cbn [xz_index_records]; [exact I|].
  apply total_bind; [apply vli_encode_total|]. intros a _.
  apply total_bind; [apply vli_encode_total|]. intros b _.
  apply total_bind; [exact IH | intros; exact I].
Qed.

Lemma xz_parse_index_shr fx src : fx11 fx = true -> shrk 0 src (xz_parse_index fx src).
Proof.
  intros H11. unfold xz_parse_index.
  apply (shrk_step _ _ _ _ _ (vli_parse_reader_shr src)); [intros; exact I|]. intros count r1 _ S1.
  rewrite H11. cbn [negb andb].
  apply (shrk_step _ _ _ _ _ (xz_index_records_loop_shr (S (length r1)) count r1 [] ltac:(lia))); [intros; exact I|].
  intros recs r2 _ S2. cbv zeta.
  apply (post_step _ _ _ _ (xz_take_spec _ r2)); [intros; exact I|]. intros [padding r3] _ (_ & L3).
  destruct (negb _); [exact I|].
  apply (post_step _ _ _ _ (xz_take_spec 4 r3)); [intros; exact I|]. intros [crc r4] _ (_ & L4).
  apply shrk_bind; [apply vli_encode_total|]. intros ne _.
  apply shrk_bind; [apply xz_index_records_total|]. intros re _.
  destruct (negb _); [exact I|]. cbn [shrk snd] in *. lia.
Qed.

Lemma xz_parse_footer_shr src : shrk 0 src (xz_parse_footer src).
Proof.
  unfold xz_parse_footer.
  apply (post_step _ _ _ _ (xz_take_spec 4 src)); [intros; exact I|]. intros [crc r1] _ (_ & L1).
  apply (post_step _ _ _ _ (xz_take_spec 4 r1)); [intros; exact I|]. intros [bw r2] _ (_ & L2).
  apply (post_step _ _ _ _ (xz_take_spec 2 r2)); [intros; exact I|]. intros [flags r3] _ (_ & L3).
  destruct (negb _); [exact I|].
  apply (post_step _ _ _ _ (xz_take_spec 2 r3)); [intros; exact I|]. intros [magic r4] _ (_ & L4).
  destruct (negb _); [exact I|]. cbn [shrk snd] in *. lia.
Qed.

Lemma xz_index_and_footer_spec fx ct blocks src : fx11 fx = true ->
  post (fun r => (length r <= length src)%nat) (xz_index_and_footer fx ct blocks src).
Proof.
  intros H11. unfold xz_index_and_footer.
  apply (shrk_step _ _ _ _ _ (xz_parse_index_shr fx src H11)); [intros; exact I|]. intros [count recs] r1 _ S1.
  destruct (negb (count =? blocks)); [exact I|].
  apply (shrk_step _ _ _ _ _ (xz_parse_footer_shr r1)); [intros; exact I|]. intros [bw flags] r2 _ S2.
  destruct (negb _); [exact I | cbn [post]; lia].
Qed.

Lemma xz_try_next_stream_shr fx src : shrk 0 src (xz_try_next_stream fx src).
Proof.
  unfold xz_try_next_stream. destruct (xz_skip_zeros src 0) as [padding r0] eqn:Ez.
  apply xz_skip_zeros_inv in Ez as (k & _ & E & _).
  assert (L0 : (length r0 <= length src)%nat) by (rewrite E, app_length; lia). clear E.
  destruct r0 as [|b r1].
  - destruct (fx16b fx && _); [exact I | cbn [shrk length]; lia].
  - destruct (if fx16 fx then _ else _); [exact I|]. destruct (zlen r1 <? 5); [exact I|].
    destruct (negb _); [exact I|]. destruct (negb _); [exact I|].
    apply (shrk_step _ _ _ _ _ (xz_parse_flags_crc_shr (skipn 5 r1))); [intros; exact I|]. intros ct r2 _ S1.
    cbn [shrk fst snd]. rewrite skipn_length in S1. cbn [length] in L0. lia.
Qed.

(* The whole-file reader, for sources with a property [P] that suffixes inherit (none, or being a
   byte string); the payload decoder is total on such sources and hands back such a rest, no longer
   than what it was given. *)
Definition shrP {A} (P : list Z -> Prop) (src : list Z) (o : outcome (A * list Z)) : Prop :=
  match o with Ok (_, r) => (length r <= length src)%nat /\ P r | Err _ => True | _ => False end.

Lemma shrP_step {A B} P src (x : outcome (A * list Z)) (f : A * list Z -> outcome B) (R : outcome B -> Prop) :
  shrP P src x -> (forall e, R (Err e)) ->
  (forall a r, x = Ok (a, r) -> (length r <= length src)%nat -> P r -> R (f (a, r))) -> R (obind x f).
Proof. destruct x as [[a r]| | |]; cbn [shrP obind]; intros Hx He Hk; [apply Hk; tauto | apply He | contradiction..]. Qed.

Section XzTotalP.
  Variable H : Z -> list Z -> list Z.
  Variable blockdec : list (fkind * Z) -> list Z -> outcome (list Z * list Z).
  Variable P : list Z -> Prop.
  Hypothesis P_suffix : forall r s, suffix r s -> P s -> P r.
  Hypothesis blockdec_shrP : forall fs s, P s -> shrP P s (blockdec fs s).

  Lemma xzd_blocks_total_P : forall fuel ct src pos n acc, (length src < fuel)%nat -> P src ->
    post (fun x => (length (snd (fst (fst x))) < length src)%nat /\ P (snd (fst (fst x))))
         (xzd_blocks H blockdec fuel ct src pos n acc).
  Proof.
    induction fuel as [|f IH]; intros ct src pos n acc Hf Hp; [lia|]. cbn [xzd_blocks].
    apply (shrk_step _ _ _ _ _ (xz_parse_block_header_shr src)); [intros; exact I|]. intros h r1 E1 L1.
    pose proof (P_suffix _ _ (xz_parse_block_header_suffix _ _ _ E1) Hp) as P1.
    destruct h as [bh|]; [|cbn [post fst snd]; split; [lia | exact P1]].
    apply (shrP_step _ _ _ _ _ (blockdec_shrP (bh_filters bh) r1 P1)); [intros; exact I|]. intros content r2 _ L2 P2.
    apply (post_step _ _ _ _ (xz_consume_padding_spec _ r2)); [intros; exact I|]. intros r3 E3 L3.
    apply (post_step _ _ _ _ (xz_verify_check_spec ct (H ct content) r3)); [intros; exact I|]. intros r4 E4 L4.
    pose proof (P_suffix _ _ (xz_verify_check_suffix _ _ _ _ E4) (P_suffix _ _ (xz_consume_padding_suffix _ _ _ E3) P2)) as P4.
    eapply post_weaken; [|apply IH; [lia | exact P4]]. intros x (L & Px). split; [lia | exact Px].
  Qed.

  Lemma xzd_streams_total_P fx multi : fx11 fx = true -> forall fuel ct src pos acc, (length src < fuel)%nat ->
    P src -> total (xzd_streams H blockdec fuel fx multi ct src pos acc).
  Proof.
    intros H11. induction fuel as [|f IH]; intros ct src pos acc Hf Hp; [lia|]. cbn [xzd_streams].
    apply (post_step _ _ _ _ (xzd_blocks_total_P (S (length src)) ct src pos 0 acc ltac:(lia) Hp)); [intros; exact I|].
    intros [[[acc1 r1] pos1] n] _ (L1 & P1). cbn [fst snd] in L1, P1.
    apply (post_step _ _ _ _ (xz_index_and_footer_spec fx ct n r1 H11)); [intros; exact I|]. intros r2 E2 L2.
    pose proof (P_suffix _ _ (xz_index_and_footer_suffix _ _ _ _ _ E2) P1) as P2.
    destruct multi; [|exact I].
    apply (shrk_step _ _ _ _ _ (xz_try_next_stream_shr fx r2)); [intros; exact I|]. intros nct r3 E3 L3.
    destruct nct as [ct2|]; [|exact I]. apply IH; [lia|]. exact (P_suffix _ _ (xz_try_next_stream_suffix _ _ _ _ E3) P2).
  Qed.

  Theorem xz_decode_total_P fx multi src : fx11 fx = true -> P src -> total (xz_decode H blockdec fx multi src).
  Proof.
    intros H11 Hp. unfold xz_decode.
    apply (shrk_step _ _ _ _ _ (xz_parse_stream_header_shr src)); [intros; exact I|]. intros ct r1 E1 L1.
    apply xzd_streams_total_P; [exact H11 | lia | exact (P_suffix _ _ (xz_parse_stream_header_suffix _ _ _ E1) Hp)].
  Qed.
End XzTotalP.

(* XZReader (whole-file function): total on every input, with the fuel the model uses.
   F11: without the fix the allocation for a hostile record count panics (ContainerRefutations.v:
   xz_index_alloc_refuted).  And the hypothesis on the payload decoder cannot be dropped: a
   "decoder" that hands back more input than it got makes the model loop until its fuel is gone. *)
Lemma shrk_shrP {A} src (o : outcome (A * list Z)) : shrk 0 src o <-> shrP (fun _ => True) src o.
Proof. destruct o as [[a r]| | |]; cbn [shrk shrP]; [|tauto..]. split; [split; [lia | exact I] | intros [L _]; lia]. Qed.

Theorem xz_decode_total (H : Z -> list Z -> list Z) (blockdec : list (fkind * Z) -> list Z -> outcome (list Z * list Z)) :
  (forall fs s, shrk 0 s (blockdec fs s)) ->
  forall fx multi src, fx11 fx = true -> total (xz_decode H blockdec fx multi src).
Proof.
  intros Hb fx multi src H11. apply (xz_decode_total_P H blockdec (fun _ => True)); auto.
  intros fs s _. apply shrk_shrP, Hb.
Qed.

Lemma lzip_decode_dict_size_total d : total (lzip_decode_dict_size d).
Proof.
  unfold lzip_decode_dict_size. cbv zeta.
  destruct ((Z.land d 31 <? 12) || (29 <? Z.land d 31)); [exact I|].
  destruct (7 <? Z.shiftr d 5); [exact I|].
  match goal with |- total (if ?c then _ else _) => destruct c; exact I end.
Qed.

(* a member header that announces a member consumes six bytes *)
Lemma lz_parse_header_shr fx first src :
  post (fun p => match fst p with
                 | Some _ => (length (snd p) < length src)%nat
                 | None => (length (snd p) <= length src)%nat
                 end) (lz_parse_header fx first src).
Proof.
  unfold lz_parse_header.
  assert (L4 : (length (skipn 4 src) <= length src)%nat) by (rewrite skipn_length; lia).
  destruct (fz6 fx).
  - unfold lz_parse_header_fixed. cbv zeta.
    destruct (firstn 4 src) as [|m0 ms] eqn:Em; [cbn [post fst snd]; lia|].
    match goal with |- post _ (if ?c then _ else _) => destruct c end.
    { destruct first; [exact I | cbn [post fst snd]; lia]. }
    match goal with |- post _ (if ?c then _ else _) => destruct c; [exact I|] end.
    destruct (skipn 4 src) as [|v r2] eqn:E4; [exact I|].
    destruct (negb (v =? 1)); [exact I|]. destruct r2 as [|d r3]; [exact I|].
    pose proof (lzip_decode_dict_size_total d) as T.
    destruct (lzip_decode_dict_size d); cbn [total] in T; try contradiction; cbn [obind post fst snd length] in *; [lia | exact I].
  - unfold lz_parse_header_orig.
    destruct (zlen src <? 4); [cbn [post fst snd length]; lia|].
    destruct (negb (lz_bytes_eqb (firstn 4 src) LZIP_MAGIC)); [cbn [post fst snd length]; lia|].
    destruct (skipn 4 src) as [|v r2]; [cbn [post fst snd length]; lia|].
    destruct (negb (v =? 1)); [cbn [post fst snd length] in *; lia|].
    destruct r2 as [|d r3]; [cbn [post fst snd length]; lia|].
    destruct (lzip_decode_dict_size d); cbn [post fst snd length] in *; lia.
Qed.

Lemma lz_check_trailer_spec a b c src : post (fun r => (length r <= length src)%nat) (lz_check_trailer a b c src).
Proof.
  unfold lz_check_trailer. change lz_take with xz_take.
  apply (post_step _ _ _ _ (xz_take_spec 4 src)); [intros; exact I|]. intros [crc r1] _ (_ & L1).
  apply (post_step _ _ _ _ (xz_take_spec 8 r1)); [intros; exact I|]. intros [ds r2] _ (_ & L2).
  apply (post_step _ _ _ _ (xz_take_spec 8 r2)); [intros; exact I|]. intros [msz r3] _ (_ & L3).
  (* the three comparisons: a mismatch is Err *)
  repeat match goal with |- post _ (if ?c then _ else _) => destruct c; [exact I|] end.
  cbn [post snd] in *. lia.
Qed.

Section LzTotal.
  Variable pdec : Z -> list Z -> outcome (list Z * list Z).
  Hypothesis pdec_shr : forall d s, shrk 0 s (pdec d s).

  Lemma lzd_members_total fx : forall fuel first src acc, (length src < fuel)%nat ->
    total (lzd_members pdec fuel fx first src acc).
  Proof.
    induction fuel as [|f IH]; intros first src acc Hf; [lia|].
    cbn [lzd_members].
    apply (post_step _ _ _ _ (lz_parse_header_shr fx first src)); [intros; exact I|]. intros [h r1] _ L1.
    destruct h as [ds|]; [|exact I]. cbn [fst snd] in L1.
    apply (shrk_step _ _ _ _ _ (pdec_shr ds r1)); [intros; exact I|]. intros content r2 _ L2.
    apply (post_step _ _ _ _ (lz_check_trailer_spec _ _ _ r2)); [intros; exact I|]. intros r3 _ L3.
    apply IH. lia.
  Qed.

  (* LZIPReader (whole-file function), repaired or original header handling *)
  Theorem lz_decode_total fx src : total (lz_decode pdec fx src).
  Proof. unfold lz_decode. apply lzd_members_total. lia. Qed.
End LzTotal.

Print Assumptions xz_decode_total.
Print Assumptions lz_decode_total.
