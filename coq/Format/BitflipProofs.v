(* Format/BitflipProofs.v — C04_bitflip: damage confined to ONE BYTE (in particular every single-bit
   flip) inside a CRC-32-protected fixed-extent region of an XZ file - stream header, stream footer,
   block header apart from its size byte - or inside a stored check field is never accepted: of two
   byte strings that differ in exactly one byte at most one passes the parser.  The argument is the
   one of DESIGN §5 C04: for a fixed input byte the CRC register update is injective in the register and
   for a fixed register it is injective in the input byte (Format/CrcProofs.v), so a one-byte difference in
   the covered data never cancels, and a difference in the stored field alone cannot match either.

   Regions whose EXTENT depends on the damaged byte (the block header size byte, the multibyte
   integers of the index) are outside this argument: there the CRC-32 of a different-length string
   decides, which is the 2^-32 collision case the property's statement excludes. *)
From LzVerif Require Import Base.Bytes Format.Crc Format.CrcProofs Format.VliProofs Format.XzFormat Format.LzipFormat
  Format.LzipDict Format.XzHeaderProofs.

(* l' is l with exactly one byte replaced by a different byte *)
Definition one_byte_diff (l l' : list Z) : Prop :=
  exists p b b' s, l = p ++ b :: s /\ l' = p ++ b' :: s /\ b <> b'.

Lemma one_byte_diff_length l l' : one_byte_diff l l' -> length l = length l'.
Proof. intros (p & b & b' & s & -> & -> & _). rewrite !app_length. reflexivity. Qed.

Lemma one_byte_diff_neq l l' : one_byte_diff l l' -> l <> l'.
Proof. intros (p & b & b' & s & -> & -> & Hne) E. apply app_inv_head in E. congruence. Qed.

(* splitting at a fixed position: the difference is on one side, the other side is unchanged *)
Lemma one_byte_diff_split : forall a a' c c', length a = length a' ->
  one_byte_diff (a ++ c) (a' ++ c') ->
  (one_byte_diff a a' /\ c = c') \/ (a = a' /\ one_byte_diff c c').
Proof.
  induction a as [|x a IH]; intros a' c c' Hl (p & b & b' & s & E1 & E2 & Hne).
  - destruct a'; [|discriminate]. right. split; [reflexivity|]. exists p, b, b', s. auto.
  - destruct a' as [|x' a']; [discriminate|]. cbn [app] in E1, E2. destruct p as [|y p]; cbn [app] in E1, E2.
    + inversion E1; inversion E2; subst.
      destruct (app_eq_len a c a' c') as [Ea Ec]; [congruence | cbn in Hl; lia |]. subst a' c'.
      left. split; [|reflexivity]. exists [], b, b', a. auto.
    + inversion E1; inversion E2; subst.
      destruct (IH a' c c' ltac:(cbn in Hl; lia)) as [[D Ec]|[Ea D]].
      * exists p, b, b', s. auto.
      * left. split; [|exact Ec]. destruct D as (p0 & b0 & b0' & s0 & Ha & Ha' & Hn0). subst a a'.
        exists (y :: p0), b0, b0', s0. auto.
      * right. subst a'. auto.
Qed.

(* the core: two (data, stored CRC-32) pairs that both verify and differ in exactly one byte
   altogether cannot exist *)
Lemma crc32_pair_one_diff data data' crc crc' :
  bytes_ok data = true -> bytes_ok data' = true -> bytes_ok crc = true -> bytes_ok crc' = true ->
  length data = length data' -> length crc = length crc' ->
  le_value crc = crc32 data -> le_value crc' = crc32 data' ->
  one_byte_diff (data ++ crc) (data' ++ crc') -> False.
Proof.
  intros Bd Bd' Bc Bc' Ld Lc V V' D.
  destruct (one_byte_diff_split data data' crc crc' Ld D) as [[Dd Ec]|[Ed Dc]].
  - subst crc'. destruct Dd as (p & b & b' & s & -> & -> & Hne).
    apply bytes_ok_app in Bd as [Bp Bs]. apply bytes_ok_app in Bd' as [_ Bs'].
    apply bytes_ok_cons in Bs as [Hb Bs]. apply bytes_ok_cons in Bs' as [Hb' _].
    apply (crc32_one_byte p b b' s Bp Hb Hb' Bs Hne). congruence.
  - subst data'. apply (one_byte_diff_neq _ _ Dc). apply le_value_inj; try assumption. congruence.
Qed.

(* a prefix or suffix common to both strings carries no difference *)
Lemma one_byte_diff_app_l p x y : one_byte_diff (p ++ x) (p ++ y) -> one_byte_diff x y.
Proof.
  intros D. apply one_byte_diff_split in D; [|reflexivity].
  destruct D as [[D _]|[_ D]]; [destruct (one_byte_diff_neq _ _ D eq_refl) | exact D].
Qed.

Lemma one_byte_diff_app_r q x y : length x = length y -> one_byte_diff (x ++ q) (y ++ q) -> one_byte_diff x y.
Proof.
  intros L D. apply one_byte_diff_split in D; [|exact L].
  destruct D as [[D _]|[_ D]]; [exact D | destruct (one_byte_diff_neq _ _ D eq_refl)].
Qed.

Lemma one_byte_diff_prepend k x y : one_byte_diff x y -> one_byte_diff (k ++ x) (k ++ y).
Proof. intros (p & b & b' & s & -> & -> & N). exists (k ++ p), b, b', s. rewrite <- !app_assoc. auto. Qed.

Lemma one_byte_diff_swap a a' b b' : length a = length a' ->
  one_byte_diff (a ++ b) (a' ++ b') -> one_byte_diff (b ++ a) (b' ++ a').
Proof.
  intros L D. destruct (one_byte_diff_split a a' b b' L D) as [[(p & x & x' & s & -> & -> & N) <-]|[<- (p & x & x' & s & -> & -> & N)]].
  - exists (b ++ p), x, x', s. rewrite <- !app_assoc. auto.
  - exists p, x, x', (s ++ a). rewrite <- !app_assoc. auto.
Qed.

Lemma app_prefix_eq {A} (h rest f r : list A) : h ++ rest = f ++ r -> length h = length f -> h = f.
Proof. intros E L. apply (app_eq_len h rest f r E L). Qed.

(* A frame: fixed bytes [p], data [d], the stored CRC-32 of [k ++ d] ([k]: covered bytes outside the
   frame) before or after the data, fixed bytes [q].  Of two frames with the same extents that differ
   in exactly one byte at most one carries a CRC that verifies. *)
Lemma framed_one_diff f f' p k d c q d' c' :
  (f = p ++ d ++ c ++ q /\ f' = p ++ d' ++ c' ++ q) \/ (f = p ++ c ++ d ++ q /\ f' = p ++ c' ++ d' ++ q) ->
  bytes_ok k = true -> bytes_ok f = true -> bytes_ok f' = true ->
  length d = length d' -> length c = length c' ->
  le_value c = crc32 (k ++ d) -> le_value c' = crc32 (k ++ d') ->
  one_byte_diff f f' -> False.
Proof.
  intros F Bk B B' Ld Lc V V' D.
  assert (X : (bytes_ok d = true /\ bytes_ok c = true) /\ (bytes_ok d' = true /\ bytes_ok c' = true) /\
              one_byte_diff (d ++ c) (d' ++ c')).
  { destruct F as [[-> ->]|[-> ->]]; rewrite !bytes_ok_app in B, B'; apply one_byte_diff_app_l in D;
      rewrite 2 app_assoc in D; apply one_byte_diff_app_r in D; try (rewrite !app_length; lia).
    - tauto.
    - apply one_byte_diff_swap in D; [tauto | exact Lc]. }
  destruct X as ((Bd & Bc) & (Bd' & Bc') & D').
  apply (crc32_pair_one_diff (k ++ d) (k ++ d') c c'); try assumption.
  - apply bytes_ok_app. split; assumption.
  - apply bytes_ok_app. split; assumption.
  - rewrite !app_length. lia.
  - rewrite <- !app_assoc. apply one_byte_diff_prepend, D'.
Qed.

Lemma xz_take_inv n src a b : 0 <= n -> xz_take n src = Ok (a, b) -> src = a ++ b /\ zlen a = n.
Proof.
  unfold xz_take. intros Hn H. destruct (Z.ltb_spec (zlen src) n); [discriminate|]. inversion H; subst.
  split; [symmetry; apply firstn_skipn|]. apply zlen_firstn. lia.
Qed.

Lemma bytes_ok_firstn n l : bytes_ok l = true -> bytes_ok (firstn n l) = true.
Proof. exact (Bytes.bytes_ok_firstn n l). Qed.

(* StreamHeader::parse_flags_and_crc accepts exactly: [0; ct] with a known check type, the CRC-32 of
   these two bytes *)
Lemma xz_parse_flags_crc_inv src ct rest : xz_parse_flags_crc src = Ok (ct, rest) ->
  exists crc, src = [0; ct] ++ crc ++ rest /\ check_known ct = true /\ zlen crc = 4 /\ le_value crc = crc32 [0; ct].
Proof.
  unfold xz_parse_flags_crc. intros H.
  apply obind_ok in H as ([flags r2] & E2 & H).
  apply xz_take_inv in E2 as [E2 L2]; [|lia].
  destruct flags as [|f0 [|f1 [|? ?]]]; try discriminate.
  destruct (Z.eqb_spec f0 0); [|discriminate]. subst f0. cbn [negb] in H.
  destruct (check_known f1) eqn:Ek; [|discriminate]. cbn [negb] in H.
  apply obind_ok in H as ([crc r3] & E3 & H).
  apply xz_take_inv in E3 as [E3 L3]; [|lia].
  destruct (Z.eqb_spec (le_value crc) (crc32 [0; f1])); [|discriminate]. cbn [negb] in H. inversion H; subst.
  exists crc. repeat split; auto.
Qed.

Lemma xz_parse_stream_header_inv src ct rest : xz_parse_stream_header src = Ok (ct, rest) ->
  exists crc, src = XZ_MAGIC ++ [0; ct] ++ crc ++ rest /\ check_known ct = true /\
              zlen crc = 4 /\ le_value crc = crc32 [0; ct].
Proof.
  unfold xz_parse_stream_header. intros H.
  apply obind_ok in H as ([magic r1] & E1 & H).
  apply xz_take_inv in E1 as [E1 L1]; [|lia].
  destruct (bytes_eqb magic XZ_MAGIC) eqn:Em; [|discriminate]. apply bytes_eqb_eq in Em. subst magic. cbn [negb] in H.
  apply xz_parse_flags_crc_inv in H as (crc & -> & Hk & Lc & V). exists crc. auto.
Qed.

(* C04_magic (XZ): whatever the reader accepts begins with the stream magic and a valid stream
   header - in particular nothing that is not XZ decodes as an empty file *)
Lemma xz_decode_magic (H : Z -> list Z -> list Z) blockdec fx multi src d rest :
  xz_decode H blockdec fx multi src = Ok (d, rest) ->
  exists ct crc tl, src = XZ_MAGIC ++ [0; ct] ++ crc ++ tl /\ check_known ct = true /\
                    zlen crc = 4 /\ le_value crc = crc32 [0; ct].
Proof.
  unfold xz_decode. intros E.
  destruct (xz_parse_stream_header src) as [[ct r1]| | |] eqn:Eh; try discriminate.
  apply xz_parse_stream_header_inv in Eh as (crc & Es & Hk & Lc & Vc). exists ct, crc, r1. auto.
Qed.

(* C04_bitflip, stream header: h and h' are 12 bytes each, differ in exactly one byte, and consist
   of bytes: they are not both accepted (whatever follows them) *)
Theorem bitflip_stream_header h h' rest rest' x x' :
  zlen h = 12 -> bytes_ok h = true -> bytes_ok h' = true -> one_byte_diff h h' ->
  xz_parse_stream_header (h ++ rest) = Ok x -> xz_parse_stream_header (h' ++ rest') = Ok x' -> False.
Proof.
  intros Lh Bh Bh' D P P'. destruct x as [ct r], x' as [ct' r'].
  apply xz_parse_stream_header_inv in P as (crc & E & _ & Lc & V).
  apply xz_parse_stream_header_inv in P' as (crc' & E' & _ & Lc' & V').
  pose proof (one_byte_diff_length _ _ D) as Ll. unfold zlen in *.
  apply (framed_one_diff h h' XZ_MAGIC [] [0; ct] crc [] [0; ct'] crc'); try assumption; try reflexivity; [|lia].
  left. split; [apply (app_prefix_eq h rest _ r) | apply (app_prefix_eq h' rest' _ r')];
    try (rewrite <- !app_assoc; assumption); rewrite !app_length; cbn; lia.
Qed.

(* StreamFooter::parse accepts exactly: CRC-32 of (backward size ++ flags), backward size, flags,
   the footer magic *)
Lemma xz_parse_footer_inv src bw flags rest : xz_parse_footer src = Ok (bw, flags, rest) ->
  exists crc bwb, src = crc ++ bwb ++ flags ++ XZ_FOOTER_MAGIC ++ rest /\ zlen crc = 4 /\ zlen bwb = 4 /\
                  zlen flags = 2 /\ le_value crc = crc32 (bwb ++ flags) /\ bw = le_value bwb.
Proof.
  unfold xz_parse_footer. intros H.
  apply obind_ok in H as ([crc r1] & E1 & H).
  apply obind_ok in H as ([bwb r2] & E2 & H).
  apply obind_ok in H as ([fl r3] & E3 & H).
  destruct (Z.eqb_spec (le_value crc) (crc32 (bwb ++ fl))); [|discriminate]. cbn [negb] in H.
  apply obind_ok in H as ([mg r4] & E4 & H).
  destruct (bytes_eqb mg XZ_FOOTER_MAGIC) eqn:Em; [|discriminate]. cbn [negb] in H. inversion H; subst.
  apply bytes_eqb_eq in Em. subst mg.
  apply xz_take_inv in E1 as [-> L1]; [|lia]. apply xz_take_inv in E2 as [-> L2]; [|lia].
  apply xz_take_inv in E3 as [-> L3]; [|lia]. apply xz_take_inv in E4 as [-> L4]; [|lia].
  exists crc, bwb. repeat split; auto.
Qed.

(* C04_bitflip, stream footer: 12 bytes, one byte changed: not both accepted *)
Theorem bitflip_stream_footer h h' rest rest' x x' :
  zlen h = 12 -> bytes_ok h = true -> bytes_ok h' = true -> one_byte_diff h h' ->
  xz_parse_footer (h ++ rest) = Ok x -> xz_parse_footer (h' ++ rest') = Ok x' -> False.
Proof.
  intros Lh Bh Bh' D P P'. destruct x as [[bw fl] r], x' as [[bw' fl'] r'].
  apply xz_parse_footer_inv in P as (crc & bwb & E & L1 & L2 & L3 & V & _).
  apply xz_parse_footer_inv in P' as (crc' & bwb' & E' & L1' & L2' & L3' & V' & _).
  pose proof (one_byte_diff_length _ _ D) as Ll. unfold zlen in *.
  (* the covered data are backward size ++ flags; the CRC field precedes them, the magic follows *)
  apply (framed_one_diff h h' [] [] (bwb ++ fl) crc XZ_FOOTER_MAGIC (bwb' ++ fl') crc');
    try assumption; try reflexivity; try (rewrite ?app_length; lia).
  right. split; [apply (app_prefix_eq h rest _ r) | apply (app_prefix_eq h' rest' _ r')];
    try (cbn [app]; rewrite <- !app_assoc; assumption); cbn [app]; rewrite !app_length; cbn; lia.
Qed.

(* the stored block check: if the field alone is damaged the comparison fails *)
Theorem bitflip_check_field ct computed stored stored' rest rest' r r' :
  zlen stored = check_size ct -> zlen stored' = check_size ct -> stored <> stored' -> ct <> 0 ->
  xz_verify_check ct computed (stored ++ rest) = Ok r -> xz_verify_check ct computed (stored' ++ rest') = Ok r' -> False.
Proof.
  intros L L' Hne Hct P P'. unfold xz_verify_check in P, P'.
  destruct (Z.eqb_spec ct 0); [contradiction|].
  rewrite (xz_take_app_n (check_size ct)) in P by exact L. rewrite (xz_take_app_n (check_size ct)) in P' by exact L'.
  cbn [obind] in P, P'.
  destruct (bytes_eqb stored computed) eqn:E1; [|discriminate]. destruct (bytes_eqb stored' computed) eqn:E2; [|discriminate].
  apply bytes_eqb_eq in E1, E2. congruence.
Qed.
