(* Format/XzSpecProofs.v — C03_out: every file the XZ writer model produces (repaired code) is a
   valid .xz file according to the independent format specification Format/XzSpec.v and the
   specification decodes it to the data written: stream header, every block header (reserved bits,
   minimal multibyte integers, filter chain with LZMA2 exactly last), block padding, check, index
   records equal to the blocks' real unpadded and uncompressed sizes, backward size equal to the
   real index size, footer flags, nothing after the stream.  The payload/filter codecs are Section
   variables as in XzProofs.v; the specification's block decoder is assumed to invert them. *)
From LzVerif Require Import Base.Bytes Format.Crc Format.CrcProofs Format.Sha256 Format.Vli Format.VliProofs
  Format.XzFormat Format.XzSpec Format.XzHeaderProofs Format.XzBlockHeaderProofs
  Format.XzIndexProofs Format.XzProofs Format.BitflipProofs.

Lemma olet_some {A B} (x : option A) (f : A -> option B) b :
  olet x f = Some b -> exists a, x = Some a /\ f a = Some b.
Proof. destruct x; cbn [olet]; intros H; [eauto | discriminate]. Qed.

Lemma guard_some {B} c (f : unit -> option B) b : olet (guard c) f = Some b -> c = true /\ f tt = Some b.
Proof. destruct c; cbn [guard olet]; intros H; [auto | discriminate]. Qed.

Lemma s_take_app_n n a b : zlen a = n -> s_take n (a ++ b) = Some (a, b).
Proof.
  intros <-. unfold s_take. pose proof (zlen_nonneg a). rewrite zlen_app. pose proof (zlen_nonneg b).
  destruct (Z.ltb_spec (zlen a) 0); [lia|]. destruct (Z.ltb_spec (zlen a + zlen b) (zlen a)); [lia|]. cbn [orb].
  unfold zlen. rewrite Nat2Z.id, firstn_app, Nat.sub_diag, firstn_all, skipn_app, Nat.sub_diag, skipn_all.
  cbn [firstn skipn app]. rewrite app_nil_r. reflexivity.
Qed.

Lemma s_take_inv n src a b : s_take n src = Some (a, b) -> src = a ++ b /\ zlen a = n.
Proof.
  intros Ht. unfold s_take in Ht. destruct (Z.ltb_spec n 0); [discriminate|].
  destruct (Z.ltb_spec (zlen src) n); [discriminate|]. cbn [orb] in Ht. inversion Ht; subst.
  split; [symmetry; apply firstn_skipn | apply zlen_firstn; lia].
Qed.

(* the specification's comparison is the crate's *)
Lemma s_eqb_bytes_eqb a b : s_eqb a b = bytes_eqb a b.
Proof.
  unfold s_eqb, bytes_eqb, zlen. f_equal.
  destruct (Nat.eqb_spec (length a) (length b)) as [E|N]; [rewrite E; apply Z.eqb_refl | apply Z.eqb_neq; lia].
Qed.

Lemma s_eqb_refl a : s_eqb a a = true.
Proof. rewrite s_eqb_bytes_eqb. apply bytes_eqb_refl. Qed.

Lemma s_eqb_eq a b : s_eqb a b = true -> a = b.
Proof. rewrite s_eqb_bytes_eqb. apply bytes_eqb_eq. Qed.

Lemma s_all_zero_zeros n : s_all_zero (repeatn 0 n) = true.
Proof. unfold s_all_zero. apply forallb_zeros. Qed.

Lemma s_pad4_eq n : s_pad4 n = pad4 n.
Proof. reflexivity. Qed.

Lemma cont_byte_spec v : 0 <= v ->
  let b := Z.lor (v mod 256) 128 in b mod 128 = v mod 128 /\ 128 <= b < 256.
Proof.
  intros Hv b. destruct (cont_byte v Hv) as (C1 & C2 & C3). cbv zeta in C1, C2, C3. subst b. split; [|exact C3].
  rewrite <- C1. change 127 with (Z.ones 7). rewrite Z.land_ones by lia. reflexivity.
Qed.

Lemma s_vli_loop_S n b t i num :
  s_vli_loop (S n) (b :: t) i num =
  (if (0 <? i) && (b =? 0) then None else
   if b <? 128 then Some (num + (b mod 128) * 2 ^ (7 * i), t)
   else s_vli_loop n t (i + 1) (num + (b mod 128) * 2 ^ (7 * i))).
Proof. reflexivity. Qed.

Lemma s_vli_rt : forall n v room tail i num,
  (1 <= n <= room)%nat -> 0 <= v < 128 ^ Z.of_nat n -> 0 <= i -> (i = 0 \/ 0 < v) ->
  s_vli_loop n (vli_encode_loop room v ++ tail) i num = Some (num + v * 2 ^ (7 * i), tail).
Proof.
  induction n as [|n IH]; intros v room tail i num Hn Hv Hi Hnz; [lia|].
  destruct room as [|room]; [lia|]. cbn [vli_encode_loop].
  destruct (Z.leb_spec 128 v) as [Hge|Hlt]; cbn [app]; rewrite s_vli_loop_S.
  - destruct (more_groups n v ltac:(lia)) as [Hn1 Hq].
    destruct (cont_byte_spec v ltac:(lia)) as (C1 & C3). cbv zeta in C1, C3.
    assert (E0 : (0 <? i) && (Z.lor (v mod 256) 128 =? 0) = false).
    { destruct (Z.eqb_spec (Z.lor (v mod 256) 128) 0); [lia|]. apply andb_false_r. }
    rewrite E0, C1. destruct (Z.ltb_spec (Z.lor (v mod 256) 128) 128); [lia|].
    rewrite IH; try (Z.div_mod_to_equations; lia).
    f_equal. f_equal. replace (7 * (i + 1)) with (7 * i + 7) by lia. rewrite Z.pow_add_r by lia.
    change (2 ^ 7) with 128. (Z.div_mod_to_equations; lia).
  - rewrite (Z.mod_small v 256) by lia.
    (* a last byte of zero is the one-byte encoding of zero only *)
    assert (E0 : (0 <? i) && (v =? 0) = false).
    { destruct Hnz as [->|Hp]; [reflexivity|]. destruct (Z.eqb_spec v 0); [lia|]. apply andb_false_r. }
    rewrite E0. rewrite (Z.mod_small v 128) by lia. destruct (Z.ltb_spec v 128); [|lia]. reflexivity.
Qed.

Lemma s_vli_ok v tail : 0 <= v <= U63_MAX -> s_vli (vli_bytes v ++ tail) = Some (v, tail).
Proof.
  intros Hv. unfold s_vli, vli_bytes.
  rewrite (s_vli_rt 9 v 10 tail 0 0); try lia; [f_equal; f_equal; cbn; lia | rewrite <- u63_pow; lia].
Qed.

Lemma s_vli_single b tail : 0 <= b < 128 -> s_vli (b :: tail) = Some (b, tail).
Proof.
  intros Hb. unfold s_vli. cbn [s_vli_loop]. cbn [Z.ltb Z.compare andb].
  rewrite Z.mod_small by lia. destruct (Z.ltb_spec b 128); [|lia]. f_equal. f_equal. cbn. lia.
Qed.

(* the dictionary size the specification reads from the property byte is the reader's: 41 values *)
Lemma xz_decode_dict_spec p : 0 <= p <= 40 -> xz_decode_dict p = Ok (s_lzma2_dict p).
Proof.
  intros Hp.
  assert (S : forallb (fun q => match xz_decode_dict q with Ok d => s_lzma2_dict q =? d | _ => false end)
                      (map Z.of_nat (seq 0 41)) = true) by (vm_compute; reflexivity).
  rewrite forallb_forall in S. specialize (S p).
  assert (I : In p (map Z.of_nat (seq 0 41))).
  { replace p with (Z.of_nat (Z.to_nat p)) by lia. apply in_map. apply in_seq. lia. }
  specialize (S I). destruct (xz_decode_dict p) as [d| | |]; try discriminate. apply Z.eqb_eq in S. rewrite S. reflexivity.
Qed.

(* the specification's view of a filter of the chain *)
Definition spec_filter (f : fkind * Z) : sfilter :=
  match fst f with
  | FDelta => SDelta (snd f)
  | FLZMA2 => SLzma2 (snd f)
  | k => SBcj (fkind_id k) (snd f)
  end.

Lemma spec_filter_bcj k p : fkind_is_bcj k = true -> spec_filter (k, p) = SBcj (fkind_id k) p.
Proof. destruct k; try discriminate; reflexivity. Qed.

Lemma spec_filter_is_lzma2 k p : s_is_lzma2 (spec_filter (k, p)) = fkind_is_lzma2 k.
Proof. destruct k; reflexivity. Qed.

Lemma s_filter_bcj k ps : fkind_is_bcj k = true ->
  s_filter (fkind_id k) ps =
  match ps with
  | [] => Some (SBcj (fkind_id k) 0)
  | [_; _; _; _] => let v := le_value ps in if v mod bcj_alignment k =? 0 then Some (SBcj (fkind_id k) v) else None
  | _ => None
  end.
Proof. destruct k; try discriminate; reflexivity. Qed.

(* the specification reads a Filter Properties field as the reader does *)
Lemma s_filter_props k p ps : fprops k p ps -> s_filter (fkind_id k) ps = Some (spec_filter (k, p)).
Proof.
  destruct 1 as [b | b d Hb Hd | k Hk | k b0 b1 b2 b3 Hk Ha].
  - reflexivity.
  - assert (Hb40 : b <= 40) by (unfold xz_decode_dict in Hd; destruct (Z.ltb_spec 40 b); [discriminate | lia]).
    rewrite xz_decode_dict_spec in Hd by lia. injection Hd as <-.
    unfold s_filter, spec_filter. cbn [fkind_id fst snd Z.eqb Pos.eqb]. destruct (Z.leb_spec b 40); [reflexivity | lia].
  - rewrite s_filter_bcj, spec_filter_bcj by exact Hk. reflexivity.
  - rewrite s_filter_bcj, spec_filter_bcj by exact Hk. cbv beta iota zeta. rewrite Ha. reflexivity.
Qed.

Lemma s_filter_flags_S k l :
  s_filter_flags (S k) l =
  (olet! (id, r1) <- s_vli l;
   olet! (psize, r2) <- s_vli r1;
   olet! (props, r3) <- s_take psize r2;
   olet! f <- s_filter id props;
   olet! _ <- guard (Bool.eqb (s_is_lzma2 f) (match k with O => true | _ => false end));
   olet! (fs, r4) <- s_filter_flags k r3;
   Some (f :: fs, r4)).
Proof. reflexivity. Qed.

Lemma s_filter_flags_step n k p ps t : fprops k p ps ->
  s_filter_flags (S n) (fkind_id k :: zlen ps :: ps ++ t) =
  (olet! _ <- guard (Bool.eqb (fkind_is_lzma2 k) (match n with O => true | _ => false end));
   olet! (fs, r) <- s_filter_flags n t;
   Some (spec_filter (k, p) :: fs, r)).
Proof.
  intros F. pose proof (fprops_len _ _ _ F). rewrite s_filter_flags_S.
  rewrite (s_vli_single (fkind_id k)) by apply fkind_id_small. cbn [olet].
  rewrite (s_vli_single (zlen ps)) by lia. cbn [olet]. rewrite (s_take_app_n (zlen ps)) by reflexivity. cbn [olet].
  rewrite (s_filter_props _ _ _ F). cbn [olet]. rewrite spec_filter_is_lzma2. reflexivity.
Qed.

Lemma s_filter_flags_flags : forall pre d ff t,
  Forall (fun f => fkind_is_lzma2 (fst f) = false) pre -> fflags (pre ++ [(FLZMA2, d)]) ff ->
  s_filter_flags (length (pre ++ [(FLZMA2, d)])) (ff ++ t) = Some (map spec_filter pre ++ [SLzma2 d], t).
Proof.
  induction pre as [|[k p] pre IH]; intros d ff t Hpre F; cbn [app] in F;
    inversion F as [|k0 p0 ps fs ff0 Fp Fl]; subst.
  - inversion Fl; subst. cbn [app length]. rewrite app_nil_r, (s_filter_flags_step 0 FLZMA2 d ps t Fp). reflexivity.
  - inversion Hpre as [|x l Hk Hpre']; subst. cbn [fst] in Hk. cbn [app length map]. rewrite <- app_assoc.
    rewrite (s_filter_flags_step _ k p ps _ Fp), Hk.
    assert (Ek : match length (pre ++ [(FLZMA2, d)]) with O => true | S _ => false end = false)
      by (rewrite app_length; cbn [length]; destruct (length pre + 1)%nat eqn:E; [lia | reflexivity]).
    rewrite Ek. cbn [Bool.eqb guard olet]. rewrite (IH d ff0 t Hpre' Fl). reflexivity.
Qed.

Lemma filter_ok_not_lzma2 f : filter_ok f -> fkind_is_lzma2 (fst f) = false.
Proof. destruct f as [k p]. destruct k; cbn; try reflexivity. contradiction. Qed.

Theorem s_block_header_rt o hb rest : opts_ok o -> xz_block_header o = Ok hb ->
  exists dd, xo_dict o <= dd /\
    s_block_header (hb ++ rest) = Some (mkSblockhdr (zlen hb) None None (map spec_filter (xo_filters o) ++ [SLzma2 dd]), rest).
Proof.
  intros Ho H. destruct (xz_block_header_shape o hb Ho H) as (dd & ff & pad & Hle & Fl & Sh). cbv zeta in Sh.
  exists dd. split; [exact Hle|].
  remember (zlen hb) as hsize eqn:Ehs. destruct Sh as (Ehb & Bb & Hnf & Hsz & Hm4).
  set (nf := zlen (xo_filters o) + 1) in *. set (enc := hsize / 4 - 1) in *.
  set (data := (nf - 1) :: ff ++ repeatn 0 pad) in *.
  assert (Lb : zlen (enc :: data) = hsize - 4) by (rewrite Ehs, Ehb, zlen_app, zlen_crc32_bytes; lia).
  subst hb. unfold s_block_header. cbn [app].
  change (enc :: (data ++ crc32_bytes (enc :: data)) ++ rest) with (((enc :: data) ++ crc32_bytes (enc :: data)) ++ rest).
  replace ((enc + 1) * 4) with hsize by (unfold enc; (Z.div_mod_to_equations; lia)).
  rewrite (s_take_app_n hsize) by (symmetry; exact Ehs). cbn [olet].
  rewrite (s_take_app_n (hsize - 4)) by exact Lb. cbn [olet].
  rewrite le_value_crc32_bytes by exact Bb. rewrite Z.eqb_refl. cbn [guard olet].
  unfold data at 1.
  (* Block Flags of the writer: the number of filters - 1, no reserved bit, no optional size *)
  assert (Fg : ((nf - 1) / 4) mod 16 = 0 /\ (nf - 1) mod 4 + 1 = nf /\ (nf - 1) mod 128 < 64 /\ nf - 1 < 128) by (Z.div_mod_to_equations; lia).
  destruct Fg as (Fg1 & Fg2 & Fg3 & Fg4). rewrite Fg1. cbn [Z.eqb guard olet]. rewrite Fg2.
  destruct (Z.leb_spec 64 ((nf - 1) mod 128)); [lia|]. destruct (Z.leb_spec 128 (nf - 1)); [lia|]. cbn [olet].
  replace (Z.to_nat nf) with (length (xo_filters o ++ [(FLZMA2, dd)]))
    by (unfold nf, zlen; rewrite app_length; cbn [length]; lia).
  destruct Ho as [_ Hfs].
  rewrite (s_filter_flags_flags (xo_filters o) dd ff (repeatn 0 pad) (Forall_impl _ filter_ok_not_lzma2 Hfs) Fl).
  cbn [olet]. rewrite s_all_zero_zeros. reflexivity.
Qed.

Lemma s_blocks_S sdec fuel check b t acc recs :
  s_blocks sdec (S fuel) check (b :: t) acc recs =
  if b =? 0 then Some (acc, frev recs, b :: t) else
  olet! (h, r1) <- s_block_header (b :: t);
  olet! (data, r2) <- sdec (sb_filters h) r1;
  let csize := zlen r1 - zlen r2 in
  olet! _ <- guard (match sb_csize h with Some v => v =? csize | None => true end);
  olet! _ <- guard (match sb_usize h with Some v => v =? zlen data | None => true end);
  olet! (pad, r3) <- s_take (s_pad4 csize) r2;
  olet! _ <- guard (s_all_zero pad);
  olet! (chk, r4) <- s_take (s_check_size check) r3;
  olet! _ <- guard (negb (s_check_supported check) || s_eqb chk (s_check_value check data));
  s_blocks sdec fuel check r4 (rev_append data acc)
           ((sb_size h + csize + s_check_size check, zlen data) :: recs).
Proof. reflexivity. Qed.

Lemma s_streams_S sdec fuel lenient l acc :
  s_streams sdec (S fuel) lenient l acc =
  olet! (acc1, r1) <- s_stream sdec lenient l acc;
  let '(n, r2) := s_strip_zeros r1 0 in
  olet! _ <- guard (n mod 4 =? 0);
  match r2 with [] => Some (frev acc1) | _ => s_streams sdec fuel lenient r2 acc1 end.
Proof. reflexivity. Qed.

Lemma s_check_value_eq ct c : check_known ct = true ->
  s_check_value ct c = xz_check_bytes ct c /\ s_check_size ct = check_size ct /\ s_check_supported ct = true.
Proof.
  unfold check_known. intros H. repeat (apply orb_true_iff in H as [H|H]); apply Z.eqb_eq in H; subst ct; repeat split; reflexivity.
Qed.

Section SpecOut.
  Variable penc : Z -> list Z -> list Z.
  Variables fenc : fkind -> Z -> list Z -> list Z.
  (* the specification's decoding of a block's Compressed Data through its filter chain *)
  Variable sdec : list sfilter -> list Z -> option (list Z * list Z).
  (* it inverts the writer's chain (C01 + C11 for the reference semantics), leaving what follows *)
  Hypothesis sdec_ok : forall fs dict dd content tail, Forall filter_ok fs -> dict <= dd ->
    sdec (map spec_filter fs ++ [SLzma2 dd]) (penc dict (chain_enc fenc fs content) ++ tail) = Some (content, tail).

  Lemma s_blocks_rt o : opts_ok o -> forall blocks bytes recs,
    xz_blocks_bytes xz_fixed o blocks (map (payload_of penc fenc o) blocks) = Ok (bytes, recs) ->
    recs_ok recs /\
    forall fuel rest acc racc, (length bytes < fuel)%nat ->
      s_blocks sdec fuel (xo_check o) (bytes ++ 0 :: rest) acc racc
      = Some (rev_append (concat blocks) acc, rev racc ++ recs, 0 :: rest).
  Proof.
    intros Hopts. pose proof Hopts as [Hk Hfs]. induction blocks as [|c cs IH]; intros bytes recs E.
    - cbn [xz_blocks_bytes map] in E. inversion E; subst bytes recs. split; [constructor|].
      intros fuel rest acc racc Hf. destruct fuel as [|fuel]; [cbn in Hf; lia|]. cbn [app s_blocks Z.eqb concat rev_append]. rewrite frev_rev, app_nil_r. reflexivity.
    - cbn [xz_blocks_bytes map] in E.
      apply obind_ok in E as ([bb rec] & Eb & E).
      destruct (xz_blocks_bytes xz_fixed o cs (map (payload_of penc fenc o) cs)) as [[bs rs]| | |] eqn:Ecs; try discriminate.
      cbn [obind fst snd] in E. inversion E; subst bytes recs; clear E.
      unfold xz_block in Eb. apply obind_ok in Eb as (h & Eh & Eb).
      inversion Eb; subst bb rec; clear Eb. cbn [fx5 xz_fixed].
      destruct (IH bs rs eq_refl) as [Rrs IHs].
      (* a written header has at least twelve bytes, and its size byte is not the Index Indicator *)
      destruct (xz_block_header_shape o h Hopts Eh) as (dd0 & ff0 & pad0 & _ & _ & Sh0). cbv zeta in Sh0.
      destruct Sh0 as (Ehh & _ & _ & Hsz & _).
      set (payload := payload_of penc fenc o c) in *.
      set (chk := xz_check_bytes (xo_check o) c) in *.
      set (pn := pad4 (zlen payload)) in *.
      destruct (s_check_value_eq (xo_check o) c Hk) as (Ecv & Ecs' & Esup).
      assert (Lchk : zlen chk = check_size (xo_check o)) by (apply zlen_check_bytes; exact Hk).
      split.
      { constructor; [|exact Rrs]. cbn [fst snd]. pose proof (zlen_nonneg payload). pose proof (zlen_nonneg c).
        assert (0 <= check_size (xo_check o)) by (unfold check_size; repeat (destruct (_ =? _)); lia). lia. }
      intros fuel rest acc racc Hf. destruct fuel as [|fuel]; [cbn in Hf; lia|].
      assert (Hfb : (length bs < fuel)%nat) by (rewrite !app_length in Hf; unfold zlen in Hsz; lia).
      set (tail1 := payload ++ repeatn 0 (Z.to_nat pn) ++ chk ++ bs ++ 0 :: rest).
      assert (Esrc : ((h ++ payload ++ repeatn 0 (Z.to_nat pn) ++ chk) ++ bs) ++ 0 :: rest = h ++ tail1)
        by (unfold tail1; rewrite <- !app_assoc; reflexivity).
      rewrite Esrc.
      assert (Hhd : exists e ht, h = e :: ht /\ e <> 0) by (rewrite Ehh; cbn [app]; eexists _, _; split; [reflexivity | (Z.div_mod_to_equations; lia)]).
      clear Ehh.
      destruct Hhd as (e & ht & -> & Hne).
      cbn [app]. rewrite s_blocks_S. destruct (Z.eqb_spec e 0); [contradiction|].
      change (e :: ht ++ tail1) with ((e :: ht) ++ tail1). set (h := e :: ht) in *.
      destruct (s_block_header_rt o h tail1 Hopts Eh) as (dd & Hdd & Sh). rewrite Sh. cbn [olet sb_filters sb_csize sb_usize sb_size].
      unfold tail1 at 1. unfold payload at 1, payload_of. rewrite sdec_ok by assumption. cbn [olet guard].
      set (tail2 := repeatn 0 (Z.to_nat pn) ++ chk ++ bs ++ 0 :: rest).
      assert (Z2 : zlen tail1 - zlen tail2 = zlen payload).
      { assert (E12 : tail1 = payload ++ tail2) by reflexivity. rewrite E12, zlen_app. lia. }
      rewrite Z2. rewrite s_pad4_eq. fold pn. unfold tail2.
      pose proof (pad4_range (zlen payload)) as Hpn. fold pn in Hpn.
      rewrite (s_take_app_n pn) by (rewrite zlen_repeatn; lia). cbn [olet]. rewrite s_all_zero_zeros. cbn [guard olet].
      rewrite Ecs'. rewrite (s_take_app_n (check_size (xo_check o))) by exact Lchk. cbn [olet].
      rewrite Esup, Ecv. fold chk. rewrite s_eqb_refl. cbn [negb orb guard olet].
      rewrite (IHs fuel rest (rev_append c acc) ((zlen h + zlen payload + check_size (xo_check o), zlen c) :: racc) Hfb).
      cbn [concat rev]. rewrite !rev_append_rev, rev_app_distr, <- !app_assoc. reflexivity.
  Qed.

  (* the index of the writer, read by the specification against the real block sizes *)
  Lemma s_index_records_rt : forall rs r tail, recs_ok rs -> xz_index_records rs = Ok r ->
    s_index_records rs (r ++ tail) = Some tail.
  Proof.
    induction rs as [|[u c] rs IH]; intros r tail Hok H.
    - cbn [xz_index_records] in H. inversion H; subst r. reflexivity.
    - inversion Hok as [|x l [Hu Hc] Hrs]; subst x l. cbn [fst snd] in Hu, Hc. cbn [xz_index_records] in H.
      apply obind_ok in H as (a & Ea & H).
      apply obind_ok in H as (b & Eb & H).
      apply obind_ok in H as (r' & Er & H).
      inversion H; subst r; clear H.
      apply vli_encode_inv in Ea as [Ea Hu2]; [|lia]. apply vli_encode_inv in Eb as [Eb Hc2]; [|lia]. subst a b.
      cbn [s_index_records]. rewrite <- !app_assoc. rewrite s_vli_ok by lia. cbn [olet].
      rewrite s_vli_ok by lia. cbn [olet]. rewrite !Z.eqb_refl. cbn [andb guard olet]. apply IH; auto.
  Qed.

  Lemma s_index_rt rs idx rest : recs_ok rs -> xz_index rs = Ok idx ->
    s_index rs (idx ++ rest) = Some (zlen idx, rest).
  Proof.
    intros Hok H. destruct (xz_index_shape rs idx Hok H) as (r & Er & Hn & Sh). cbv zeta in Sh.
    destruct Sh as (Ei & Bb & Lb & L2 & Li). pose proof (zlen_nonneg rs) as Hrs.
    set (body := 0 :: vli_bytes (zlen rs) ++ r) in *. set (pn := pad4 (zlen body)) in *.
    pose proof (pad4_range (zlen body)) as Hpn. fold pn in Hpn.
    set (crc := crc32_bytes (body ++ repeatn 0 (Z.to_nat pn))) in *.
    assert (Lcrc : zlen crc = 4) by apply zlen_crc32_bytes.
    set (l := 0 :: vli_bytes (zlen rs) ++ r ++ repeatn 0 (Z.to_nat pn) ++ crc ++ rest).
    assert (El : idx ++ rest = l) by (rewrite Ei; unfold l, body; cbn [app]; rewrite <- !app_assoc; reflexivity).
    rewrite El. unfold l at 1, s_index.
    rewrite s_vli_ok by lia. cbn [olet]. rewrite Z.eqb_refl. cbn [guard olet].
    rewrite (s_index_records_rt rs r _ Hok Er). cbn [olet]. fold l.
    assert (Lu : zlen l - zlen (repeatn 0 (Z.to_nat pn) ++ crc ++ rest) = zlen body).
    { unfold l, body. rewrite !zlen_cons, !zlen_app. lia. }
    rewrite Lu, s_pad4_eq. fold pn.
    rewrite (s_take_app_n pn) by (rewrite zlen_repeatn; lia). cbn [olet]. rewrite s_all_zero_zeros. cbn [guard olet].
    rewrite (s_take_app_n 4) by exact Lcrc. cbn [olet].
    assert (Ef : firstn (Z.to_nat (zlen body + pn)) l = body ++ repeatn 0 (Z.to_nat pn)).
    { rewrite <- El, Ei, <- app_assoc. apply firstn_app_exact.
      rewrite app_length. pose proof (zlen_repeatn 0 (Z.to_nat pn)). unfold zlen in *. lia. }
    rewrite Ef. unfold crc. rewrite le_value_crc32_bytes by exact Bb.
    rewrite Z.eqb_refl. cbn [guard olet]. f_equal. f_equal. lia.
  Qed.

  (* the backward size field holds the real index size, as long as it fits its 32 bits *)
  Lemma s_footer_rt ct rs idx rest : check_known ct = true -> recs_ok rs -> xz_index rs = Ok idx ->
    zlen idx < 2 ^ 34 ->
    s_footer ct (zlen idx) (xz_stream_footer ct rs ++ rest) = Some rest.
  Proof.
    intros Hk Hok H Hsmall. unfold s_footer, xz_stream_footer. rewrite <- !app_assoc.
    rewrite (s_take_app_n 4) by apply zlen_crc32_bytes. cbn [olet].
    rewrite (s_take_app_n 4) by apply zlen_le_bytes. cbn [olet].
    rewrite (s_take_app_n 2 (xz_stream_flags ct)) by reflexivity. cbn [olet].
    rewrite (s_take_app_n 2 XZ_FOOTER_MAGIC) by reflexivity. cbn [olet].
    rewrite le_value_crc32_bytes.
    2:{ apply bytes_ok_app. split; [apply bytes_ok_le_bytes | apply bytes_ok_flags, Hk]. }
    rewrite Z.eqb_refl. cbn [guard olet].
    (* the index size the writer recomputes from the records is the real one *)
    destruct (xz_index_shape rs idx Hok H) as (r & _ & _ & Sh). cbv zeta in Sh. destruct Sh as (_ & _ & Lb & L2 & Li).
    pose proof (pad4_sum (zlen (0 :: vli_bytes (zlen rs) ++ r))) as M4.
    pose proof (pad4_range (zlen (0 :: vli_bytes (zlen rs) ++ r))) as P4. rewrite Lb in Li, L2, M4, P4.
    change (2 ^ 34) with 17179869184 in Hsmall.
    rewrite le_value_bytes by (unfold xz_backward_size, wrap32; change (256 ^ Z.of_nat 4) with 4294967296; apply Z.mod_pos_bound; lia).
    unfold xz_backward_size. rewrite <- Li. unfold wrap32. rewrite Z.mod_small by (Z.div_mod_to_equations; lia).
    destruct (Z.eqb_spec ((zlen idx / 4 - 1 + 1) * 4) (zlen idx)); [|(Z.div_mod_to_equations; lia)]. cbn [guard olet].
    change [0; ct] with (xz_stream_flags ct). rewrite !s_eqb_refl. reflexivity.
  Qed.

  Theorem C03_out_xz_thm : forall o0 parts f lenient, stream_ok o0 ->
    xz_encode penc fenc xz_fixed o0 parts = Ok f -> zlen f < 2 ^ 34 ->
    xz_spec_decode sdec lenient f = Some (concat parts).
  Proof.
    intros o0 parts f lenient Hok E Hsmall.
    destruct (xz_encode_inv penc fenc o0 parts f Hok E) as (o & blocks & h & idx & _ & Hopts & _ & Hcat & Hh & Ei & ->).
    set (bytes := concat (map (xz_blk penc fenc o h) blocks)) in *. set (recs := map (xz_rec penc fenc o h) blocks) in *.
    assert (Ebb : xz_blocks_bytes xz_fixed o blocks (map (payload_of penc fenc o) blocks) = Ok (bytes, recs)).
    { destruct blocks as [|c cs]; [reflexivity|]. apply xz_blocks_bytes_ok. apply Hh. discriminate. }
    pose proof Hopts as [Hko _].
    destruct (s_blocks_rt o Hopts blocks bytes recs Ebb) as [Rk Sb].
    destruct (xz_index_rt recs idx [] Rk Ei) as (t & Et & _ & _ & _).
    unfold xz_spec_decode.
    rewrite s_streams_S. unfold s_stream.
    unfold xz_stream_header at 1. rewrite <- !app_assoc. unfold s_stream_header.
    rewrite (s_take_app_n 6 XZ_MAGIC) by reflexivity. cbn [olet]. change (s_eqb XZ_MAGIC S_HEADER_MAGIC) with true. cbn [guard olet].
    rewrite (s_take_app_n 2 (xz_stream_flags (xo_check o))) by reflexivity. cbn [olet].
    rewrite (s_take_app_n 4) by apply zlen_crc32_bytes. cbn [olet].
    rewrite le_value_crc32_bytes by (apply bytes_ok_flags; exact Hko). rewrite Z.eqb_refl. cbn [guard olet].
    unfold xz_stream_flags at 1. rewrite Z.eqb_refl.
    assert (Hct : xo_check o <? 16 = true /\ s_check_supported (xo_check o) = true).
    { clear - Hko. unfold check_known in Hko. repeat (apply orb_true_iff in Hko as [Hko|Hko]); apply Z.eqb_eq in Hko; rewrite Hko; split; reflexivity. }
    destruct Hct as [Hc16 Hsup]. rewrite Hc16, Hsup. rewrite orb_true_r. cbn [andb guard olet].
    set (rest1 := t ++ xz_stream_footer (xo_check o) recs).
    assert (Eb1 : bytes ++ idx ++ xz_stream_footer (xo_check o) recs = bytes ++ 0 :: rest1)
      by (unfold rest1; rewrite Et; cbn [app]; reflexivity).
    rewrite Eb1, Sb by (rewrite app_length; cbn [length]; lia).
    cbn [olet rev app].
    assert (Ei1 : 0 :: rest1 = idx ++ xz_stream_footer (xo_check o) recs) by (unfold rest1; rewrite Et; reflexivity).
    rewrite Ei1, (s_index_rt recs idx _ Rk Ei). cbn [olet].
    rewrite <- (app_nil_r (xz_stream_footer (xo_check o) recs)).
    assert (Hsm : zlen idx < 2 ^ 34).
    { rewrite !zlen_app in Hsmall. pose proof (zlen_nonneg bytes).
      pose proof (zlen_nonneg (xz_stream_header (xo_check o))). pose proof (zlen_nonneg (xz_stream_footer (xo_check o) recs)). lia. }
    rewrite (s_footer_rt (xo_check o) recs idx [] Hko Rk Ei Hsm).
    cbn [olet s_strip_zeros Z.modulo Z.div_eucl Z.eqb guard].
    rewrite frev_rev, rev_append_rev, rev_app_distr, rev_involutive. cbn [rev app]. rewrite Hcat. reflexivity.
  Qed.
End SpecOut.
