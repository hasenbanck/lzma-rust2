(* Format/LzipProofs.v — C02 (LZIP) and C12 (LZIP): what LZIPWriter writes, LZIPReader (whole-file
   function lz_decode of LzipFormat.v) reads back, for every dictionary size, member size and
   partition; any concatenation of members decodes to the concatenation of their contents;
   trailing data that does not begin like a member is ignored and left mostly unread.
   The LZMA payload encoder (lc=3 lp=0 pb=2, end marker) is a Section variable.  What is assumed of
   the payload decoder is that it inverts the encoder for the byte strings x and dictionary sizes d
   satisfying an arbitrary predicate [good], with reader dictionaries in the range the header byte
   can announce, and every theorem asks [good] of the members the writer cuts.  That covers the
   concrete LZMA model, which inverts the encoder only up to a bounded number of coded bits
   (ComposeProofs.v), and the round-trip statement of C01/C16 for every input: the second Section,
   with [good] always true.  The header byte lemma is lzip_dict_ok. *)
From LzVerif Require Import Base.Bytes Format.Crc Format.CrcProofs Format.LzipDict Format.LzipDictProofs
  Format.XzFormat Format.LzipFormat Format.XzHeaderProofs Format.LzipSplitProofs.

Lemma lz_take_app_n n a b : zlen a = n -> lz_take n (a ++ b) = Ok (a, b).
Proof. intros Hn. pose proof (xz_take_app_n n a b Hn) as X. exact X. Qed.

Lemma lz_bytes_eqb_refl a : lz_bytes_eqb a a = true.
Proof. exact (bytes_eqb_refl a). Qed.

Lemma lz_header_ok first byte dd tail : lzip_decode_dict_size byte = Ok dd ->
  lz_parse_header lz_fixed first (LZIP_MAGIC ++ [1; byte] ++ tail) = Ok (Some dd, tail).
Proof.
  intros Hd. unfold lz_parse_header. cbn [fz6 lz_fixed]. unfold lz_parse_header_fixed, LZIP_MAGIC.
  cbn [app firstn skipn length]. change (lz_bytes_eqb [76; 90; 73; 80] [76; 90; 73; 80]) with true.
  cbn [negb Nat.ltb Nat.leb]. cbn [Z.eqb Pos.eqb negb]. rewrite Hd. reflexivity.
Qed.

(* after a complete member, up to four bytes that are not a prefix of the magic end the stream *)
Lemma lz_header_trailing t : lz_bytes_eqb (firstn 4 t) (firstn (length (firstn 4 t)) LZIP_MAGIC) = false ->
  lz_parse_header lz_fixed false t = Ok (None, skipn 4 t).
Proof.
  intros Hnm. unfold lz_parse_header. cbn [fz6 lz_fixed]. unfold lz_parse_header_fixed.
  destruct (firstn 4 t); [discriminate Hnm|]. rewrite Hnm. reflexivity.
Qed.

(* the trailer the writer appends to a member with payload length plen is accepted *)
Lemma lz_check_trailer_ok c plen rest : bytes_ok c = true -> zlen c < 2 ^ 64 -> 0 <= plen -> plen + 26 < 2 ^ 64 ->
  lz_check_trailer (crc32 c) (zlen c) plen
    (le_bytes 4 (crc32 c) ++ le_bytes 8 (zlen c) ++ le_bytes 8 (LZIP_HEADER_SIZE + plen + LZIP_TRAILER_SIZE) ++ rest)
  = Ok rest.
Proof.
  intros Hb Hc64 Hp0 Hp64. unfold lz_check_trailer.
  rewrite (lz_take_app_n 4) by apply zlen_le_bytes. cbn [obind].
  rewrite (lz_take_app_n 8) by apply zlen_le_bytes. cbn [obind].
  rewrite (lz_take_app_n 8) by apply zlen_le_bytes. cbn [obind].
  pose proof (crc32_range c Hb) as Hcr. pose proof (zlen_nonneg c).
  change (2 ^ 64) with (256 ^ Z.of_nat 8) in Hc64, Hp64. change (2 ^ 32) with (256 ^ Z.of_nat 4) in Hcr.
  unfold LZIP_HEADER_SIZE, LZIP_TRAILER_SIZE in *.
  rewrite !le_value_bytes by lia. rewrite !Z.eqb_refl. reflexivity.
Qed.

Lemma lzw_new_dict_range o0 : LZIP_MIN_DICT <= lo_dict (lzw_new o0) <= LZIP_MAX_DICT.
Proof.
  unfold lzw_new; cbn [lo_dict]. unfold lzip_clamp_dict, LZIP_MIN_DICT, LZIP_MAX_DICT.
  destruct (Z.ltb_spec (lo_dict o0) 4096); [lia|]. destruct (Z.ltb_spec 536870912 (lo_dict o0)); lia.
Qed.

Lemma Forall_bytes_concat (l : list (list Z)) : bytes_ok (concat l) = true -> Forall (fun c => bytes_ok c = true) l.
Proof.
  induction l as [|c cs IH]; intros Hb; [constructor|].
  cbn [concat] in Hb. apply bytes_ok_app in Hb as [H1 H2]. constructor; auto.
Qed.

Section Writer.
  Variable penc : Z -> list Z -> list Z.

  (* one member as data: header byte, the dictionary the encoder used, content *)
  Record lzm := mkLzm { lm_byte : Z; lm_dict : Z; lm_content : list Z }.
  Definition lm_bytes (m : lzm) : list Z := lz_member (lm_byte m) (lm_content m) (penc (lm_dict m) (lm_content m)).
  (* the header byte announces at least the dictionary in use; the content consists of bytes; the
     u64 counters of the trailer do not wrap (fewer than 2^64 bytes) *)
  Definition lm_ok (m : lzm) : Prop :=
    (exists dd, lzip_decode_dict_size (lm_byte m) = Ok dd /\ lm_dict m <= dd) /\
    bytes_ok (lm_content m) = true /\
    zlen (lm_content m) < 2 ^ 64 /\ zlen (penc (lm_dict m) (lm_content m)) + 26 < 2 ^ 64.

  Definition lm_file (ms : list lzm) : list Z := concat (map lm_bytes ms).
  Definition lm_data (ms : list lzm) : list Z := concat (map lm_content ms).

  Lemma lm_file_cons m ms : lm_file (m :: ms) = lm_bytes m ++ lm_file ms.
  Proof. reflexivity. Qed.

  Lemma lm_data_cons m ms : lm_data (m :: ms) = lm_content m ++ lm_data ms.
  Proof. reflexivity. Qed.

  Lemma lm_file_len ms : zlen ms <= zlen (lm_file ms).
  Proof.
    induction ms as [|m ms IH]; [cbn; lia|]. rewrite lm_file_cons, zlen_cons, zlen_app.
    unfold lm_bytes, lz_member. rewrite zlen_app. change (zlen LZIP_MAGIC) with 4.
    match goal with |- context [zlen (?a ++ ?b)] => pose proof (zlen_nonneg (a ++ b)) end. lia.
  Qed.

  Definition lz_encode (o0 : lzopts) (parts : list (list Z)) : outcome (list Z) :=
    let o := lzw_new o0 in
    do members <- lz_members_of (lo_member_size o) parts;
    lz_write o0 parts (map (penc (lo_dict o)) members).

  Lemma lz_members_bytes_file b d : forall members f,
    lz_members_bytes b members (map (penc d) members) = Ok f ->
    f = lm_file (map (fun c => mkLzm b d c) members).
  Proof.
    induction members as [|c cs IH]; intros f E; cbn [lz_members_bytes map] in E.
    - inversion E. reflexivity.
    - destruct (lz_members_bytes b cs (map (penc d) cs)) as [r| | |] eqn:Er; try discriminate. cbn [obind] in E.
      inversion E; subst f. cbn [map]. rewrite lm_file_cons, <- (IH r eq_refl). reflexivity.
  Qed.

  Lemma concat_map_content b d members : lm_data (map (fun c => mkLzm b d c) members) = concat members.
  Proof. unfold lm_data. rewrite map_map. cbn [lm_content]. rewrite map_id. reflexivity. Qed.

  (* u64 counters: the data and each member's payload stay below 2^64 bytes *)
  Definition lz_sizes_ok (d : Z) (members : list (list Z)) : Prop :=
    Forall (fun c => zlen c < 2 ^ 64 /\ zlen (penc d c) + 26 < 2 ^ 64) members.

  (* what the writer returns: the members it cut, at least one, under one header byte that announces
     at least the (clamped) dictionary, covering the input *)
  Lemma lz_encode_shape_c : forall o0 parts f,
    bytes_ok (concat parts) = true ->
    (forall members, lz_members_of (lo_member_size (lzw_new o0)) parts = Ok members ->
                     lz_sizes_ok (lo_dict (lzw_new o0)) members) ->
    match lo_member_size o0 with Some m => 1 <= m | None => True end ->
    lz_encode o0 parts = Ok f ->
    exists byte members, 0 <= byte < 256 /\
      lz_members_of (lo_member_size (lzw_new o0)) parts = Ok members /\ members <> [] /\
      f = lm_file (map (fun x => mkLzm byte (lo_dict (lzw_new o0)) x) members) /\
      Forall lm_ok (map (fun x => mkLzm byte (lo_dict (lzw_new o0)) x) members) /\
      concat members = concat parts.
  Proof.
    intros o0 parts f Hb Hsz Hms E. unfold lz_encode in E. cbv zeta in E.
    destruct (lz_members_of (lo_member_size (lzw_new o0)) parts) as [members| | |] eqn:Em; try discriminate.
    cbn [obind] in E. unfold lz_write in E.
    destruct (lzip_dict_ok _ (lzw_new_dict_range o0)) as (byte & dd & Eb & Hbr & Edd & Hle & _).
    rewrite Eb in E. cbn [obind] in E. rewrite Em in E. cbn [obind] in E.
    apply lz_members_bytes_file in E.
    pose proof (lz_members_concat _ parts members (lzw_new_member_size o0 Hms) Em) as Hcat.
    pose proof (lz_members_nonempty _ parts members Em) as Hne.
    exists byte, members. repeat split; try assumption; try lia.
    specialize (Hsz members eq_refl). unfold lz_sizes_ok in Hsz. rewrite <- Hcat in Hb. apply Forall_bytes_concat in Hb.
    apply Forall_map. rewrite Forall_forall in *. intros c Hc.
    split; [exists dd; split; [exact Edd | exact Hle]|]. split; [exact (Hb c Hc) | exact (Hsz c Hc)].
  Qed.

  Lemma lz_encode_shape : forall o0 parts f,
    bytes_ok (concat parts) = true ->
    (forall members, lz_members_of (lo_member_size (lzw_new o0)) parts = Ok members ->
                     lz_sizes_ok (lo_dict (lzw_new o0)) members) ->
    match lo_member_size o0 with Some m => 1 <= m | None => True end ->
    lz_encode o0 parts = Ok f ->
    exists byte c cs, 0 <= byte < 256 /\
      f = lm_file (map (fun x => mkLzm byte (lo_dict (lzw_new o0)) x) (c :: cs)) /\
      Forall lm_ok (map (fun x => mkLzm byte (lo_dict (lzw_new o0)) x) (c :: cs)) /\
      concat (c :: cs) = concat parts.
  Proof.
    intros o0 parts f Hb Hsz Hms E.
    destruct (lz_encode_shape_c o0 parts f Hb Hsz Hms E) as (byte & [|c cs] & Hbyte & _ & Hne & Ef & Hok & Hcat);
      [contradiction|]. exists byte, c, cs. auto.
  Qed.

  Variable pdec : Z -> list Z -> outcome (list Z * list Z).
  Variable good : Z -> list Z -> Prop.
  Hypothesis pdec_penc : forall d dd x tail, good d x -> bytes_ok x = true -> d <= dd ->
    LZIP_MIN_DICT <= dd <= LZIP_MAX_DICT -> pdec dd (penc d x ++ tail) = Ok (x, tail).

  Definition lm_ok_c (m : lzm) : Prop := lm_ok m /\ good (lm_dict m) (lm_content m).

  Notation lzd_members' := (lzd_members pdec).

  Lemma lz_member_rt_c m first rest acc fuel : lm_ok_c m ->
    lzd_members' (S fuel) lz_fixed first (lm_bytes m ++ rest) acc =
    lzd_members' fuel lz_fixed false rest (rev_append (lm_content m) acc).
  Proof.
    intros (((dd & Hd & Hle) & Hb & Hc64 & Hp64) & Hg). unfold lm_bytes, lz_member. rewrite <- !app_assoc.
    cbn [lzd_members]. rewrite (lz_header_ok first _ dd) by exact Hd. cbn [obind].
    rewrite (pdec_penc _ _ _ _ Hg Hb Hle (lzip_decode_dict_range _ _ Hd)). cbn [obind].
    rewrite zlen_app, Z.add_simpl_r, lz_check_trailer_ok by (try apply zlen_nonneg; assumption). reflexivity.
  Qed.

  Lemma lz_members_rt_c : forall ms first rest acc fuel, Forall lm_ok_c ms ->
    lzd_members' (length ms + fuel) lz_fixed first (lm_file ms ++ rest) acc =
    lzd_members' fuel lz_fixed (match ms with [] => first | _ => false end) rest (rev_append (lm_data ms) acc).
  Proof.
    induction ms as [|m ms IH]; intros first rest acc fuel Hok; [reflexivity|].
    inversion Hok as [|x l Hm Hms]; subst x l.
    rewrite lm_file_cons, lm_data_cons. cbn [length Nat.add].
    rewrite <- app_assoc, lz_member_rt_c by exact Hm. rewrite IH by exact Hms.
    rewrite !rev_append_rev, rev_app_distr, <- app_assoc. destruct ms; reflexivity.
  Qed.

  (* at least one member, then t at which the header parse ends the stream *)
  Lemma lz_decode_members m ms t r : Forall lm_ok_c (m :: ms) -> lz_parse_header lz_fixed false t = Ok (None, r) ->
    lz_decode pdec lz_fixed (lm_file (m :: ms) ++ t) = Ok (lm_data (m :: ms), r).
  Proof.
    intros Hok Ht. unfold lz_decode.
    pose proof (lm_file_len (m :: ms)) as Hl.
    replace (S (length (lm_file (m :: ms) ++ t)))
      with (length (m :: ms) + S (length (lm_file (m :: ms) ++ t) - length (m :: ms)))%nat
      by (rewrite app_length; unfold zlen in Hl; lia).
    rewrite lz_members_rt_c by exact Hok. cbn [lzd_members]. rewrite Ht. cbn [obind].
    rewrite frev_rev, rev_append_rev, rev_app_distr, rev_involutive. reflexivity.
  Qed.

  Theorem lzip_multi_cond : forall m ms, Forall lm_ok_c (m :: ms) ->
    lz_decode pdec lz_fixed (lm_file (m :: ms)) = Ok (lm_data (m :: ms), []).
  Proof.
    intros m ms Hok. rewrite <- (app_nil_r (lm_file (m :: ms))). apply lz_decode_members; [exact Hok | reflexivity].
  Qed.

  Theorem lzip_trailing_cond : forall m ms t, Forall lm_ok_c (m :: ms) -> t <> [] ->
    lz_bytes_eqb (firstn 4 t) (firstn (length (firstn 4 t)) LZIP_MAGIC) = false ->
    lz_decode pdec lz_fixed (lm_file (m :: ms) ++ t) = Ok (lm_data (m :: ms), skipn 4 t).
  Proof. intros m ms t Hok _ Hnm. apply lz_decode_members; [exact Hok | apply lz_header_trailing, Hnm]. Qed.

  (* C02 (LZIP): [good] is asked of every member the writer cuts *)
  Theorem C02_lzip_cond : forall o0 parts f,
    bytes_ok (concat parts) = true ->
    (forall members, lz_members_of (lo_member_size (lzw_new o0)) parts = Ok members ->
                     lz_sizes_ok (lo_dict (lzw_new o0)) members /\
                     Forall (good (lo_dict (lzw_new o0))) members) ->
    match lo_member_size o0 with Some m => 1 <= m | None => True end ->
    lz_encode o0 parts = Ok f ->
    lz_decode pdec lz_fixed f = Ok (concat parts, []).
  Proof.
    intros o0 parts f Hb Hsz Hms E.
    destruct (lz_encode_shape_c o0 parts f Hb (fun mb Hmb => proj1 (Hsz mb Hmb)) Hms E)
      as (byte & members & _ & Em & Hne & Ef & Hok & Hcat).
    destruct (Hsz members Em) as (_ & Hgood).
    set (mk := fun x => mkLzm byte (lo_dict (lzw_new o0)) x) in *.
    assert (Hokc : Forall lm_ok_c (map mk members)).
    { apply Forall_map. rewrite Forall_map in Hok. rewrite Forall_forall in *.
      intros c Hc. split; [exact (Hok c Hc) | exact (Hgood c Hc)]. }
    subst f. destruct members as [|c cs]; [contradiction|].
    cbn [map] in *. rewrite lzip_multi_cond by exact Hokc.
    change (mk c :: map mk cs) with (map mk (c :: cs)). unfold mk. rewrite concat_map_content, Hcat. reflexivity.
  Qed.
End Writer.

(* the round-trip statement of C01/C16 for every input: every member is good *)
Definition all_members_good (_ : Z) (_ : list Z) : Prop := True.

Section RoundTrip.
  Variable penc : Z -> list Z -> list Z.
  Variable pdec : Z -> list Z -> outcome (list Z * list Z).
  (* C01 + C16 for the .lzma codec used inside lzip members *)
  Hypothesis pdec_penc : forall d dd x tail, d <= dd -> pdec dd (penc d x ++ tail) = Ok (x, tail).

  Lemma pdec_all_good : forall d dd x tail, all_members_good d x -> bytes_ok x = true -> d <= dd ->
    LZIP_MIN_DICT <= dd <= LZIP_MAX_DICT -> pdec dd (penc d x ++ tail) = Ok (x, tail).
  Proof. intros d dd x tail _ _ Hd _. apply pdec_penc, Hd. Qed.

  Lemma lm_all_good ms : Forall (lm_ok penc) ms -> Forall (lm_ok_c penc all_members_good) ms.
  Proof. intros H. eapply Forall_impl; [|exact H]. intros m Hm. split; [exact Hm | exact I]. Qed.

  Lemma lz_members_rt : forall ms first rest acc fuel, Forall (lm_ok penc) ms ->
    lzd_members pdec (length ms + fuel) lz_fixed first (lm_file penc ms ++ rest) acc =
    lzd_members pdec fuel lz_fixed (match ms with [] => first | _ => false end) rest (rev_append (lm_data ms) acc).
  Proof.
    intros ms first rest acc fuel Hok.
    exact (lz_members_rt_c penc pdec all_members_good pdec_all_good ms first rest acc fuel (lm_all_good ms Hok)).
  Qed.

  (* C12 (LZIP): any number (at least one) of members decodes to the concatenation of the contents
     and the whole input is consumed *)
  Theorem lzip_multi_thm : forall m ms, Forall (lm_ok penc) (m :: ms) ->
    lz_decode pdec lz_fixed (lm_file penc (m :: ms)) = Ok (lm_data (m :: ms), []).
  Proof.
    intros m ms Hok. exact (lzip_multi_cond penc pdec all_members_good pdec_all_good m ms (lm_all_good _ Hok)).
  Qed.

  (* trailing data: after at least one member, bytes that are not (a prefix of) the member magic end
     the stream; the reader has looked at up to four of them *)
  Theorem lzip_trailing_thm : forall m ms t, Forall (lm_ok penc) (m :: ms) -> t <> [] ->
    lz_bytes_eqb (firstn 4 t) (firstn (length (firstn 4 t)) LZIP_MAGIC) = false ->
    lz_decode pdec lz_fixed (lm_file penc (m :: ms) ++ t) = Ok (lm_data (m :: ms), skipn 4 t).
  Proof.
    intros m ms t Hok. exact (lzip_trailing_cond penc pdec all_members_good pdec_all_good m ms t (lm_all_good _ Hok)).
  Qed.

  (* C02 (LZIP): for every requested dictionary size (the writer clamps it into [4 KiB, 512 MiB]),
     every member size and every partition, the file the writer returns is decoded by the reader to
     exactly the bytes written, the whole file is consumed. *)
  Theorem C02_lzip_thm : forall o0 parts f,
    bytes_ok (concat parts) = true ->
    (forall members, lz_members_of (lo_member_size (lzw_new o0)) parts = Ok members ->
                     lz_sizes_ok penc (lo_dict (lzw_new o0)) members) ->
    match lo_member_size o0 with Some m => 1 <= m | None => True end ->
    lz_encode penc o0 parts = Ok f ->
    lz_decode pdec lz_fixed f = Ok (concat parts, []).
  Proof.
    intros o0 parts f Hb Hsz Hms E.
    apply (C02_lzip_cond penc pdec all_members_good pdec_all_good o0 parts f Hb); [|exact Hms | exact E].
    intros members Em. split; [exact (Hsz members Em)|]. apply Forall_forall. intros c _. exact I.
  Qed.
End RoundTrip.
