(* Format/LzipSpecProofs.v — C03 for LZIP against the independent format specification
   (Format/XzSpec.v, section lzip):
   C03_out: every file the LZIP writer model produces is valid per the specification and the
            specification decodes it to the data written;
   C03_in:  every file the specification accepts (version 1 members; trailing data that is not a
            proper prefix of the member magic - lzip(1) calls that a truncated header) is accepted by
            the crate's reader model with the same data. *)
From LzVerif Require Import Base.Bytes Format.Crc Format.CrcProofs Format.LzipDict Format.LzipDictProofs
  Format.XzFormat Format.LzipFormat Format.XzSpec
  Format.VliProofs Format.LzipSplitProofs Format.LzipProofs Format.XzSpecProofs Format.BitflipProofs Format.XzSoundProofs Format.XzSpecIn2Proofs.

(* the dictionary-size byte: the crate computes with masks and shifts what the specification
   writes with mod, div and powers; a byte has no fraction above 7 *)
Lemma lz_dict_byte_agree : forall b, 0 <= b < 256 ->
  match lzip_decode_dict_size b, s_lz_dict b with
  | Ok d, Some d' => d = d'
  | Err _, None => True
  | _, _ => False
  end.
Proof.
  intros b Hb. unfold lzip_decode_dict_size, s_lz_dict, LZIP_MIN_DICT, LZIP_MAX_DICT. cbv zeta.
  change 31 with (Z.ones 5). rewrite Z.land_ones, Z.shiftr_div_pow2 by lia. change (2 ^ 5) with 32.
  destruct ((b mod 32 <? 12) || (29 <? b mod 32)) eqn:E; [exact I|].
  apply orb_false_iff in E as [E1 E2]. apply Z.ltb_ge in E1, E2.
  assert (Hq : b / 32 <= 7) by (apply Z.lt_succ_r, Z.div_lt_upper_bound; lia).
  destruct (Z.ltb_spec 7 (b / 32)); [lia|].
  rewrite Z.shiftl_1_l, Z.shiftr_div_pow2, <- Z.pow_sub_r, (Z.mul_comm (2 ^ (b mod 32 - 4))) by lia.
  destruct (_ || _); [exact I | reflexivity].
Qed.

Section LzSpecProofs.
  Variable penc : Z -> list Z -> list Z.
  Variable pdec : Z -> list Z -> outcome (list Z * list Z).
  (* the specification's LZMA-stream decoder *)
  Variable sdec1 : Z -> list Z -> option (list Z * list Z).
  Hypothesis sdec_penc : forall d dd x tail, d <= dd -> sdec1 dd (penc d x ++ tail) = Some (x, tail).
  (* what the specification decodes, the crate's payload decoder decodes *)
  Hypothesis sdec_pdec : forall dd src r, sdec1 dd src = Some r -> pdec dd src = Ok r.
  (* decoding only consumes input *)
  Hypothesis sdec_suffix : forall dd src x r, sdec1 dd src = Some (x, r) -> suffix r src.

  Definition lm_ok_spec (m : lzm) : Prop := lm_ok penc m /\ 0 <= lm_byte m < 256.

  Lemma s_lz_member_rt m rest : lm_ok_spec m ->
    s_lz_member sdec1 (lm_bytes penc m ++ rest) = Some (lm_content m, rest).
  Proof.
    intros [((dd & Hd & Hle) & Hb & Hc64 & Hp64) Hbyte]. unfold lm_bytes, lz_member, s_lz_member. rewrite <- !app_assoc.
    rewrite (s_take_app_n 4 LZIP_MAGIC) by reflexivity. cbn [olet]. change (s_eqb LZIP_MAGIC LZ_ID) with true. cbn [guard olet app].
    cbn [Z.eqb Pos.eqb guard olet].
    pose proof (lz_dict_byte_agree (lm_byte m) Hbyte) as A. rewrite Hd in A.
    destruct (s_lz_dict (lm_byte m)) as [d'|]; [|contradiction]. subst d'. cbn [olet].
    rewrite sdec_penc by exact Hle. cbn [olet].
    set (payload := penc (lm_dict m) (lm_content m)) in *. set (c := lm_content m) in *.
    rewrite (s_take_app_n 4) by apply zlen_le_bytes. cbn [olet].
    rewrite (s_take_app_n 8) by apply zlen_le_bytes. cbn [olet].
    rewrite (s_take_app_n 8) by apply zlen_le_bytes. cbn [olet].
    pose proof (crc32_range c Hb) as Hcr. pose proof (zlen_nonneg c). pose proof (zlen_nonneg payload).
    change (2 ^ 64) with 18446744073709551616 in Hc64, Hp64. change (2 ^ 32) with 4294967296 in Hcr.
    unfold LZIP_HEADER_SIZE, LZIP_TRAILER_SIZE in *.
    rewrite !le_value_bytes;
      try (change (256 ^ Z.of_nat 8) with 18446744073709551616; change (256 ^ Z.of_nat 4) with 4294967296; lia).
    rewrite !Z.eqb_refl. cbn [guard olet].
    assert (Lm : zlen (LZIP_MAGIC ++ 1 :: lm_byte m :: payload ++ le_bytes 4 (crc32 c) ++ le_bytes 8 (zlen c) ++ le_bytes 8 (6 + zlen payload + 20) ++ rest)
                 - zlen rest = 6 + zlen payload + 20).
    { rewrite zlen_app, !zlen_cons, !zlen_app, !zlen_le_bytes. change (zlen LZIP_MAGIC) with 4. lia. }
    rewrite Lm, Z.eqb_refl. cbn [guard olet]. reflexivity.
  Qed.

  Lemma s_lz_has_id_member m rest : s_lz_has_id (lm_bytes penc m ++ rest) = true.
  Proof.
    unfold s_lz_has_id, lm_bytes, lz_member. rewrite <- !app_assoc. rewrite (s_take_app_n 4 LZIP_MAGIC) by reflexivity. reflexivity.
  Qed.

  (* C03_out (LZIP): a sequence of members as the writer produces them is valid per the
     specification, which returns their contents and no trailing data *)
  Theorem C03_out_lzip_members : forall m ms, Forall lm_ok_spec (m :: ms) ->
    lz_spec_decode sdec1 (lm_file penc (m :: ms)) = Some (lm_data (m :: ms), []).
  Proof.
    intros m ms Hok. unfold lz_spec_decode.
    assert (G : forall ms0 m0 fuel acc, Forall lm_ok_spec (m0 :: ms0) -> (length ms0 < fuel)%nat ->
              s_lz_members sdec1 fuel (lm_file penc (m0 :: ms0)) acc = Some (frev (rev_append (lm_data (m0 :: ms0)) acc), [])).
    { induction ms0 as [|m1 ms1 IH]; intros m0 fuel acc Hk Hf; destruct fuel as [|fuel]; try (cbn in Hf; lia);
        inversion Hk as [|x l Hm0 Hrest]; subst x l.
      - unfold lm_file, lm_data. cbn [map concat s_lz_members]. rewrite (s_lz_member_rt m0 [] Hm0). cbn [olet s_lz_has_id s_take].
        rewrite !app_nil_r. reflexivity.
      - unfold lm_file, lm_data. cbn [map concat s_lz_members]. fold (lm_file penc (m1 :: ms1)). fold (lm_data (m1 :: ms1)).
        rewrite (s_lz_member_rt m0 _ Hm0). cbn [olet].
        rewrite s_lz_has_id_member.
        change (lm_bytes penc m1 ++ concat (map (lm_bytes penc) ms1)) with (lm_file penc (m1 :: ms1)).
        change (lm_content m1 :: map lm_content ms1) with (map lm_content (m1 :: ms1)).
        fold (lm_data (m1 :: ms1)).
        rewrite IH; [|exact Hrest | cbn [length] in Hf; lia].
        rewrite !frev_rev, !rev_append_rev. repeat rewrite ?rev_app_distr, ?rev_involutive, <- ?app_assoc. reflexivity. }
    rewrite G; [|exact Hok|].
    - rewrite frev_rev, rev_append_rev, rev_app_distr, rev_involutive. cbn [rev app]. reflexivity.
    - pose proof (lm_file_len penc (m :: ms)) as Hl. rewrite zlen_cons in Hl. unfold zlen in Hl. lia.
  Qed.

  (* C03_out (LZIP), at the level of the writer *)
  Theorem C03_out_lzip_thm : forall o0 parts f,
    bytes_ok (concat parts) = true ->
    (forall members, lz_members_of (lo_member_size (lzw_new o0)) parts = Ok members ->
                     lz_sizes_ok penc (lo_dict (lzw_new o0)) members) ->
    match lo_member_size o0 with Some m => 1 <= m | None => True end ->
    lz_encode penc o0 parts = Ok f ->
    lz_spec_decode sdec1 f = Some (concat parts, []).
  Proof.
    intros o0 parts f Hb Hsz Hms E.
    destruct (lz_encode_shape penc o0 parts f Hb Hsz Hms E) as (byte & c & cs & Hbyte & -> & Hok & <-).
    rewrite <- (concat_map_content byte (lo_dict (lzw_new o0)) (c :: cs)).
    cbn [map]. apply C03_out_lzip_members.
    change (Forall lm_ok_spec (map (fun x => mkLzm byte (lo_dict (lzw_new o0)) x) (c :: cs))). rewrite Forall_map in *.
    eapply Forall_impl; [|exact Hok]. intros x Hx. split; [exact Hx | exact Hbyte].
  Qed.

  (* C03_in (LZIP): lockstep of the specification's member loop and the reader's *)
  Lemma s_lz_member_inv l data r : s_lz_member sdec1 l = Some (data, r) ->
    exists ds dict r2 cb db mb, l = LZIP_MAGIC ++ [1; ds] ++ r2 /\ s_lz_dict ds = Some dict /\
      sdec1 dict r2 = Some (data, cb ++ db ++ mb ++ r) /\ zlen cb = 4 /\ zlen db = 8 /\ zlen mb = 8 /\
      le_value cb = crc32 data /\ le_value db = zlen data /\ le_value mb = zlen l - zlen r.
  Proof.
    unfold s_lz_member. intros H.
    destruct (s_take 4 l) as [[id r1]|] eqn:E1; [|discriminate]. cbn [olet] in H.
    destruct (s_eqb id LZ_ID) eqn:Eid; [|discriminate]. cbn [guard olet] in H.
    destruct r1 as [|vn [|ds r2]]; try discriminate.
    destruct (Z.eqb_spec vn 1) as [->|]; [|discriminate]. cbn [guard olet] in H.
    destruct (s_lz_dict ds) as [dict|] eqn:Ed; [|discriminate]. cbn [olet] in H.
    destruct (sdec1 dict r2) as [[dt r3]|] eqn:Es; [|discriminate]. cbn [olet] in H.
    destruct (s_take 4 r3) as [[cb r4]|] eqn:E4; [|discriminate]. cbn [olet] in H.
    destruct (s_take 8 r4) as [[db r5]|] eqn:E5; [|discriminate]. cbn [olet] in H.
    destruct (s_take 8 r5) as [[mb r6]|] eqn:E6; [|discriminate]. cbn [olet] in H.
    destruct (Z.eqb_spec (le_value cb) (crc32 dt)); [|discriminate]. cbn [guard olet] in H.
    destruct (Z.eqb_spec (le_value db) (zlen dt)); [|discriminate]. cbn [guard olet] in H.
    destruct (Z.eqb_spec (le_value mb) (zlen l - zlen r6)); [|discriminate]. cbn [guard olet] in H.
    inversion H; subst dt r6.
    apply s_take_inv in E1 as [E1 L1]. apply s_take_inv in E4 as [E4 L4]. apply s_take_inv in E5 as [E5 L5].
    apply s_take_inv in E6 as [E6 L6]. apply s_eqb_eq in Eid.
    subst id. exists ds, dict, r2, cb, db, mb. subst r3 r4 r5.
    split; [rewrite E1; reflexivity|]. repeat (split; [assumption|]); assumption.
  Qed.

  Theorem C03_in_lzip_thm : forall l d t, bytes_ok l = true ->
    lz_spec_decode sdec1 l = Some (d, t) ->
    (t = [] \/ lz_bytes_eqb (firstn 4 t) (firstn (length (firstn 4 t)) LZIP_MAGIC) = false) ->
    lz_decode pdec lz_fixed l = Ok (d, skipn 4 t).
  Proof.
    intros l d t Hbl H Ht. unfold lz_spec_decode in H. unfold lz_decode.
    assert (G : forall fs l0 acc first fc, bytes_ok l0 = true -> s_lz_members sdec1 fs l0 acc = Some (d, t) -> (length l0 < fc)%nat ->
              lzd_members pdec fc lz_fixed first l0 acc = Ok (d, skipn 4 t)).
    { induction fs as [|fs IH]; intros l0 acc first fc Hb0 Hs Hf; [discriminate|]. cbn [s_lz_members] in Hs.
      destruct (s_lz_member sdec1 l0) as [[data r]|] eqn:Em; [|discriminate]. cbn [olet] in Hs.
      apply s_lz_member_inv in Em as (ds & dict & r2 & cb & db & mb & El & Ed & Es & L1 & L2 & L3 & V1 & V2 & V3).
      destruct fc as [|fc]; [lia|]. cbn [lzd_members]. rewrite El.
      assert (Hds : lzip_decode_dict_size ds = Ok dict).
      { assert (Hbyte : 0 <= ds < 256).
        { rewrite El in Hb0. unfold LZIP_MAGIC in Hb0. cbn [app] in Hb0.
          do 5 (apply bytes_ok_cons in Hb0 as [_ Hb0]). apply bytes_ok_cons in Hb0 as [Hd _]. exact Hd. }
        pose proof (lz_dict_byte_agree ds Hbyte) as A. rewrite Ed in A.
        destruct (lzip_decode_dict_size ds); try contradiction. subst. reflexivity. }
      rewrite (lz_header_ok first ds dict) by exact Hds. cbn [obind].
      rewrite (sdec_pdec _ _ _ Es). cbn [obind].
      assert (Ll0 : zlen l0 = 6 + zlen r2).
      { rewrite El, !zlen_app. change (zlen LZIP_MAGIC) with 4. change (zlen [1; ds]) with 2. lia. }
      assert (Lt : zlen (cb ++ db ++ mb ++ r) = 20 + zlen r) by (rewrite !zlen_app; lia).
      unfold lz_check_trailer.
      rewrite (lz_take_app_n 4) by exact L1. cbn [obind]. rewrite (lz_take_app_n 8) by exact L2. cbn [obind].
      rewrite (lz_take_app_n 8) by exact L3. cbn [obind].
      rewrite V1, V2, V3, Lt, Ll0. rewrite !Z.eqb_refl. cbn [negb].
      unfold LZIP_HEADER_SIZE, LZIP_TRAILER_SIZE.
      destruct (Z.eqb_spec (6 + zlen r2 - zlen r) (6 + (zlen r2 - (20 + zlen r)) + 20)); [|lia]. cbn [negb obind].
      (* the rest of the input is shorter *)
      apply sdec_suffix in Es.
      assert (Hbr : bytes_ok r = true).
      { apply (sfx_bytes_ok r l0); [|exact Hb0]. rewrite El.
        eapply suffix_trans; [|exists (LZIP_MAGIC ++ [1; ds]); rewrite <- app_assoc; reflexivity].
        eapply suffix_trans; [|exact Es]. exists (cb ++ db ++ mb). rewrite <- !app_assoc. reflexivity. }
      apply sfx_zlen in Es. rewrite Lt in Es.
      assert (Hfr : (length r < fc)%nat) by (unfold zlen in *; lia).
      destruct (s_lz_has_id r) eqn:Eid.
      - apply IH; assumption.
      - inversion Hs; subst d t. clear IH.
        destruct fc as [|fc]; [lia|]. cbn [lzd_members lz_parse_header fz6 lz_fixed]. unfold lz_parse_header_fixed.
        destruct (firstn 4 r) as [|m0 ms] eqn:E4.
        + cbn [obind]. destruct r; [reflexivity | discriminate].
        + destruct Ht as [Ht|Hm]; [subst; discriminate|]. try rewrite E4 in Hm. rewrite Hm. cbn [negb obind]. reflexivity. }
    apply (G _ _ _ _ _ Hbl H). lia.
  Qed.
End LzSpecProofs.
