(* Format/PayloadLzma2Proofs.v — the LZMA2 payload decoder of the XZ reader model
   (lzma2_payload_dec of XzFormat.v: LZMA2Reader::new(dd), 4096-byte read() calls until Ok(0)) on
   what the LZMA2 writer model wrote with dictionary size d <= dd:
     - the decoder returns exactly the data and leaves exactly what followed the stream;
     - the number of read() calls the model allows itself (2 + 171 per source byte) suffices.
   This is the round trip of Codec/Lzma2ReadProofs.v (read_chunks) with
     (1) a reader dictionary that may be LARGER than the writer's (the XZ block header only
         announces a size >= the one in use), and
     (2) a number of calls proportional to length/4096 instead of the length. *)
From LzVerif Require Import Base.Bytes Codec.Store Codec.Range Codec.LzWindow Codec.LzmaDec Codec.LzmaEnc
  Codec.LzmaWriters Codec.Lzma2Dec Codec.LzmaRoundtrip Codec.LzmaChunkProofs Codec.Lzma2BitsProofs
  Codec.Lzma2SpecProofs Codec.Lzma2FrameSyncProofs
  Codec.Lzma2LoopProofs Codec.Lzma2ReadProofs Format.XzFormat.

Lemma drain_ended tail f s acc : Ended tail s -> lzma2_drain (S f) s acc = Ok (frev acc, tail).
Proof.
  intros HE. cbn [lzma2_drain]. rewrite (read_ended tail s 4096 HE) by lia. cbn [obind].
  destruct HE as (_ & _ & Hin). rewrite Hin. reflexivity.
Qed.

Section Drain.
  Variable Inv : lzma2 -> list Z -> Prop.
  Variable tail : list Z.
  Hypothesis Inv_live : forall s rem, Inv s rem -> m_end_reached s = false /\ m_error s = None.
  Hypothesis iter_step : forall s rem len, Inv s rem -> 0 < len ->
    exists out s', lzma2_iter s len = Ok (out, s') /\
      ((rem = [] /\ out = [] /\ Ended tail s') \/
       (out <> [] /\ zlen out <= len /\ exists rem', rem = out ++ rem' /\ Inv s' rem')).

  (* one read(): the buffer is filled completely unless the stream ends *)
  Lemma read_full s rem sz : Inv s rem -> 0 < sz ->
    exists out s' rem', lzma2_read s sz = Ok (out, s') /\ rem = out ++ rem' /\
      ((Inv s' rem' /\ zlen out = sz) \/ (rem' = [] /\ Ended tail s')).
  Proof.
    intros HInv Hsz. destruct (Inv_live s rem HInv) as (Hend & Herr).
    rewrite l2_read_live by assumption.
    destruct (read_loop_ok Inv tail Inv_live iter_step (Z.to_nat (2 * sz + 4)) s rem sz [] HInv ltac:(lia) ltac:(lia))
      as (out & s1 & rem1 & Hloop & Hrem & _ & Hcase).
    cbn [rev app] in Hloop. exists out, s1, rem1. split; [exact Hloop|]. split; [exact Hrem | exact Hcase].
  Qed.

  Lemma drain_ok : forall fuel s rem acc, Inv s rem -> zlen rem / 4096 + 2 <= Z.of_nat fuel ->
    lzma2_drain fuel s acc = Ok (rev acc ++ rem, tail).
  Proof.
    induction fuel as [|f IH]; intros s rem acc HInv Hf.
    - pose proof (zlen_nonneg rem). (Z.div_mod_to_equations; lia).
    - cbn [lzma2_drain].
      destruct (read_full s rem 4096 HInv ltac:(lia)) as (out & s1 & rem1 & Hrd & Hrem & Hcase).
      rewrite Hrd. cbn [obind].
      pose proof (zlen_nonneg rem1) as Hr1. pose proof (zlen_nonneg out) as Ho.
      assert (Hl : zlen rem = zlen out + zlen rem1) by (rewrite Hrem; apply zlen_app).
      destruct Hcase as [(HInv1 & Hfull) | (Hnil & HE)].
      + destruct out as [|b out']; [unfold zlen in Hfull; cbn [length] in Hfull; lia|].
        rewrite (IH s1 rem1 _ HInv1) by (Z.div_mod_to_equations; lia).
        rewrite rev_rev_append, <- app_assoc, Hrem. reflexivity.
      + subst rem1. rewrite app_nil_r in Hrem. subst rem. destruct out as [|b out'].
        * destruct HE as (_ & _ & Hin). rewrite Hin, frev_rev, app_nil_r. reflexivity.
        * destruct f as [|f']; [(Z.div_mod_to_equations; lia)|]. rewrite (drain_ended tail f' s1 _ HE).
          rewrite frev_rev, rev_rev_append. reflexivity.
  Qed.
End Drain.

(* an LZMA chunk carries at most 2 MiB in at least 6 bytes *)
Lemma chunks_ok_len lc lp pb r h bytes : chunks_ok lc lp pb r h bytes ->
  h_total h - h_pos h <= 349526 * (zlen bytes - 1).
Proof.
  induction 1 as [r h He | r h bytes _ IH | r h n bytes Hn Hle _ IH
                 | r h syms E c' h' usize csize bytes Hne Hs Hp Hbits Hu Hur Hc Hcr _ IH].
  - change (zlen [0]) with 1. lia.
  - cbn [h_rebase h_total h_pos] in IH. exact IH.
  - cbn [h_at h_total h_pos] in IH. rewrite !zlen_app, zlen_aget_list.
    change (zlen (unc_header r n)) with 3. pose proof (zlen_nonneg bytes). lia.
  - destruct (enc_syms_fields _ _ _ _ _ _ Hs) as (_ & Ht & _ & _). rewrite Ht in IH.
    rewrite !zlen_app. pose proof (zlen_nonneg bytes).
    assert (Hh : 5 <= zlen (lzma_header lc lp pb r usize csize)).
    { unfold lzma_header. rewrite zlen_app.
      match goal with |- context [zlen (if ?b then _ else _)] => pose proof (zlen_nonneg (if b then [props_byte lc lp pb] else [])) end.
      change (zlen [wrap8 (Z.lor (lzma_ctl0 r) (Z.shiftr (usize - 1) 16)); wrap8 (Z.shiftr (usize - 1) 8);
                    wrap8 (usize - 1); wrap8 (Z.shiftr (csize - 1) 8); wrap8 (csize - 1)]) with 5. lia. }
    lia.
Qed.

Lemma l2_window_ge d dd : d <= 2147483648 -> d <= dd ->
  0 < l2_window_size dd /\ l2_window_size dd mod 16 = 0 /\ d <= l2_window_size dd.
Proof. intros Hd Hdd. unfold l2_window_size. (Z.div_mod_to_equations; lia). Qed.

(* [l2_rs lc lp pb d dd data tail s rem]: the LZMA2Reader state s is somewhere inside the stream
   written for [data] (or behind its end), still has to deliver [rem], and [tail] follows the stream *)
Definition l2_rs (lc lp pb d dd : Z) (data tail : list Z) (s : lzma2) (rem : list Z) : Prop :=
  let h0 := ehist_new d [] data in
  Inv lc lp pb d (l2_window_size dd) tail (h_data h0) (h_total h0) true s rem \/ (rem = [] /\ Ended tail s).

Lemma l2_rs_new : forall lc lp pb d dd data evs stream tail,
  0 <= lc -> 0 <= lp -> lc + lp <= 4 -> 0 <= pb <= 4 -> d <= 2147483648 -> d <= dd ->
  bytes_ok data = true -> l2_no_end evs ->
  lzma2_write lc lp pb d None data evs = Ok stream ->
  exists s0, lzma2_new (stream ++ tail) dd None = Ok s0 /\ l2_rs lc lp pb d dd data tail s0 data.
Proof.
  intros lc lp pb d dd data evs stream tail Hlc Hlp Hs Hpb Hd Hdd Hbytes Hne Hw.
  pose proof (lzma2_frame_sync lc lp pb d None data evs stream Hd Hne Hw) as Hck.
  cbn [start_level preset_list] in Hck.
  unfold lzma2_new, lzma2_get_dict_size. cbn [obind]. fold (l2_window_size dd).
  eexists. split; [reflexivity|]. unfold l2_rs. cbv zeta.
  set (h0 := ehist_new d [] data) in *.
  left. left. exists RDict, h0, stream. split; [exact Hck|]. split; [|split; [reflexivity|]].
  - unfold at_boundary. cbn [m_uncompressed_size m_end_reached m_error m_rc m_coder m_probs m_need_props
                             m_need_dict_reset m_win].
    split; [reflexivity|]. split; [reflexivity|]. split; [reflexivity|]. split; [reflexivity|].
    split; [split; [exact I|]; split; intros _; reflexivity|].
    split; [|unfold hfix; repeat split; reflexivity].
    unfold sync_win, lzwin_new. cbn [w_size w_pending_len].
    split; [reflexivity|]. split; [reflexivity|].
    unfold h0, ehist_new. rewrite preset_kept_nil. cbn [h_base h_pos]. split; [reflexivity | lia].
  - unfold h0. rewrite (data_from_new d data). reflexivity.
Qed.

(* [calls] 4096-byte read() calls suffice when calls >= |data| / 4096 + 2 *)
Theorem lzma2_payload_dec_n_rt : forall lc lp pb d dd data evs stream tail calls,
  0 <= lc -> 0 <= lp -> lc + lp <= 4 -> 0 <= pb <= 4 -> d <= 2147483648 -> d <= dd ->
  bytes_ok data = true -> l2_no_end evs ->
  lzma2_write lc lp pb d None data evs = Ok stream ->
  zlen data / 4096 + 2 <= Z.of_nat calls ->
  lzma2_payload_dec_n calls dd (stream ++ tail) = Ok (data, tail).
Proof.
  intros lc lp pb d dd data evs stream tail calls Hlc Hlp Hs Hpb Hd Hdd Hbytes Hne Hw Hcalls.
  destruct (l2_rs_new lc lp pb d dd data evs stream tail Hlc Hlp Hs Hpb Hd Hdd Hbytes Hne Hw) as (s0 & Hnew & HR).
  unfold lzma2_payload_dec_n. rewrite Hnew. cbn [obind].
  unfold l2_rs in HR. cbv zeta in HR. set (h0 := ehist_new d [] data) in *.
  destruct (l2_window_ge d dd Hd Hdd) as (Hws1 & Hws2 & Hws3).
  assert (Hdata : forall i, 0 <= aget 0 (h_data h0) i < 256).
  { intros i. apply (data_ok_new d [] data eq_refl Hbytes i). }
  destruct HR as [HI|(-> & HE)].
  - exact (drain_ok (Inv lc lp pb d (l2_window_size dd) tail (h_data h0) (h_total h0) true) tail
             (Inv_live lc lp pb d (l2_window_size dd) tail (h_data h0) (h_total h0) true)
             (iter_step lc lp pb d (l2_window_size dd) tail (h_data h0) (h_total h0) Hlc Hlp Hs Hpb Hd Hws3 Hws1 Hws2 Hdata)
             calls s0 data [] HI Hcalls).
  - change (zlen (@nil Z)) with 0 in Hcalls. destruct calls as [|f]; [(Z.div_mod_to_equations; lia) | exact (drain_ended tail f s0 [] HE)].
Qed.

(* the stream is long enough for the call budget of the model *)
Lemma lzma2_stream_len lc lp pb d data evs stream :
  d <= 2147483648 -> l2_no_end evs -> lzma2_write lc lp pb d None data evs = Ok stream ->
  zlen data <= 349526 * (zlen stream - 1).
Proof.
  intros Hd Hne Hw.
  pose proof (chunks_ok_len _ _ _ _ _ _ (lzma2_frame_sync lc lp pb d None data evs stream Hd Hne Hw)) as H.
  cbn [start_level preset_list] in H. unfold ehist_new in H. rewrite preset_kept_nil in H.
  cbn [h_total h_pos app] in H. change (zlen (@nil Z)) with 0 in H. lia.
Qed.

(* C01 + C16 for the payload decoder the XZ reader model uses (xz_decode_c): its own call budget *)
Theorem lzma2_payload_dec_rt : forall lc lp pb d dd data evs stream tail,
  0 <= lc -> 0 <= lp -> lc + lp <= 4 -> 0 <= pb <= 4 -> d <= 2147483648 -> d <= dd ->
  bytes_ok data = true -> l2_no_end evs ->
  lzma2_write lc lp pb d None data evs = Ok stream ->
  lzma2_payload_dec dd (stream ++ tail) = Ok (data, tail).
Proof.
  intros lc lp pb d dd data evs stream tail Hlc Hlp Hs Hpb Hd Hdd Hbytes Hne Hw.
  unfold lzma2_payload_dec.
  apply (lzma2_payload_dec_n_rt lc lp pb d dd data evs stream tail _ Hlc Hlp Hs Hpb Hd Hdd Hbytes Hne Hw).
  pose proof (lzma2_stream_len lc lp pb d data evs stream Hd Hne Hw) as Hl.
  rewrite !Nat2Z.inj_succ, Nat2Z.inj_mul, app_length, Nat2Z.inj_add.
  fold (zlen stream). fold (zlen tail). pose proof (zlen_nonneg tail). pose proof (zlen_nonneg data).
  change (Z.of_nat 171) with 171. (Z.div_mod_to_equations; lia).
Qed.

(* call by call (for the container model xzr_read): one read() with a non-empty destination *)
Lemma l2_rs_read : forall lc lp pb d dd data tail s rem sz,
  0 <= lc -> 0 <= lp -> lc + lp <= 4 -> 0 <= pb <= 4 -> d <= 2147483648 -> d <= dd ->
  bytes_ok data = true ->
  l2_rs lc lp pb d dd data tail s rem -> 0 < sz ->
  exists out s' rem', lzma2_read s sz = Ok (out, s') /\ rem = out ++ rem' /\
    l2_rs lc lp pb d dd data tail s' rem' /\
    (out = [] -> rem = [] /\ m_in s' = tail) /\ (rem <> [] -> out <> []).
Proof.
  intros lc lp pb d dd data tail s rem sz Hlc Hlp Hs Hpb Hd Hdd Hbytes HR Hsz.
  unfold l2_rs in *. cbv zeta in *. set (h0 := ehist_new d [] data) in *.
  destruct (l2_window_ge d dd Hd Hdd) as (Hws1 & Hws2 & Hws3).
  assert (Hdata : forall i, 0 <= aget 0 (h_data h0) i < 256).
  { intros i. apply (data_ok_new d [] data eq_refl Hbytes i). }
  destruct HR as [HI | (-> & HE)].
  - destruct (read_ok (Inv lc lp pb d (l2_window_size dd) tail (h_data h0) (h_total h0) true) tail
                (Inv_live lc lp pb d (l2_window_size dd) tail (h_data h0) (h_total h0) true)
                (iter_step lc lp pb d (l2_window_size dd) tail (h_data h0) (h_total h0) Hlc Hlp Hs Hpb Hd Hws3 Hws1 Hws2 Hdata)
                s rem sz HI Hsz) as (out & s1 & rem1 & Hrd & Hrem & Hcase & Hempty & Hnonempty).
    exists out, s1, rem1. split; [exact Hrd|]. split; [exact Hrem|].
    split; [destruct Hcase as [HI1 | (Hn & HE1)]; [left; exact HI1 | right; split; assumption]|].
    split; [|exact Hnonempty].
    intros Ho. destruct (Hempty Ho) as (Hr & (_ & _ & Hin)). split; assumption.
  - exists [], s, []. rewrite (read_ended tail s sz HE Hsz).
    split; [reflexivity|]. split; [reflexivity|]. split; [right; split; [reflexivity | exact HE]|].
    split; [|intros X; congruence]. intros _. split; [reflexivity|]. destruct HE as (_ & _ & Hin). exact Hin.
Qed.

Print Assumptions lzma2_payload_dec_rt.
