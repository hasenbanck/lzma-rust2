(* Format/XzSplitProofs.v — block splitting of XZWriter::write (C18, and the "never lose, duplicate or
   reorder" half of C02): for every call partition, the blocks of the finished stream concatenate to
   the concatenation of the slices written, every block holds at most the block size, all but the
   last exactly the block size, no block is empty; the loop never runs out of fuel.  The historical
   code (limit tested once per loop iteration) is refuted. *)
From LzVerif Require Import Base.Bytes Format.XzFormat.

(* the data accepted so far, in order *)
Definition sp_data (s : xzsplit) : list Z := concat (rev (sp_done s)) ++ rev (sp_cur s).

(* between loop iterations: the counter is the length of the open block; with a block size the
   open block is within it and the finished ones are full; without, nothing is ever finished *)
Definition sp_inv (bs : option Z) (s : xzsplit) : Prop :=
  sp_size s = zlen (sp_cur s) /\
  match bs with
  | Some b => sp_size s <= b /\ Forall (fun blk => zlen blk = b) (sp_done s)
  | None => sp_done s = []
  end.

(* a block size is at least 1 and needs the repaired loop; without one the loop takes the whole
   buffer at once, repaired or not *)
Definition bs_ok (fx : xzfix) (bs : option Z) : Prop :=
  match bs with Some b => 1 <= b /\ fx20 fx = true | None => True end.

Lemma sp_data_close s : sp_data (sp_close s) = sp_data s.
Proof.
  unfold sp_data, sp_close; cbn [sp_done sp_cur]. rewrite frev_rev. cbn [rev].
  rewrite concat_app. cbn [concat]. rewrite !app_nil_r. reflexivity.
Qed.

Lemma sp_data_push s buf : sp_data (sp_push s buf) = sp_data s ++ buf.
Proof.
  unfold sp_data, sp_push; cbn [sp_done sp_cur]. rewrite rev_append_rev, rev_app_distr, rev_involutive.
  rewrite app_assoc. reflexivity.
Qed.

(* one iteration on a non-empty buffer: the block the bytes go into, and how many it takes *)
Definition sp_next (bs : option Z) (s : xzsplit) : xzsplit := if sp_should_finish bs s then sp_close s else s.
Definition sp_take (bs : option Z) (s : xzsplit) (rem : list Z) : Z :=
  match bs with Some b => Z.min (zlen rem) (b - sp_size s) | None => zlen rem end.

Lemma xz_write_loop_nil fuel fx bs s : xz_write_loop fuel fx bs s [] = Ok s.
Proof. destruct fuel; reflexivity. Qed.

Lemma xz_write_loop_cons fx bs f s rem : bs_ok fx bs -> rem <> [] ->
  xz_write_loop (S f) fx bs s rem =
  xz_write_loop f fx bs (sp_push (sp_next bs s) (firstn (Z.to_nat (sp_take bs (sp_next bs s) rem)) rem))
    (skipn (Z.to_nat (sp_take bs (sp_next bs s) rem)) rem).
Proof.
  intros Hok Hne. destruct rem; [contradiction|]. cbn [xz_write_loop]. unfold sp_next, sp_take.
  destruct bs as [b|]; [destruct Hok as [_ ->]|]; reflexivity.
Qed.

(* a full block is closed first, so at least one byte fits *)
Lemma sp_step_ok fx bs s rem : bs_ok fx bs -> sp_inv bs s -> rem <> [] ->
  sp_data (sp_next bs s) = sp_data s /\ 1 <= sp_take bs (sp_next bs s) rem <= zlen rem /\
  sp_inv bs (sp_push (sp_next bs s) (firstn (Z.to_nat (sp_take bs (sp_next bs s) rem)) rem)) /\
  0 < sp_size (sp_push (sp_next bs s) (firstn (Z.to_nat (sp_take bs (sp_next bs s) rem)) rem)).
Proof.
  intros Hok (Hs & Hbs) Hne.
  assert (Hlen : 1 <= zlen rem) by (destruct rem; [contradiction | rewrite zlen_cons; pose proof (zlen_nonneg rem); lia]).
  pose proof (zlen_nonneg (sp_cur s)) as Hc0.
  assert (H1 : sp_data (sp_next bs s) = sp_data s /\ sp_size (sp_next bs s) = zlen (sp_cur (sp_next bs s)) /\
               match bs with
               | Some b => sp_size (sp_next bs s) < b /\ Forall (fun blk => zlen blk = b) (sp_done (sp_next bs s))
               | None => sp_done (sp_next bs s) = []
               end).
  { unfold sp_next, sp_should_finish. destruct bs as [b|]; [|auto]. destruct Hok as [Hb _]. destruct Hbs as [Hle Hd].
    destruct (Z.leb_spec b (sp_size s)).
    - split; [apply sp_data_close|]. unfold sp_close; cbn [sp_size sp_cur sp_done]. split; [reflexivity|]. split; [lia|].
      constructor; [rewrite frev_rev, zlen_rev; lia | exact Hd].
    - auto. }
  destruct H1 as (Hd1 & Hs1 & Hbs1). set (s1 := sp_next bs s) in *.
  pose proof (zlen_nonneg (sp_cur s1)) as Hc1.
  assert (Hn : 1 <= sp_take bs s1 rem <= zlen rem) by (unfold sp_take; destruct bs as [b|]; lia).
  split; [exact Hd1|]. split; [exact Hn|].
  unfold sp_inv, sp_push; cbn [sp_size sp_cur sp_done]. rewrite zlen_rev_append, zlen_firstn by lia.
  split; [|lia]. split; [lia|]. destruct bs as [b|]; [|exact Hbs1].
  split; [unfold sp_take; lia | apply Hbs1].
Qed.

Lemma xz_write_loop_ok fx bs : bs_ok fx bs -> forall fuel s rem,
  sp_inv bs s -> (length rem < fuel)%nat ->
  exists s', xz_write_loop fuel fx bs s rem = Ok s' /\ sp_inv bs s' /\
             sp_data s' = sp_data s ++ rem /\ (rem <> [] -> 0 < sp_size s').
Proof.
  intros Hok. induction fuel as [|f IH]; intros s rem Hinv Hf; [lia|].
  destruct rem as [|x rem'] eqn:Erem.
  - exists s. cbn [xz_write_loop]. rewrite app_nil_r. split; [reflexivity|]. split; [exact Hinv|]. split; [reflexivity | congruence].
  - rewrite <- Erem in *. assert (Hne : rem <> []) by (rewrite Erem; discriminate).
    rewrite (xz_write_loop_cons fx bs f s rem Hok Hne).
    destruct (sp_step_ok fx bs s rem Hok Hinv Hne) as (Hd1 & Hn & Hinv2 & Hpos).
    set (n := Z.to_nat (sp_take bs (sp_next bs s) rem)) in *.
    destruct (IH _ (skipn n rem) Hinv2) as (s' & E & Hinv' & Hdata' & Hpos').
    { rewrite skipn_length. unfold zlen in Hn. lia. }
    exists s'. split; [exact E|]. split; [exact Hinv'|]. split.
    + rewrite Hdata', sp_data_push, Hd1, <- app_assoc, firstn_skipn. reflexivity.
    + intros _. destruct (skipn n rem) as [|y t] eqn:Esk.
      * rewrite xz_write_loop_nil in E. inversion E; subst s'. exact Hpos.
      * apply Hpos'. discriminate.
Qed.

Lemma xz_write_calls_ok fx bs : bs_ok fx bs -> forall parts s,
  sp_inv bs s ->
  exists s', xz_write_calls fx bs s parts = Ok s' /\ sp_inv bs s' /\ sp_data s' = sp_data s ++ concat parts.
Proof.
  intros Hok parts. induction parts as [|p ps IH]; intros s Hinv.
  - exists s. cbn [xz_write_calls concat]. rewrite app_nil_r. auto.
  - cbn [xz_write_calls concat]. unfold xz_write_call.
    destruct (xz_write_loop_ok fx bs Hok (S (length p)) s p Hinv ltac:(lia)) as (s1 & E1 & I1 & D1 & _).
    rewrite E1. cbn [obind]. destruct (IH s1 I1) as (s2 & E2 & I2 & D2).
    exists s2. split; [exact E2|]. split; [exact I2|]. rewrite D2, D1, app_assoc. reflexivity.
Qed.

Lemma sp_inv_init fx bs : bs_ok fx bs -> sp_inv bs xzsplit_init.
Proof. intros Hok. split; [reflexivity|]. destruct bs as [b|]; [destruct Hok; split; [cbn; lia | constructor] | reflexivity]. Qed.

(* all elements but the last satisfy P *)
Definition all_but_last {A} (P : A -> Prop) (l : list A) : Prop :=
  forall a t, l = a ++ t -> t <> [] -> Forall P a.

Lemma all_but_last_app {A} (P : A -> Prop) (l last : list A) :
  Forall P l -> (length last <= 1)%nat -> all_but_last P (l ++ last).
Proof.
  intros Hl Hlast a t E Ht.
  assert (Hla : (length a <= length l)%nat).
  { apply (f_equal (@length A)) in E. rewrite !app_length in E. destruct t; [contradiction | cbn [length] in E; lia]. }
  assert (Ea : a = firstn (length a) l).
  { apply (f_equal (firstn (length a))) in E. rewrite !firstn_app, firstn_all, Nat.sub_diag in E. cbn [firstn] in E.
    rewrite app_nil_r in E. replace (length a - length l)%nat with 0%nat in E by lia. cbn [firstn] in E.
    rewrite app_nil_r in E. symmetry. exact E. }
  rewrite <- (firstn_skipn (length a) l) in Hl. apply Forall_app in Hl. rewrite Ea. apply Hl.
Qed.

(* the blocks of a finished stream, read off the final state *)
Definition sp_blocks (s : xzsplit) : list (list Z) :=
  rev (sp_done s) ++ match sp_cur s with [] => [] | c => [rev c] end.

Lemma sp_blocks_ok b s : 1 <= b -> sp_inv (Some b) s ->
  concat (sp_blocks s) = sp_data s /\
  Forall (fun blk => 1 <= zlen blk <= b) (sp_blocks s) /\
  all_but_last (fun blk => zlen blk = b) (sp_blocks s).
Proof.
  intros Hb (Hs & Hle & Hd). apply Forall_rev in Hd. unfold sp_blocks, sp_data. split; [|split].
  - rewrite concat_app. destruct (sp_cur s); cbn [concat rev]; rewrite ?app_nil_r; reflexivity.
  - apply Forall_app. split; [eapply Forall_impl; [|exact Hd]; cbv beta; intros; lia|].
    destruct (sp_cur s) as [|c0 cs]; constructor; [|constructor].
    rewrite zlen_rev. rewrite Hs, zlen_cons in Hle. pose proof (zlen_nonneg cs). rewrite zlen_cons. lia.
  - apply all_but_last_app; [exact Hd|]. destruct (sp_cur s); cbn [length]; lia.
Qed.

Lemma sp_blocks_none s : sp_inv None s -> sp_blocks s = match sp_data s with [] => [] | d => [d] end.
Proof.
  intros (_ & Hdn). unfold sp_blocks, sp_data. rewrite Hdn. change (rev (@nil (list Z))) with (@nil (list Z)). cbn [concat app].
  destruct (sp_cur s) as [|c0 cs]; [reflexivity|]. destruct (rev (c0 :: cs)) eqn:Er; [|reflexivity].
  apply (f_equal (@length Z)) in Er. rewrite rev_length in Er. discriminate Er.
Qed.

Lemma xz_blocks_of_ok fx bs parts : bs_ok fx bs ->
  exists s, sp_inv bs s /\ sp_data s = concat parts /\ xz_blocks_of fx bs parts = Ok (sp_blocks s).
Proof.
  intros Hok. destruct (xz_write_calls_ok fx bs Hok parts xzsplit_init (sp_inv_init fx bs Hok)) as (s & E & Hinv & D).
  exists s. split; [exact Hinv|]. split; [exact D|]. unfold xz_blocks_of, sp_blocks. rewrite E. cbn [obind].
  destruct Hinv as (Hs & _). rewrite Hs, !frev_rev. destruct (sp_cur s) as [|c0 cs].
  - rewrite app_nil_r. reflexivity.
  - rewrite zlen_cons. pose proof (zlen_nonneg cs). destruct (Z.ltb_spec 0 (zlen cs + 1)); [reflexivity | lia].
Qed.

(* C18 / C02 (XZ block splitting), repaired code, block size set (XZWriter::new raises it to at
   least the dictionary size; see xz_block_bound below) *)
Theorem xz_blocks_fixed_some : forall b parts, 1 <= b ->
  exists blocks, xz_blocks_of xz_fixed (Some b) parts = Ok blocks /\
    concat blocks = concat parts /\
    Forall (fun blk => 1 <= zlen blk <= b) blocks /\
    all_but_last (fun blk => zlen blk = b) blocks.
Proof.
  intros b parts Hb.
  destruct (xz_blocks_of_ok xz_fixed (Some b) parts (conj Hb eq_refl)) as (s & Hinv & D & E).
  exists (sp_blocks s). rewrite <- D. split; [exact E | exact (sp_blocks_ok b s Hb Hinv)].
Qed.

(* no block size: a single block holding everything, or no block at all for empty input *)
Theorem xz_blocks_none : forall fx parts,
  xz_blocks_of fx None parts = Ok (match concat parts with [] => [] | d => [d] end).
Proof.
  intros fx parts. destruct (xz_blocks_of_ok fx None parts I) as (s & Hinv & D & E).
  rewrite E, (sp_blocks_none s Hinv), D. reflexivity.
Qed.

Lemma xz_blocks_concat bs parts blocks : match bs with Some b => 1 <= b | None => True end ->
  xz_blocks_of xz_fixed bs parts = Ok blocks -> concat blocks = concat parts.
Proof.
  intros Hb E. destruct bs as [b|].
  - destruct (xz_blocks_fixed_some b parts Hb) as (bl & E1 & C1 & _). rewrite E1 in E. inversion E; subst bl. exact C1.
  - rewrite xz_blocks_none in E. inversion E. destruct (concat parts); [reflexivity|]. cbn [concat]. apply app_nil_r.
Qed.

Lemma xz_blocks_nonempty bs parts blocks : match bs with Some b => 1 <= b | None => True end ->
  xz_blocks_of xz_fixed bs parts = Ok blocks -> Forall (fun c => 1 <= zlen c) blocks.
Proof.
  intros Hb E. destruct bs as [b|].
  - destruct (xz_blocks_fixed_some b parts Hb) as (bl & E1 & _ & F1 & _). rewrite E1 in E. inversion E; subst bl.
    eapply Forall_impl; [|exact F1]. cbv beta. intros; lia.
  - rewrite xz_blocks_none in E. inversion E. destruct (concat parts) as [|x l]; constructor; [|constructor].
    rewrite zlen_cons. pose proof (zlen_nonneg l). lia.
Qed.

(* C18 in the property's words: with a block size option every block holds at most
   max(block_size, dict_size) bytes (XZWriter::new clamps the option), all but the last exactly
   that many, and the blocks are the input in order *)
Theorem xz_block_bound : forall check bs filters dict parts o,
  1 <= bs ->
  xzw_new (mkXzopts check (Some bs) filters dict) = Ok o ->
  exists blocks, xz_blocks_of xz_fixed (xo_block_size o) parts = Ok blocks /\
    concat blocks = concat parts /\
    Forall (fun blk => 1 <= zlen blk <= Z.max bs dict) blocks /\
    all_but_last (fun blk => zlen blk = Z.max bs dict) blocks.
Proof.
  intros check bs filters dict parts o Hbs Hnew. unfold xzw_new in Hnew. cbn [xo_filters xo_block_size xo_dict xo_check] in Hnew.
  destruct (3 <? zlen filters); [discriminate|]. inversion Hnew; subst o; clear Hnew. cbn [xo_block_size].
  apply xz_blocks_fixed_some. lia.
Qed.

(* F20: the historical write() tested the limit once per loop iteration and then handed the whole
   remaining buffer to the block: one write of 5000 bytes with block_size = dict = 4096 gave one
   block of 5000 bytes; writes of 1000 bytes gave blocks of 5000 bytes. *)
Theorem xz_block_bound_refuted :
  exists bs parts blocks,
    xz_blocks_of xz_orig (Some bs) parts = Ok blocks /\ exists blk, In blk blocks /\ bs < zlen blk.
Proof.
  exists 4096, [repeatn 7 5000], [repeatn 7 5000].
  split; [vm_compute; reflexivity|]. exists (repeatn 7 5000). split; [left; reflexivity | vm_compute; reflexivity].
Qed.

Theorem xz_block_bound_refuted_small_writes :
  exists bs parts blocks,
    Forall (fun p => zlen p <= 1000) parts /\
    xz_blocks_of xz_orig (Some bs) parts = Ok blocks /\ exists blk, In blk blocks /\ bs < zlen blk.
Proof.
  exists 4096, (repeatn (repeatn 7 1000) 5), [repeatn 7 5000].
  split; [repeat constructor; vm_compute; discriminate|].
  split; [vm_compute; reflexivity|]. exists (repeatn 7 5000). split; [left; reflexivity | vm_compute; reflexivity].
Qed.
