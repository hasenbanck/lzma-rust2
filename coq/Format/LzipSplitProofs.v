(* Format/LzipSplitProofs.v — member splitting of LZIPWriter::write (C18, C02): for every call
   partition the members concatenate to the data written, each holds at most the member size, all
   but the last exactly the member size; empty input gives one empty member; the loop never runs
   out of fuel. *)
From LzVerif Require Import Base.Bytes Format.XzFormat Format.LzipFormat Format.XzSplitProofs.

Definition ls_data (s : lzsplit) : list Z := concat (rev (ls_done s)) ++ rev (ls_cur s).

Lemma ls_data_close s : ls_data (ls_close s) = ls_data s.
Proof.
  unfold ls_data, ls_close; cbn [ls_done ls_cur]. rewrite frev_rev. cbn [rev].
  rewrite concat_app. cbn [concat]. rewrite !app_nil_r. reflexivity.
Qed.

(* LZIPWriter::write is XZWriter::write (repaired) with a flag: a member is opened only when bytes
   arrive.  Seen as an XZ splitter state, a state without an open member holds no bytes. *)
Definition lz_sp (s : lzsplit) : xzsplit :=
  mkXzsplit (ls_done s) (ls_cur s) (if ls_open s then ls_size s else 0).

(* an open member has received bytes; without one nothing has been written at all *)
Definition ls_inv (s : lzsplit) : Prop :=
  (ls_open s = true -> 0 < ls_size s) /\ (ls_open s = false -> ls_cur s = [] /\ ls_done s = []).

Lemma lz_write_loop_nil fuel ms s : lz_write_loop fuel ms s [] = Ok s.
Proof. destruct fuel; reflexivity. Qed.

(* one iteration on a non-empty buffer is the XZ iteration; bytes_to_write is never 0 *)
Lemma lz_write_loop_cons ms f s rem : bs_ok xz_fixed ms -> ls_inv s -> sp_inv ms (lz_sp s) -> rem <> [] ->
  exists s2, ls_open s2 = true /\ lz_sp s2 = sp_next ms (lz_sp s) /\
    lz_write_loop (S f) ms s rem =
    lz_write_loop f ms (ls_push s2 (firstn (Z.to_nat (sp_take ms (lz_sp s2) rem)) rem))
      (skipn (Z.to_nat (sp_take ms (lz_sp s2) rem)) rem).
Proof.
  intros Hok (Ho & Hc) Hinv Hne.
  destruct (sp_step_ok xz_fixed ms (lz_sp s) rem Hok Hinv Hne) as (_ & Hn & _).
  set (s1 := if ls_should_finish ms s && ls_open s then ls_close s else s).
  exists (if ls_open s1 then s1 else ls_start s1).
  assert (H2 : ls_open (if ls_open s1 then s1 else ls_start s1) = true /\
               lz_sp (if ls_open s1 then s1 else ls_start s1) = sp_next ms (lz_sp s)).
  { unfold s1, sp_next, lz_sp, ls_should_finish, sp_should_finish. cbn [sp_size].
    destruct (ls_open s) eqn:Eo.
    - rewrite andb_true_r. destruct ms as [m|].
      + destruct (m <=? ls_size s); cbv iota; [split; reflexivity|]. rewrite Eo. cbv iota. rewrite Eo. split; reflexivity.
      + cbv iota. rewrite Eo. cbv iota. rewrite Eo. split; reflexivity.
    - rewrite andb_false_r. cbv iota. rewrite Eo. cbv iota. destruct (Hc eq_refl) as (E1 & E2). cbn [ls_start ls_done ls_cur ls_open ls_size]. rewrite E1.
      destruct ms as [m|]; [destruct Hok as [Hm _]; destruct (Z.leb_spec m 0); [lia|]|]; split; reflexivity. }
  destruct H2 as (Ho2 & E2). split; [exact Ho2|]. split; [exact E2|].
  set (s2 := if ls_open s1 then s1 else ls_start s1) in *.
  assert (En : match ms with
               | Some m => Z.min (zlen rem) (Z.max 0 (m - ls_size s2))
               | None => zlen rem
               end = sp_take ms (lz_sp s2) rem).
  { rewrite E2 in *. unfold sp_take in *. rewrite <- E2. unfold lz_sp; cbn [sp_size]. rewrite Ho2.
    destruct ms as [m|]; [|reflexivity]. rewrite <- E2 in Hn. unfold lz_sp in Hn; cbn [sp_size] in Hn. rewrite Ho2 in Hn. lia. }
  destruct rem as [|x r]; [contradiction|]. cbn [lz_write_loop]. fold s1. fold s2. rewrite En, E2.
  destruct (Z.eqb_spec (sp_take ms (sp_next ms (lz_sp s)) (x :: r)) 0); [lia | reflexivity].
Qed.

Lemma lz_sp_push s buf : ls_open s = true -> lz_sp (ls_push s buf) = sp_push (lz_sp s) buf.
Proof. intros Ho. unfold lz_sp, ls_push, sp_push; cbn [ls_done ls_cur ls_size ls_open sp_done sp_cur sp_size]. rewrite Ho. reflexivity. Qed.

Lemma lz_write_loop_sim ms : bs_ok xz_fixed ms -> forall fuel s rem t,
  ls_inv s -> sp_inv ms (lz_sp s) -> xz_write_loop fuel xz_fixed ms (lz_sp s) rem = Ok t ->
  exists s', lz_write_loop fuel ms s rem = Ok s' /\ lz_sp s' = t /\ ls_inv s'.
Proof.
  intros Hok. induction fuel as [|f IH]; intros s rem t Hls Hinv E.
  - destruct rem; [|discriminate E]. inversion E. exists s. auto.
  - destruct rem as [|x r] eqn:Erem.
    { rewrite xz_write_loop_nil in E. inversion E. exists s. rewrite lz_write_loop_nil. auto. }
    rewrite <- Erem in *. assert (Hne : rem <> []) by (rewrite Erem; discriminate).
    destruct (lz_write_loop_cons ms f s rem Hok Hls Hinv Hne) as (s2 & Ho2 & E2 & ->).
    destruct (sp_step_ok xz_fixed ms (lz_sp s) rem Hok Hinv Hne) as (_ & _ & Hinv2 & Hpos).
    rewrite (xz_write_loop_cons xz_fixed ms f _ rem Hok Hne), <- E2, <- (lz_sp_push s2 _ Ho2) in E.
    rewrite <- E2, <- (lz_sp_push s2 _ Ho2) in Hinv2, Hpos.
    apply IH; [|exact Hinv2 | exact E].
    split; [intros _; unfold lz_sp at 1 in Hpos; cbn [sp_size ls_push ls_open] in Hpos; rewrite Ho2 in Hpos; exact Hpos|].
    cbn [ls_push ls_open]. rewrite Ho2. discriminate.
Qed.

Lemma lz_write_calls_ok ms : bs_ok xz_fixed ms -> forall parts s, ls_inv s -> sp_inv ms (lz_sp s) ->
  exists s', lz_write_calls ms s parts = Ok s' /\ ls_inv s' /\ sp_inv ms (lz_sp s') /\
             sp_data (lz_sp s') = sp_data (lz_sp s) ++ concat parts.
Proof.
  intros Hok parts. induction parts as [|p ps IH]; intros s Hls Hinv; cbn [lz_write_calls concat].
  - exists s. rewrite app_nil_r. auto.
  - unfold lz_write_call.
    destruct (xz_write_loop_ok xz_fixed ms Hok (S (S (2 * length p))) (lz_sp s) p Hinv ltac:(lia)) as (t1 & E1 & Hinv1 & D1 & _).
    destruct (lz_write_loop_sim ms Hok _ s p t1 Hls Hinv E1) as (s1 & Es1 & <- & Hls1).
    rewrite Es1. cbn [obind]. destruct (IH s1 Hls1 Hinv1) as (s2 & E2 & Hls2 & Hinv2 & D2).
    exists s2. split; [exact E2|]. split; [exact Hls2|]. split; [exact Hinv2|]. rewrite D2, D1, app_assoc. reflexivity.
Qed.

(* finish(): the members are the XZ blocks of the final state, or the one empty member of an
   empty input *)
Lemma lz_members_of_ok ms parts : bs_ok xz_fixed ms ->
  exists t, sp_inv ms t /\ sp_data t = concat parts /\
    lz_members_of ms parts = Ok (match sp_blocks t with [] => [[]] | X => X end).
Proof.
  intros Hok.
  destruct (lz_write_calls_ok ms Hok parts lzsplit_init) as (s & E & (Ho & Hc) & Hinv & D).
  { split; [discriminate | auto]. }
  { exact (sp_inv_init xz_fixed ms Hok). }
  exists (lz_sp s). split; [exact Hinv|]. split; [exact D|]. unfold lz_members_of. rewrite E. cbn [obind].
  unfold sp_blocks, lz_sp in *. cbn [sp_done sp_cur sp_size] in *. destruct Hinv as (Hs & _). rewrite !frev_rev.
  destruct (ls_open s).
  - specialize (Ho eq_refl). destruct (ls_cur s) as [|c0 cs]; [cbn in Hs; lia|]. cbn [rev].
    destruct (rev (ls_done s) ++ [rev cs ++ [c0]]) eqn:Ex; [|reflexivity]. apply app_eq_nil in Ex as [_ Ex]. discriminate Ex.
  - cbn [ls_start ls_cur ls_done]. destruct (Hc eq_refl) as (-> & ->). reflexivity.
Qed.

(* C18 / C02 (LZIP member splitting) *)
Theorem lz_members_some : forall m parts, 1 <= m ->
  exists members, lz_members_of (Some m) parts = Ok members /\
    concat members = concat parts /\
    Forall (fun mb => zlen mb <= m) members /\
    all_but_last (fun mb => zlen mb = m) members /\
    (members = [[]] \/ Forall (fun mb => 1 <= zlen mb) members).
Proof.
  intros m parts Hm.
  destruct (lz_members_of_ok (Some m) parts (conj Hm eq_refl)) as (t & Hinv & D & E).
  destruct (sp_blocks_ok m t Hm Hinv) as (Hcat & Hlen & Hfull). rewrite D in Hcat.
  eexists. split; [exact E|]. destruct (sp_blocks t) as [|x X].
  - split; [exact Hcat|]. split; [repeat constructor; rewrite zlen_nil; lia|]. split; [|left; reflexivity].
    apply (all_but_last_app _ [] [[]]); [constructor | cbn [length]; lia].
  - split; [exact Hcat|]. split; [eapply Forall_impl; [|exact Hlen]; cbv beta; intros; lia|]. split; [exact Hfull|].
    right. eapply Forall_impl; [|exact Hlen]. cbv beta. intros; lia.
Qed.

Theorem lz_members_none : forall parts, lz_members_of None parts = Ok [concat parts].
Proof.
  intros parts. destruct (lz_members_of_ok None parts I) as (t & Hinv & D & E). rewrite E.
  rewrite (sp_blocks_none t Hinv), D. destruct (concat parts); reflexivity.
Qed.

Lemma lz_members_nonempty ms parts members : lz_members_of ms parts = Ok members -> members <> [].
Proof.
  unfold lz_members_of. destruct (lz_write_calls ms lzsplit_init parts) as [s| | |]; try discriminate.
  cbn [obind]. intros E. inversion E as [E1]. rewrite frev_rev. cbn [rev]. intros X. apply app_eq_nil in X as [_ X]. discriminate.
Qed.

Lemma lz_members_concat ms parts members : match ms with Some m => 1 <= m | None => True end ->
  lz_members_of ms parts = Ok members -> concat members = concat parts.
Proof.
  intros Hm E. destruct ms as [m|].
  - destruct (lz_members_some m parts Hm) as (mb & E1 & C1 & _). rewrite E1 in E. inversion E; subst mb. exact C1.
  - rewrite lz_members_none in E. inversion E. cbn [concat]. apply app_nil_r.
Qed.

(* only the single member of an empty input is empty *)
Lemma lz_members_tail_nonempty ms parts c cs : match ms with Some m => 1 <= m | None => True end ->
  lz_members_of ms parts = Ok (c :: cs) -> Forall (fun x => x <> []) cs.
Proof.
  intros Hm E. destruct ms as [m|].
  - destruct (lz_members_some m parts Hm) as (mb & E1 & _ & _ & _ & Hc). rewrite E1 in E. inversion E; subst mb.
    destruct Hc as [Hc|F]; [inversion Hc; constructor|]. inversion F as [|x l _ Ft]; subst x l.
    eapply Forall_impl; [|exact Ft]. intros c' Hc' ->. cbn in Hc'. lia.
  - rewrite lz_members_none in E. inversion E. constructor.
Qed.

Lemma lzw_new_member_size o0 : match lo_member_size o0 with Some m => 1 <= m | None => True end ->
  match lo_member_size (lzw_new o0) with Some m => 1 <= m | None => True end.
Proof. unfold lzw_new; cbn [lo_member_size]. destruct (lo_member_size o0); [lia | trivial]. Qed.

(* C18 in the property's words: every member holds at most max(member_size, dict) bytes, where
   dict is the dictionary size clamped into [4 KiB, 512 MiB] (LZIPWriter::new) *)
Theorem lzip_member_bound : forall dict ms parts, 1 <= ms ->
  let o := lzw_new (mkLzopts dict (Some ms)) in
  exists members, lz_members_of (lo_member_size o) parts = Ok members /\
    concat members = concat parts /\
    Forall (fun mb => zlen mb <= Z.max ms (lzip_clamp_dict dict)) members /\
    all_but_last (fun mb => zlen mb = Z.max ms (lzip_clamp_dict dict)) members.
Proof.
  intros dict ms parts Hms o. unfold o, lzw_new; cbn [lo_member_size lo_dict].
  destruct (lz_members_some (Z.max ms (lzip_clamp_dict dict)) parts ltac:(lia)) as (mbs & E & C & F & A & _).
  exists mbs. auto.
Qed.
