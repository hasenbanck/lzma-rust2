(* Format/RoundTripExamples.v — non-vacuity of the container round-trip theorems: a (toy) payload
   codec and filter codec satisfying the Section hypotheses of XzProofs.v / LzipProofs.v exist; with
   it C02_xz_thm applies to a concrete file, and the LZIP conclusion is computed on one. *)
From LzVerif Require Import Base.Bytes Format.XzFormat Format.LzipFormat Format.XzHeaderProofs
  Format.XzBlockHeaderProofs Format.XzProofs Format.LzipProofs.

(* a self-delimiting code: every byte b becomes 1 b, the end is 0 *)
Definition toy_penc (d : Z) (x : list Z) : list Z := concat (map (fun b => [1; b]) x) ++ [0].
Fixpoint toy_pdec_loop (src acc : list Z) : outcome (list Z * list Z) :=
  match src with
  | c :: t =>
      if c =? 0 then Ok (rev acc, t) else
      match t with
      | b :: t' => toy_pdec_loop t' (b :: acc)
      | [] => Err E_UNEXPECTED_EOF
      end
  | [] => Err E_UNEXPECTED_EOF
  end.
Definition toy_pdec (dd : Z) (src : list Z) : outcome (list Z * list Z) := toy_pdec_loop src [].

Lemma toy_loop_rt x : forall tail acc,
  toy_pdec_loop (toy_penc 0 x ++ tail) acc = Ok (rev acc ++ x, tail).
Proof.
  induction x as [|b x IH]; intros tail acc.
  - cbn. rewrite app_nil_r. reflexivity.
  - unfold toy_penc in *. cbn [map concat app toy_pdec_loop Z.eqb]. rewrite IH. cbn [rev].
    rewrite <- app_assoc. reflexivity.
Qed.

Lemma toy_rt : forall d dd x tail, d <= dd -> toy_pdec dd (toy_penc d x ++ tail) = Ok (x, tail).
Proof. intros d dd x tail _. unfold toy_pdec. exact (toy_loop_rt x tail []). Qed.

(* a filter codec: add / subtract the property byte-wise *)
Definition toy_fenc (k : fkind) (p : Z) (x : list Z) : list Z := map (fun b => (b + p) mod 256) x.
Definition toy_fdec (k : fkind) (p : Z) (y : list Z) : list Z := map (fun b => (b - p) mod 256) y.

(* the abstract codecs of the theorems exist *)
Lemma payload_codec_exists :
  exists (penc : Z -> list Z -> list Z) (pdec : Z -> list Z -> outcome (list Z * list Z)),
    forall d dd x tail, d <= dd -> pdec dd (penc d x ++ tail) = Ok (x, tail).
Proof. exists toy_penc, toy_pdec. exact toy_rt. Qed.

Lemma filter_codec_exists :
  exists (fenc fdec : fkind -> Z -> list Z -> list Z), forall k p x, fdec k p (fenc k p x) = x.
Proof. exists (fun _ _ x => x), (fun _ _ x => x). reflexivity. Qed.

(* an instance: two blocks, a delta pre-filter slot, SHA-256 check, empty writes *)
Definition ex_opts : xzopts := mkXzopts 10 (Some 1) [(FDelta, 3)] 4096.
Definition ex_parts : list (list Z) := [repeatn 7 3000; []; repeatn 9 2000; [10]].

Lemma ex_stream_ok : stream_ok ex_opts.
Proof.
  split; [split; [reflexivity|]|cbn; lia]. constructor; [|constructor]. unfold filter_ok; cbn. lia.
Qed.

Lemma ex_blocks :
  xz_blocks_of xz_fixed (Some 4096) ex_parts = Ok [repeatn 7 3000 ++ repeatn 9 1096; repeatn 9 904 ++ [10]].
Proof. vm_compute. reflexivity. Qed.

(* the writer succeeds: block header and index are evaluated, the SHA-256 values are not *)
Lemma ex_encode_ok : exists f, xz_encode toy_penc (fun _ _ x => x) xz_fixed ex_opts ex_parts = Ok f.
Proof.
  eexists. eapply xz_encode_ok; [reflexivity | exact ex_blocks | vm_compute; reflexivity | vm_compute; reflexivity].
Qed.

(* C02_xz_thm applies to the file *)
Lemma ex_roundtrip :
  exists f, xz_encode toy_penc (fun _ _ x => x) xz_fixed ex_opts ex_parts = Ok f /\
            xz_decode xz_check_bytes (blockdec toy_pdec (fun _ _ x => x)) xz_fixed true f = Ok (concat ex_parts, []) /\
            xz_blocks_of xz_fixed (Some 4096) ex_parts = Ok [repeatn 7 3000 ++ repeatn 9 1096; repeatn 9 904 ++ [10]].
Proof.
  destruct ex_encode_ok as [f E]. exists f. split; [exact E|]. split; [|exact ex_blocks].
  exact (C02_xz_thm toy_penc toy_pdec toy_rt _ _ (fun _ _ _ => eq_refl) ex_opts ex_parts f true ex_stream_ok E).
Qed.

Lemma ex_lzip_roundtrip :
  exists f, lz_encode toy_penc (mkLzopts 5000 (Some 1)) [[1; 2; 3]; []; [4; 5]] = Ok f /\
            lz_decode toy_pdec lz_fixed f = Ok ([1; 2; 3; 4; 5], []).
Proof. eexists. split; [vm_compute; reflexivity|]. vm_compute. reflexivity. Qed.
