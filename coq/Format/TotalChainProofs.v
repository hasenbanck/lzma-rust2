(* Format/TotalChainProofs.v — the reader chains of one block (XzProofs.v: blockdec pdec fdec;
   XzFormat.v: xz_blockdec_gen pdec = Delta readers around the payload decoder) satisfy the
   hypothesis of Format/TotalProofs.v whenever the payload decoder does: Ok or Err only, the rest
   no longer than the input.  Panic 65 (a Delta history index out of range) is unreachable: the
   history always has 256 entries. *)
From LzVerif Require Import Base.Bytes Filter.Delta Filter.DeltaProofs Format.XzFormat Format.LzipFormat Format.XzProofs
  Format.TotalProofs Format.ComposeProofs.

Lemma xz_chain_deltas_inv : forall fs, post (Forall delta_inv) (xz_chain_deltas fs).
Proof.
  induction fs as [|[k p] t IH]; [constructor|].
  destruct k; cbn [xz_chain_deltas]; try exact I.
  - apply (post_step _ _ _ _ IH); [intros; exact I|]. intros r _ Hr. constructor; [apply delta_new_inv | exact Hr].
  - destruct t; [constructor | exact I].
Qed.

Lemma xz_deltas_decode_total : forall ds raw, Forall delta_inv ds -> total (xz_deltas_decode ds raw).
Proof.
  induction ds as [|d t IH]; intros raw Hds; [exact I|].
  inversion Hds as [|x l Hd Ht]; subst x l. cbn [xz_deltas_decode].
  apply (post_step (fun _ => True) _ _ _ (IH raw Ht)); [intros; exact I|]. intros [t1 b1] _ _.
  destruct (delta_decode_total b1 d Hd) as (d' & o & E & _). rewrite E. exact I.
Qed.

(* the Delta readers around a payload decoder hand its rest through *)
Lemma xz_blockdec_gen_shrP (P : list Z -> Prop) pdec : (forall d s, P s -> shrP P s (pdec d s)) ->
  forall fs s, P s -> shrP P s (xz_blockdec_gen pdec fs s).
Proof.
  intros Hp fs s Hs. unfold xz_blockdec_gen.
  apply (post_step _ _ _ _ (xz_chain_deltas_inv fs)); [intros; exact I|]. intros ds _ Hc.
  apply (shrP_step _ _ _ _ _ (Hp (xz_chain_dict fs) s Hs)); [intros; exact I|]. intros raw rest _ L Pr.
  apply (post_step (fun _ => True) _ _ _ (xz_deltas_decode_total ds raw Hc)); [intros; exact I|]. intros dr _ _.
  cbn [shrP]. auto.
Qed.

Lemma xz_blockdec_gen_shr pdec : (forall d s, shrk 0 s (pdec d s)) ->
  forall fs s, shrk 0 s (xz_blockdec_gen pdec fs s).
Proof.
  intros Hp fs s. apply shrk_shrP, (xz_blockdec_gen_shrP (fun _ => True)); [|exact I].
  intros d s' _. apply shrk_shrP, Hp.
Qed.

Lemma blockdec_shr pdec fdec : (forall d s, shrk 0 s (pdec d s)) ->
  forall fs s, shrk 0 s (blockdec pdec fdec fs s).
Proof.
  intros Hp fs s. unfold blockdec. pose proof (Hp (xz_chain_dict fs) s) as S1.
  destruct (pdec (xz_chain_dict fs) s) as [[raw rest]| | |]; cbn [shrk] in S1; try contradiction; cbn [obind]; [|exact I].
  cbn [shrk snd]. exact S1.
Qed.

Theorem xz_decode_chain_total pdec fx multi src : (forall d s, shrk 0 s (pdec d s)) -> fx11 fx = true ->
  total (xz_decode xz_check_bytes (xz_blockdec_gen pdec) fx multi src).
Proof. intros Hp H11. apply xz_decode_total; [apply xz_blockdec_gen_shr; exact Hp | exact H11]. Qed.

(* the hypothesis on the payload decoder is needed: a "decoder" that returns more input than it
   was given (here: a trailer and a member header in front of it) keeps the LZIP reader model
   busy until its fuel is gone *)
Definition greedy_pdec (d : Z) (s : list Z) : outcome (list Z * list Z) :=
  Ok ([], repeatn 0 20 ++ [76; 90; 73; 80; 1; 12] ++ s).
Lemma lz_decode_growing_rest_fuel : lz_decode greedy_pdec lz_fixed [76; 90; 73; 80; 1; 12] = Fuel.
Proof. vm_compute. reflexivity. Qed.

Lemma shr_decoder_exists : exists pdec : Z -> list Z -> outcome (list Z * list Z), forall d s, shrk 0 s (pdec d s).
Proof. exists (fun _ s => Ok ([], s)). intros d s. cbn [shrk]. lia. Qed.
