(* Format/XzSoundProofs.v — C04_sound_xz: whenever the reader reports success, the input parses
   into stream header, blocks, index and footer in which EVERY integrity field was compared with
   the value computed from the bytes actually read / returned:
     stream header: magic, reserved flag byte, known check type, CRC-32 of the flags;
     each block: header CRC-32, the payload decoded by the block's chain to exactly the bytes
       returned for it, block padding = zero bytes up to four-byte alignment, stored check =
       H(check type, returned bytes) (nothing for check type None);
     index: record count = number of blocks decoded, zero padding, stored CRC-32 = CRC-32 of the
       canonical encoding of what was parsed; footer: CRC-32, flags equal to the header's, magic.
   The returned data are the concatenation of the blocks' contents.  Consequently (the property's
   wording): a file f' accepted with content d' contains, for each block, a stored check that
   equals H of that block's part of d' - so d' differs from the original content only if a block
   check of the damaged file collides (or the check type is None). *)
From LzVerif Require Import Base.Bytes Format.Crc Format.CrcProofs Format.Vli Format.VliProofs Format.XzFormat
  Format.XzHeaderProofs Format.BitflipProofs.

(* every step of BlockHeader::parse returns a suffix of what it was given *)
Definition suffix (s l : list Z) : Prop := exists p, l = p ++ s.
Lemma suffix_refl l : suffix l l.
Proof. exists []. reflexivity. Qed.
Lemma suffix_trans a b c : suffix a b -> suffix b c -> suffix a c.
Proof. intros (p & ->) (q & ->). exists (q ++ p). rewrite app_assoc. reflexivity. Qed.
Lemma suffix_skipn n l : suffix (skipn n l) l.
Proof. exists (firstn n l). symmetry. apply firstn_skipn. Qed.
Lemma suffix_cons x l : suffix l (x :: l).
Proof. exists [x]. reflexivity. Qed.

Lemma sfx_zlen a b : suffix a b -> zlen a <= zlen b.
Proof. intros (p & ->). rewrite zlen_app. pose proof (zlen_nonneg p). lia. Qed.

Lemma sfx_bytes_ok a b : suffix a b -> bytes_ok b = true -> bytes_ok a = true.
Proof. intros (p & ->) Hb. apply bytes_ok_app in Hb. apply Hb. Qed.

Lemma sfx_app p a : suffix a (p ++ a).
Proof. exists p. reflexivity. Qed.

Lemma bh_vli_suffix s v s1 : bh_vli s = Ok (v, s1) -> suffix s1 s.
Proof.
  unfold bh_vli. destruct (vli_parse_slice s); try discriminate. cbn [obind]. intros H. inversion H.
  unfold vli_skip. apply suffix_skipn.
Qed.

Lemma bh_filter_props_suffix k s v s1 : bh_filter_props k s = Ok (v, s1) -> suffix s1 s.
Proof.
  intros H. destruct (fkind_is_bcj k) eqn:Ek; [rewrite bh_filter_props_bcj in H by exact Ek; unfold bh_bcj_props in H|];
    (destruct s as [|x s']; [destruct k; discriminate|]);
    [|destruct k; try discriminate; cbn [bh_filter_props] in H];
    (destruct (bh_vli (x :: s')) as [[ps s2]| | |] eqn:Ev; try discriminate; cbn [obind] in H; apply bh_vli_suffix in Ev).
  - (* BCJ: no properties, or four bytes *)
    destruct (ps =? 0); [inversion H; subst; exact Ev|]. destruct (ps =? 4); [|discriminate].
    destruct s2 as [|b0 [|b1 [|b2 [|b3 s3]]]]; try discriminate.
    destruct (negb _); [discriminate|]. inversion H; subst.
    eapply suffix_trans; [|exact Ev]. do 3 (eapply suffix_trans; [|apply suffix_cons]). apply suffix_cons.
  - destruct (negb (ps =? 1)); [discriminate|]. destruct s2 as [|b s3]; [discriminate|]. inversion H; subst.
    eapply suffix_trans; [apply suffix_cons | exact Ev].
  - destruct (negb (ps =? 1)); [discriminate|]. destruct s2 as [|b s3]; [discriminate|].
    destruct (xz_decode_dict b); try discriminate. cbn [obind] in H. inversion H; subst.
    eapply suffix_trans; [apply suffix_cons | exact Ev].
Qed.

Lemma bh_filters_loop_suffix : forall n s acc fs s1, bh_filters_loop n s acc = Ok (fs, s1) -> suffix s1 s.
Proof.
  induction n as [|n IH]; intros s acc fs s1 H; cbn [bh_filters_loop] in H.
  - inversion H. apply suffix_refl.
  - destruct s as [|x s']; [discriminate|].
    destruct (vli_parse_slice (x :: s')); try discriminate. cbn [obind] in H.
    destruct (fkind_of_id a) as [fk|]; [|discriminate].
    apply obind_ok in H as ([prop s2] & Ep & H).
    apply bh_filter_props_suffix in Ep. apply IH in H.
    eapply suffix_trans; [exact H|]. eapply suffix_trans; [exact Ep|]. unfold vli_skip. apply suffix_skipn.
Qed.

Lemma bh_padding_suffix : forall s s1, bh_padding s = Ok s1 -> suffix s1 s.
Proof.
  induction s as [|b t IH]; intros s1 H; cbn [bh_padding] in H.
  - inversion H. apply suffix_refl.
  - destruct (4 <? zlen (b :: t)).
    + destruct (b =? 0); [|discriminate]. apply IH in H. eapply suffix_trans; [exact H | apply suffix_cons].
    + inversion H. apply suffix_refl.
Qed.

(* BlockHeader::parse answers "index indicator" only on a zero byte, and accepts as a header only: a
   non-zero size byte, (size+1)*4 - 1 further bytes whose last four are the CRC-32 of everything
   before them (size byte included) *)
Lemma xz_parse_block_header_cases src h rest : xz_parse_block_header src = Ok (h, rest) ->
  match h with
  | None => src = 0 :: rest
  | Some _ =>
      exists enc body crc, src = enc :: body ++ crc ++ rest /\ enc <> 0 /\
        zlen (body ++ crc) = (enc + 1) * 4 - 1 /\ zlen crc = 4 /\ le_value crc = crc32 (enc :: body)
  end.
Proof.
  unfold xz_parse_block_header. intros H. destruct src as [|enc r0]; [discriminate|].
  destruct (Z.eqb_spec enc 0) as [->|Hne]; [inversion H; reflexivity|].
  destruct ((enc + 1) * 4 <? 8) eqn:E8; [discriminate|]. destruct (1024 <? (enc + 1) * 4) eqn:E1024; [discriminate|].
  cbn [orb] in H.
  apply obind_ok in H as ([hd rest0] & Et & H).
  apply Z.ltb_ge in E8. apply xz_take_inv in Et as [Er0 Lhd]; [|lia].
  destruct hd as [|flags s0]; [discriminate|].
  apply obind_ok in H as ([csz s1] & Ec & H).
  apply obind_ok in H as ([usz s2] & Eu & H).
  apply obind_ok in H as ([filters s3] & Ef & H).
  destruct (negb (last_is_lzma2 filters)); [discriminate|].
  apply obind_ok in H as (s4 & Ep & H).
  destruct (Z.eqb_spec (zlen s4) 4) as [L4|]; [|discriminate]. cbn [negb] in H.
  destruct (Z.eqb_spec (le_value s4) (crc32 (enc :: firstn (Z.to_nat (zlen (flags :: s0) - 4)) (flags :: s0)))) as [V|]; [|discriminate].
  cbn [negb] in H. inversion H; subst h rest0; clear H.
  (* s4 is a suffix of the header data *)
  assert (S1 : suffix s1 s0).
  { destruct (negb (Z.land flags 64 =? 0)).
    - destruct (zlen s0 <? 8); [discriminate|]. destruct (bh_vli s0) as [[v r]| | |] eqn:Ev; try discriminate.
      cbn [obind fst snd] in Ec. inversion Ec; subst. eapply bh_vli_suffix; exact Ev.
    - inversion Ec; subst. apply suffix_refl. }
  assert (S2 : suffix s2 s1).
  { destruct (negb (Z.land flags 128 =? 0)).
    - destruct s1 as [|y s1']; [discriminate|]. destruct (bh_vli (y :: s1')) as [[v r]| | |] eqn:Ev; try discriminate.
      cbn [obind fst snd] in Eu. inversion Eu; subst. eapply bh_vli_suffix; exact Ev.
    - inversion Eu; subst. apply suffix_refl. }
  assert (S4 : suffix s4 (flags :: s0)).
  { eapply suffix_trans; [eapply bh_padding_suffix; exact Ep|].
    eapply suffix_trans; [eapply bh_filters_loop_suffix; exact Ef|].
    eapply suffix_trans; [exact S2|]. eapply suffix_trans; [exact S1 | apply suffix_cons]. }
  destruct S4 as (body & Ehd). exists enc, body, s4.
  rewrite Ehd in V, Lhd. rewrite zlen_app, L4 in V. replace (zlen body + 4 - 4) with (zlen body) in V by lia.
  unfold zlen in V at 1. rewrite Nat2Z.id, firstn_app_exact in V by reflexivity.
  split; [rewrite Er0, Ehd, <- app_assoc; reflexivity|]. split; [exact Hne|]. split; [exact Lhd|]. split; [exact L4 | exact V].
Qed.

Lemma xz_parse_block_header_inv src bh rest : xz_parse_block_header src = Ok (Some bh, rest) ->
  exists enc body crc, src = enc :: body ++ crc ++ rest /\ enc <> 0 /\
    zlen (body ++ crc) = (enc + 1) * 4 - 1 /\ zlen crc = 4 /\ le_value crc = crc32 (enc :: body).
Proof. apply (xz_parse_block_header_cases src (Some bh)). Qed.

Lemma xz_parse_block_header_none_inv src rest : xz_parse_block_header src = Ok (None, rest) -> src = 0 :: rest.
Proof. apply (xz_parse_block_header_cases src None). Qed.

Lemma forallb_zero_repeat l : forallb (fun b => b =? 0) l = true -> l = repeatn 0 (length l).
Proof.
  induction l as [|x l IH]; intros H; [reflexivity|]. cbn [forallb] in H. apply andb_true_iff in H as [Hx Hl].
  apply Z.eqb_eq in Hx. subst x. cbn [length repeatn]. f_equal. apply IH, Hl.
Qed.

Lemma xz_consume_padding_inv pos src rest : xz_consume_padding pos src = Ok rest ->
  src = repeatn 0 (Z.to_nat (pad4 pos)) ++ rest.
Proof.
  unfold xz_consume_padding. intros H. pose proof (pad4_range pos) as Hr.
  destruct (Z.eqb_spec (pad4 pos) 0) as [E|Hne]; [inversion H; rewrite E; reflexivity|].
  destruct (Z.eqb_spec (zlen (firstn (Z.to_nat (pad4 pos)) src)) (pad4 pos)) as [L|]; [|discriminate]. cbn [negb] in H.
  destruct (forallb (fun b => b =? 0) (firstn (Z.to_nat (pad4 pos)) src)) eqn:Ez; [|discriminate]. cbn [negb] in H.
  inversion H; subst rest. apply forallb_zero_repeat in Ez.
  rewrite <- (firstn_skipn (Z.to_nat (pad4 pos)) src) at 1. f_equal. rewrite Ez. f_equal. unfold zlen in L. lia.
Qed.

Lemma xz_verify_check_inv ct computed src rest : xz_verify_check ct computed src = Ok rest ->
  (ct = 0 /\ src = rest) \/ (ct <> 0 /\ src = computed ++ rest /\ zlen computed = check_size ct).
Proof.
  unfold xz_verify_check. intros H. destruct (Z.eqb_spec ct 0) as [->|Hne]; [left; inversion H; auto|].
  right. apply obind_ok in H as ([stored r] & Et & H).
  destruct (bytes_eqb stored computed) eqn:Eb; [|discriminate]. inversion H; subst r. apply bytes_eqb_eq in Eb. subst stored.
  apply xz_take_inv in Et as [Es L]; [auto | unfold check_size; repeat (destruct (_ =? _)); lia].
Qed.

Lemma vli_reader_loop_nonneg : forall n inp res sh v r, 0 <= res -> 0 <= sh ->
  vli_parse_reader_loop n inp res sh = Ok (v, r) -> 0 <= v.
Proof.
  induction n as [|n IHn]; intros inp res sh v r Hres Hsh Hp; [discriminate|].
  cbn [vli_parse_reader_loop] in Hp. destruct inp as [|b t]; [discriminate|].
  destruct (63 <=? sh); [discriminate|].
  assert (Hl : 0 <= Z.lor res (Z.shiftl (Z.land b 127) sh)).
  { apply Z.lor_nonneg. split; [exact Hres|]. apply Z.shiftl_nonneg. apply Z.land_nonneg. right. lia. }
  destruct (Z.land b 128 =? 0); [inversion Hp; subst; exact Hl | apply IHn in Hp; [exact Hp | exact Hl | lia]].
Qed.

Lemma vli_parse_reader_nonneg s v r : vli_parse_reader s = Ok (v, r) -> 0 <= v.
Proof. unfold vli_parse_reader. apply vli_reader_loop_nonneg; lia. Qed.

Lemma xz_index_records_loop_count : forall fuel count src acc recs r,
  0 <= count -> xz_index_records_loop fuel count src acc = Ok (recs, r) -> zlen recs = zlen acc + count.
Proof.
  induction fuel as [|fuel IH]; intros count src acc recs r Hc E; cbn [xz_index_records_loop] in E.
  - destruct (Z.leb_spec count 0); [|discriminate]. inversion E; subst. rewrite frev_rev, zlen_rev. lia.
  - destruct (Z.leb_spec count 0); [inversion E; subst; rewrite frev_rev, zlen_rev; lia|].
    destruct (vli_parse_reader src) as [[u r1]| | |]; try discriminate. cbn [obind] in E.
    destruct (vli_parse_reader r1) as [[c r2]| | |]; try discriminate. cbn [obind] in E.
    destruct (u =? 0); [discriminate|]. apply IH in E; [|lia]. rewrite zlen_cons in E. lia.
Qed.

(* the index as the reader checks it: count = blocks seen, CRC-32 of the canonical encoding of what
   was parsed equals the stored one; footer: CRC-32, flags = header flags, magic *)
Theorem xz_index_and_footer_sound fx ct blocks src rest :
  xz_index_and_footer fx ct blocks src = Ok rest ->
  exists recs r1 fcrc bwb, zlen recs = blocks /\
    xz_parse_index fx src = Ok (blocks, recs, r1) /\
    r1 = fcrc ++ bwb ++ xz_stream_flags ct ++ XZ_FOOTER_MAGIC ++ rest /\
    zlen fcrc = 4 /\ zlen bwb = 4 /\ le_value fcrc = crc32 (bwb ++ xz_stream_flags ct).
Proof.
  unfold xz_index_and_footer. intros E.
  apply obind_ok in E as ([[count recs] r1] & Ei & E).
  destruct (Z.eqb_spec count blocks) as [->|]; [|discriminate]. cbn [negb] in E.
  apply obind_ok in E as ([[bw flags] r2] & Ef & E).
  destruct (bytes_eqb flags (xz_stream_flags ct)) eqn:Efl; [|discriminate]. cbn [negb] in E. inversion E; subst r2.
  apply bytes_eqb_eq in Efl. subst flags.
  apply xz_parse_footer_inv in Ef as (fcrc & bwb & Er1 & L1 & L2 & _ & V & _).
  exists recs, r1, fcrc, bwb. split; [|auto].
  (* the record count, from the index parser *)
  unfold xz_parse_index in Ei.
  apply obind_ok in Ei as ([cnt ra] & Ev & Ei).
  destruct (negb (fx11 fx) && (576460752303423488 <=? cnt)); [discriminate|].
  apply obind_ok in Ei as ([rs rb] & El & Ei).
  destruct (xz_take _ rb) as [[pd rc]| | |]; try discriminate. cbn [obind] in Ei.
  destruct (negb (forallb (fun b => b =? 0) pd)); [discriminate|].
  destruct (xz_take 4 rc) as [[crc rd]| | |]; try discriminate. cbn [obind] in Ei.
  destruct (vli_encode cnt); try discriminate. cbn [obind] in Ei.
  destruct (xz_index_records rs); try discriminate. cbn [obind] in Ei.
  match type of Ei with (if ?c then _ else _) = _ => destruct c; [discriminate|] end.
  inversion Ei; subst cnt rs rd.
  apply vli_parse_reader_nonneg in Ev. apply xz_index_records_loop_count in El; [|exact Ev]. cbn in El. lia.
Qed.

(* stream padding and the next stream header, as the repaired try_start_next_stream accepts them *)
Lemma xz_skip_zeros_inv : forall s n m r, xz_skip_zeros s n = (m, r) ->
  exists k, m = n + Z.of_nat k /\ s = repeatn 0 k ++ r /\ (r = [] \/ exists b t, r = b :: t /\ b <> 0).
Proof.
  induction s as [|b t IH]; intros n m r E; cbn [xz_skip_zeros] in E.
  - inversion E; subst. exists 0%nat. split; [lia|]. split; [reflexivity | left; reflexivity].
  - destruct (Z.eqb_spec b 0) as [->|Hne].
    + apply IH in E as (k & Hm & Hs & Hr). exists (S k). split; [lia|]. split; [cbn [repeatn app]; rewrite Hs; reflexivity | exact Hr].
    + inversion E; subst. exists 0%nat. split; [lia|]. split; [reflexivity|]. right. eauto.
Qed.

Lemma xz_try_next_stream_inv s nct r : xz_try_next_stream xz_fixed s = Ok (nct, r) ->
  exists k, Z.of_nat k mod 4 = 0 /\
    ((nct = None /\ s = repeatn 0 k /\ r = []) \/
     (exists ct2 crc, nct = Some ct2 /\ s = repeatn 0 k ++ XZ_MAGIC ++ [0; ct2] ++ crc ++ r /\
                      check_known ct2 = true /\ zlen crc = 4 /\ le_value crc = crc32 [0; ct2])).
Proof.
  unfold xz_try_next_stream. intros E. destruct (xz_skip_zeros s 0) as [padding r0] eqn:Ez.
  apply xz_skip_zeros_inv in Ez as (k & Hp & Hs & Hr). replace padding with (Z.of_nat k) in * by lia. clear Hp.
  destruct r0 as [|b r1].
  - cbn [fx16b xz_fixed andb] in E. destruct (Z.eqb_spec (Z.of_nat k mod 4) 0) as [H4|]; [|discriminate].
    cbn [negb] in E. inversion E; subst. exists k. split; [exact H4|]. left. rewrite app_nil_r. auto.
  - cbn [fx16 xz_fixed] in E. destruct (Z.eqb_spec b 253) as [->|]; [|discriminate]. cbn [negb] in E.
    destruct (zlen r1 <? 5) eqn:E5; [discriminate|].
    destruct (bytes_eqb (253 :: firstn 5 r1) XZ_MAGIC) eqn:Em; [|discriminate]. cbn [negb] in E.
    destruct (Z.eqb_spec (Z.of_nat k mod 4) 0) as [H4|]; [|discriminate]. cbn [negb] in E.
    destruct (xz_parse_flags_crc (skipn 5 r1)) as [[ct2 r2]| | |] eqn:Ef; try discriminate. cbn [obind fst snd] in E.
    inversion E; subst nct r. apply bytes_eqb_eq in Em.
    exists k. split; [exact H4|]. right.
    apply xz_parse_flags_crc_inv in Ef as (crc & Ef & Hk & Lc & Vc).
    exists ct2, crc. split; [reflexivity|]. split; [|auto].
    rewrite Hs. f_equal. rewrite <- (firstn_skipn 5 r1), Ef.
    change (253 :: firstn 5 r1 ++ ([0; ct2] ++ crc ++ r2)) with ((253 :: firstn 5 r1) ++ [0; ct2] ++ crc ++ r2).
    rewrite Em. reflexivity.
Qed.


(* Every parser of the container returns a suffix of its source: for those with an inversion lemma it
   is read off the shape, for the others it follows the parser.  Whatever is kept by suffixes
   (length bounds, being a byte string) is therefore kept by the parsers. *)
Lemma sfx_length a b : suffix a b -> (length a <= length b)%nat.
Proof. intros (p & ->). rewrite app_length. lia. Qed.

Lemma xz_take_suffix n src a b : xz_take n src = Ok (a, b) -> suffix b src.
Proof. unfold xz_take. destruct (zlen src <? n); [discriminate|]. intros H. inversion H. apply suffix_skipn. Qed.

Lemma xz_parse_flags_crc_suffix src ct r : xz_parse_flags_crc src = Ok (ct, r) -> suffix r src.
Proof. intros H. apply xz_parse_flags_crc_inv in H as (crc & -> & _). exists ([0; ct] ++ crc). rewrite <- app_assoc. reflexivity. Qed.

Lemma xz_parse_stream_header_suffix src ct r : xz_parse_stream_header src = Ok (ct, r) -> suffix r src.
Proof.
  intros H. apply xz_parse_stream_header_inv in H as (crc & -> & _). exists (XZ_MAGIC ++ [0; ct] ++ crc).
  rewrite <- !app_assoc. reflexivity.
Qed.

Lemma xz_parse_block_header_suffix src h r : xz_parse_block_header src = Ok (h, r) -> suffix r src.
Proof.
  intros H. apply xz_parse_block_header_cases in H. destruct h as [bh|]; [|subst src; apply suffix_cons].
  destruct H as (enc & body & crc & -> & _). exists (enc :: body ++ crc). cbn [app]. rewrite <- app_assoc. reflexivity.
Qed.

Lemma xz_consume_padding_suffix pos src r : xz_consume_padding pos src = Ok r -> suffix r src.
Proof. intros H. apply xz_consume_padding_inv in H. rewrite H. apply sfx_app. Qed.

Lemma xz_verify_check_suffix ct computed src r : xz_verify_check ct computed src = Ok r -> suffix r src.
Proof. intros H. apply xz_verify_check_inv in H as [(_ & ->)|(_ & -> & _)]; [apply suffix_refl | apply sfx_app]. Qed.

Lemma vli_parse_reader_suffix src v r : vli_parse_reader src = Ok (v, r) -> suffix r src.
Proof. intros H. apply vli_reader_slice in H as (_ & <- & _). apply suffix_skipn. Qed.

Lemma xz_index_records_loop_suffix : forall fuel count src acc rs r,
  xz_index_records_loop fuel count src acc = Ok (rs, r) -> suffix r src.
Proof.
  induction fuel as [|fuel IH]; intros count src acc rs r H; cbn [xz_index_records_loop] in H;
    (destruct (count <=? 0); [inversion H; apply suffix_refl|]); [discriminate|].
  apply obind_ok in H as ([u r1] & E1 & H). apply obind_ok in H as ([c r2] & E2 & H).
  destruct (u =? 0); [discriminate|]. apply vli_parse_reader_suffix in E1, E2. apply IH in H.
  eauto using suffix_trans.
Qed.

Lemma xz_parse_index_suffix fx src x r : xz_parse_index fx src = Ok (x, r) -> suffix r src.
Proof.
  unfold xz_parse_index. intros H.
  apply obind_ok in H as ([count r1] & E1 & H). apply vli_parse_reader_suffix in E1.
  destruct (negb (fx11 fx) && _); [discriminate|].
  apply obind_ok in H as ([recs r2] & E2 & H). apply xz_index_records_loop_suffix in E2.
  apply obind_ok in H as ([pd r3] & E3 & H). apply xz_take_suffix in E3.
  destruct (negb _); [discriminate|].
  apply obind_ok in H as ([crc r4] & E4 & H). apply xz_take_suffix in E4.
  apply obind_ok in H as (ne & _ & H). apply obind_ok in H as (re & _ & H).
  destruct (negb _); [discriminate|]. inversion H; subst. eauto using suffix_trans.
Qed.

Lemma xz_index_and_footer_suffix fx ct blocks src r : xz_index_and_footer fx ct blocks src = Ok r -> suffix r src.
Proof.
  unfold xz_index_and_footer. intros H.
  apply obind_ok in H as ([[count recs] r1] & E1 & H). apply xz_parse_index_suffix in E1.
  destruct (negb _); [discriminate|].
  apply obind_ok in H as ([[bw flags] r2] & E2 & H). destruct (negb _); [discriminate|]. inversion H; subst r2.
  apply xz_parse_footer_inv in E2 as (crc & bwb & -> & _). eapply suffix_trans; [|exact E1].
  exists (crc ++ bwb ++ flags ++ XZ_FOOTER_MAGIC). rewrite <- !app_assoc. reflexivity.
Qed.

Lemma xz_try_next_stream_suffix fx src x r : xz_try_next_stream fx src = Ok (x, r) -> suffix r src.
Proof.
  unfold xz_try_next_stream. intros H. destruct (xz_skip_zeros src 0) as [padding r0] eqn:Ez.
  apply xz_skip_zeros_inv in Ez as (k & _ & -> & _).
  destruct r0 as [|b r1].
  - destruct (fx16b fx && _); [discriminate|]. inversion H. apply sfx_app.
  - destruct (if fx16 fx then _ else _); [discriminate|]. destruct (zlen r1 <? 5); [discriminate|].
    destruct (negb _); [discriminate|]. destruct (negb _); [discriminate|].
    apply obind_ok in H as ([ct r2] & E & H). inversion H; subst. apply xz_parse_flags_crc_suffix in E.
    eapply suffix_trans; [exact E|]. eapply suffix_trans; [apply suffix_skipn|].
    eapply suffix_trans; [apply suffix_cons | apply sfx_app].
Qed.

Section Sound.
  Variable H : Z -> list Z -> list Z.
  Variable blockdec : list (fkind * Z) -> list Z -> outcome (list Z * list Z).

  (* the blocks of a stream as the reader saw them; [pos] = bytes of the source consumed before *)
  Inductive xz_blocks_ok (ct : Z) : Z -> list Z -> list (list Z) -> list Z -> Prop :=
  | xbo_end : forall pos r, xz_blocks_ok ct pos (0 :: r) [] r
  | xbo_block : forall pos enc body crc bh tail1 content tail2 chk src' cs r,
      (* block header: non-zero size byte, declared length, CRC-32 verified; it parses to [bh] *)
      enc <> 0 -> zlen (body ++ crc) = (enc + 1) * 4 - 1 -> zlen crc = 4 -> le_value crc = crc32 (enc :: body) ->
      xz_parse_block_header (enc :: body ++ crc ++ tail1) = Ok (Some bh, tail1) ->
      (* the chain of the header decodes the compressed data to the bytes returned for the block *)
      blockdec (bh_filters bh) tail1 = Ok (content, tail2) -> suffix tail2 tail1 ->
      (* block padding: zero bytes up to four-byte alignment of the position *)
      tail2 = repeatn 0 (Z.to_nat (pad4 (pos + (enc + 1) * 4 + (zlen tail1 - zlen tail2)))) ++ chk ++ src' ->
      (* check field: nothing for None, otherwise exactly H of the returned bytes *)
      ((ct = 0 /\ chk = []) \/ (ct <> 0 /\ chk = H ct content /\ zlen chk = check_size ct)) ->
      xz_blocks_ok ct (pos + (enc + 1) * 4 + (zlen tail1 - zlen tail2) + (zlen tail2 - zlen src')) src' cs r ->
      xz_blocks_ok ct pos (enc :: body ++ crc ++ tail1) (content :: cs) r.

  (* [blockdec] only consumes input: what it leaves is a suffix of what it got *)
  Hypothesis blockdec_suffix : forall fs src c r, blockdec fs src = Ok (c, r) -> suffix r src.

  Theorem xzd_blocks_sound ct : forall fuel src pos n acc acc' r pos' n',
    xzd_blocks H blockdec fuel ct src pos n acc = Ok (acc', r, pos', n') ->
    exists cs, xz_blocks_ok ct pos src cs r /\ acc' = rev_append (concat cs) acc /\ n' = n + zlen cs.
  Proof.
    induction fuel as [|fuel IH]; intros src pos n acc acc' r pos' n' E; [discriminate|].
    cbn [xzd_blocks] in E.
    apply obind_ok in E as ([h r1] & Eh & E).
    destruct h as [bh|].
    - apply obind_ok in E as ([content r2] & Eb & E).
      apply obind_ok in E as (r3 & Ep & E).
      apply obind_ok in E as (r4 & Ev & E).
      pose proof Eh as Eh0.
      apply xz_parse_block_header_inv in Eh as (enc & body & crc & Es & Hne & Lh & Lc & Vc).
      apply xz_consume_padding_inv in Ep. apply xz_verify_check_inv in Ev.
      destruct (IH _ _ _ _ _ _ _ _ E) as (cs & Bk & Ea & En).
      exists (content :: cs). split; [|split].
      + subst src.
        assert (Z1 : zlen (enc :: body ++ crc ++ r1) - zlen r1 = (enc + 1) * 4).
        { rewrite zlen_cons, app_assoc, zlen_app. lia. }
        rewrite Z1 in *.
        assert (Ck : exists chk, r3 = chk ++ r4 /\
                       ((ct = 0 /\ chk = []) \/ (ct <> 0 /\ chk = H ct content /\ zlen chk = check_size ct))).
        { destruct Ev as [[Hct <-]|[Hct [-> Lk]]]; [exists [] | exists (H ct content)]; auto. }
        destruct Ck as (chk & Er & Ck).
        apply (xbo_block ct pos enc body crc bh r1 content r2 chk r4 cs r Hne Lh Lc Vc Eh0 Eb);
          [eapply blockdec_suffix; exact Eb | rewrite Ep at 1; rewrite Er; reflexivity | exact Ck | exact Bk].
      + rewrite Ea. cbn [concat]. rewrite !rev_append_rev, rev_app_distr, <- app_assoc. reflexivity.
      + rewrite En, zlen_cons. lia.
    - inversion E; subst. apply xz_parse_block_header_none_inv in Eh. subst src.
      exists []. split; [constructor|]. split; [reflexivity | cbn; lia].
  Qed.

  (* the streams of a file as the reader accepted them: per stream the contents of its blocks *)
  Inductive xz_streams_ok (multi : bool) : Z -> Z -> list Z -> list (list (list Z)) -> list Z -> Prop :=
  | xso_stream : forall ct pos src cs r1 recs r2 fcrc bwb rest0 css rest,
      xz_blocks_ok ct pos src cs r1 ->
      (* index: as many records as blocks, CRC-32 verified; footer: CRC-32, same flags, magic *)
      zlen recs = zlen cs -> xz_parse_index xz_fixed r1 = Ok (zlen cs, recs, r2) ->
      r2 = fcrc ++ bwb ++ xz_stream_flags ct ++ XZ_FOOTER_MAGIC ++ rest0 ->
      zlen fcrc = 4 -> zlen bwb = 4 -> le_value fcrc = crc32 (bwb ++ xz_stream_flags ct) ->
      (* what follows *)
      ((multi = false /\ css = [] /\ rest = rest0) \/
       (multi = true /\ css = [] /\ rest = [] /\ exists k, Z.of_nat k mod 4 = 0 /\ rest0 = repeatn 0 k) \/
       (multi = true /\ exists k ct2 crc src2 pos2,
          Z.of_nat k mod 4 = 0 /\ rest0 = repeatn 0 k ++ XZ_MAGIC ++ [0; ct2] ++ crc ++ src2 /\
          check_known ct2 = true /\ zlen crc = 4 /\ le_value crc = crc32 [0; ct2] /\
          xz_streams_ok multi ct2 pos2 src2 css rest)) ->
      xz_streams_ok multi ct pos src (cs :: css) rest.

  Theorem xzd_streams_sound multi : forall fuel ct src pos acc d rest,
    xzd_streams H blockdec fuel xz_fixed multi ct src pos acc = Ok (d, rest) ->
    exists css, xz_streams_ok multi ct pos src css rest /\
                d = rev acc ++ concat (map (@concat Z) css).
  Proof.
    induction fuel as [|fuel IH]; intros ct src pos acc d rest E; [discriminate|].
    cbn [xzd_streams] in E.
    apply obind_ok in E as ([[[acc1 r1] pos1] n] & Eb & E).
    apply xzd_blocks_sound in Eb as (cs & Bk & Ea & En).
    apply obind_ok in E as (r2 & Ei & E).
    apply xz_index_and_footer_sound in Ei as (recs & ri & fcrc & bwb & Lr & Pi & Eri & L1 & L2 & V).
    assert (En' : n = zlen cs) by lia. subst n.
    destruct multi.
    - apply obind_ok in E as ([nct r3] & Et & E).
      apply xz_try_next_stream_inv in Et as (k & H4 & [(En & Es & Er)|(ct2 & crc & En & Es & Hk & Lc & Vc)]); subst nct.
      + inversion E; subst d rest r3. exists [cs]. split.
        * eapply xso_stream; eauto. right. left. eauto 8. (* the padding length k with H4, Er *)
        * rewrite frev_rev, Ea, rev_append_rev, rev_app_distr, rev_involutive. cbn [map concat]. rewrite app_nil_r. reflexivity.
      + apply IH in E as (css & Sk & Ed). exists (cs :: css). split.
        * eapply xso_stream; eauto. right. right. split; [reflexivity|]. eauto 12. (* k, ct2, crc and the next stream Sk from IH *)
        * rewrite Ed, Ea, rev_append_rev, rev_app_distr, rev_involutive. cbn [map concat]. rewrite <- app_assoc. reflexivity.
    - inversion E; subst d rest. exists [cs]. split.
      + eapply xso_stream; eauto.
      + rewrite frev_rev, Ea, rev_append_rev, rev_app_distr, rev_involutive. cbn [map concat]. rewrite app_nil_r. reflexivity.
  Qed.

  (* C04_sound_xz: success of the reader (repaired code) means: the input is a stream header with
     valid magic / flags / CRC-32 followed by streams in each of which every block's header CRC,
     padding and check, the index count and CRC and the footer CRC, flags and magic were verified,
     and the data returned are exactly the blocks' contents in order *)
  Theorem C04_sound_xz_thm multi src d rest :
    xz_decode H blockdec xz_fixed multi src = Ok (d, rest) ->
    exists ct crc tl css,
      src = XZ_MAGIC ++ [0; ct] ++ crc ++ tl /\ check_known ct = true /\ zlen crc = 4 /\ le_value crc = crc32 [0; ct] /\
      xz_streams_ok multi ct 12 tl css rest /\ d = concat (map (@concat Z) css).
  Proof.
    unfold xz_decode. intros E.
    apply obind_ok in E as ([ct r1] & Eh & E).
    apply xz_parse_stream_header_inv in Eh as (crc & Es & Hk & Lc & Vc).
    apply xzd_streams_sound in E as (css & Sk & Ed). exists ct, crc, r1, css.
    split; [exact Es|]. split; [exact Hk|]. split; [exact Lc|]. split; [exact Vc|]. split; [|exact Ed].
    replace (zlen src - zlen r1) with 12 in Sk; [exact Sk|].
    rewrite Es, !zlen_app, Lc. change (zlen XZ_MAGIC) with 6. change (zlen [0; ct]) with 2. lia.
  Qed.
End Sound.

(* C04_bitflip, block header: two headers with the same size byte that differ in exactly one of the
   other bytes (flags, optional sizes, filter flags, header padding, CRC field) are not both accepted *)
Theorem bitflip_block_header enc hd hd' rest rest' bh bh' r r' :
  zlen hd = (enc + 1) * 4 - 1 -> bytes_ok (enc :: hd) = true -> bytes_ok (enc :: hd') = true ->
  one_byte_diff hd hd' ->
  xz_parse_block_header (enc :: hd ++ rest) = Ok (Some bh, r) ->
  xz_parse_block_header (enc :: hd' ++ rest') = Ok (Some bh', r') -> False.
Proof.
  intros Lh B B' D P P'.
  apply xz_parse_block_header_inv in P as (e1 & body & crc & E & _ & L & Lc & V).
  apply xz_parse_block_header_inv in P' as (e2 & body' & crc' & E' & _ & L' & Lc' & V').
  inversion E as [[Ee Eh]]. inversion E' as [[Ee' Eh']]. subst e1 e2. clear E E'.
  pose proof (one_byte_diff_length _ _ D) as Ll. apply bytes_ok_cons in B as [He B]. apply bytes_ok_cons in B' as [_ B'].
  rewrite zlen_app in L, L'. unfold zlen in *.
  (* the size byte is covered by the CRC but lies outside the frame *)
  apply (framed_one_diff hd hd' [] [enc] body crc [] body' crc'); try assumption; try lia.
  - left. split; [apply (app_prefix_eq hd rest _ r) | apply (app_prefix_eq hd' rest' _ r')];
      try (cbn [app]; rewrite <- !app_assoc; assumption); cbn [app]; rewrite !app_length; cbn [length]; lia.
  - apply bytes_ok_cons_ok; [lia | reflexivity].
Qed.
