(* Format/ComposeExamplesProofs.v — the hypotheses of the composed theorems (ComposeProofs.v) are
   satisfiable, and they apply to concrete files (the small ones are also decoded by evaluation):
     - an LZMA2 encoder in the sense of l2_codec_ok exists for every input (l2_stored_ok, in
       ComposeProofs.v) and one that emits real LZMA chunks, stored chunks and an independent
       restart on a sample input (ch_ex);
     - XZ files written with them, with and without Delta pre-filters, decoded by xz_decode_c;
     - an LZMA encoder choice for an LZIP member (literals and a match), the member hypotheses,
       the file decoded by lz_decode_c. *)
From LzVerif Require Import Base.Bytes Codec.Store Codec.Range Codec.LzWindow Codec.LzmaDec Codec.LzmaEnc
  Codec.LzmaWriters Codec.Lzma1 Codec.Lzma2Dec Codec.LzmaRoundtrip Codec.ProbProofs Codec.RangeEncProofs Codec.RangeProofs
  Codec.Lzma1ReadProofs Codec.Lzma2SpecProofs Codec.Lzma2FrameSyncProofs Codec.Lzma2ReadProofs Codec.Lzma2ExamplesProofs
  Filter.Delta Filter.DeltaProofs
  Format.Crc Format.CrcProofs Format.Vli Format.XzFormat Format.LzipFormat Format.LzipDict Format.LzipDictProofs
  Format.LzipSplitProofs Format.XzHeaderProofs Format.XzBlockHeaderProofs Format.XzProofs
  Format.LzipProofs Format.PayloadLzma2Proofs Format.PayloadLzma1Proofs Format.ComposeProofs.

Definition x_data : list Z := Lzma2ExamplesProofs.ex_data.

(* on the sample input with a 4 KiB dictionary: two LZMA chunks, a stored chunk, an independent
   restart (Lzma2ExamplesProofs.ex_evs); everything else is stored *)
Definition ch_ex (d : Z) (x : list Z) : list l2ev :=
  if (d =? 4096) then (if list_eq_dec Z.eq_dec x x_data then Lzma2ExamplesProofs.ex_evs else l2_stored d x)
  else l2_stored d x.

Lemma ch_ex_ok : l2_codec_ok 3 0 2 ch_ex.
Proof.
  intros d x Hd Hb. unfold ch_ex. destruct (Z.eqb_spec d 4096) as [->|Hne]; [|apply l2_stored_ok; assumption].
  destruct (list_eq_dec Z.eq_dec x x_data) as [->|Hx]; [|apply l2_stored_ok; assumption].
  destruct lzma2_roundtrip_hyps as (_ & H1 & H2). split; [exact H1|]. eexists. exact H2.
Qed.

Lemma params_302 : l2_params_ok 3 0 2.
Proof. unfold l2_params_ok. lia. Qed.

(* CRC64, no block size, no pre-filter, dictionary 4 KiB; three write() calls, one of them empty *)
Definition x_opts : xzopts := mkXzopts 4 None [] 4096.
(* SHA-256, blocks of (at least) the dictionary size, two Delta pre-filters *)
Definition x_opts_delta : xzopts := mkXzopts 10 (Some 1) [(FDelta, 1); (FDelta, 256)] 4096.
Definition x_parts : list (list Z) := [firstn 3 x_data; []; skipn 3 x_data].
Definition x_parts_big : list (list Z) := [repeatn 7 3000; []; ProbProofs.zrange 0 200; repeatn 9 2000; [10]].

Lemma x_opts_ok : stream_ok x_opts /\ only_delta (xo_filters x_opts) /\ 4096 <= xo_dict x_opts <= 2147483648 /\
  bytes_ok (concat x_parts) = true.
Proof.
  split; [split; [split; [reflexivity | constructor] | exact I]|].
  split; [constructor|]. split; [cbn; lia | reflexivity].
Qed.

Lemma x_opts_delta_ok : stream_ok x_opts_delta /\ only_delta (xo_filters x_opts_delta) /\
  4096 <= xo_dict x_opts_delta <= 2147483648 /\ bytes_ok (concat x_parts_big) = true.
Proof.
  split.
  { split; [split; [reflexivity|]|cbn; lia].
    constructor; [unfold filter_ok; cbn; lia|]. constructor; [unfold filter_ok; cbn; lia | constructor]. }
  split; [repeat constructor|]. split; [cbn; lia | vm_compute; reflexivity].
Qed.

(* the file holds the LZMA2 stream with LZMA chunks (not the stored fallback), and is decoded *)
Lemma x_roundtrip :
  exists f, xz_encode (l2_penc 3 0 2 ch_ex) delta_fenc xz_fixed x_opts x_parts = Ok f /\
            xz_decode_c xz_fixed true f = Ok (x_data, []) /\
            l2_penc 3 0 2 ch_ex 4096 x_data = Lzma2ExamplesProofs.ex_stream /\
            exists a b, f = a ++ Lzma2ExamplesProofs.ex_stream ++ b.
Proof.
  eexists. split; [vm_compute; reflexivity|]. split; [vm_compute; reflexivity|]. split; [vm_compute; reflexivity|].
  exists (firstn 24 (match xz_encode (l2_penc 3 0 2 ch_ex) delta_fenc xz_fixed x_opts x_parts with Ok f => f | _ => [] end)).
  eexists. vm_compute. reflexivity.
Qed.

Lemma x_blocks_big : xz_blocks_of xz_fixed (Some 4096) x_parts_big
  = Ok [repeatn 7 3000 ++ ProbProofs.zrange 0 200 ++ repeatn 9 896; repeatn 9 1104 ++ [10]].
Proof. vm_compute. reflexivity. Qed.

(* the writer succeeds: block header and index (hence the payload lengths) are evaluated, the
   SHA-256 values are not *)
Lemma x_encode_delta_ok :
  exists f, xz_encode (l2_penc 3 0 2 l2_stored) delta_fenc xz_fixed x_opts_delta x_parts_big = Ok f.
Proof.
  eexists. eapply xz_encode_ok; [reflexivity | exact x_blocks_big | vm_compute; reflexivity | vm_compute; reflexivity].
Qed.

(* C16_xz_single_stream_lzma2_delta_thm applies to the file *)
Lemma x_roundtrip_delta :
  exists f, xz_encode (l2_penc 3 0 2 l2_stored) delta_fenc xz_fixed x_opts_delta x_parts_big = Ok f /\
            xz_decode_c xz_fixed false (f ++ [1; 2; 3]) = Ok (concat x_parts_big, [1; 2; 3]) /\
            xz_blocks_of xz_fixed (Some 4096) x_parts_big
              = Ok [repeatn 7 3000 ++ ProbProofs.zrange 0 200 ++ repeatn 9 896; repeatn 9 1104 ++ [10]].
Proof.
  destruct x_encode_delta_ok as [f E]. destruct x_opts_delta_ok as (Hok & Hfs & Hd & Hb).
  exists f. split; [exact E|]. split; [|exact x_blocks_big].
  exact (C16_xz_single_stream_lzma2_delta_thm 3 0 2 l2_stored params_302 (l2_stored_ok 3 0 2)
           x_opts_delta x_parts_big f [1; 2; 3] Hok Hfs Hd Hb E).
Qed.

Definition z_data : list Z := Lzma1ReadProofs.ex_data.

(* literals and one match on the sample member, literals only otherwise *)
Definition ch1_ex (d : Z) (x : list Z) : list sym :=
  if list_eq_dec Z.eq_dec x z_data then Lzma1ReadProofs.ex_syms else map SLit x.

Definition z_opts : lzopts := mkLzopts 5000 None.
Definition z_parts : list (list Z) := [firstn 3 z_data; []; skipn 3 z_data].

Lemma z_member_ok : l1_member_ok ch1_ex 5000 z_data.
Proof.
  unfold l1_member_ok. change (ch1_ex 5000 z_data) with Lzma1ReadProofs.ex_syms.
  split; [exact ex_no_end|]. split; [eexists; vm_compute; reflexivity|].
  intros E c' h' H.
  assert (Hb : match enc_syms (coder_new 3 0 2) (ehist_new 5000 [] z_data) (Lzma1ReadProofs.ex_syms ++ end_syms true) with
               | Ok (E, _, _) => events_bits E <= RC_MAX_BITS
               | _ => True
               end) by (vm_compute; discriminate).
  rewrite H in Hb. exact Hb.
Qed.

Lemma z_hyps :
  bytes_ok (concat z_parts) = true /\
  (forall members, lz_members_of (lo_member_size (lzw_new z_opts)) z_parts = Ok members ->
     lz_sizes_ok (l1_penc ch1_ex) (lo_dict (lzw_new z_opts)) members /\
     Forall (fun c => l1_member_ok ch1_ex (lo_dict (lzw_new z_opts)) c /\
                      zlen c / 4096 + 2 <= Z.of_nat 2 /\
                      zlen c / 4096 <= 62 + 16 * zlen (l1_penc ch1_ex (lo_dict (lzw_new z_opts)) c)) members) /\
  match lo_member_size z_opts with Some m => 1 <= m | None => True end.
Proof.
  split; [reflexivity|]. split; [|exact I].
  intros members Hm.
  assert (Em : lz_members_of (lo_member_size (lzw_new z_opts)) z_parts = Ok [z_data]) by (vm_compute; reflexivity).
  rewrite Em in Hm. inversion Hm; subst members. change (lo_dict (lzw_new z_opts)) with 5000.
  split.
  - constructor; [|constructor]. split; vm_compute; reflexivity.
  - constructor; [|constructor]. split; [exact z_member_ok|]. split; vm_compute; discriminate.
Qed.

Lemma z_roundtrip :
  exists f, lz_encode (l1_penc ch1_ex) z_opts z_parts = Ok f /\
            lz_decode_c lz_fixed f = Ok (z_data, []) /\
            lz_decode (lzip_payload_dec_n 2) lz_fixed (f ++ f) = Ok (z_data ++ z_data, []).
Proof. eexists. split; [vm_compute; reflexivity|]. split; vm_compute; reflexivity. Qed.
