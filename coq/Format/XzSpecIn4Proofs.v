(* Format/XzSpecIn4Proofs.v — C03_in (XZ), closed instance: the executable specification
   (Format/XzSpecExec.v: LZMA2 payload by the LZMA2Reader model, Delta by Filter/Delta.v, BCJ chains
   not accepted) against the executable reader model xz_decode_c.  No hypothesis about the codecs is
   left: both sides run the same LZMA2 decoder model, which only consumes input
   (Format/TotalClosedProofs.v). *)
From LzVerif Require Import Base.Bytes Filter.Delta Format.XzFormat Format.XzSpec Format.XzSpecExec
  Format.XzSoundProofs Format.XzSpecProofs Format.XzSpecIn3Proofs Format.TotalClosedProofs
  Format.ContainerRefutations.

Lemma xz_chain_dict_cons a b t : xz_chain_dict (a :: b :: t) = xz_chain_dict (b :: t).
Proof.
  unfold xz_chain_dict. rewrite !frev_rev. cbn [rev]. destruct (rev t) as [|x q]; reflexivity.
Qed.

Lemma xz_chain_deltas_delta d t : xz_chain_deltas ((FDelta, d) :: t) = do r <- xz_chain_deltas t; Ok (delta_new d :: r).
Proof. reflexivity. Qed.

(* the chain the specification executes is the chain prepare_next_block builds *)
Lemma s_chain_deltas_crate : forall fs ds dict, s_chain_deltas (map spec_filter fs) = Some (ds, dict) ->
  xz_chain_deltas fs = Ok (map delta_new ds) /\ xz_chain_dict fs = dict.
Proof.
  induction fs as [|[k p] t IH]; intros ds dict H; [discriminate|].
  cbn [map] in H. unfold spec_filter at 1 in H. cbn [fst snd] in H.
  destruct k; try discriminate.
  - cbn [s_chain_deltas] in H.
    apply olet_some in H as ([ds' d'] & Et & H). inversion H; subst ds dict.
    destruct (IH ds' d' Et) as [I1 I2]. split.
    + rewrite xz_chain_deltas_delta, I1. reflexivity.
    + destruct t as [|b t']; [discriminate|]. rewrite xz_chain_dict_cons. exact I2.
  - (* LZMA2: only as the single last element *)
    destruct t as [|b t'].
    + cbn [map s_chain_deltas] in H. inversion H; subst. split; reflexivity.
    + cbn [map s_chain_deltas] in H. discriminate.
Qed.

Lemma s_undelta_crate : forall ds raw data, s_undelta ds raw = Some data ->
  exists st, xz_deltas_decode (map delta_new ds) raw = Ok (st, data).
Proof.
  induction ds as [|d t IH]; intros raw data H.
  - cbn [s_undelta] in H. inversion H; subst. exists []. reflexivity.
  - cbn [s_undelta] in H. apply olet_some in H as (x & Ex & H).
    destruct (IH raw x Ex) as (st & Pst). unfold delta_decode_bytes in H.
    destruct (delta_decode (delta_new d) x) as [[d1 o]|] eqn:Ed; [|discriminate]. inversion H; subst o.
    exists (d1 :: st). cbn [map xz_deltas_decode]. rewrite Pst. cbn [obind]. rewrite Ed. reflexivity.
Qed.

Lemma xz_sdec_exec_blockdec fs src r : xz_sdec_exec (map spec_filter fs) src = Some r -> xz_blockdec fs src = Ok r.
Proof.
  unfold xz_sdec_exec, xz_sdec_gen, xz_blockdec, xz_blockdec_gen. intros H.
  apply olet_some in H as ([ds dict] & Ec & H).
  destruct (s_chain_deltas_crate fs ds dict Ec) as [C1 C2]. rewrite C1, C2. cbn [obind].
  destruct (lzma2_payload_dec dict src) as [[raw rest]| | |]; try discriminate. cbn [obind].
  apply olet_some in H as (data & Eu & H). inversion H; subst r.
  destruct (s_undelta_crate ds raw data Eu) as (st & Pst). rewrite Pst. reflexivity.
Qed.

Lemma xz_sdec_exec_shrinks fs src x r : bytes_ok src = true -> xz_sdec_exec fs src = Some (x, r) ->
  zlen r <= zlen src /\ bytes_ok r = true.
Proof.
  unfold xz_sdec_exec, xz_sdec_gen. intros Hb H.
  destruct (s_chain_deltas fs) as [[ds dict]|]; [|discriminate]. cbn [olet] in H.
  pose proof (lzma2_payload_dec_shrb dict src Hb) as S.
  destruct (lzma2_payload_dec dict src) as [[raw rest]| | |]; try discriminate.
  destruct (s_undelta ds raw) as [data|]; [|discriminate]. cbn [olet] in H. inversion H; subst x r.
  cbn [shrkb] in S. destruct S as [S1 S2]. split; [unfold zlen; lia | exact S2].
Qed.

Theorem C03_in_xz_exec_thm : forall f d, bytes_ok f = true ->
  xz_spec_decode_c false f = Some d -> xz_decode_c xz_fixed true f = Ok (d, []).
Proof.
  intros f d Hb H. unfold xz_spec_decode_c in H. unfold xz_decode_c.
  exact (C03_in_xz_gen xz_sdec_exec xz_blockdec xz_sdec_exec_blockdec xz_sdec_exec_shrinks f d Hb H).
Qed.

Theorem C03_in_xz_first_exec_thm : forall f d r, bytes_ok f = true ->
  xz_spec_decode_first xz_sdec_exec false f = Some (d, r) -> xz_decode_c xz_fixed false f = Ok (d, r).
Proof.
  intros f d r Hb H. unfold xz_decode_c.
  exact (C03_in_xz_first_gen xz_sdec_exec xz_blockdec xz_sdec_exec_blockdec xz_sdec_exec_shrinks f d r Hb H).
Qed.

(* A concrete valid file exercising what the crate's writer never emits: two Streams separated by
   Stream Padding; the first Stream has two Blocks with different chains - Block A with both optional
   size fields in its header (LZMA2 only), Block B with Delta(1) + LZMA2 - and CRC32 checks; the
   second Stream is the "hello world" file of ContainerRefutations.v. *)
Definition c03in_hdrA_body : list Z := [2; 192; 7; 3; 33; 1; 0; 0].   (* 12 bytes with the CRC32; Compressed Size 7, Uncompressed Size 3 *)
Definition c03in_hdrA : list Z := c03in_hdrA_body ++ crc32_bytes c03in_hdrA_body.
Definition c03in_blockA : list Z :=
  c03in_hdrA ++ [1; 0; 2; 1; 2; 3; 0] ++ [0] ++ crc32_bytes [1; 2; 3].
Definition c03in_hdrB : list Z :=
  match xz_block_header (mkXzopts 1 None [(FDelta, 1)] 4096) with Ok h => h | _ => [] end.
(* stored LZMA2 chunk 4, 5 = Delta(1) image of 4, 9 *)
Definition c03in_blockB : list Z :=
  c03in_hdrB ++ [1; 0; 1; 4; 5; 0] ++ [0; 0] ++ crc32_bytes [4; 9].
Definition c03in_recs : list (Z * Z) := [(12 + 7 + 4, 3); (zlen c03in_hdrB + 6 + 4, 2)].
Definition c03in_stream1 : list Z :=
  xz_stream_header 1 ++ c03in_blockA ++ c03in_blockB ++
  (match xz_index c03in_recs with Ok i => i | _ => [] end) ++ xz_stream_footer 1 c03in_recs.
Definition c03in_file : list Z := c03in_stream1 ++ [0; 0; 0; 0] ++ Format.ContainerRefutations.w_hello.
Definition c03in_content : list Z := [1; 2; 3; 4; 9] ++ Format.ContainerRefutations.w_content.

Lemma c03in_file_valid :
  bytes_ok c03in_file = true /\
  xz_spec_decode_c false c03in_file = Some c03in_content /\
  xz_spec_decode_first xz_sdec_exec false c03in_file = Some ([1; 2; 3; 4; 9], [0; 0; 0; 0] ++ Format.ContainerRefutations.w_hello).
Proof. vm_compute. repeat split; reflexivity. Qed.

(* what the theorems then give, checked by evaluation as well *)
Lemma c03in_file_decoded :
  xz_decode_c xz_fixed true c03in_file = Ok (c03in_content, []) /\
  xz_decode_c xz_fixed false c03in_file = Ok ([1; 2; 3; 4; 9], [0; 0; 0; 0] ++ Format.ContainerRefutations.w_hello).
Proof. vm_compute. split; reflexivity. Qed.

(* a Block Header with a BCJ filter (x86, start offset 16) before LZMA2: accepted by the
   specification, parsed by the crate to the chain the specification sees *)
Definition c03in_hdr_bcj_body : list Z := [3; 1; 4; 4; 16; 0; 0; 0; 33; 1; 0; 0].
Definition c03in_hdr_bcj : list Z := c03in_hdr_bcj_body ++ crc32_bytes c03in_hdr_bcj_body.
Lemma c03in_hdr_bcj_valid :
  s_block_header (c03in_hdr_bcj ++ [7]) = Some (mkSblockhdr 16 None None [SBcj 4 16; SLzma2 4096], [7]) /\
  xz_parse_block_header (c03in_hdr_bcj ++ [7]) = Ok (Some (mkBhdr None None [(FX86, 16); (FLZMA2, 4096)]), [7]) /\
  map spec_filter [(FX86, 16); (FLZMA2, 4096)] = [SBcj 4 16; SLzma2 4096].
Proof. vm_compute. repeat split; reflexivity. Qed.
