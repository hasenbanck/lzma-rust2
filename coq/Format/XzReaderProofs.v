(* Format/XzReaderProofs.v — the call-by-call reader model of XzFormat.v (xzr_read = XZReader::read)
   under histories of destination sizes. *)
From LzVerif Require Import Base.Bytes Codec.Store Codec.Range Codec.LzWindow Codec.LzmaDec Codec.LzmaEnc
  Codec.LzmaWriters Codec.Lzma2Dec Codec.Lzma2SpecProofs Codec.Lzma2FrameSyncProofs Codec.Lzma2LoopProofs Codec.Lzma2ReadProofs
  Filter.Delta Filter.DeltaProofs
  Format.Crc Format.CrcProofs Format.Vli Format.XzFormat
  Format.XzSplitProofs Format.XzHeaderProofs Format.XzBlockHeaderProofs Format.XzIndexProofs Format.XzProofs
  Format.LzipProofs Format.PayloadLzma2Proofs Format.ComposeProofs Codec.ReadLoopProofs.

(* a destination of length 0 reads nothing and changes nothing, in every state (XZ: since the F13
   fix; before it the empty read was mistaken for the end of the block, see xz_empty_buffer_refuted) *)
Lemma xzr_read_zero s n : n <= 0 -> xzr_read xz_fixed s n = Ok ([], s).
Proof. intros Hn. unfold xzr_read. cbn [fx13 xz_fixed andb]. destruct (Z.leb_spec n 0); [reflexivity | lia]. Qed.

(* XZReader call by call on a file the writer produced (LZMA2 payloads, Delta pre-filters or none):
   for EVERY history of positive destination sizes the calls return, piece by piece, exactly the
   bytes written, then Ok(0); the source is left behind the stream footer.  Together with
   C02_xz_lzma2_delta: the call-by-call model and the whole-file function xz_decode_c agree on
   these files, whatever the sizes. *)

Lemma deltas_decode_app : forall ds a b dsf o, xz_deltas_decode ds (a ++ b) = Ok (dsf, o) ->
  exists ds1 oa ob, xz_deltas_decode ds a = Ok (ds1, oa) /\ xz_deltas_decode ds1 b = Ok (dsf, ob) /\ o = oa ++ ob.
Proof.
  induction ds as [|d t IH]; intros a b dsf o H.
  - cbn [xz_deltas_decode] in *. inversion H; subst. exists [], a, b. auto.
  - cbn [xz_deltas_decode] in H.
    destruct (xz_deltas_decode t (a ++ b)) as [[t1 b1]| | |] eqn:Ei; try discriminate. cbn [obind] in H.
    destruct (IH a b t1 b1 Ei) as (t' & ia & ib & Ea & Eb & ->).
    unfold delta_decode in H. rewrite delta_run_app in H.
    destruct (delta_run delta_dec_byte d ia) as [[d' oa]|] eqn:Eda; [|discriminate].
    destruct (delta_run delta_dec_byte d' ib) as [[d'' ob]|] eqn:Edb; [|discriminate].
    inversion H; subst dsf o; clear H.
    exists (d' :: t'), oa, ob. cbn [xz_deltas_decode]. rewrite Ea, Eb. cbn [obind]. unfold delta_decode.
    rewrite Eda, Edb. auto.
Qed.

Lemma delta_run_len step : forall l d d' o, delta_run step d l = Some (d', o) -> length o = length l.
Proof.
  induction l as [|x t IH]; intros d d' o H; cbn [delta_run] in H.
  - inversion H. reflexivity.
  - destruct (step d x) as [[d1 y]|]; [|discriminate].
    destruct (delta_run step d1 t) as [[d2 ys]|] eqn:E2; [|discriminate].
    inversion H; subst. cbn [length]. f_equal. eapply IH. exact E2.
Qed.

Lemma deltas_decode_len : forall ds raw ds' o, xz_deltas_decode ds raw = Ok (ds', o) -> length o = length raw.
Proof.
  induction ds as [|d t IH]; intros raw ds' o H; cbn [xz_deltas_decode] in H.
  - inversion H. reflexivity.
  - destruct (xz_deltas_decode t raw) as [[t1 b1]| | |] eqn:Ei; try discriminate. cbn [obind] in H.
    destruct (delta_decode d b1) as [[d1 b2]|] eqn:Ed; [|discriminate]. inversion H; subst.
    rewrite (delta_run_len _ _ _ _ _ Ed). eapply IH. exact Ei.
Qed.

Section Stream.
  Variables lc lp pb : Z.
  Variable ch : Z -> list Z -> list l2ev.
  Hypothesis Hpar : l2_params_ok lc lp pb.
  Hypothesis Hch : l2_codec_ok lc lp pb ch.
  Variable o : xzopts.
  Hypothesis Hopts : opts_ok o.
  Hypothesis Hfs : only_delta (xo_filters o).
  Hypothesis Hd : 4096 <= xo_dict o <= 2147483648.
  Variable h : list Z.                 (* the block header (the same for every block) *)
  Variable recs : list (Z * Z).
  Variable idx : list Z.
  Hypothesis Rk : recs_ok recs.
  Hypothesis Ei : xz_index recs = Ok idx.
  Variable rest : list Z.              (* what follows the stream in the source *)
  Variable multi : bool.
  Hypothesis Hmulti : multi = true -> rest = [].
  Variable total : Z.                  (* length of the whole source *)

  Notation penc := (l2_penc lc lp pb ch).
  Notation ct := (xo_check o).
  Definition pay (c : list Z) : list Z := payload_of penc delta_fenc o c.
  Definition raw_of (c : list Z) : list Z := chain_enc delta_fenc (xo_filters o) c.
  Definition blk_tail (c : list Z) (follow : list Z) : list Z :=
    repeatn 0 (Z.to_nat (pad4 (zlen (pay c)))) ++ xz_check_bytes ct c ++ follow.
  Definition after (todo : list (list Z)) : list Z :=
    concat (map (xz_blk penc delta_fenc o h) todo) ++ idx ++ xz_stream_footer ct recs ++ rest.

  Lemma Hk : check_known ct = true.
  Proof. destruct Hopts as [H1 _]. exact H1. Qed.

  Lemma after_cons c todo : after (c :: todo) = h ++ pay c ++ blk_tail c (after todo).
  Proof. unfold after, xz_blk, blk_tail, pay. cbn [map concat]. rewrite <- !app_assoc. reflexivity. Qed.

  Definition cgood (c : list Z) : Prop := 1 <= zlen c /\ bytes_ok c = true.

  (* between two blocks, inside one read() call *)
  Definition Between (s : xzr) (todo : list (list Z)) : Prop :=
    r_block s = None /\ r_src s = after todo /\ r_total s = total /\ r_multi s = multi /\
    r_blocks s + zlen todo = zlen recs /\ (total - zlen (after todo)) mod 4 = 0 /\
    (todo <> [] -> xz_block_header o = Ok h).

  (* inside block c, [rem_c] of its content still to deliver, [todo] the blocks after it *)
  Definition InBlock (s : xzr) (c : list Z) (todo : list (list Z)) (rem_c : list Z) : Prop :=
    exists bk rem_raw dd,
      r_block s = Some bk /\ r_check s = Some ct /\ r_finished s = false /\ r_total s = total /\ r_multi s = multi /\
      r_blocks s + zlen todo = zlen recs /\ xo_dict o <= dd /\ bytes_ok c = true /\
      l2_rs lc lp pb (xo_dict o) dd (raw_of c) (blk_tail c (after todo)) (bk_lz bk) rem_raw /\
      (exists dsf, xz_deltas_decode (bk_deltas bk) rem_raw = Ok (dsf, rem_c)) /\
      c = rev (bk_content bk) ++ rem_c /\
      (total - zlen (blk_tail c (after todo)) - zlen (pay c)) mod 4 = 0 /\
      (todo <> [] -> xz_block_header o = Ok h).

  Definition Fin (s : xzr) : Prop := r_finished s = true /\ r_block s = None /\ r_src s = rest.

  Lemma raw_bytes c : bytes_ok c = true -> bytes_ok (raw_of c) = true.
  Proof. intros Hb. apply (chain_enc_bytes delta_fenc delta_fenc_bytes). exact Hb. Qed.

  Lemma pay_stream c : bytes_ok c = true ->
    l2_no_end (ch (xo_dict o) (raw_of c)) /\ lzma2_write lc lp pb (xo_dict o) None (raw_of c) (ch (xo_dict o) (raw_of c)) = Ok (pay c).
  Proof.
    intros Hb. destruct (Hch (xo_dict o) (raw_of c) Hd (raw_bytes c Hb)) as (Hne & s & Hw).
    split; [exact Hne|]. unfold pay, payload_of, l2_penc. fold (raw_of c). rewrite Hw. reflexivity.
  Qed.

  (* the end of the stream: index, footer, and - with multi-stream decoding - the end of the input *)
  Lemma L_end s f sz : Between s [] ->
    exists s', xzr_read_loop (S f) xz_fixed s ct sz = Ok ([], s') /\ Fin s'.
  Proof.
    intros (Hb & Hsrc & Ht & Hm & Hn & _ & _). cbn [xzr_read_loop]. rewrite Hb, Hsrc.
    unfold after. cbn [map concat app].
    destruct (xz_index_and_footer_rt ct recs idx rest Hk Rk Ei) as (t & Et & _ & IF).
    rewrite Et. cbn [app xz_parse_block_header]. change (0 =? 0) with true. cbv iota. cbn [obind].
    change (zlen (@nil (list Z))) with 0 in Hn. replace (r_blocks s) with (zlen recs) by lia.
    rewrite IF. cbn [obind]. rewrite Hm. destruct multi eqn:Em.
    - rewrite (Hmulti eq_refl). pose proof (try_next_end 0 ltac:(lia)) as Te. cbn [Z.to_nat repeatn] in Te.
      rewrite Te. cbn [Z.modulo Z.div_eucl Z.eqb obind]. eexists. split; [reflexivity|].
      unfold Fin, xzr_set. cbn [r_finished r_block r_src]. rewrite (Hmulti eq_refl). auto.
    - eexists. split; [reflexivity|]. unfold Fin, xzr_set. cbn [r_finished r_block r_src]. auto.
  Qed.

  (* a block starts: header, reader chain *)
  Lemma L_start s c todo f sz : Between s (c :: todo) -> bytes_ok c = true ->
    exists s1, xzr_read_loop (S f) xz_fixed s ct sz = xzr_read_loop f xz_fixed s1 ct sz /\ InBlock s1 c todo c.
  Proof.
    intros (Hb & Hsrc & Ht & Hm & Hn & Hal & Hh) Hbc. specialize (Hh ltac:(discriminate)).
    cbn [xzr_read_loop]. rewrite Hb, Hsrc, after_cons.
    destruct (xz_block_header_rt o h (pay c ++ blk_tail c (after todo)) Hopts Hh) as (dd & Hdd & Ph & Hh4 & _).
    rewrite Ph. cbn [obind bh_filters]. rewrite (chain_deltas_delta dd _ Hfs). cbn [obind].
    assert (Edict : xz_chain_dict (xo_filters o ++ [(FLZMA2, dd)]) = dd).
    { unfold xz_chain_dict. rewrite frev_rev, rev_app_distr. reflexivity. }
    rewrite Edict.
    destruct Hpar as (Hlc & Hlp & Hs & Hpb). destruct (pay_stream c Hbc) as (Hne & Hw).
    destruct (l2_rs_new lc lp pb (xo_dict o) dd (raw_of c) _ (pay c) (blk_tail c (after todo)) Hlc Hlp Hs Hpb
                ltac:(lia) Hdd (raw_bytes c Hbc) Hne Hw) as (s0 & Enew & HR).
    rewrite Enew. cbn [obind]. eexists. split; [reflexivity|].
    exists (mkXzblock s0 (map (fun f => delta_new (snd f)) (xo_filters o)) []), (raw_of c), dd.
    unfold xzr_set. cbn [r_block r_check r_finished r_total r_multi r_blocks bk_lz bk_deltas bk_content rev app].
    split; [reflexivity|]. split; [reflexivity|]. split; [reflexivity|]. split; [exact Ht|]. split; [exact Hm|].
    split; [unfold zlen in Hn |- *; cbn [length] in Hn; lia|]. split; [exact Hdd|]. split; [exact Hbc|]. split; [exact HR|].
    split.
    { destruct (deltas_decode_chain _ Hfs (raw_of c)) as (ds' & E). exists ds'. rewrite E. f_equal. f_equal.
      unfold raw_of. apply (chain_dec_enc_b delta_fenc delta_fdec delta_fdec_fenc delta_fenc_bytes). exact Hbc. }
    split; [reflexivity|].
    split.
    { rewrite after_cons, !zlen_app in Hal. (Z.div_mod_to_equations; lia). }
    intros Hne'. exact Hh.
  Qed.

  (* inside a block with content left: one LZMA2 read, the Delta readers *)
  Lemma L_in s c todo rem_c f sz : InBlock s c todo rem_c -> rem_c <> [] -> 0 < sz ->
    exists out s' rem', xzr_read_loop (S f) xz_fixed s ct sz = Ok (out, s') /\ rem_c = out ++ rem' /\ out <> [] /\
      InBlock s' c todo rem'.
  Proof.
    intros (bk & rem_raw & dd & Hb & Hc & Hfin & Ht & Hm & Hn & Hdd & Hbc & HR & (dsf & Hde) & Hcont & Hal & Hh) Hne Hsz.
    destruct Hpar as (Hlc & Hlp & Hs & Hpb).
    cbn [xzr_read_loop]. rewrite Hb.
    destruct (l2_rs_read lc lp pb (xo_dict o) dd (raw_of c) _ (bk_lz bk) rem_raw sz Hlc Hlp Hs Hpb ltac:(lia) Hdd
                (raw_bytes c Hbc) HR Hsz) as (raw & lz1 & rem_raw' & Hrd & Hrr & HR' & _ & Hnonempty).
    rewrite Hrd. cbn [obind].
    assert (Hrawne : raw <> []).
    { apply Hnonempty. intros X. rewrite X in Hde. apply deltas_decode_len in Hde. destruct rem_c; [congruence | cbn [length] in Hde; discriminate Hde]. }
    rewrite Hrr in Hde. destruct (deltas_decode_app _ _ _ _ _ Hde) as (ds1 & oa & ob & Ea & Eb & Eo).
    destruct raw as [|r0 raw']; [congruence|]. rewrite Ea. cbn [obind].
    exists oa. eexists. exists ob. split; [reflexivity|]. split; [exact Eo|].
    split; [apply deltas_decode_len in Ea; destruct oa; [cbn [length] in Ea; discriminate Ea | congruence]|].
    exists (mkXzblock lz1 ds1 (rev_append oa (bk_content bk))), rem_raw', dd.
    unfold xzr_set. cbn [r_block r_check r_finished r_total r_multi r_blocks bk_lz bk_deltas bk_content].
    split; [reflexivity|]. split; [reflexivity|]. split; [reflexivity|]. split; [exact Ht|]. split; [exact Hm|].
    split; [exact Hn|]. split; [exact Hdd|]. split; [exact Hbc|]. split; [exact HR'|].
    split; [exists dsf; exact Eb|].
    split; [rewrite rev_append_rev, rev_app_distr, rev_involutive, <- app_assoc, <- Eo; exact Hcont|].
    split; [exact Hal | exact Hh].
  Qed.

  (* a block is exhausted: end of the LZMA2 stream, block padding, check *)
  Lemma L_in_done s c todo f sz : InBlock s c todo [] -> 0 < sz ->
    exists s1, xzr_read_loop (S f) xz_fixed s ct sz = xzr_read_loop f xz_fixed s1 ct sz /\ Between s1 todo.
  Proof.
    intros (bk & rem_raw & dd & Hb & Hc & Hfin & Ht & Hm & Hn & Hdd & Hbc & HR & (dsf & Hde) & Hcont & Hal & Hh) Hsz.
    destruct Hpar as (Hlc & Hlp & Hs & Hpb).
    assert (rem_raw = []) by (apply deltas_decode_len in Hde; destruct rem_raw; [reflexivity | cbn [length] in Hde; discriminate Hde]). subst rem_raw.
    cbn [xzr_read_loop]. rewrite Hb.
    destruct (l2_rs_read lc lp pb (xo_dict o) dd (raw_of c) _ (bk_lz bk) [] sz Hlc Hlp Hs Hpb ltac:(lia) Hdd
                (raw_bytes c Hbc) HR Hsz) as (raw & lz1 & rem_raw' & Hrd & Hrr & _ & Hempty & _).
    symmetry in Hrr. apply app_eq_nil in Hrr as [-> ->]. destruct (Hempty eq_refl) as (_ & Hin).
    rewrite Hrd. cbn [obind]. rewrite Hin, Ht.
    set (T := blk_tail c (after todo)) in *.
    assert (Ppos : pad4 (total - zlen T) = pad4 (zlen (pay c))).
    { replace (total - zlen T) with ((total - zlen T - zlen (pay c)) + zlen (pay c)) by lia. apply pad4_add. exact Hal. }
    unfold T at 2. unfold blk_tail. rewrite (xz_consume_padding_ok _ _ _ Ppos). cbn [obind].
    rewrite app_nil_r in Hcont. rewrite frev_rev, <- Hcont.
    rewrite (xz_verify_check_ok ct c _ Hk). cbn [obind].
    eexists. split; [reflexivity|].
    unfold Between, xzr_set. cbn [r_block r_src r_total r_multi r_blocks].
    split; [reflexivity|]. split; [reflexivity|]. split; [exact Ht|]. split; [exact Hm|]. split; [exact Hn|].
    split; [|exact Hh].
    unfold T, blk_tail in Hal. rewrite !zlen_app, zlen_repeatn in Hal.
    pose proof (pad4_sum (zlen (pay c))) as Hsum. pose proof (pad4_range (zlen (pay c))) as Hpr.
    destruct (check_size_mod4 _ Hk) as [Hc4 _]. rewrite (zlen_check_bytes ct c Hk) in Hal. (Z.div_mod_to_equations; lia).
  Qed.

  (* the state between two read() calls, and the data still owed *)
  Definition SI (s : xzr) (R : list Z) : Prop :=
    (exists todo, s = mkXzr (xz_stream_header ct ++ after todo) total None None false multi 0 /\
                  zlen todo = zlen recs /\ (todo <> [] -> xz_block_header o = Ok h) /\
                  Forall cgood todo /\ (total - zlen (after todo)) mod 4 = 0 /\ R = concat todo) \/
    (exists c todo rem_c, InBlock s c todo rem_c /\ Forall cgood todo /\ R = rem_c ++ concat todo).

  Lemma concat_cgood_nonempty c todo : cgood c -> c ++ concat todo <> [].
  Proof. intros (H1 & _) X. apply app_eq_nil in X as [-> _]. cbn in H1. lia. Qed.

  (* from between two blocks to the next bytes, or to the end *)
  Lemma L_between s todo f sz : Between s todo -> Forall cgood todo -> 0 < sz ->
    exists out s' R', xzr_read_loop (S (S f)) xz_fixed s ct sz = Ok (out, s') /\ concat todo = out ++ R' /\
      ((out <> [] /\ SI s' R') \/ (R' = [] /\ Fin s')).
  Proof.
    intros HB Hg Hsz. destruct todo as [|c todo'].
    - destruct (L_end s (S f) sz HB) as (s' & E & HF). exists [], s', []. auto.
    - inversion Hg as [|x l (Hc1 & Hcb) Hgt]; subst x l.
      destruct (L_start s c todo' (S f) sz HB Hcb) as (s1 & E1 & HI).
      assert (Hne : c <> []) by (intros X; subst c; cbn in Hc1; lia).
      destruct (L_in s1 c todo' c f sz HI Hne Hsz) as (out & s' & rem' & E2 & Hr & Ho & HI').
      exists out, s', (rem' ++ concat todo'). rewrite E1, E2. split; [reflexivity|].
      split; [cbn [concat]; rewrite Hr, <- app_assoc; reflexivity|].
      left. split; [exact Ho|]. right. exists c, todo', rem'. auto.
  Qed.

  Lemma read_step s R sz : SI s R -> 0 < sz ->
    exists out s' R', xzr_read xz_fixed s sz = Ok (out, s') /\ R = out ++ R' /\
      ((out <> [] /\ SI s' R') \/ (R' = [] /\ Fin s')).
  Proof.
    intros HS Hsz. unfold xzr_read. cbn [fx13 xz_fixed andb].
    destruct (Z.leb_spec sz 0) as [?|_]; [lia|].
    assert (Hfuel : exists f, (Z.to_nat (r_total s) + 4)%nat = S (S (S f))) by (exists (Z.to_nat (r_total s) + 1)%nat; lia).
    destruct Hfuel as (f & Hfuel).
    destruct HS as [(todo & -> & Hlen & Hh & Hg & Hinit & ->) | (c & todo & rem_c & HI & Hg & ->)].
    - (* first call: stream header *)
      cbn [r_finished r_check r_src]. rewrite (xz_parse_stream_header_ok ct _ Hk). cbn [obind fst snd].
      cbn [r_total] in Hfuel. cbn [r_total]. rewrite Hfuel.
      set (s1 := xzr_set _ _ _ _ _ _).
      assert (HB : Between s1 todo).
      { unfold Between, s1, xzr_set. cbn [r_block r_src r_total r_multi r_blocks].
        split; [reflexivity|]. split; [reflexivity|]. split; [reflexivity|]. split; [reflexivity|].
        split; [lia|]. split; [exact Hinit | exact Hh]. }
      exact (L_between s1 todo (S f) sz HB Hg Hsz).
    - (* inside a block *)
      pose proof HI as (bk & rem_raw & dd & Hb & Hc & Hfin & Ht & _).
      rewrite Hfin, Hc. cbn [obind]. rewrite Hfuel.
      destruct rem_c as [|r0 rem_c'].
      + destruct (L_in_done s c todo (S (S f)) sz HI Hsz) as (s1 & E1 & HB). rewrite E1.
        exact (L_between s1 todo f sz HB Hg Hsz).
      + destruct (L_in s c todo (r0 :: rem_c') (S (S f)) sz HI ltac:(discriminate) Hsz) as (out & s' & rem' & E & Hr & Ho & HI').
        rewrite E. exists out, s', (rem' ++ concat todo). split; [reflexivity|].
        split; [rewrite Hr, <- app_assoc; reflexivity|].
        left. split; [exact Ho|]. right. exists c, todo, rem'. auto.
  Qed.

  Lemma read_fin s sz : Fin s -> 0 < sz -> xzr_read xz_fixed s sz = Ok ([], s).
  Proof.
    intros (Hf & _) Hsz. unfold xzr_read. cbn [fx13 xz_fixed andb].
    destruct (Z.leb_spec sz 0) as [?|_]; [lia|]. rewrite Hf. reflexivity.
  Qed.

  Lemma xzr_read_all_step f s sizes all acc out s1 :
    xzr_read xz_fixed s (fst (next_size sizes all)) = Ok (out, s1) ->
    xzr_read_all (S f) xz_fixed s sizes all acc =
    if (0 <? fst (next_size sizes all)) && (zlen out =? 0) then Ok (frev acc, 0, s1)
    else xzr_read_all f xz_fixed s1
           (match snd (next_size sizes all) with [] => all | _ => snd (next_size sizes all) end)
           all (rev_append out acc).
  Proof. intros H. cbn [xzr_read_all]. destruct sizes as [|x r]; cbn [next_size fst snd] in H |- *; rewrite H; reflexivity. Qed.

  Theorem read_all_ok : forall fuel s R sizes all acc,
    SI s R -> Forall (fun z => 0 < z) sizes -> Forall (fun z => 0 < z) all -> (length R + 2 <= fuel)%nat ->
    exists st, xzr_read_all fuel xz_fixed s sizes all acc = Ok (rev acc ++ R, 0, st) /\ Fin st.
  Proof.
    exact (ReadLoopProofs.read_all_ok xzr _ (xzr_read xz_fixed) (fun f => xzr_read_all f xz_fixed)
             (fun l s => (l, 0, s)) SI Fin xzr_read_all_step read_step read_fin).
  Qed.
End Stream.

(* XZReader::read under EVERY history of positive destination sizes (cycled): the bytes written,
   then end of stream; the source is left behind the stream.  [multi] = true (allow multiple
   streams) is covered when nothing follows the stream; [multi] = false for any following bytes. *)
Theorem xzr_read_all_rt : forall lc lp pb ch, l2_params_ok lc lp pb -> l2_codec_ok lc lp pb ch ->
  forall o0 parts f rest multi sizes, stream_ok o0 -> only_delta (xo_filters o0) ->
    4096 <= xo_dict o0 <= 2147483648 -> bytes_ok (concat parts) = true ->
    xz_encode (l2_penc lc lp pb ch) delta_fenc xz_fixed o0 parts = Ok f ->
    (multi = true -> rest = []) -> Forall (fun z => 0 < z) sizes ->
    forall fuel, (length (concat parts) + 2 <= fuel)%nat ->
    exists st, xzr_read_all fuel xz_fixed (xzr_new (f ++ rest) multi) sizes sizes [] = Ok (concat parts, 0, st) /\
               xzr_unconsumed st = rest.
Proof.
  intros lc lp pb ch Hpar Hch o0 parts f rest multi sizes Hok Hfs Hd Hb E Hmulti Hsizes fuel Hfuel.
  destruct (xz_encode_inv _ _ o0 parts f Hok E) as (o & blocks & h & idx & Eo & Hopts & Ebl & Hcat & Hh & Ei & ->).
  destruct (xzw_new_inv o0 o Eo) as (_ & Ef & Ed & Ebs).
  destruct (xz_blks_ok (l2_penc lc lp pb ch) delta_fenc o h blocks Hopts Hh) as (_ & _ & Rk).
  set (recs := map (xz_rec (l2_penc lc lp pb ch) delta_fenc o h) blocks) in *.
  assert (Lr : zlen recs = zlen blocks) by (unfold recs, zlen; rewrite map_length; reflexivity).
  assert (Hcg : Forall cgood blocks).
  { pose proof Hb as Hb'. rewrite <- Hcat in Hb'. apply Forall_bytes_concat in Hb'.
    pose proof (xz_blocks_nonempty (xo_block_size o) parts blocks) as Hne. rewrite Ebs in Hne.
    specialize (Hne ltac:(destruct Hok as [_ Hbs]; destruct (xo_block_size o0); [lia | exact I]) ltac:(rewrite <- Ebs; exact Ebl)).
    rewrite Forall_forall in *. intros c Hc. split; [exact (Hne c Hc) | exact (Hb' c Hc)]. }
  set (src := (xz_stream_header (xo_check o) ++ concat (map (xz_blk (l2_penc lc lp pb ch) delta_fenc o h) blocks) ++ idx ++
               xz_stream_footer (xo_check o) recs) ++ rest).
  assert (Esrc : src = xz_stream_header (xo_check o) ++ after lc lp pb ch o h recs idx rest blocks).
  { unfold src, after. rewrite <- !app_assoc. reflexivity. }
  assert (Hfs' : only_delta (xo_filters o)) by (rewrite Ef; exact Hfs).
  assert (Hd' : 4096 <= xo_dict o <= 2147483648) by (rewrite Ed; exact Hd).
  destruct (read_all_ok lc lp pb ch Hpar Hch o Hopts Hfs' Hd' h recs idx Rk Ei rest multi Hmulti (zlen src) fuel
              (xzr_new src multi) (concat blocks) sizes sizes []) as (st & Hra & (_ & Hbk & Hsrc)).
  - left. exists blocks. unfold xzr_new. split; [rewrite Esrc at 1; reflexivity|].
    split; [lia|]. split; [exact Hh|]. split; [exact Hcg|]. split; [|reflexivity].
    rewrite Esrc, zlen_app, zlen_stream_header. (Z.div_mod_to_equations; lia).
  - exact Hsizes.
  - exact Hsizes.
  - rewrite Hcat. exact Hfuel.
  - exists st. cbn [rev app] in Hra. rewrite Hcat in Hra. split; [exact Hra|].
    unfold xzr_unconsumed. rewrite Hbk. exact Hsrc.
Qed.

Print Assumptions xzr_read_all_rt.

(* the call-by-call model and the whole-file function agree on these files *)
Theorem xzr_read_all_is_decode : forall lc lp pb ch, l2_params_ok lc lp pb -> l2_codec_ok lc lp pb ch ->
  forall o0 parts f multi sizes, stream_ok o0 -> only_delta (xo_filters o0) ->
    4096 <= xo_dict o0 <= 2147483648 -> bytes_ok (concat parts) = true ->
    xz_encode (l2_penc lc lp pb ch) delta_fenc xz_fixed o0 parts = Ok f ->
    Forall (fun z => 0 < z) sizes ->
    forall fuel, (length (concat parts) + 2 <= fuel)%nat ->
    exists content left st,
      xz_decode_c xz_fixed multi f = Ok (content, left) /\
      xzr_read_all fuel xz_fixed (xzr_new f multi) sizes sizes [] = Ok (content, 0, st) /\
      xzr_unconsumed st = left.
Proof.
  intros lc lp pb ch Hpar Hch o0 parts f multi sizes Hok Hfs Hd Hb E Hsizes fuel Hfuel.
  destruct (xzr_read_all_rt lc lp pb ch Hpar Hch o0 parts f [] multi sizes Hok Hfs Hd Hb E ltac:(reflexivity) Hsizes fuel Hfuel)
    as (st & Hra & Hun).
  rewrite app_nil_r in Hra.
  exists (concat parts), [], st. split; [|split; assumption].
  exact (C02_xz_lzma2_delta_thm lc lp pb ch Hpar Hch o0 parts f multi Hok Hfs Hd Hb E).
Qed.
