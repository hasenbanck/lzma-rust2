(* Format/LzipReaderProofs.v — LZIPReader call by call (lzr_read of LzipFormat.v) on a sequence of
   members with LZMA payloads (lm_file (l1_penc ch) ms): for EVERY history of positive destination
   sizes the calls return, piece by piece, the concatenated contents, then Ok(0), the whole input
   consumed - what the whole-file function lz_decode returns (C12_lzip_multi_lzma1).
   Members after the first must be non-empty (the writer produces either non-empty members or the
   single empty member of an empty input). *)
From LzVerif Require Import Base.Bytes Codec.Store Codec.Range Codec.LzWindow Codec.LzmaDec Codec.LzmaEnc
  Codec.LzmaWriters Codec.Lzma1 Codec.LzmaRoundtrip Codec.RangeEncProofs Codec.RangeProofs Codec.Lzma1LoopProofs
  Codec.Lzma1ReadProofs Codec.Lzma2LoopProofs
  Format.Crc Format.CrcProofs Format.LzipFormat Format.LzipDict Format.LzipDictProofs
  Format.LzipSplitProofs Format.LzipProofs
  Format.PayloadLzma1Proofs Format.ComposeProofs Codec.ReadLoopProofs.

(* a destination of length 0 reads nothing and changes nothing, in every state *)
Lemma lzr_read_zero fx s n : n <= 0 -> lzr_read fx s n = Ok ([], s).
Proof. intros Hn. unfold lzr_read. destruct (Z.leb_spec n 0); [reflexivity | lia]. Qed.

Section LzStream.
  Variable ch : Z -> list Z -> list sym.
  Notation penc := (l1_penc ch).

  Definition mgood (m : lzm) : Prop :=
    lm_ok penc m /\ 4096 <= lm_dict m /\ l1_member_ok ch (lm_dict m) (lm_content m).

  Definition mpay (m : lzm) : list Z := penc (lm_dict m) (lm_content m).
  Definition mtail (m : lzm) (follow : list Z) : list Z :=
    le_bytes 4 (crc32 (lm_content m)) ++ le_bytes 8 (zlen (lm_content m)) ++
    le_bytes 8 (LZIP_HEADER_SIZE + zlen (mpay m) + LZIP_TRAILER_SIZE) ++ follow.

  Lemma lm_file_member m todo :
    lm_file penc (m :: todo) = LZIP_MAGIC ++ [1; lm_byte m] ++ mpay m ++ mtail m (lm_file penc todo).
  Proof. unfold lm_file. cbn [map concat]. unfold lm_bytes, lz_member, mtail, mpay. rewrite <- !app_assoc. reflexivity. Qed.

  (* inside member m, k bytes of its content delivered, [todo] the members after it *)
  Definition InMember (s : lzr) (m : lzm) (todo : list lzm) (k : nat) : Prop :=
    exists mb, z_member s = Some mb /\ z_seen s = true /\ mgood m /\
      l1_rs (lm_content m) (mtail m (lm_file penc todo)) (mb_lz mb) k /\
      mb_content mb = rev (firstn k (lm_content m)) /\
      mb_avail mb = zlen (mpay m ++ mtail m (lm_file penc todo)).

  Definition Fin (s : lzr) : Prop := z_member s = None /\ z_finished s = true /\ z_src s = [].

  (* start_next_member on a member / at the end of the input *)
  Lemma start_member m todo seen fin : mgood m ->
    exists s1, lzr_start_member lz_fixed (mkLzr (lm_file penc (m :: todo)) None seen fin) = Ok (true, s1) /\
               InMember s1 m todo 0.
  Proof.
    intros Hg. pose proof Hg as (((dd & Hdd & Hle) & Hb & _) & Hd4 & (Hne & (st & Hw) & Hbits)).
    unfold lzr_start_member. cbn [z_src z_seen z_finished]. rewrite lm_file_member.
    rewrite (lz_header_ok (negb seen) _ dd _ Hdd). cbn [obind].
    pose proof (lzip_decode_dict_range _ _ Hdd) as Hr. unfold LZIP_MIN_DICT, LZIP_MAX_DICT in Hr.
    assert (Ep : mpay m = st) by (unfold mpay, l1_penc; rewrite Hw; reflexivity).
    destruct (l1_rs_new 3 0 2 (lm_dict m) dd (lm_content m) _ st (mtail m (lm_file penc todo)) ltac:(lia) ltac:(lia) ltac:(lia) Hd4 Hle ltac:(lia) Hb Hne Hw Hbits)
      as (s0 & Ec & HR).
    rewrite Ep, Ec. cbn [obind]. eexists. split; [reflexivity|].
    eexists. cbn [z_member z_seen mb_lz mb_content mb_avail firstn rev].
    split; [reflexivity|]. split; [reflexivity|]. split; [exact Hg|]. split; [exact HR|]. split; [reflexivity|].
    rewrite Ep. reflexivity.
  Qed.

  (* read() inside a member with content left *)
  Lemma L_read_in s m todo k f sz : InMember s m todo k -> (k < length (lm_content m))%nat -> 0 < sz ->
    exists j s', lzr_read_loop (S f) lz_fixed s sz = Ok (seg (lm_content m) k j, s') /\ (0 < j)%nat /\
      (k + j <= length (lm_content m))%nat /\ InMember s' m todo (k + j).
  Proof.
    intros (mb & Hm & Hseen & Hg & HR & Hc & Ha) Hk Hsz. cbn [lzr_read_loop]. rewrite Hm.
    destruct (l1_rs_read _ _ _ _ sz HR Hsz) as (j & lz1 & Hrd & Hkj & HR' & _ & Hpos). specialize (Hpos Hk).
    rewrite Hrd. cbn [obind].
    assert (Hlen : length (seg (lm_content m) k j) = j) by (apply seg_length; lia).
    destruct (seg (lm_content m) k j) as [|b out'] eqn:Eo; [cbn [length] in Hlen; lia|].
    exists j. eexists. split; [rewrite Eo; reflexivity|]. split; [exact Hpos|]. split; [exact Hkj|].
    eexists. cbn [z_member z_seen mb_lz mb_content mb_avail].
    split; [reflexivity|]. split; [exact Hseen|]. split; [exact Hg|]. split; [exact HR'|]. split; [|exact Ha].
    rewrite rev_append_rev, Hc, <- rev_app_distr, <- Eo. unfold seg. rewrite firstn_skipn_add. reflexivity.
  Qed.

  (* read() when the member's content is exhausted: end marker, trailer, next member header *)
  Lemma L_finish s m todo f sz : InMember s m todo (length (lm_content m)) -> 0 < sz ->
    match todo with
    | [] => exists s', lzr_read_loop (S f) lz_fixed s sz = Ok ([], s') /\ Fin s'
    | m' :: todo' => mgood m' ->
        exists s1, lzr_read_loop (S f) lz_fixed s sz = lzr_read_loop f lz_fixed s1 sz /\ InMember s1 m' todo' 0
    end.
  Proof.
    intros (mb & Hm & Hseen & Hg & HR & Hc & Ha) Hsz.
    assert (Hread : exists lz1, lzma1_read (mb_lz mb) sz = Ok ([], lz1) /\ lzma1_unconsumed lz1 = mtail m (lm_file penc todo)).
    { destruct (l1_rs_read _ _ _ _ sz HR Hsz) as (j & lz1 & Hrd & Hkj & _ & Hzero & _).
      assert (j = 0%nat) by lia. subst j. rewrite seg_nil in Hrd. exists lz1. split; [exact Hrd|].
      apply Hzero. reflexivity. }
    destruct Hread as (lz1 & Hrd & Hun).
    (* the trailer check *)
    pose proof Hg as (((dd & Hdd & Hle) & Hb & Hc64 & Hp64) & _).
    assert (Hcont : frev (mb_content mb) = lm_content m).
    { rewrite frev_rev, Hc, rev_involutive. apply firstn_all. }
    assert (Htr : forall follow,
              lz_check_trailer (crc32 (lm_content m)) (zlen (lm_content m))
                (zlen (mpay m ++ mtail m follow) - zlen (mtail m follow)) (mtail m follow) = Ok follow).
    { intros follow. rewrite zlen_app, Z.add_simpl_r. unfold mtail.
      apply lz_check_trailer_ok; [exact Hb | exact Hc64 | apply zlen_nonneg | exact Hp64]. }
    destruct todo as [|m' todo'].
    - cbn [lzr_read_loop]. rewrite Hm, Hrd. cbn [obind]. rewrite Hun, Hcont, Ha, Htr. cbn [obind].
      unfold lm_file. cbn [map concat lzr_start_member lz_parse_header fz6 lz_fixed]. cbn [obind z_src z_seen].
      eexists. split; [reflexivity|]. unfold Fin. cbn [z_member z_finished z_src]. auto.
    - intros Hg'. cbn [lzr_read_loop]. rewrite Hm, Hrd. cbn [obind]. rewrite Hun, Hcont, Ha, Htr. cbn [obind].
      destruct (start_member m' todo' (z_seen s) false Hg') as (s1 & Es & HI). rewrite Es. cbn [obind].
      exists s1. split; [reflexivity | exact HI].
  Qed.

  Definition nonempty_m (m : lzm) : Prop := lm_content m <> [].

  (* the state between two read() calls, and the data still owed *)
  Definition SI (s : lzr) (R : list Z) : Prop :=
    (exists m todo, s = lzr_new (lm_file penc (m :: todo)) /\ Forall mgood (m :: todo) /\ Forall nonempty_m todo /\
                    R = lm_data (m :: todo)) \/
    (exists m todo k, InMember s m todo k /\ (k <= length (lm_content m))%nat /\ Forall mgood todo /\
                      Forall nonempty_m todo /\ R = skipn k (lm_content m) ++ lm_data todo).

  Lemma seg_rest {A} (l : list A) k j : seg l k j ++ skipn (k + j) l = skipn k l.
  Proof. unfold seg. rewrite <- skipn_skipn. apply firstn_skipn. Qed.

  Lemma seg_nonempty {A} (l : list A) k j : (0 < j)%nat -> (k + j <= length l)%nat -> seg l k j <> [].
  Proof. intros Hj Hkj X. apply (f_equal (@length A)) in X. rewrite seg_length in X by lia. cbn [length] in X. lia. Qed.

  (* from inside a member (k bytes delivered) to the next bytes or to the end; two rounds of the loop suffice *)
  Lemma L_from_member s m todo k f sz : InMember s m todo k -> (k <= length (lm_content m))%nat ->
    Forall mgood todo -> Forall nonempty_m todo -> 0 < sz ->
    exists out s' R', lzr_read_loop (S (S f)) lz_fixed s sz = Ok (out, s') /\
      skipn k (lm_content m) ++ lm_data todo = out ++ R' /\
      ((out <> [] /\ SI s' R') \/ (R' = [] /\ Fin s')).
  Proof.
    intros HI Hk Hg Hne Hsz.
    destruct (Nat.eq_dec k (length (lm_content m))) as [->|Hlt].
    - (* content exhausted *)
      pose proof (L_finish s m todo (S f) sz HI Hsz) as HF.
      rewrite skipn_all. cbn [app].
      destruct todo as [|m' todo'].
      + destruct HF as (s' & E & HFin). exists [], s', []. auto.
      + inversion Hg as [|x l Hgm Hgt]; subst x l. inversion Hne as [|x l Hnm Hnt]; subst x l.
        destruct (HF Hgm) as (s1 & E1 & HI1). rewrite E1.
        assert (Hpos : (0 < length (lm_content m'))%nat) by (unfold nonempty_m in Hnm; destruct (lm_content m'); [congruence | cbn [length]; lia]).
        destruct (L_read_in s1 m' todo' 0 f sz HI1 Hpos Hsz) as (j & s' & E2 & Hj & Hkj & HI2). rewrite E2.
        exists (seg (lm_content m') 0 j), s', (skipn j (lm_content m') ++ lm_data todo').
        split; [reflexivity|].
        split; [rewrite lm_data_cons, app_assoc; f_equal; symmetry; exact (seg_rest (lm_content m') 0 j)|].
        left. split; [apply seg_nonempty; assumption|]. right. exists m', todo', j. auto.
    - destruct (L_read_in s m todo k (S f) sz HI ltac:(lia) Hsz) as (j & s' & E & Hj & Hkj & HI').
      exists (seg (lm_content m) k j), s', (skipn (k + j) (lm_content m) ++ lm_data todo).
      split; [exact E|]. split; [rewrite app_assoc, seg_rest; reflexivity|].
      left. split; [apply seg_nonempty; assumption|]. right. exists m, todo, (k + j)%nat. auto.
  Qed.

  Lemma read_step s R sz : SI s R -> 0 < sz ->
    exists out s' R', lzr_read lz_fixed s sz = Ok (out, s') /\ R = out ++ R' /\
      ((out <> [] /\ SI s' R') \/ (R' = [] /\ Fin s')).
  Proof.
    intros HS Hsz. unfold lzr_read. destruct (Z.leb_spec sz 0) as [?|_]; [lia|].
    assert (Hfuel : exists f, (lzr_source_len s + 4)%nat = S (S (S f))) by (exists (lzr_source_len s + 1)%nat; lia).
    destruct Hfuel as (f & ->).
    destruct HS as [(m & todo & -> & Hg & Hne & ->) | (m & todo & k & HI & Hk & Hg & Hne & ->)].
    - (* first call *)
      inversion Hg as [|x l Hgm Hgt]; subst x l.
      destruct (start_member m todo false false Hgm) as (s1 & Es & HI).
      assert (E1 : lzr_read_loop (S (S (S f))) lz_fixed (lzr_new (lm_file penc (m :: todo))) sz
                   = lzr_read_loop (S (S f)) lz_fixed s1 sz).
      { cbn [lzr_read_loop]. unfold lzr_new. cbn [z_member z_finished]. rewrite Es. cbn [obind]. reflexivity. }
      rewrite E1, lm_data_cons. exact (L_from_member s1 m todo 0 f sz HI ltac:(lia) Hgt Hne Hsz).
    - exact (L_from_member s m todo k (S f) sz HI Hk Hg Hne Hsz).
  Qed.

  Lemma read_fin s sz : Fin s -> 0 < sz -> lzr_read lz_fixed s sz = Ok ([], s).
  Proof.
    intros (Hm & Hf & _) Hsz. unfold lzr_read. destruct (Z.leb_spec sz 0) as [?|_]; [lia|].
    replace (lzr_source_len s + 4)%nat with (S (lzr_source_len s + 3)) by lia. cbn [lzr_read_loop]. rewrite Hm, Hf. reflexivity.
  Qed.

  Lemma lzr_read_all_step f s sizes all acc out s1 :
    lzr_read lz_fixed s (fst (next_size sizes all)) = Ok (out, s1) ->
    lzr_read_all (S f) lz_fixed s sizes all acc =
    if (0 <? fst (next_size sizes all)) && (zlen out =? 0) then Ok (frev acc, 0, s1)
    else lzr_read_all f lz_fixed s1
           (match snd (next_size sizes all) with [] => all | _ => snd (next_size sizes all) end)
           all (rev_append out acc).
  Proof. intros H. cbn [lzr_read_all]. destruct sizes as [|x r]; cbn [next_size fst snd] in H |- *; rewrite H; reflexivity. Qed.

  Theorem read_all_ok : forall fuel s R sizes all acc,
    SI s R -> Forall (fun z => 0 < z) sizes -> Forall (fun z => 0 < z) all -> (length R + 2 <= fuel)%nat ->
    exists st, lzr_read_all fuel lz_fixed s sizes all acc = Ok (rev acc ++ R, 0, st) /\ Fin st.
  Proof.
    exact (ReadLoopProofs.read_all_ok lzr _ (lzr_read lz_fixed) (fun f => lzr_read_all f lz_fixed)
             (fun l s => (l, 0, s)) SI Fin lzr_read_all_step read_step read_fin).
  Qed.

  (* LZIPReader::read under EVERY history of positive destination sizes *)
  Theorem lzr_read_all_rt : forall m ms sizes fuel,
    Forall mgood (m :: ms) -> Forall nonempty_m ms -> Forall (fun z => 0 < z) sizes ->
    (length (lm_data (m :: ms)) + 2 <= fuel)%nat ->
    exists st, lzr_read_all fuel lz_fixed (lzr_new (lm_file penc (m :: ms))) sizes sizes [] = Ok (lm_data (m :: ms), 0, st) /\
               lzr_unconsumed st = [].
  Proof.
    intros m ms sizes fuel Hg Hne Hs Hf.
    destruct (read_all_ok fuel (lzr_new (lm_file penc (m :: ms))) (lm_data (m :: ms)) sizes sizes []) as (st & Hra & (Hm & _ & Hsrc)).
    - left. exists m, ms. auto.
    - exact Hs.
    - exact Hs.
    - exact Hf.
    - exists st. split; [exact Hra|]. unfold lzr_unconsumed. rewrite Hm. exact Hsrc.
  Qed.
End LzStream.

(* the call-by-call model returns what the whole-file function returns *)
Theorem lzr_read_all_is_decode : forall ch calls m ms sizes fuel,
  Forall (lm_ok_l1 ch calls) (m :: ms) -> Forall nonempty_m ms -> Forall (fun z => 0 < z) sizes ->
  (length (lm_data (m :: ms)) + 2 <= fuel)%nat ->
  exists content left st,
    lz_decode (lzip_payload_dec_n calls) lz_fixed (lm_file (l1_penc ch) (m :: ms)) = Ok (content, left) /\
    lzr_read_all fuel lz_fixed (lzr_new (lm_file (l1_penc ch) (m :: ms))) sizes sizes [] = Ok (content, 0, st) /\
    lzr_unconsumed st = left.
Proof.
  intros ch calls m ms sizes fuel Hok Hne Hs Hf.
  assert (Hg : Forall (mgood ch) (m :: ms)).
  { eapply Forall_impl; [|exact Hok]. intros x (H1 & H2 & H3 & _). split; [exact H1|]. split; assumption. }
  destruct (lzr_read_all_rt ch m ms sizes fuel Hg Hne Hs Hf) as (st & Hra & Hun).
  exists (lm_data (m :: ms)), [], st. split; [|split; assumption].
  exact (C12_lzip_multi_lzma1_thm ch calls m ms Hok).
Qed.

(* on the file LZIPWriter returns (any dictionary size, member size, partition): the members the
   writer cuts are non-empty, or there is the single empty member of an empty input *)
Theorem lzr_read_all_written : forall ch o0 parts f sizes fuel,
  bytes_ok (concat parts) = true ->
  (forall members, lz_members_of (lo_member_size (lzw_new o0)) parts = Ok members ->
     lz_sizes_ok (l1_penc ch) (lo_dict (lzw_new o0)) members /\
     Forall (l1_member_ok ch (lo_dict (lzw_new o0))) members) ->
  match lo_member_size o0 with Some m => 1 <= m | None => True end ->
  lz_encode (l1_penc ch) o0 parts = Ok f ->
  Forall (fun z => 0 < z) sizes -> (length (concat parts) + 2 <= fuel)%nat ->
  exists st, lzr_read_all fuel lz_fixed (lzr_new f) sizes sizes [] = Ok (concat parts, 0, st) /\ lzr_unconsumed st = [].
Proof.
  intros ch o0 parts f sizes fuel Hb Hm Hms E Hs Hf.
  destruct (lz_encode_shape_c (l1_penc ch) o0 parts f Hb (fun mb Hmb => proj1 (Hm mb Hmb)) Hms E)
    as (byte & members & _ & Em & Hne & -> & Hok & Hcat).
  destruct (Hm members Em) as (_ & Hl1). destruct members as [|c cs]; [contradiction|].
  pose proof (lz_members_tail_nonempty _ parts c cs (lzw_new_member_size o0 Hms) Em) as Htail.
  pose proof (lzw_new_dict_range o0) as Hr. unfold LZIP_MIN_DICT in Hr.
  rewrite <- Hcat, <- (concat_map_content byte (lo_dict (lzw_new o0)) (c :: cs)) in Hf |- *.
  rewrite Forall_map in Hok. cbn [map] in Hf |- *.
  apply (lzr_read_all_rt ch _ _ sizes fuel); [| |exact Hs | exact Hf].
  - change (Forall (mgood ch) (map (fun x => mkLzm byte (lo_dict (lzw_new o0)) x) (c :: cs))). rewrite Forall_map.
    rewrite Forall_forall in *. intros x Hx. split; [exact (Hok x Hx)|]. split; [cbn [lm_dict]; lia | exact (Hl1 x Hx)].
  - rewrite Forall_map. exact Htail.
Qed.

Print Assumptions lzr_read_all_rt.
Print Assumptions lzr_read_all_written.
