(* Format/PayloadLzma1Proofs.v — the LZMA payload decoder of the LZIP reader model
   (lzip_payload_dec_n of LzipFormat.v: LZMAReader::new(_, u64::MAX, 3, 0, 2, dd, None), 4096-byte
   read() calls until Ok(0)) on what the LZMA writer model wrote without header, with end marker
   and dictionary size d <= dd (LZMAWriter::new_no_header(_, {lc 3, lp 0, pb 2, dict d}, true)):
   the decoder returns exactly the data and leaves exactly what followed the stream, as soon as the
   number of read() calls it may make is at least |data| / 4096 + 2.
   This is lzma1_roundtrip_raw of Codec/Lzma1ReadProofs.v with a reader dictionary that may be
   larger than the writer's, and with the number of calls counted in buffers, not in bytes. *)
From LzVerif Require Import Base.Bytes Codec.Store Codec.Range Codec.ProbProofs Codec.RangeArithProofs
  Codec.LzWindow Codec.LzmaDec Codec.LzmaEnc Codec.LzmaAbs Codec.LzWindowProofs Codec.ProgProofs Codec.LzmaAbsProofs
  Codec.RangeEncProofs Codec.RangeDecProofs Codec.RangeProofs Codec.LzmaSymProofs Codec.LzmaRoundtrip
  Codec.LzmaChunkProofs Codec.LzmaReadProofs Codec.LzmaWriters Codec.Lzma1 Codec.Lzma1LoopProofs Codec.Lzma1ReadProofs
  Format.LzipFormat.

Section Drain.
  Variable E : list event.
  Variable tail : list Z.
  Variable W : Z.
  Variable data : list Z.
  Variable hist0 : list Z.
  Variable marker : bool.
  Hypothesis Hsmall : zlen data <= U64_HALF.
  Notation N := (length data).

  Lemma drain1_ended f s acc : Ended tail s -> lzma1_drain (S f) s acc = Ok (frev acc, tail).
  Proof.
    intros (He & Hin). cbn [lzma1_drain]. rewrite (read_ended s 4096 He). cbn [obind].
    unfold lzma1_unconsumed. rewrite Hin. reflexivity.
  Qed.

  Lemma drain1_ok : forall fuel strict k s acc, InvG E tail W data hist0 marker strict k s ->
    Z.of_nat (N - k) / 4096 + 2 <= Z.of_nat fuel ->
    lzma1_drain fuel s acc = Ok (rev acc ++ seg data k (N - k), tail).
  Proof.
    induction fuel as [|f IH]; intros strict k s acc HI Hf; [(Z.div_mod_to_equations; lia)|].
    cbn [lzma1_drain].
    destruct (read_steps E tail W data hist0 marker Hsmall strict k s 4096 HI ltac:(lia)) as (m & s1 & Hrd & Hk & Hcase).
    rewrite Hrd. cbn [obind].
    assert (Hlen : length (seg data k m) = m) by (apply seg_length; lia).
    destruct Hcase as [(He & HkN)|(HI1 & Hm)].
    - replace (N - k)%nat with m by lia.
      destruct (seg data k m) as [|b out'] eqn:Eout.
      + destruct He as (He & Hin). unfold lzma1_unconsumed. rewrite Hin, frev_rev, app_nil_r. reflexivity.
      + destruct f as [|f']; [(Z.div_mod_to_equations; lia)|]. rewrite (drain1_ended f' s1 _ He).
        rewrite frev_rev, rev_rev_append. reflexivity.
    - destruct (seg data k m) as [|b out'] eqn:Eout; [cbn [length] in Hlen; lia|].
      rewrite (IH true (k + m)%nat s1 _ HI1) by (Z.div_mod_to_equations; lia).
      rewrite rev_rev_append, <- app_assoc, <- Eout, seg_app.
      replace (m + (N - (k + m)))%nat with (N - k)%nat by lia. reflexivity.
  Qed.
End Drain.

(* [l1_rs data tail s k]: the LZMAReader state s has delivered the first k bytes of [data] (or is
   behind the end marker), and [tail] follows the stream in the source *)
Definition l1_rs (data tail : list Z) (s : lzma1) (k : nat) : Prop :=
  zlen data <= U64_HALF /\
  exists E W hist0 strict,
    InvG E tail W data hist0 true strict k s \/ (k = length data /\ Lzma1LoopProofs.Ended tail s).

Lemma l1_rs_new : forall lc lp pb d dd data syms stream tail,
  0 <= lc <= 8 -> 0 <= lp <= 4 -> 0 <= pb <= 4 -> 4096 <= d -> d <= dd -> dd <= 2147483648 ->
  bytes_ok data = true -> no_end syms ->
  lzma1_write lc lp pb d [] data syms false true None = Ok stream ->
  (forall E c' h', enc_syms (coder_new lc lp pb) (ehist_new d [] data) (syms ++ end_syms true) = Ok (E, c', h') ->
     events_bits E <= RC_MAX_BITS) ->
  exists s0, lzma1_construct2 (stream ++ tail) U64_MAX lc lp pb dd None = Ok s0 /\ l1_rs data tail s0 0.
Proof.
  intros lc lp pb d dd data syms stream tail Hlc Hlp Hpb Hd4 Hdd Hdd31 Hbd Hne Hw Hbits.
  assert (Hdict : 4096 <= d <= 2147483648) by lia.
  destruct (lzma1_write_inv _ _ _ _ _ _ _ _ _ _ _ Hw) as (E1 & c1 & h1 & E2 & cE & hE & Hsyms & Hall & Hend & Hfull & ->).
  specialize (Hbits _ _ _ Hfull). cbn [app].
  destruct (stream_init lc lp pb d [] data syms true (E1 ++ E2) cE hE tail ltac:(lia) Hfull Hbits) as (d0 & Hinit & Hsim).
  destruct (construct2_ok _ d0 U64_MAX lc lp pb dd None Hlc Hlp Hpb ltac:(lia) Hinit ltac:(unfold U64_MAX; lia))
    as (W & Hc2 & HWr & HW16 & HWd).
  assert (HdW : d <= W).
  { destruct HWd as [HWd|(Hh & _)]; [lia|]. unfold U64_MAX, U64_HALF in Hh. lia. }
  eexists. split; [exact Hc2|].
  destruct (lzwin_new_start W d None ltac:(lia) HW16 ltac:(cbn [preset_list]; change (zlen (@nil Z)) with 0; lia))
    as (R0 & Hst0 & Hsz0 & Hpl0 & Hpd0).
  cbn [preset_list] in R0.
  destruct (reader_start lc lp pb d [] data syms true E1 c1 h1 E2 W (lzwin_new W None) tail d0 Hlc Hlp Hpb Hdict eq_refl Hbd Hne
              Hsyms Hall Hend Hbits Hsim ltac:(left; exact HdW) ltac:(lia) R0 Hst0 Hsz0 Hpl0 Hpd0) as (Hsmall & HI).
  split; [exact Hsmall|]. exists (E1 ++ E2), W, (rev (preset_kept d [])), false. left. exact HI.
Qed.

(* LZMA writer model (raw, end marker), then the payload decoder of the LZIP reader model *)
Theorem lzip_payload_dec_n_rt : forall d dd data syms stream tail calls,
  4096 <= d -> d <= dd -> dd <= 2147483648 ->
  bytes_ok data = true -> no_end syms ->
  lzma1_write 3 0 2 d [] data syms false true None = Ok stream ->
  (forall E c' h', enc_syms (coder_new 3 0 2) (ehist_new d [] data) (syms ++ end_syms true) = Ok (E, c', h') ->
     events_bits E <= RC_MAX_BITS) ->
  zlen data / 4096 + 2 <= Z.of_nat calls ->
  lzip_payload_dec_n calls dd (stream ++ tail) = Ok (data, tail).
Proof.
  intros d dd data syms stream tail calls Hd4 Hdd Hdd31 Hbd Hne Hw Hbits Hcalls.
  destruct (l1_rs_new 3 0 2 d dd data syms stream tail ltac:(lia) ltac:(lia) ltac:(lia) Hd4 Hdd Hdd31 Hbd Hne Hw Hbits)
    as (s0 & Hc2 & Hsmall & E & W & hist0 & strict & HR).
  unfold lzip_payload_dec_n. rewrite Hc2. cbn [obind].
  destruct HR as [HI|(Hk & He)].
  - rewrite (drain1_ok E tail W data hist0 true Hsmall calls strict 0 s0 [] HI).
    + cbn [rev app]. rewrite Nat.sub_0_r, seg_all. reflexivity.
    + rewrite Nat.sub_0_r. exact Hcalls.
  - destruct data; [|discriminate Hk]. change (zlen (@nil Z)) with 0 in Hcalls.
    destruct calls as [|f]; [(Z.div_mod_to_equations; lia) | exact (drain1_ended tail f s0 [] He)].
Qed.

(* call by call (for the container model lzr_read): one read() with a non-empty destination
   returns the next m bytes *)
Lemma l1_rs_read : forall data tail s k sz, l1_rs data tail s k -> 0 < sz ->
  exists m s', lzma1_read s sz = Ok (seg data k m, s') /\ (k + m <= length data)%nat /\
    l1_rs data tail s' (k + m) /\
    (m = 0%nat -> k = length data /\ lzma1_unconsumed s' = tail) /\ ((k < length data)%nat -> (0 < m)%nat).
Proof.
  intros data tail s k sz (Hsmall & E & W & hist0 & strict & HR) Hsz.
  destruct HR as [HI | (-> & HE)].
  - destruct (read_steps E tail W data hist0 true Hsmall strict k s sz HI Hsz) as (m & s' & Hrd & Hk & Hcase).
    exists m, s'. split; [exact Hrd|]. split; [exact Hk|].
    destruct Hcase as [(HE & HkN) | (HI' & Hm)].
    + split; [split; [exact Hsmall|]; exists E, W, hist0, strict; right; split; [lia | exact HE]|].
      split; [|intros; lia]. intros ->. split; [lia|]. destruct HE as (_ & Hin). exact Hin.
    + split; [split; [exact Hsmall|]; exists E, W, hist0, true; left; exact HI'|].
      split; [intros ->; lia | intros; lia].
  - exists 0%nat, s. destruct HE as (He & Hin). rewrite (read_ended s sz He), seg_nil, Nat.add_0_r.
    split; [reflexivity|]. split; [lia|].
    split; [split; [exact Hsmall|]; exists E, W, hist0, strict; right; split; [reflexivity | split; assumption]|].
    split; [intros _; split; [reflexivity | exact Hin] | intros; lia].
Qed.

Print Assumptions lzip_payload_dec_n_rt.

