(* Format/TotalClosedProofs.v — C06 for the executable whole-file reader models with their CONCRETE
   payload decoders: xz_decode_c (XZReader: LZMA2Reader read in 4096-byte calls behind the Delta
   readers) and lz_decode_c (LZIPReader: LZMAReader with lc=3, lp=0, pb=2, unknown size) are total
   on every byte string.  No hypothesis on the payload decoder is left: the totality of the two
   readers (Codec/Total1Proofs.v, Total2Proofs.v) gives the [shrk] hypothesis of
   Format/TotalProofs.v, including the bound on the number of read() calls the models budget
   (LZIP: 64 + 16 per source byte, XZ: 2 + 171 per source byte).
   LZIP: the LZMAReader model is total on any integer list, so lz_decode_total applies directly.
   XZ: the LZMA2Reader model copies source bytes into the dictionary (stored chunks), so its
   totality needs a byte string; the container theorem of Format/TotalProofs.v is used with "is a
   byte string" as the property of the source (every parser returns a suffix of its source).
   BCJ filters: xz_chain_deltas answers Err for chains containing them (the executable model stops
   there), so nothing is claimed about the BCJ readers. *)
From LzVerif Require Import Base.Bytes Codec.RangeArithProofs Codec.LzmaSymProofs Filter.Delta Filter.DeltaProofs
  Format.Crc Format.Vli Format.XzFormat Format.LzipFormat Format.LzipDict Format.XzProofs
  Format.XzSoundProofs Format.TotalProofs Format.TotalChainProofs Codec.Range Codec.Lzma1 Codec.Lzma2Dec
  Codec.TotalCoreProofs Codec.Total1Proofs Codec.Total2Proofs.

Lemma lzma1_drain_shr : forall fuel s acc, rinv1 s -> pot1 s + 8192 <= 4096 * Z.of_nat fuel ->
  match lzma1_drain fuel s acc with
  | Ok (_, r) => (length r <= length (rd_in (l_rc s)))%nat
  | Err _ => True
  | _ => False
  end.
Proof.
  induction fuel as [|f IH]; intros s acc Hi Hf.
  { pose proof (pot1_nonneg s Hi). lia. }
  cbn [lzma1_drain].
  destruct (read1_total s 4096 Hi) as [(e & He)|(out & s1 & Hr & Hi1 & Hol & Hpot & Hin & Hfull)].
  - rewrite He. exact I.
  - rewrite Hr. cbn [obind]. destruct out as [|b out'].
    + unfold lzma1_unconsumed. exact Hin.
    + pose proof (pot1_nonneg s1 Hi1) as Hp1. pose proof (zlen_nonneg out') as Ho.
      rewrite zlen_cons in *.
      assert (Hf1 : pot1 s1 + 8192 <= 4096 * Z.of_nat f).
      { destruct (l_end_reached s1) eqn:Eend.
        - unfold pot1 in *. rewrite Eend in *. lia.
        - specialize (Hfull eq_refl ltac:(lia)). lia. }
      specialize (IH s1 (rev_append (b :: out') acc) Hi1 Hf1).
      destruct (lzma1_drain f s1 (rev_append (b :: out') acc)) as [[c r]|e|e|]; try exact IH. lia.
Qed.

(* LZMAReader::new(src, u64::MAX, 3, 0, 2, dict, None) read to its end: on ANY source and any
   dictionary size the result is Ok or Err and the unread rest is no longer than the source, as
   soon as the budget of read() calls is 64 + 16 per source byte (what lz_decode_c uses) *)
Theorem lzip_payload_dec_n_shr : forall calls d s, (64 + 16 * length s <= calls)%nat ->
  shrk 0 s (lzip_payload_dec_n calls d s).
Proof.
  intros calls d s Hc. unfold lzip_payload_dec_n.
  pose proof (construct2_inv s U64_MAX 3 0 2 d None ltac:(lia) ltac:(lia) ltac:(lia) ltac:(unfold U64_MAX; lia) I) as HC.
  destruct (lzma1_construct2 s U64_MAX 3 0 2 d None) as [s0|e|e|]; cbn [obind shrk]; try exact HC.
  destruct HC as (Hi & _ & Hpot & Hlen).
  pose proof (lzma1_drain_shr calls s0 [] (or_intror Hi) ltac:(unfold zlen in Hpot; lia)) as HD.
  destruct (lzma1_drain calls s0 []) as [[c r]|e|e|]; cbn [shrk]; try exact HD. lia.
Qed.

Theorem lzip_payload_dec_shr : forall d s, shrk 0 s (lzip_payload_dec d s).
Proof. intros d s. unfold lzip_payload_dec. apply lzip_payload_dec_n_shr. lia. Qed.

Theorem lz_decode_c_total : forall fx f, total (lz_decode_c fx f).
Proof. intros fx f. unfold lz_decode_c. apply lz_decode_total. exact lzip_payload_dec_shr. Qed.

Lemma lzma2_drain_shr : forall fuel s acc, rinv2 s -> pot2 s + 8192 <= 4096 * Z.of_nat fuel ->
  match lzma2_drain fuel s acc with
  | Ok (_, r) => (length r <= length (m_in s))%nat /\ bytes_ok r = true
  | Err _ => True
  | _ => False
  end.
Proof.
  induction fuel as [|f IH]; intros s acc Hi Hf.
  { pose proof (pot2_nonneg s Hi). lia. }
  cbn [lzma2_drain].
  destruct (read2_total s 4096 Hi) as [(e & He)|(out & s1 & Hr & Hi1 & Hol & Hpot & Hin & Hfull)].
  - rewrite He. exact I.
  - rewrite Hr. cbn [obind]. destruct out as [|b out'].
    + split; [exact Hin | apply Hi1].
    + pose proof (pot2_nonneg s1 Hi1) as Hp1. pose proof (zlen_nonneg out') as Ho.
      rewrite zlen_cons in *.
      assert (Hf1 : pot2 s1 + 8192 <= 4096 * Z.of_nat f).
      { destruct (m_end_reached s1) eqn:Eend.
        - unfold pot2 in *. rewrite Eend in *. lia.
        - specialize (Hfull eq_refl ltac:(lia)). lia. }
      specialize (IH s1 (rev_append (b :: out') acc) Hi1 Hf1).
      destruct (lzma2_drain f s1 (rev_append (b :: out') acc)) as [[c r]|e|e|]; try exact IH.
      destruct IH as (IH1 & IH2). split; [lia | exact IH2].
Qed.

Definition shrkb {A} (src : list Z) (o : outcome (A * list Z)) : Prop :=
  match o with Ok (_, r) => (length r <= length src)%nat /\ bytes_ok r = true | Err _ => True | _ => False end.

(* LZMA2Reader::new(src, dict, None) read to its end in 4096-byte calls: on every byte string and
   any dictionary size, as soon as the budget of read() calls is 2 + 171 per source byte (what
   xz_decode_c uses) *)
Theorem lzma2_payload_dec_n_shrb : forall calls d s, bytes_ok s = true -> (2 + 171 * length s <= calls)%nat ->
  shrkb s (lzma2_payload_dec_n calls d s).
Proof.
  intros calls d s Hb Hc. unfold lzma2_payload_dec_n.
  destruct (lzma2_new_inv s d None Hb I) as (s0 & Hnew & Hri & Hi & He & Hin & HP).
  rewrite Hnew. cbn [obind].
  assert (Hpot : pot2 s0 + 8192 <= 4096 * Z.of_nat calls).
  { unfold pot2. rewrite He, HP. unfold zlen. (Z.div_mod_to_equations; lia). }
  pose proof (lzma2_drain_shr _ s0 [] Hri Hpot) as HD. rewrite Hin in HD. exact HD.
Qed.

Theorem lzma2_payload_dec_shrb : forall d s, bytes_ok s = true -> shrkb s (lzma2_payload_dec d s).
Proof. intros d s Hb. unfold lzma2_payload_dec. apply lzma2_payload_dec_n_shrb; [exact Hb | lia]. Qed.

(* The container theorem on byte strings: the section of Format/TotalProofs.v with "is a byte
   string" as the property that every parser hands on to the rest it returns. *)
Theorem xz_decode_total_b (H : Z -> list Z -> list Z) (blockdec : list (fkind * Z) -> list Z -> outcome (list Z * list Z)) :
  (forall fs s, bytes_ok s = true -> shrkb s (blockdec fs s)) ->
  forall fx multi src, fx11 fx = true -> bytes_ok src = true -> total (xz_decode H blockdec fx multi src).
Proof.
  intros Hb fx multi src. apply (xz_decode_total_P H blockdec (fun r => bytes_ok r = true)); [|exact Hb].
  intros r s. apply sfx_bytes_ok.
Qed.

(* the Delta readers around a payload decoder *)
Lemma xz_blockdec_gen_shrb pdec : (forall d s, bytes_ok s = true -> shrkb s (pdec d s)) ->
  forall fs s, bytes_ok s = true -> shrkb s (xz_blockdec_gen pdec fs s).
Proof. exact (xz_blockdec_gen_shrP (fun r => bytes_ok r = true) pdec). Qed.

(* XZReader with LZMA2Reader and the Delta readers: total on every byte string *)
Theorem xz_decode_c_total : forall fx multi f, fx11 fx = true -> bytes_ok f = true -> total (xz_decode_c fx multi f).
Proof.
  intros fx multi f H11 Hb. unfold xz_decode_c, xz_blockdec.
  apply xz_decode_total_b; [|exact H11 | exact Hb].
  apply xz_blockdec_gen_shrb. exact lzma2_payload_dec_shrb.
Qed.

Print Assumptions lzip_payload_dec_shr.
Print Assumptions lz_decode_c_total.
Print Assumptions lzma2_payload_dec_shrb.
Print Assumptions xz_decode_c_total.
