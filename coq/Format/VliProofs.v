(* Format/VliProofs.v — the XZ multibyte integers round-trip for every value below 2^63: both
   parsers of the crate return the value and the rest of the input untouched, the size functions
   agree with the number of bytes written, and the bytes are bytes. *)
From LzVerif Require Import Base.Bytes Format.Vli.

(* disjoint bits: lor is addition *)
Lemma lor_shiftl_add acc x s : 0 <= s -> 0 <= acc < 2 ^ s -> 0 <= x ->
  Z.lor acc (Z.shiftl x s) = acc + x * 2 ^ s.
Proof.
  intros Hs Ha Hx.
  assert (L : Z.land acc (Z.shiftl x s) = 0).
  { apply Z.bits_inj'. intros k Hk. rewrite Z.land_spec, Z.bits_0.
    destruct (Z_lt_le_dec k s) as [Hlt|Hge].
    - rewrite (Z.shiftl_spec_low x s k Hlt). apply andb_false_r.
    - assert (Z.testbit acc k = false) as ->; [|reflexivity].
      destruct (Z.eq_dec acc 0) as [->|]; [apply Z.bits_0|].
      apply Z.bits_above_log2; [lia|]. apply Z.lt_le_trans with s; [apply Z.log2_lt_pow2; lia | lia]. }
  rewrite <- Z.lxor_lor by exact L. rewrite <- Z.add_nocarry_lxor by exact L.
  rewrite Z.shiftl_mul_pow2 by lia. reflexivity.
Qed.

Definition bytes256 : list Z := map Z.of_nat (seq 0 256).
Lemma in_bytes256 b : 0 <= b < 256 -> In b bytes256.
Proof.
  intros H. unfold bytes256. replace b with (Z.of_nat (Z.to_nat b)) by lia.
  apply in_map. apply in_seq. lia.
Qed.
Lemma byte_sweep (P : Z -> bool) : forallb P bytes256 = true -> forall b, 0 <= b < 256 -> P b = true.
Proof. intros H b Hb. rewrite forallb_forall in H. apply H, in_bytes256, Hb. Qed.

Lemma low_byte_facts : forall b, 0 <= b < 256 ->
  ((Z.land b 127 =? b mod 128) && (Z.land b 128 =? (if b <? 128 then 0 else 128)) &&
   (Z.land (Z.lor b 128) 127 =? b mod 128) && (Z.land (Z.lor b 128) 128 =? 128) &&
   (128 <=? Z.lor b 128) && (Z.lor b 128 <? 256)) = true.
Proof. apply byte_sweep. vm_compute. reflexivity. Qed.

Lemma cont_byte v : 0 <= v ->
  let b := Z.lor (v mod 256) 128 in
  Z.land b 127 = v mod 128 /\ Z.land b 128 = 128 /\ 128 <= b < 256.
Proof.
  intros Hv b. pose proof (low_byte_facts (v mod 256) ltac:((Z.div_mod_to_equations; lia))) as F.
  repeat (apply andb_true_iff in F as [F ?]).
  repeat match goal with H : (_ =? _) = true |- _ => apply Z.eqb_eq in H end.
  subst b. repeat split; try (Z.div_mod_to_equations; lia).
Qed.

Lemma last_byte v : 0 <= v < 128 -> Z.land v 127 = v /\ Z.land v 128 = 0.
Proof.
  intros Hv. pose proof (low_byte_facts v ltac:(lia)) as F.
  repeat (apply andb_true_iff in F as [F ?]).
  repeat match goal with H : (_ =? _) = true |- _ => apply Z.eqb_eq in H end.
  destruct (Z.ltb_spec v 128); [|lia]. split; (Z.div_mod_to_equations; lia).
Qed.

Lemma pow128_succ k : 128 ^ Z.of_nat (S k) = 128 * 128 ^ Z.of_nat k.
Proof. rewrite Nat2Z.inj_succ, Z.pow_succ_r by lia. reflexivity. Qed.

Lemma pow2_plus7 s : 0 <= s -> 2 ^ (s + 7) = 128 * 2 ^ s.
Proof. intros. rewrite Z.pow_add_r by lia. change (2 ^ 7) with 128. lia. Qed.

Lemma more_groups k v : 128 <= v < 128 ^ Z.of_nat (S k) -> (1 <= k)%nat /\ 0 <= v / 128 < 128 ^ Z.of_nat k.
Proof.
  intros H. destruct k as [|k]; [change (128 ^ Z.of_nat 1) with 128 in H; lia|].
  rewrite pow128_succ in H. split; (Z.div_mod_to_equations; lia).
Qed.

Lemma vli_reader_rt : forall n v room tail acc shift,
  (1 <= n <= room)%nat -> 0 <= v < 128 ^ Z.of_nat n ->
  0 <= shift -> shift + 7 * Z.of_nat n <= 63 -> 0 <= acc < 2 ^ shift ->
  vli_parse_reader_loop n (vli_encode_loop room v ++ tail) acc shift = Ok (acc + v * 2 ^ shift, tail).
Proof.
  induction n as [|n IH]; intros v room tail acc shift Hn Hv Hs Hb Ha; [lia|].
  destruct room as [|room]; [lia|]. cbn [vli_encode_loop].
  destruct (Z.leb_spec 128 v) as [Hge|Hlt]; cbn [app vli_parse_reader_loop];
    (destruct (Z.leb_spec 63 shift); [lia|]).
  - destruct (more_groups n v ltac:(lia)) as [Hn1 Hq].
    destruct (cont_byte v ltac:(lia)) as (C1 & C2 & _). cbv zeta in C1, C2.
    rewrite C1, C2. change (128 =? 0) with false. cbv iota.
    rewrite lor_shiftl_add by (Z.div_mod_to_equations; lia).
    rewrite IH; try lia.
    + f_equal. f_equal. rewrite pow2_plus7 by lia. (Z.div_mod_to_equations; lia).
    + rewrite pow2_plus7 by lia. (Z.div_mod_to_equations; nia).
  - rewrite (Z.mod_small v 256) by lia. destruct (last_byte v ltac:(lia)) as [L1 L2].
    rewrite L1, L2. cbn [Z.eqb]. rewrite lor_shiftl_add by lia. reflexivity.
Qed.

Lemma vli_size_slice_nonneg l : 0 <= vli_size_slice l.
Proof. induction l as [|b t IH]; cbn [vli_size_slice]; [lia|]. destruct (Z.land b 128 =? 0); lia. Qed.

Lemma vli_reader_slice : forall n l acc shift v r,
  vli_parse_reader_loop n l acc shift = Ok (v, r) ->
  vli_parse_slice_loop l acc shift = Ok v /\ skipn (Z.to_nat (vli_size_slice l)) l = r /\
  zlen l = vli_size_slice l + zlen r.
Proof.
  induction n as [|n IH]; intros l acc shift v r H; [discriminate|].
  destruct l as [|b t]; [discriminate|]. cbn [vli_parse_reader_loop vli_parse_slice_loop vli_size_slice] in *.
  destruct (63 <=? shift); [discriminate|]. rewrite zlen_cons. destruct (Z.land b 128 =? 0).
  - inversion H; subst. repeat split; lia.
  - destruct (IH _ _ _ _ _ H) as (I1 & I2 & I3). pose proof (vli_size_slice_nonneg t).
    replace (Z.to_nat (1 + vli_size_slice t)) with (S (Z.to_nat (vli_size_slice t))) by lia.
    repeat split; [exact I1 | exact I2 | lia].
Qed.

Lemma vli_encode_loop_len : forall k v room, (1 <= k <= room)%nat -> 0 <= v < 128 ^ Z.of_nat k ->
  1 <= zlen (vli_encode_loop room v) <= Z.of_nat k.
Proof.
  induction k as [|k IH]; intros v room Hk Hv; [lia|]. destruct room as [|room]; [lia|]. cbn [vli_encode_loop].
  destruct (Z.leb_spec 128 v).
  - destruct (more_groups k v ltac:(lia)) as [Hk1 Hq]. rewrite zlen_cons.
    specialize (IH (v / 128) room ltac:(lia) Hq). lia.
  - change (zlen [v mod 256]) with 1. lia.
Qed.

Lemma vli_size_value_loop_enc : forall k v room fuel, (1 <= k <= room)%nat -> (k < fuel)%nat ->
  0 < v < 128 ^ Z.of_nat k -> vli_size_value_loop fuel v = zlen (vli_encode_loop room v).
Proof.
  induction k as [|k IH]; intros v room fuel Hk Hf Hv; [lia|].
  destruct room as [|room]; [lia|]. destruct fuel as [|fuel]; [lia|]. cbn [vli_encode_loop vli_size_value_loop].
  destruct (Z.ltb_spec 0 v); [|lia]. destruct (Z.leb_spec 128 v).
  - destruct (more_groups k v ltac:(lia)) as [Hk1 Hq]. rewrite zlen_cons, Z.add_comm. f_equal. apply (IH (v / 128)); (Z.div_mod_to_equations; lia).
  - destruct fuel as [|fuel]; [lia|]. cbn [vli_size_value_loop]. replace (v / 128) with 0 by (Z.div_mod_to_equations; lia). reflexivity.
Qed.

Lemma bytes_ok_vli_loop : forall room v, 0 <= v -> bytes_ok (vli_encode_loop room v) = true.
Proof.
  induction room as [|room IH]; intros v Hv; [reflexivity|]. cbn [vli_encode_loop].
  destruct (Z.leb_spec 128 v).
  - cbn [bytes_ok forallb]. fold (bytes_ok (vli_encode_loop room (v / 128))). rewrite IH by (Z.div_mod_to_equations; lia).
    destruct (cont_byte v Hv) as (_ & _ & C3). cbv zeta in C3. unfold is_byte.
    destruct (Z.leb_spec 0 (Z.lor (v mod 256) 128)); [|lia]. destruct (Z.ltb_spec (Z.lor (v mod 256) 128) 256); [|lia]. reflexivity.
  - cbn [bytes_ok forallb]. unfold is_byte. rewrite Z.mod_small by lia.
    destruct (Z.leb_spec 0 v); [|lia]. destruct (Z.ltb_spec v 256); [|lia]. reflexivity.
Qed.

Definition vli_bytes (v : Z) : list Z := vli_encode_loop 10 v.

Lemma vli_encode_ok v : 0 <= v <= U63_MAX -> vli_encode v = Ok (vli_bytes v).
Proof. intros H. unfold vli_encode. destruct (Z.ltb_spec U63_MAX v); [lia | reflexivity]. Qed.

Lemma vli_encode_inv v l : 0 <= v -> vli_encode v = Ok l -> l = vli_bytes v /\ v <= U63_MAX.
Proof.
  unfold vli_encode. intros Hv H. destruct (Z.ltb_spec U63_MAX v); [discriminate|].
  inversion H. split; [reflexivity | lia].
Qed.

Lemma u63_pow : U63_MAX + 1 = 128 ^ Z.of_nat 9.
Proof. reflexivity. Qed.

Lemma vli_reader_ok v tail : 0 <= v <= U63_MAX -> vli_parse_reader (vli_bytes v ++ tail) = Ok (v, tail).
Proof.
  intros Hv. unfold vli_parse_reader, vli_bytes.
  rewrite (vli_reader_rt 9 v 10 tail 0 0 ltac:(lia) ltac:(rewrite <- u63_pow; lia) ltac:(lia) ltac:(cbn; lia) ltac:(cbn; lia)).
  f_equal. f_equal. cbn. lia.
Qed.

Lemma vli_slice_ok v tail : 0 <= v <= U63_MAX ->
  vli_parse_slice (vli_bytes v ++ tail) = Ok v /\
  vli_size_slice (vli_bytes v ++ tail) = zlen (vli_bytes v) /\
  skipn (Z.to_nat (vli_size_slice (vli_bytes v ++ tail))) (vli_bytes v ++ tail) = tail.
Proof.
  intros Hv. destruct (vli_reader_slice 9 (vli_bytes v ++ tail) 0 0 v tail (vli_reader_ok v tail Hv)) as (S1 & S2 & S3).
  rewrite zlen_app in S3. split; [exact S1|]. split; [lia | exact S2].
Qed.

Lemma vli_size_value_bytes v : 0 <= v <= U63_MAX -> vli_size_value v = zlen (vli_bytes v).
Proof.
  intros Hv. unfold vli_size_value. destruct (Z.eqb_spec v 0) as [->|Hne]; [reflexivity|].
  apply (vli_size_value_loop_enc 9); [lia | lia | rewrite <- u63_pow; lia].
Qed.

(* nine bytes suffice below 128^9: the tenth is never written *)
Lemma vli_bytes_len v : 0 <= v <= U63_MAX -> 1 <= zlen (vli_bytes v) <= 9.
Proof. intros Hv. apply (vli_encode_loop_len 9); [lia | rewrite <- u63_pow; lia]. Qed.

Lemma vli_bytes_ok v : 0 <= v -> bytes_ok (vli_bytes v) = true.
Proof. apply bytes_ok_vli_loop. Qed.

(* C02: every value below 2^63 is read back, by both parsers, with the rest of
   the input untouched; the size functions give the number of bytes written *)
Theorem vli_roundtrip : forall v tail, 0 <= v <= U63_MAX ->
  vli_parse_reader (vli_bytes v ++ tail) = Ok (v, tail) /\
  vli_parse_slice (vli_bytes v ++ tail) = Ok v /\
  vli_size_slice (vli_bytes v ++ tail) = zlen (vli_bytes v) /\
  skipn (Z.to_nat (vli_size_slice (vli_bytes v ++ tail))) (vli_bytes v ++ tail) = tail /\
  vli_size_value v = zlen (vli_bytes v) /\
  1 <= zlen (vli_bytes v) <= 9 /\
  bytes_ok (vli_bytes v) = true.
Proof.
  intros v tail Hv. destruct (vli_slice_ok v tail Hv) as (S1 & S2 & S3).
  exact (conj (vli_reader_ok v tail Hv) (conj S1 (conj S2 (conj S3
          (conj (vli_size_value_bytes v Hv) (conj (vli_bytes_len v Hv) (vli_bytes_ok v ltac:(lia)))))))).
Qed.
