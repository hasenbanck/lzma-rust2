(* Format/ComposeProofs.v — the composition: the XZ / LZIP container round trips with the CONCRETE
   payload codecs of the crate in place of the abstract codec of XzProofs.v / LzipProofs.v.

     XZ    payload = LZMA2Writer::new(_, {lc, lp, pb, dict d}) .. finish  (lzma2_write, no preset),
           decoded by LZMA2Reader::new(_, dd, None) read to its end       (lzma2_payload_dec dd),
           where dd >= d is the size the block header announces;
     LZIP  payload = LZMAWriter::new_no_header(_, {3, 0, 2, dict d}, true) (lzma1_write .. false true None),
           decoded by LZMAReader::new(_, u64::MAX, 3, 0, 2, dd, None)      (lzip_payload_dec_n calls dd).

   The writer models are relational in the encoder's choices (the symbol / chunk-event list the
   real encoder's trace is validated against).  An encoder is therefore ANY choice function
   [ch : dictionary size -> data -> events] whose choices the writer model accepts; the payload
   encoder of the container theorems is the writer model applied to its choices.
   Pre-filters: abstract codecs that are inverses on byte strings and map byte strings to byte
   strings, or - for the executable reader chain xz_blockdec - the Delta model of Filter/Delta.v. *)
From LzVerif Require Import Base.Bytes Codec.Store Codec.Range Codec.LzWindow Codec.LzmaDec Codec.LzmaEnc
  Codec.LzmaWriters Codec.Lzma1 Codec.Lzma2Dec Codec.LzmaRoundtrip Codec.RangeEncProofs Codec.RangeProofs Codec.Lzma1ReadProofs
  Codec.Lzma2SpecProofs Codec.Lzma2FrameSyncProofs Codec.Lzma2ReadProofs
  Filter.Delta Filter.DeltaProofs
  Format.Crc Format.CrcProofs Format.Vli Format.XzFormat Format.LzipFormat Format.LzipDict Format.LzipDictProofs
  Format.XzSplitProofs Format.LzipSplitProofs Format.XzHeaderProofs Format.XzBlockHeaderProofs Format.XzProofs
  Format.LzipProofs Format.PayloadLzma2Proofs Format.PayloadLzma1Proofs.

Definition l2_params_ok (lc lp pb : Z) : Prop := 0 <= lc /\ 0 <= lp /\ lc + lp <= 4 /\ 0 <= pb <= 4.

(* an LZMA2 encoder: for every dictionary size LZMAOptions::validate admits (4 KiB .. 768 MiB; here
   up to 2 GiB) and every byte string, the writer model accepts its choices, and it never emits an
   end marker symbol (the LZMA2 encoder has none) *)
Definition l2_codec_ok (lc lp pb : Z) (ch : Z -> list Z -> list l2ev) : Prop :=
  forall d x, 4096 <= d <= 2147483648 -> bytes_ok x = true ->
    l2_no_end (ch d x) /\ exists s, lzma2_write lc lp pb d None x (ch d x) = Ok s.

Definition l2_penc (lc lp pb : Z) (ch : Z -> list Z -> list l2ev) (d : Z) (x : list Z) : list Z :=
  match lzma2_write lc lp pb d None x (ch d x) with Ok s => s | _ => [] end.

Lemma l2_pdec_penc lc lp pb ch : l2_params_ok lc lp pb -> l2_codec_ok lc lp pb ch ->
  forall d dd x tail, 4096 <= d <= 2147483648 -> bytes_ok x = true -> d <= dd ->
    lzma2_payload_dec dd (l2_penc lc lp pb ch d x ++ tail) = Ok (x, tail).
Proof.
  intros (Hlc & Hlp & Hs & Hpb) Hch d dd x tail Hd Hb Hdd.
  destruct (Hch d x Hd Hb) as (Hne & s & Hw). unfold l2_penc. rewrite Hw.
  exact (lzma2_payload_dec_rt lc lp pb d dd x (ch d x) s tail Hlc Hlp Hs Hpb ltac:(lia) Hdd Hb Hne Hw).
Qed.

(* what is asked of a block: its content are bytes, the dictionary size is one LZMAOptions admits *)
Definition l2_bgood (o : xzopts) (c : list Z) : Prop := bytes_ok c = true /\ 4096 <= xo_dict o <= 2147483648.

Lemma l2_stream_good o0 parts : 4096 <= xo_dict o0 <= 2147483648 -> bytes_ok (concat parts) = true ->
  stream_good l2_bgood o0 parts.
Proof.
  intros Hd Hb o blocks Eo Ebl. destruct (xzw_new_inv o0 o Eo) as (_ & _ & Ed & Ebs).
  rewrite <- (xz_blocks_concat (xo_block_size o) parts blocks) in Hb; [|rewrite Ebs; destruct (xo_block_size o0); [lia | exact I] | exact Ebl].
  apply Forall_bytes_concat in Hb.
  eapply Forall_impl; [|exact Hb]. intros c Hc. split; [exact Hc | rewrite Ed; exact Hd].
Qed.

(* XZ with LZMA2 payloads, pre-filter codecs abstract *)
Section XzLzma2.
  Variables lc lp pb : Z.
  Variable ch : Z -> list Z -> list l2ev.
  Hypothesis Hpar : l2_params_ok lc lp pb.
  Hypothesis Hch : l2_codec_ok lc lp pb ch.
  Variables fenc fdec : fkind -> Z -> list Z -> list Z.
  (* C11: the filters are inverses on byte strings and produce byte strings *)
  Hypothesis fdec_fenc : forall k p x, bytes_ok x = true -> fdec k p (fenc k p x) = x.
  Hypothesis fenc_bytes : forall k p x, bytes_ok x = true -> bytes_ok (fenc k p x) = true.

  Notation penc := (l2_penc lc lp pb ch).
  Notation bdec := (blockdec lzma2_payload_dec fdec).

  Lemma chain_enc_bytes fs : forall x, bytes_ok x = true -> bytes_ok (chain_enc fenc fs x) = true.
  Proof.
    unfold chain_enc. induction fs as [|f fs IH]; intros x Hx; cbn [fold_left]; [exact Hx|].
    apply IH. apply fenc_bytes. exact Hx.
  Qed.

  Lemma chain_dec_enc_b fs : forall x, bytes_ok x = true -> chain_dec fdec fs (chain_enc fenc fs x) = x.
  Proof.
    unfold chain_enc, chain_dec. induction fs as [|f fs IH]; intros x Hx; cbn [fold_left fold_right]; [reflexivity|].
    rewrite IH by (apply fenc_bytes; exact Hx). apply fdec_fenc. exact Hx.
  Qed.

  Lemma l2_bdec_ok : forall o c dd tail, l2_bgood o c -> xo_dict o <= dd ->
    bdec (xo_filters o ++ [(FLZMA2, dd)]) (payload_of penc fenc o c ++ tail) = Ok (c, tail).
  Proof.
    intros o c dd tail (Hb & Hd) Hdd. unfold blockdec, xz_chain_dict, payload_of.
    rewrite frev_rev, rev_app_distr. cbn [rev app].
    rewrite (l2_pdec_penc lc lp pb ch Hpar Hch (xo_dict o) dd _ tail Hd (chain_enc_bytes _ _ Hb) Hdd).
    cbn [obind fst snd]. rewrite removelast_last, chain_dec_enc_b by exact Hb. reflexivity.
  Qed.

  (* C02 (XZ), closed over the LZMA2 models *)
  Theorem C02_xz_lzma2_thm : forall o0 parts f multi, stream_ok o0 ->
    4096 <= xo_dict o0 <= 2147483648 -> bytes_ok (concat parts) = true ->
    xz_encode penc fenc xz_fixed o0 parts = Ok f ->
    xz_decode xz_check_bytes bdec xz_fixed multi f = Ok (concat parts, []).
  Proof.
    intros o0 parts f multi Hok Hd Hb E.
    exact (C02_xz_cond penc fenc bdec l2_bgood l2_bdec_ok o0 parts f multi Hok (l2_stream_good o0 parts Hd Hb) E).
  Qed.

  (* a stream as the writer produced it with LZMA2 payloads *)
  Definition st_ok_l2 (s : xzstream) : Prop :=
    st_ok penc fenc s /\ 4096 <= xo_dict (st_opts s) <= 2147483648 /\ bytes_ok (concat (st_parts s)) = true.

  Lemma st_ok_l2_c s : st_ok_l2 s -> st_ok_c penc fenc l2_bgood s.
  Proof. intros (H1 & H2 & H3). split; [exact H1 | apply l2_stream_good; assumption]. Qed.

  Lemma Forall_st_ok_l2_c ss : Forall st_ok_l2 ss -> Forall (st_ok_c penc fenc l2_bgood) ss.
  Proof. intros H. eapply Forall_impl; [|exact H]. exact st_ok_l2_c. Qed.

  Theorem C12_xz_multi_lzma2_thm : forall s t, Forall st_ok_l2 (s :: t) ->
    Forall (fun x => st_pad x mod 4 = 0) (s :: t) ->
    xz_decode xz_check_bytes bdec xz_fixed true (xz_file (s :: t)) = Ok (xz_content (s :: t), []).
  Proof.
    intros s t Hok Hp.
    exact (xz_multi_cond penc fenc bdec l2_bgood l2_bdec_ok s t (Forall_st_ok_l2_c _ Hok) Hp).
  Qed.

  Theorem C12_xz_bad_padding_lzma2_thm : forall s rest, st_ok_l2 s -> st_pad s mod 4 <> 0 ->
    (rest = [] \/ exists ct X, check_known ct = true /\ rest = xz_stream_header ct ++ X) ->
    xz_decode xz_check_bytes bdec xz_fixed true (st_bytes s ++ rest) = Err E_INVALID_DATA.
  Proof.
    intros s rest Hs Hp Hr.
    exact (xz_multi_bad_padding_cond penc fenc bdec l2_bgood l2_bdec_ok s rest (st_ok_l2_c s Hs) Hp Hr).
  Qed.

  Theorem C12_xz_garbage_lzma2_thm : forall s b X, st_ok_l2 s -> b <> 0 -> b <> 253 ->
    xz_decode xz_check_bytes bdec xz_fixed true (st_bytes s ++ b :: X) = Err E_INVALID_DATA.
  Proof.
    intros s b X Hs H0 H253.
    exact (xz_multi_garbage_cond penc fenc bdec l2_bgood l2_bdec_ok s b X (st_ok_l2_c s Hs) H0 H253).
  Qed.

  (* C12 / C16: single-stream decoding stops behind the stream footer *)
  Theorem C16_xz_single_stream_lzma2_thm : forall o0 parts f rest, stream_ok o0 ->
    4096 <= xo_dict o0 <= 2147483648 -> bytes_ok (concat parts) = true ->
    xz_encode penc fenc xz_fixed o0 parts = Ok f ->
    xz_decode xz_check_bytes bdec xz_fixed false (f ++ rest) = Ok (concat parts, rest).
  Proof.
    intros o0 parts f rest Hok Hd Hb E.
    exact (xz_single_stops_cond penc fenc bdec l2_bgood l2_bdec_ok o0 parts f rest Hok (l2_stream_good o0 parts Hd Hb) E).
  Qed.
End XzLzma2.

(* the Delta model as pre-filter codec, and the executable reader chain xz_blockdec (xz_decode_c) *)

Definition delta_fenc (k : fkind) (p : Z) (x : list Z) : list Z :=
  match k with
  | FDelta => match delta_encode_bytes p x with Some o => o | None => [] end
  | _ => x
  end.
Definition delta_fdec (k : fkind) (p : Z) (y : list Z) : list Z :=
  match k with
  | FDelta => match delta_decode_bytes p y with Some o => o | None => [] end
  | _ => y
  end.

Definition only_delta (fs : list (fkind * Z)) : Prop := Forall (fun f => fst f = FDelta) fs.

Lemma delta_encode_out_bytes : forall l d d' o, delta_encode d l = Some (d', o) -> bytes_ok o = true.
Proof.
  unfold delta_encode. induction l as [|x t IH]; intros d d' o H; cbn [delta_run] in H.
  - inversion H. reflexivity.
  - destruct (delta_enc_byte d x) as [[d1 y]|] eqn:E; [|discriminate].
    destruct (delta_run delta_enc_byte d1 t) as [[d2 ys]|] eqn:E2; [|discriminate].
    inversion H; subst. cbn [bytes_ok forallb]. fold (bytes_ok ys). rewrite (IH d1 d' ys E2), andb_true_r.
    unfold delta_enc_byte in E. destruct (zth (d_hist d) (delta_idx d)) as [h|]; [|discriminate].
    inversion E; subst. unfold is_byte.
    pose proof (Z.mod_pos_bound (x - h) 256 ltac:(lia)) as Hm.
    destruct (Z.leb_spec 0 ((x - h) mod 256)); [|lia]. destruct (Z.ltb_spec ((x - h) mod 256) 256); [reflexivity | lia].
Qed.

Lemma delta_fdec_fenc : forall k p x, bytes_ok x = true -> delta_fdec k p (delta_fenc k p x) = x.
Proof.
  intros k p x Hb. destruct k; try reflexivity. cbn [delta_fenc delta_fdec].
  destruct (delta_inverse p x Hb) as (o & E1 & E2 & _). rewrite E1, E2. reflexivity.
Qed.

Lemma delta_fenc_bytes : forall k p x, bytes_ok x = true -> bytes_ok (delta_fenc k p x) = true.
Proof.
  intros k p x Hb. destruct k; try exact Hb. cbn [delta_fenc]. unfold delta_encode_bytes.
  destruct (delta_encode (delta_new p) x) as [[d' o]|] eqn:E; [|reflexivity].
  exact (delta_encode_out_bytes _ _ _ _ E).
Qed.

Lemma delta_dec_byte_inv d y d' x : delta_inv d -> delta_dec_byte d y = Some (d', x) -> delta_inv d'.
Proof.
  intros [Hl Hp] H. unfold delta_dec_byte in H.
  destruct (zth (d_hist d) (delta_idx d)) as [h|]; [|discriminate].
  inversion H; subst; clear H. unfold delta_inv; cbn [d_hist d_pos].
  rewrite zupd_length. split; [assumption|]. apply Z.mod_pos_bound; lia.
Qed.

Lemma delta_decode_total : forall l d, delta_inv d -> exists d' o, delta_decode d l = Some (d', o) /\ delta_inv d'.
Proof.
  induction l as [|y t IH]; intros d Hd.
  - exists d, []. split; [reflexivity | assumption].
  - unfold delta_decode in *. cbn [delta_run].
    destruct (delta_hist_lookup d Hd) as [h Hh].
    destruct (delta_dec_byte d y) as [[d1 x]|] eqn:E.
    2:{ unfold delta_dec_byte in E. rewrite Hh in E. discriminate. }
    destruct (IH d1 (delta_dec_byte_inv _ _ _ _ Hd E)) as (d2 & o & E2 & I2).
    rewrite E2. exists d2, (x :: o). split; [reflexivity | assumption].
Qed.

(* prepare_next_block for a chain of Delta filters: one DeltaReader per filter *)
Lemma chain_deltas_delta dd : forall fs, only_delta fs ->
  xz_chain_deltas (fs ++ [(FLZMA2, dd)]) = Ok (map (fun f => delta_new (snd f)) fs).
Proof.
  induction fs as [|[k p] fs IH]; intros Hfs; [reflexivity|].
  inversion Hfs as [|x l Hk Hfs']; subst x l. cbn [fst] in Hk. subst k.
  cbn [app xz_chain_deltas]. rewrite (IH Hfs'). cbn [obind map snd].
  destruct (fs ++ [(FLZMA2, dd)]); reflexivity.
Qed.

(* the Delta readers around the LZMA2 reader compute the chain of whole-buffer decoders *)
Lemma deltas_decode_chain : forall fs, only_delta fs -> forall raw,
  exists ds', xz_deltas_decode (map (fun f => delta_new (snd f)) fs) raw = Ok (ds', chain_dec delta_fdec fs raw).
Proof.
  induction fs as [|[k p] fs IH]; intros Hfs raw.
  - exists []. reflexivity.
  - inversion Hfs as [|x l Hk Hfs']; subst x l. cbn [fst] in Hk. subst k.
    destruct (IH Hfs' raw) as (ds' & E). cbn [map snd xz_deltas_decode]. rewrite E. cbn [obind].
    unfold chain_dec. cbn [fold_right fst snd]. fold (chain_dec delta_fdec fs raw).
    destruct (delta_decode_total (chain_dec delta_fdec fs raw) (delta_new p) (delta_new_inv p)) as (d' & o & Ed & _).
    rewrite Ed. cbn [delta_fdec]. unfold delta_decode_bytes. rewrite Ed. eexists. reflexivity.
Qed.

Lemma xz_blockdec_delta fs dd src : only_delta fs ->
  xz_blockdec (fs ++ [(FLZMA2, dd)]) src = blockdec lzma2_payload_dec delta_fdec (fs ++ [(FLZMA2, dd)]) src.
Proof.
  intros Hfs. unfold xz_blockdec, xz_blockdec_gen, blockdec. rewrite (chain_deltas_delta dd fs Hfs). cbn [obind].
  destruct (lzma2_payload_dec (xz_chain_dict (fs ++ [(FLZMA2, dd)])) src) as [[raw rest]| | |]; cbn [obind fst snd];
    try reflexivity.
  rewrite removelast_last. destruct (deltas_decode_chain fs Hfs raw) as (ds' & E). rewrite E. reflexivity.
Qed.

Definition d_bgood (o : xzopts) (c : list Z) : Prop := l2_bgood o c /\ only_delta (xo_filters o).

Lemma d_stream_good o0 parts : only_delta (xo_filters o0) -> 4096 <= xo_dict o0 <= 2147483648 ->
  bytes_ok (concat parts) = true -> stream_good d_bgood o0 parts.
Proof.
  intros Hfs Hd Hb o blocks Eo Ebl. destruct (xzw_new_inv o0 o Eo) as (_ & Ef & _).
  pose proof (l2_stream_good o0 parts Hd Hb o blocks Eo Ebl) as Hg.
  eapply Forall_impl; [|exact Hg]. intros c Hc. split; [exact Hc | rewrite Ef; exact Hfs].
Qed.

Section XzLzma2Delta.
  Variables lc lp pb : Z.
  Variable ch : Z -> list Z -> list l2ev.
  Hypothesis Hpar : l2_params_ok lc lp pb.
  Hypothesis Hch : l2_codec_ok lc lp pb ch.
  Notation penc := (l2_penc lc lp pb ch).

  Lemma d_bdec_ok : forall o c dd tail, d_bgood o c -> xo_dict o <= dd ->
    xz_blockdec (xo_filters o ++ [(FLZMA2, dd)]) (payload_of penc delta_fenc o c ++ tail) = Ok (c, tail).
  Proof.
    intros o c dd tail (Hg & Hfs) Hdd. rewrite (xz_blockdec_delta _ dd _ Hfs).
    exact (l2_bdec_ok lc lp pb ch Hpar Hch delta_fenc delta_fdec delta_fdec_fenc delta_fenc_bytes o c dd tail Hg Hdd).
  Qed.

  (* C02 (XZ) for the executable whole-file reader model xz_decode_c: Delta pre-filters (or none),
     LZMA2 payloads *)
  Theorem C02_xz_lzma2_delta_thm : forall o0 parts f multi, stream_ok o0 -> only_delta (xo_filters o0) ->
    4096 <= xo_dict o0 <= 2147483648 -> bytes_ok (concat parts) = true ->
    xz_encode penc delta_fenc xz_fixed o0 parts = Ok f ->
    xz_decode_c xz_fixed multi f = Ok (concat parts, []).
  Proof.
    intros o0 parts f multi Hok Hfs Hd Hb E. unfold xz_decode_c.
    exact (C02_xz_cond penc delta_fenc xz_blockdec d_bgood d_bdec_ok o0 parts f multi Hok (d_stream_good o0 parts Hfs Hd Hb) E).
  Qed.

  Definition st_ok_l2d (s : xzstream) : Prop :=
    st_ok penc delta_fenc s /\ only_delta (xo_filters (st_opts s)) /\
    4096 <= xo_dict (st_opts s) <= 2147483648 /\ bytes_ok (concat (st_parts s)) = true.

  Theorem C12_xz_multi_lzma2_delta_thm : forall s t, Forall st_ok_l2d (s :: t) ->
    Forall (fun x => st_pad x mod 4 = 0) (s :: t) ->
    xz_decode_c xz_fixed true (xz_file (s :: t)) = Ok (xz_content (s :: t), []).
  Proof.
    intros s t Hok Hp. unfold xz_decode_c.
    apply (xz_multi_cond penc delta_fenc xz_blockdec d_bgood d_bdec_ok s t); [|exact Hp].
    eapply Forall_impl; [|exact Hok]. intros x (H1 & H2 & H3 & H4). split; [exact H1 | apply d_stream_good; assumption].
  Qed.

  Theorem C16_xz_single_stream_lzma2_delta_thm : forall o0 parts f rest, stream_ok o0 -> only_delta (xo_filters o0) ->
    4096 <= xo_dict o0 <= 2147483648 -> bytes_ok (concat parts) = true ->
    xz_encode penc delta_fenc xz_fixed o0 parts = Ok f ->
    xz_decode_c xz_fixed false (f ++ rest) = Ok (concat parts, rest).
  Proof.
    intros o0 parts f rest Hok Hfs Hd Hb E. unfold xz_decode_c.
    exact (xz_single_stops_cond penc delta_fenc xz_blockdec d_bgood d_bdec_ok o0 parts f rest Hok
             (d_stream_good o0 parts Hfs Hd Hb) E).
  Qed.
End XzLzma2Delta.

(* LZMA (raw stream, end marker, lc=3 lp=0 pb=2) as the payload codec of LZIP *)

(* what is asked of the encoder's choices for one member: the writer model accepts them, no end
   marker among them (finish() adds it), and the number of coded bits stays within the range of the
   range encoder's u32 counter of pending bytes (RangeProofs.v; about 2^32 bits) *)
Definition l1_member_ok (ch : Z -> list Z -> list sym) (d : Z) (x : list Z) : Prop :=
  no_end (ch d x) /\
  (exists s, lzma1_write 3 0 2 d [] x (ch d x) false true None = Ok s) /\
  (forall E c' h', enc_syms (coder_new 3 0 2) (ehist_new d [] x) (ch d x ++ end_syms true) = Ok (E, c', h') ->
     events_bits E <= RC_MAX_BITS).

Definition l1_penc (ch : Z -> list Z -> list sym) (d : Z) (x : list Z) : list Z :=
  match lzma1_write 3 0 2 d [] x (ch d x) false true None with Ok s => s | _ => [] end.

Lemma l1_pdec_penc ch calls : forall d dd x tail,
  4096 <= d -> l1_member_ok ch d x -> zlen x / 4096 + 2 <= Z.of_nat calls -> bytes_ok x = true -> d <= dd ->
  LZIP_MIN_DICT <= dd <= LZIP_MAX_DICT ->
  lzip_payload_dec_n calls dd (l1_penc ch d x ++ tail) = Ok (x, tail).
Proof.
  intros d dd x tail Hd4 (Hne & (s & Hw) & Hbits) Hcalls Hb Hdd Hr. unfold l1_penc. rewrite Hw.
  unfold LZIP_MIN_DICT, LZIP_MAX_DICT in Hr.
  exact (lzip_payload_dec_n_rt d dd x (ch d x) s tail calls Hd4 Hdd ltac:(lia) Hb Hne Hw Hbits Hcalls).
Qed.

(* what is asked of a member: a dictionary LZMAOptions admits, choices the writer model accepts, and
   [enough d x]: the payload decoder's budget of read() calls suffices for it *)
Section LzipLzma1Budget.
  Variable ch : Z -> list Z -> list sym.
  Variable pdec : Z -> list Z -> outcome (list Z * list Z).
  Variable enough : Z -> list Z -> Prop.
  Notation penc := (l1_penc ch).

  Definition l1_good (d : Z) (x : list Z) : Prop := 4096 <= d /\ l1_member_ok ch d x /\ enough d x.

  Hypothesis pdec_ok : forall d dd x tail, l1_good d x -> bytes_ok x = true -> d <= dd ->
    LZIP_MIN_DICT <= dd <= LZIP_MAX_DICT -> pdec dd (penc d x ++ tail) = Ok (x, tail).

  Lemma C02_lzip_lzma1_budget : forall o0 parts f,
    bytes_ok (concat parts) = true ->
    (forall members, lz_members_of (lo_member_size (lzw_new o0)) parts = Ok members ->
       lz_sizes_ok penc (lo_dict (lzw_new o0)) members /\
       Forall (fun c => l1_member_ok ch (lo_dict (lzw_new o0)) c /\ enough (lo_dict (lzw_new o0)) c) members) ->
    match lo_member_size o0 with Some m => 1 <= m | None => True end ->
    lz_encode penc o0 parts = Ok f ->
    lz_decode pdec lz_fixed f = Ok (concat parts, []).
  Proof.
    intros o0 parts f Hb Hm Hms E.
    apply (C02_lzip_cond penc pdec l1_good pdec_ok o0 parts f Hb); [|exact Hms | exact E].
    intros members Em. destruct (Hm members Em) as (Hs & Hg). split; [exact Hs|].
    eapply Forall_impl; [|exact Hg]. intros c (H1 & H2).
    pose proof (lzw_new_dict_range o0) as Hr. unfold LZIP_MIN_DICT in Hr. split; [lia|]. split; assumption.
  Qed.
End LzipLzma1Budget.

Section LzipLzma1.
  Variable ch : Z -> list Z -> list sym.
  Variable calls : nat.         (* the number of 4096-byte read() calls the payload decoder may make *)
  Notation penc := (l1_penc ch).
  Notation pdec := (lzip_payload_dec_n calls).
  Notation good := (l1_good ch (fun _ x => zlen x / 4096 + 2 <= Z.of_nat calls)).

  Lemma l1_good_pdec : forall d dd x tail, good d x -> bytes_ok x = true -> d <= dd ->
    LZIP_MIN_DICT <= dd <= LZIP_MAX_DICT -> pdec dd (penc d x ++ tail) = Ok (x, tail).
  Proof. intros d dd x tail (H1 & H2 & H3) Hb Hdd Hr. apply l1_pdec_penc; assumption. Qed.

  (* C02 (LZIP), closed over the LZMA models *)
  Theorem C02_lzip_lzma1_thm : forall o0 parts f,
    bytes_ok (concat parts) = true ->
    (forall members, lz_members_of (lo_member_size (lzw_new o0)) parts = Ok members ->
       lz_sizes_ok penc (lo_dict (lzw_new o0)) members /\
       Forall (fun c => l1_member_ok ch (lo_dict (lzw_new o0)) c /\ zlen c / 4096 + 2 <= Z.of_nat calls) members) ->
    match lo_member_size o0 with Some m => 1 <= m | None => True end ->
    lz_encode penc o0 parts = Ok f ->
    lz_decode pdec lz_fixed f = Ok (concat parts, []).
  Proof. exact (C02_lzip_lzma1_budget ch pdec _ l1_good_pdec). Qed.

  (* a member as data (header byte, dictionary, content) with its LZMA payload *)
  Definition lm_ok_l1 (m : lzm) : Prop :=
    lm_ok penc m /\ 4096 <= lm_dict m /\ l1_member_ok ch (lm_dict m) (lm_content m) /\
    zlen (lm_content m) / 4096 + 2 <= Z.of_nat calls.

  Lemma Forall_lm_ok_l1_c ms : Forall lm_ok_l1 ms -> Forall (lm_ok_c penc good) ms.
  Proof.
    intros H. eapply Forall_impl; [|exact H]. intros m (H1 & H2 & H3 & H4). split; [exact H1|]. split; [exact H2|].
    split; assumption.
  Qed.

  Theorem C12_lzip_multi_lzma1_thm : forall m ms, Forall lm_ok_l1 (m :: ms) ->
    lz_decode pdec lz_fixed (lm_file penc (m :: ms)) = Ok (lm_data (m :: ms), []).
  Proof.
    intros m ms Hok. exact (lzip_multi_cond penc pdec good l1_good_pdec m ms (Forall_lm_ok_l1_c _ Hok)).
  Qed.

  Theorem C12_lzip_trailing_lzma1_thm : forall m ms t, Forall lm_ok_l1 (m :: ms) -> t <> [] ->
    lz_bytes_eqb (firstn 4 t) (firstn (length (firstn 4 t)) LZIP_MAGIC) = false ->
    lz_decode pdec lz_fixed (lm_file penc (m :: ms) ++ t) = Ok (lm_data (m :: ms), skipn 4 t).
  Proof.
    intros m ms t Hok Ht Hnm.
    exact (lzip_trailing_cond penc pdec good l1_good_pdec m ms t (Forall_lm_ok_l1_c _ Hok) Ht Hnm).
  Qed.
End LzipLzma1.

(* the executable whole-file reader model lz_decode_c allows itself 64 + 16 per source byte read()
   calls per member (LzipFormat.v); that suffices when a member is not compressed by more than
   a factor of 65536 *)
Section LzipLzma1C.
  Variable ch : Z -> list Z -> list sym.
  Notation penc := (l1_penc ch).

  Lemma l1_good_c_pdec : forall d dd x tail,
    l1_good ch (fun d x => zlen x / 4096 <= 62 + 16 * zlen (penc d x)) d x -> bytes_ok x = true -> d <= dd ->
    LZIP_MIN_DICT <= dd <= LZIP_MAX_DICT -> lzip_payload_dec dd (penc d x ++ tail) = Ok (x, tail).
  Proof.
    intros d dd x tail (H1 & H2 & H3) Hb Hdd Hr. unfold lzip_payload_dec.
    apply l1_pdec_penc; try assumption.
    rewrite Nat2Z.inj_add, Nat2Z.inj_mul, app_length, Nat2Z.inj_add. fold (zlen (penc d x)). fold (zlen tail).
    change (Z.of_nat 64) with 64. change (Z.of_nat 16) with 16.
    assert (0 <= zlen tail) by (unfold zlen; lia). lia.
  Qed.

  Theorem C02_lzip_lzma1_c_thm : forall o0 parts f,
    bytes_ok (concat parts) = true ->
    (forall members, lz_members_of (lo_member_size (lzw_new o0)) parts = Ok members ->
       lz_sizes_ok penc (lo_dict (lzw_new o0)) members /\
       Forall (fun c => l1_member_ok ch (lo_dict (lzw_new o0)) c /\
                        zlen c / 4096 <= 62 + 16 * zlen (penc (lo_dict (lzw_new o0)) c)) members) ->
    match lo_member_size o0 with Some m => 1 <= m | None => True end ->
    lz_encode penc o0 parts = Ok f ->
    lz_decode_c lz_fixed f = Ok (concat parts, []).
  Proof. exact (C02_lzip_lzma1_budget ch lzip_payload_dec _ l1_good_c_pdec). Qed.
End LzipLzma1C.

(* non-vacuity: an encoder exists for EVERY input - the one that stores everything *)

Definition l2_stored (d : Z) (x : list Z) : list l2ev :=
  match x with [] => [] | _ => [L2Unc (zlen x)] end.

Lemma l2_stored_ok lc lp pb : l2_codec_ok lc lp pb l2_stored.
Proof.
  intros d x Hd Hb. split.
  - intros ev Hin. unfold l2_stored in Hin. destruct x; [contradiction|]. destruct Hin as [<-|[]]. discriminate.
  - unfold l2_stored, lzma2_write. cbv zeta. unfold ehist_new. rewrite preset_kept_nil. cbn [app].
    change (zlen (@nil Z)) with 0.
    destruct x as [|b x'].
    + cbn [l2_steps obind w_enc es_hist h_pos h_total w_chunk_start]. change (zlen (@nil Z)) with 0.
      cbn [Z.add Z.eqb andb negb]. eexists. reflexivity.
    + set (x := b :: x'). assert (Hx : 1 <= zlen x) by (unfold x, zlen; cbn [length]; lia).
      cbn [l2_steps l2_step w_enc es_hist h_total h_pos w_chunk_start].
      destruct (Z.ltb_spec (zlen x) 1) as [?|_]; [lia|].
      destruct (Z.ltb_spec (0 + zlen x) (0 + zlen x)) as [?|_]; [lia|].
      destruct (Z.ltb_spec (0 + zlen x) 0) as [?|_]; [lia|].
      cbn [orb obind w_enc es_hist h_pos h_total w_chunk_start].
      rewrite !Z.eqb_refl. cbn [andb negb]. eexists. reflexivity.
Qed.

Print Assumptions C02_xz_lzma2_thm.
Print Assumptions C02_xz_lzma2_delta_thm.
Print Assumptions C02_lzip_lzma1_thm.
