(* Format/LzipDictProofs.v — the LZIP header byte always announces a dictionary at least as large
   as the one the encoder uses (after the fix), and the historical rounding is refuted. *)
From LzVerif Require Import Base.Bytes Format.LzipDict.

Definition logs : list Z := [12;13;14;15;16;17;18;19;20;21;22;23;24;25;26;27;28;29].
Definition fracs : list Z := [0;1;2;3;4;5;6;7].

Definition outcome_eqb (a b : outcome Z) : bool :=
  match a, b with
  | Ok x, Ok y => x =? y
  | Err x, Err y => x =? y
  | Panic x, Panic y => x =? y
  | Fuel, Fuel => true
  | _, _ => false
  end.

Lemma outcome_eqb_eq a b : outcome_eqb a b = true -> a = b.
Proof. destruct a, b; cbn; try discriminate; try reflexivity; intro H; apply Z.eqb_eq in H; congruence. Qed.

Definition decode_expected (b2 f : Z) : outcome Z :=
  let v := 2 ^ b2 - f * 2 ^ (b2 - 4) in
  if v <? 4096 then Err E_INVALID_DATA else Ok v.

Definition decode_chk (b2 f : Z) : bool :=
  outcome_eqb (lzip_decode_dict_size (wrap8 (Z.lor (Z.shiftl f 5) (Z.land b2 31)))) (decode_expected b2 f).

Lemma decode_table_sweep : forallb (fun b2 => forallb (decode_chk b2) fracs) logs = true.
Proof. vm_compute. reflexivity. Qed.

Lemma in_logs b : 12 <= b <= 29 -> In b logs.
Proof. intros H. assert (b = 12 \/ b = 13 \/ b = 14 \/ b = 15 \/ b = 16 \/ b = 17 \/ b = 18 \/ b = 19 \/ b = 20 \/
  b = 21 \/ b = 22 \/ b = 23 \/ b = 24 \/ b = 25 \/ b = 26 \/ b = 27 \/ b = 28 \/ b = 29) as Hc by lia.
  unfold logs; cbn [In]. intuition auto.
Qed.

Lemma in_fracs f : 0 <= f <= 7 -> In f fracs.
Proof. intros H. assert (f = 0 \/ f = 1 \/ f = 2 \/ f = 3 \/ f = 4 \/ f = 5 \/ f = 6 \/ f = 7) as Hc by lia.
  unfold fracs; cbn [In]. intuition auto.
Qed.

Lemma decode_table b2 f : 12 <= b2 <= 29 -> 0 <= f <= 7 ->
  lzip_decode_dict_size (wrap8 (Z.lor (Z.shiftl f 5) (Z.land b2 31))) = decode_expected b2 f.
Proof.
  intros Hb Hf. pose proof decode_table_sweep as S.
  rewrite forallb_forall in S. specialize (S b2 (in_logs b2 Hb)).
  rewrite forallb_forall in S. specialize (S f (in_fracs f Hf)).
  apply outcome_eqb_eq. exact S.
Qed.

(* a size strictly inside the bracket (8u, 16u): the fraction rounded down is at most 7, the announced
   size 16u - f u is at least d and exceeds it by less than one unit u < d / 8 *)
Lemma fraction_down u d : 0 < u -> 8 * u < d < 16 * u ->
  let f := (16 * u - d) / u in 0 <= f <= 7 /\ d <= 16 * u - f * u /\ 16 * (16 * u - f * u - d) < 2 * d.
Proof.
  intros Hu Hd f.
  assert (H0 : 0 <= f) by (apply Z.div_pos; lia).
  assert (H7 : f < 8) by (apply Z.div_lt_upper_bound; lia).
  pose proof (Z.div_mod (16 * u - d) u ltac:(lia)) as E. fold f in E.
  pose proof (Z.mod_pos_bound (16 * u - d) u Hu) as Hr. lia.
Qed.

(* C02 / C19 (LZIP): every dictionary size the writer can be configured with (it clamps into
   [4 KiB, 512 MiB]) yields a header byte which the reader decodes to a dictionary at least as large
   - so no distance the encoder may use is rejected - and at most one sixteenth-of-base larger. *)
Theorem lzip_dict_ok : forall d,
  LZIP_MIN_DICT <= d <= LZIP_MAX_DICT ->
  exists byte dd, lzip_encode_dict_size d = Ok byte /\ 0 <= byte < 256 /\
                  lzip_decode_dict_size byte = Ok dd /\ d <= dd /\ 16 * (dd - d) < 2 * d.
Proof.
  intros d [Hlo Hhi]. unfold LZIP_MIN_DICT, LZIP_MAX_DICT in *.
  pose proof (Z.log2_spec d ltac:(lia)) as Hs.
  pose proof (Z.log2_le_mono 4096 d ltac:(lia)) as H1. change (Z.log2 4096) with 12 in H1.
  pose proof (Z.log2_le_mono d 536870912 ltac:(lia)) as H2. change (Z.log2 536870912) with 29 in H2.
  set (b0 := Z.log2 d) in *. set (u := 2 ^ (b0 - 3)).
  assert (Hu : 0 < u) by (apply Z.pow_pos_nonneg; lia).
  assert (E8 : 2 ^ b0 = 8 * u) by (unfold u; replace b0 with (3 + (b0 - 3)) at 1 by lia; rewrite Z.pow_add_r by lia; reflexivity).
  assert (E16 : 2 ^ (b0 + 1) = 16 * u) by (unfold u; replace (b0 + 1) with (4 + (b0 - 3)) by lia; rewrite Z.pow_add_r by lia; reflexivity).
  rewrite Z.pow_succ_r in Hs by lia. 
  unfold lzip_encode_dict_size, lzip_encode_dict_size_gen, LZIP_MIN_DICT, LZIP_MAX_DICT. fold b0. cbv zeta.
  destruct (Z.ltb_spec d 4096); [lia|]. destruct (Z.ltb_spec 536870912 d); [lia|]. cbn [orb].
  rewrite Z.shiftl_1_l.
  destruct (Z.ltb_spec (2 ^ b0) d) as [Hin|Hpow].
  - (* strictly inside the bracket *)
    assert (Hb29 : b0 + 1 <= 29).
    { destruct (Z.eq_dec b0 29) as [X|]; [|lia]. rewrite X in Hin. change (2 ^ 29) with 536870912 in Hin. lia. }
    destruct (Z.ltb_spec (b0 + 1) 12); [lia|]. destruct (Z.ltb_spec 29 (b0 + 1)); [lia|].
    rewrite Z.shiftl_1_l, Z.shiftr_div_pow2, E16 by lia. change (2 ^ 4) with 16.
    rewrite (Z.mul_comm 16 u), Z.div_mul, (Z.mul_comm u 16) by lia.
    destruct (Z.ltb_spec d (16 * u)); [|lia]. destruct (Z.ltb_spec 0 u); [|lia].
    destruct (fraction_down u d Hu ltac:(lia)) as ((F0 & F7) & Hle & Hnear).
    destruct (Z.ltb_spec 7 ((16 * u - d) / u)); [lia|].
    eexists. exists (16 * u - (16 * u - d) / u * u).
    split; [reflexivity|]. split; [apply Z.mod_pos_bound; lia|].
    split; [|split; assumption].
    rewrite decode_table by lia. unfold decode_expected. cbv zeta.
    replace (b0 + 1 - 4) with (b0 - 3) by lia. fold u. rewrite E16.
    destruct (Z.ltb_spec (16 * u - (16 * u - d) / u * u) 4096); [lia | reflexivity].
  - (* a power of two *)
    assert (Ed : d = 2 ^ b0) by lia.
    destruct (Z.ltb_spec b0 12); [lia|]. destruct (Z.ltb_spec 29 b0); [lia|].
    rewrite Z.shiftl_1_l. destruct (Z.ltb_spec d (2 ^ b0)); [lia|].
    exists (wrap8 (Z.lor (Z.shiftl 0 5) (Z.land b0 31))), d.
    split; [reflexivity|]. split; [apply Z.mod_pos_bound; lia|].
    split; [|lia]. rewrite decode_table by lia. unfold decode_expected. cbv zeta.
    rewrite Z.mul_0_l, Z.sub_0_r, <- Ed. destruct (Z.ltb_spec d 4096); [lia | reflexivity].
Qed.

Lemma lzip_clamp_dict_range r : LZIP_MIN_DICT <= lzip_clamp_dict r <= LZIP_MAX_DICT.
Proof.
  unfold lzip_clamp_dict, LZIP_MIN_DICT, LZIP_MAX_DICT.
  destruct (Z.ltb_spec r 4096); [lia|]. destruct (Z.ltb_spec 536870912 r); lia.
Qed.

Theorem lzip_header_dict_ok : forall requested,
  exists dd, lzip_header_dict requested = Ok dd /\ lzip_clamp_dict requested <= dd.
Proof.
  intros r. unfold lzip_header_dict.
  destruct (lzip_dict_ok _ (lzip_clamp_dict_range r)) as (b & dd & E1 & _ & E2 & Hle & _).
  rewrite E1. cbn [obind]. rewrite E2. exists dd. split; [reflexivity | assumption].
Qed.

(* whatever the reader accepts as a header byte announces a size in the writer's range *)
Lemma lzip_decode_dict_range byte dd : lzip_decode_dict_size byte = Ok dd -> LZIP_MIN_DICT <= dd <= LZIP_MAX_DICT.
Proof.
  unfold lzip_decode_dict_size. cbv zeta.
  destruct ((Z.land byte 31 <? 12) || (29 <? Z.land byte 31)); [discriminate|].
  destruct (7 <? Z.shiftr byte 5); [discriminate|].
  match goal with |- (if (?a <? ?b) || (?c <? ?d) then _ else _) = _ -> _ =>
    destruct (Z.ltb_spec a b) as [Hlo|Hlo]; [discriminate|]; destruct (Z.ltb_spec c d) as [Hhi|Hhi]; [discriminate|] end.
  cbn [orb]. intros Hdd. inversion Hdd; subst dd. lia.
Qed.

(* The behaviour before the fix (fraction rounded up) announced too small a dictionary. *)
Theorem lzip_dict_old_refuted :
  exists d byte dd, LZIP_MIN_DICT <= d <= LZIP_MAX_DICT /\
    lzip_encode_dict_size_old d = Ok byte /\ lzip_decode_dict_size byte = Ok dd /\ dd < d.
Proof. exists 5000, 237, 4608. vm_compute. repeat split; congruence. Qed.
