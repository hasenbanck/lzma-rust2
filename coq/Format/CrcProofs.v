(* Format/CrcProofs.v — facts about the CRC models: the register stays in range, the stored
   little-endian field reads back as the value, and the register update is injective in the register for a
   fixed input byte and injective in the input byte for a fixed register - hence two byte strings that
   differ in exactly one byte never have the same CRC-32 / CRC-64 (C04_bitflip). *)
From LzVerif Require Import Base.Bytes Format.Crc.

Lemma lxor_range n a b : 0 <= n -> 0 <= a < 2 ^ n -> 0 <= b < 2 ^ n -> 0 <= Z.lxor a b < 2 ^ n.
Proof.
  intros Hn Ha Hb. assert (H0 : 0 <= Z.lxor a b) by (apply Z.lxor_nonneg; lia).
  split; [exact H0|].
  destruct (Z.eq_dec n 0) as [->|Hn0].
  { change (2 ^ 0) with 1 in *. assert (a = 0) by lia. assert (b = 0) by lia. subst. cbn. lia. }
  destruct (Z.eq_dec (Z.lxor a b) 0) as [E|E]; [rewrite E; lia|].
  apply Z.log2_lt_pow2; [lia|].
  eapply Z.le_lt_trans; [apply Z.log2_lxor; lia|].
  apply Z.max_lub_lt.
  - destruct (Z.eq_dec a 0) as [->|]; [change (Z.log2 0) with 0; lia|].
    apply Z.log2_lt_pow2; lia.
  - destruct (Z.eq_dec b 0) as [->|]; [change (Z.log2 0) with 0; lia|].
    apply Z.log2_lt_pow2; lia.
Qed.

Lemma shiftr1_range n c : 1 <= n -> 0 <= c < 2 ^ n -> 0 <= Z.shiftr c 1 < 2 ^ (n - 1).
Proof.
  intros Hn Hc. rewrite Z.shiftr_div_pow2 by lia. change (2 ^ 1) with 2.
  replace (2 ^ n) with (2 * 2 ^ (n - 1)) in Hc by (rewrite <- Z.pow_succ_r by lia; f_equal; lia).
  (Z.div_mod_to_equations; lia).
Qed.

Lemma pow2_mono_le a b : 0 <= a <= b -> 2 ^ a <= 2 ^ b.
Proof. intros. apply Z.pow_le_mono_r; lia. Qed.

Section Width.
  Variable n : Z.          (* register width: 32 or 64 *)
  Variable poly : Z.
  Hypothesis Hn : 8 <= n.
  Hypothesis Hpoly : 2 ^ (n - 1) <= poly < 2 ^ n.   (* top bit set: the generator has a constant term *)

  Lemma crc_step_range c : 0 <= c < 2 ^ n -> 0 <= crc_step poly c < 2 ^ n.
  Proof.
    intros Hc. unfold crc_step. pose proof (shiftr1_range n c ltac:(lia) Hc) as Hs.
    pose proof (pow2_mono_le (n - 1) n ltac:(lia)).
    destruct (Z.odd c); [apply lxor_range; lia | lia].
  Qed.

  (* the top bit of the result tells which branch was taken *)
  Lemma lxor_poly_high x : 0 <= x < 2 ^ (n - 1) -> 2 ^ (n - 1) <= Z.lxor x poly.
  Proof.
    intros Hx.
    assert (Ht : Z.testbit (Z.lxor x poly) (n - 1) = true).
    { rewrite Z.lxor_spec.
      assert (Z.testbit x (n - 1) = false).
      { destruct (Z.eq_dec x 0) as [->|]; [apply Z.bits_0|]. apply Z.bits_above_log2; [lia|].
        apply Z.log2_lt_pow2; lia. }
      assert (Z.testbit poly (n - 1) = true).
      { apply Z.testbit_true; [lia|].
        assert (P2 : 2 ^ n = 2 * 2 ^ (n - 1)) by (rewrite <- Z.pow_succ_r by lia; f_equal; lia).
        assert (Q : poly / 2 ^ (n - 1) = 1).
        { symmetry. apply Z.div_unique with (r := poly - 2 ^ (n - 1)); lia. }
        rewrite Q. reflexivity. }
      rewrite H, H0. reflexivity. }
    destruct (Z_lt_le_dec (Z.lxor x poly) (2 ^ (n - 1))) as [Hlt|]; [|assumption].
    exfalso.
    assert (0 <= Z.lxor x poly) by (apply Z.lxor_nonneg; lia).
    destruct (Z.eq_dec (Z.lxor x poly) 0) as [E|E].
    - rewrite E, Z.bits_0 in Ht. discriminate.
    - rewrite Z.bits_above_log2 in Ht; [discriminate | lia |]. apply Z.log2_lt_pow2; lia.
  Qed.

  Lemma lxor_cancel_r a b c : Z.lxor a c = Z.lxor b c -> a = b.
  Proof.
    intros E. apply (f_equal (fun t => Z.lxor t c)) in E.
    rewrite !Z.lxor_assoc, Z.lxor_nilpotent, !Z.lxor_0_r in E. exact E.
  Qed.

  Lemma odd_shiftr_inj c1 c2 : 0 <= c1 -> 0 <= c2 -> Z.odd c1 = Z.odd c2 -> Z.shiftr c1 1 = Z.shiftr c2 1 -> c1 = c2.
  Proof.
    intros H1 H2 Ho Es. rewrite !Z.shiftr_div_pow2 in Es by lia. change (2 ^ 1) with 2 in Es.
    rewrite (Z.div_mod c1 2), (Z.div_mod c2 2) by lia. rewrite Es. f_equal.
    rewrite !Zmod_odd, Ho. reflexivity.
  Qed.

  Lemma crc_step_inj c1 c2 : 0 <= c1 < 2 ^ n -> 0 <= c2 < 2 ^ n -> crc_step poly c1 = crc_step poly c2 -> c1 = c2.
  Proof.
    intros H1 H2 E. unfold crc_step in E.
    pose proof (shiftr1_range n c1 ltac:(lia) H1) as S1. pose proof (shiftr1_range n c2 ltac:(lia) H2) as S2.
    destruct (Z.odd c1) eqn:O1, (Z.odd c2) eqn:O2.
    - apply lxor_cancel_r in E. apply odd_shiftr_inj; try lia. congruence.
    - pose proof (lxor_poly_high _ S1). lia.
    - pose proof (lxor_poly_high _ S2). lia.
    - apply odd_shiftr_inj; try lia. congruence.
  Qed.

  Lemma crc_byte_range c b : 0 <= c < 2 ^ n -> 0 <= b < 256 -> 0 <= crc_byte poly c b < 2 ^ n.
  Proof.
    intros Hc Hb. unfold crc_byte.
    assert (H0 : 0 <= Z.lxor c b < 2 ^ n).
    { apply lxor_range; [lia | lia |]. pose proof (pow2_mono_le 8 n ltac:(lia)). change (2 ^ 8) with 256 in *. lia. }
    repeat apply crc_step_range. exact H0.
  Qed.

  Lemma crc_byte_inj_c c1 c2 b : 0 <= c1 < 2 ^ n -> 0 <= c2 < 2 ^ n -> 0 <= b < 256 ->
    crc_byte poly c1 b = crc_byte poly c2 b -> c1 = c2.
  Proof.
    intros H1 H2 Hb E. unfold crc_byte in E.
    assert (Hb' : 0 <= b < 2 ^ n) by (pose proof (pow2_mono_le 8 n ltac:(lia)); change (2 ^ 8) with 256 in *; lia).
    pose proof (lxor_range n c1 b ltac:(lia) H1 Hb') as R1. pose proof (lxor_range n c2 b ltac:(lia) H2 Hb') as R2.
    repeat (apply crc_step_inj in E; [| repeat apply crc_step_range; assumption | repeat apply crc_step_range; assumption]).
    apply lxor_cancel_r in E. exact E.
  Qed.

  Lemma crc_byte_inj_b c b1 b2 : 0 <= c < 2 ^ n -> 0 <= b1 < 256 -> 0 <= b2 < 256 ->
    crc_byte poly c b1 = crc_byte poly c b2 -> b1 = b2.
  Proof.
    intros Hc H1 H2 E. unfold crc_byte in E.
    assert (Hp : 256 <= 2 ^ n) by (pose proof (pow2_mono_le 8 n ltac:(lia)); change (2 ^ 8) with 256 in *; lia).
    pose proof (lxor_range n c b1 ltac:(lia) Hc ltac:(lia)) as R1. pose proof (lxor_range n c b2 ltac:(lia) Hc ltac:(lia)) as R2.
    repeat (apply crc_step_inj in E; [| repeat apply crc_step_range; assumption | repeat apply crc_step_range; assumption]).
    rewrite (Z.lxor_comm c b1), (Z.lxor_comm c b2) in E. apply lxor_cancel_r in E. exact E.
  Qed.

  Lemma crc_update_range l : forall c, 0 <= c < 2 ^ n -> bytes_ok l = true -> 0 <= crc_update poly c l < 2 ^ n.
  Proof.
    induction l as [|b t IH]; intros c Hc Hl; [exact Hc|].
    apply bytes_ok_cons in Hl as [Hb Ht]. unfold crc_update in *. cbn [fold_left].
    apply IH; [apply crc_byte_range; assumption | exact Ht].
  Qed.

  Lemma crc_update_inj l : forall c1 c2, 0 <= c1 < 2 ^ n -> 0 <= c2 < 2 ^ n -> bytes_ok l = true ->
    crc_update poly c1 l = crc_update poly c2 l -> c1 = c2.
  Proof.
    induction l as [|b t IH]; intros c1 c2 H1 H2 Hl E; [exact E|].
    apply bytes_ok_cons in Hl as [Hb Ht]. unfold crc_update in *. cbn [fold_left] in E.
    apply IH in E; [| apply crc_byte_range; assumption | apply crc_byte_range; assumption | exact Ht].
    eapply crc_byte_inj_c; eassumption.
  Qed.

  Lemma crc_update_app c a b : crc_update poly c (a ++ b) = crc_update poly (crc_update poly c a) b.
  Proof. unfold crc_update. apply fold_left_app. Qed.

  (* two strings differing in exactly one byte end in different registers *)
  Lemma crc_update_one_byte c p b1 b2 s : 0 <= c < 2 ^ n ->
    bytes_ok p = true -> 0 <= b1 < 256 -> 0 <= b2 < 256 -> bytes_ok s = true -> b1 <> b2 ->
    crc_update poly c (p ++ b1 :: s) <> crc_update poly c (p ++ b2 :: s).
  Proof.
    intros Hc Hp H1 H2 Hs Hne E. rewrite !crc_update_app in E.
    pose proof (crc_update_range p c Hc Hp) as Rp.
    unfold crc_update at 1 3 in E. cbn [fold_left] in E. fold (crc_update poly (crc_byte poly (crc_update poly c p) b1) s) in E.
    fold (crc_update poly (crc_byte poly (crc_update poly c p) b2) s) in E.
    apply crc_update_inj in E; [| apply crc_byte_range; assumption | apply crc_byte_range; assumption | exact Hs].
    apply crc_byte_inj_b in E; try assumption. contradiction.
  Qed.
End Width.

Lemma bytes_ok_cons_ok b l : 0 <= b < 256 -> bytes_ok l = true -> bytes_ok (b :: l) = true.
Proof. intros Hb Hl. apply bytes_ok_cons. split; assumption. Qed.

Lemma crc32_range l : bytes_ok l = true -> 0 <= crc32 l < 2 ^ 32.
Proof.
  intros Hl. unfold crc32. apply lxor_range; [lia | | unfold M32; lia].
  apply (crc_update_range 32 CRC32_POLY ltac:(lia)); [unfold CRC32_POLY; lia | unfold M32; lia | exact Hl].
Qed.

Lemma crc64_range l : bytes_ok l = true -> 0 <= crc64 l < 2 ^ 64.
Proof.
  intros Hl. unfold crc64. apply lxor_range; [lia | | unfold M64; lia].
  apply (crc_update_range 64 CRC64_POLY ltac:(lia)); [unfold CRC64_POLY; lia | unfold M64; lia | exact Hl].
Qed.

Lemma le_value_crc32_bytes l : bytes_ok l = true -> le_value (crc32_bytes l) = crc32 l.
Proof. intros Hl. unfold crc32_bytes. apply le_value_bytes. pose proof (crc32_range l Hl). cbn. lia. Qed.

(* C04_bitflip (CRC-32 part): changing exactly one byte of a CRC-covered string changes its CRC-32,
   so a stored CRC that matched before cannot match afterwards (and vice versa) *)
Theorem crc32_one_byte p b1 b2 s :
  bytes_ok p = true -> 0 <= b1 < 256 -> 0 <= b2 < 256 -> bytes_ok s = true -> b1 <> b2 ->
  crc32 (p ++ b1 :: s) <> crc32 (p ++ b2 :: s).
Proof.
  intros Hp H1 H2 Hs Hne E. unfold crc32 in E. apply (f_equal (fun t => Z.lxor t M32)) in E.
  rewrite !Z.lxor_assoc, Z.lxor_nilpotent, !Z.lxor_0_r in E.
  revert E. apply (crc_update_one_byte 32 CRC32_POLY ltac:(lia)); try assumption; [unfold CRC32_POLY | unfold M32]; lia.
Qed.

Theorem crc64_one_byte p b1 b2 s :
  bytes_ok p = true -> 0 <= b1 < 256 -> 0 <= b2 < 256 -> bytes_ok s = true -> b1 <> b2 ->
  crc64 (p ++ b1 :: s) <> crc64 (p ++ b2 :: s).
Proof.
  intros Hp H1 H2 Hs Hne E. unfold crc64 in E. apply (f_equal (fun t => Z.lxor t M64)) in E.
  rewrite !Z.lxor_assoc, Z.lxor_nilpotent, !Z.lxor_0_r in E.
  revert E. apply (crc_update_one_byte 64 CRC64_POLY ltac:(lia)); try assumption; [unfold CRC64_POLY | unfold M64]; lia.
Qed.
