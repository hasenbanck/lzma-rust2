(* Format/XzProofs.v — C02 (XZ) and C12 (XZ): what XZWriter writes, XZReader (whole-file function
   xz_decode of XzFormat.v) reads back, for every check type, block partition, pre-filter chain and
   dictionary size; concatenated streams with stream padding decode to the concatenation.
   The LZMA2 payload encoder and the pre-filter encoders are Section variables.  What is assumed of
   the reader side is a block decoder [bdec] that inverts the writer's payload for the blocks
   satisfying an arbitrary predicate [bgood], and every theorem asks [bgood] of the blocks the writer
   cuts.  That covers the executable chain xz_blockdec with the concrete LZMA2 model, which inverts
   the encoder only on byte strings and dictionary sizes up to 2 GiB (ComposeProofs.v), and the
   abstract chain  blockdec pdec fdec  under the round-trip statements of C01/C16 (payload, with an
   arbitrary tail left untouched, decoder dictionary at least the encoder's) and C11 (filters) for
   every input: the second Section, with [bgood] always true.
   The block check function is the concrete one of the model; the proof uses nothing but the length
   of its output. *)
From LzVerif Require Import Base.Bytes Format.Crc Format.CrcProofs Format.Sha256 Format.Vli Format.VliProofs
  Format.XzFormat Format.XzSplitProofs Format.XzHeaderProofs Format.XzBlockHeaderProofs Format.XzIndexProofs.

(* the check field has the length the format prescribes *)

Lemma length_be_bytes n : forall v acc, length (be_bytes n v acc) = (n + length acc)%nat.
Proof. induction n as [|n IH]; intros v acc; cbn [be_bytes]; [reflexivity|]. rewrite IH. cbn [length]. lia. Qed.

Lemma zlen_sha256 l : zlen (sha256 l) = 32.
Proof.
  unfold sha256. destruct (sha_blocks _ _ _) as [[[[[[[a b] c] d] e] f] g] h].
  unfold zlen. rewrite !length_be_bytes. reflexivity.
Qed.

Lemma zlen_check_bytes ct c : check_known ct = true -> zlen (xz_check_bytes ct c) = check_size ct.
Proof.
  unfold check_known. intros H. repeat (apply orb_true_iff in H as [H|H]); apply Z.eqb_eq in H; subst ct;
    unfold xz_check_bytes, check_size; cbn [Z.eqb Pos.eqb].
  - reflexivity.
  - apply zlen_crc32_bytes.
  - unfold crc64_bytes. apply zlen_le_bytes.
  - apply zlen_sha256.
Qed.

Lemma check_size_mod4 ct : check_known ct = true -> check_size ct mod 4 = 0 /\ 0 <= check_size ct.
Proof.
  unfold check_known. intros H. repeat (apply orb_true_iff in H as [H|H]); apply Z.eqb_eq in H; subst ct; cbn; lia.
Qed.

Lemma pad4_add a b : a mod 4 = 0 -> pad4 (a + b) = pad4 b.
Proof. unfold pad4. intros. (Z.div_mod_to_equations; lia). Qed.

Lemma xz_consume_padding_ok pos n rest : pad4 pos = n ->
  xz_consume_padding pos (repeatn 0 (Z.to_nat n) ++ rest) = Ok rest.
Proof.
  intros Hn. pose proof (pad4_range pos) as Hr. unfold xz_consume_padding. rewrite Hn.
  destruct (Z.eqb_spec n 0) as [->|Hne]; [reflexivity|].
  pose proof (zlen_repeatn 0 (Z.to_nat n)) as Lz. set (z := repeatn 0 (Z.to_nat n)) in *.
  replace (Z.to_nat n) with (length z) by (unfold zlen in Lz; lia).
  rewrite firstn_app, skipn_app, firstn_all, skipn_all, Nat.sub_diag. cbn [firstn skipn app]. rewrite app_nil_r, Lz.
  destruct (Z.eqb_spec (Z.of_nat (Z.to_nat n)) n); [|lia]. unfold z. rewrite forallb_zeros. reflexivity.
Qed.

Lemma xz_verify_check_ok ct c rest : check_known ct = true ->
  xz_verify_check ct (xz_check_bytes ct c) (xz_check_bytes ct c ++ rest) = Ok rest.
Proof.
  intros Hk. unfold xz_verify_check. destruct (Z.eqb_spec ct 0) as [->|Hne]; [reflexivity|].
  rewrite (xz_take_app_n (check_size ct)) by (apply zlen_check_bytes; exact Hk). cbn [obind].
  rewrite bytes_eqb_refl. reflexivity.
Qed.

Lemma xz_skip_zeros_app k : forall l n, xz_skip_zeros (repeatn 0 k ++ l) n = xz_skip_zeros l (n + Z.of_nat k).
Proof.
  induction k as [|k IH]; intros l n.
  - cbn [repeatn app]. f_equal. lia.
  - cbn [repeatn app xz_skip_zeros Z.eqb]. rewrite IH. f_equal. lia.
Qed.

Lemma try_next_end p : 0 <= p ->
  xz_try_next_stream xz_fixed (repeatn 0 (Z.to_nat p)) =
  if p mod 4 =? 0 then Ok (None, []) else Err E_INVALID_DATA.
Proof.
  intros Hp. unfold xz_try_next_stream.
  replace (repeatn 0 (Z.to_nat p)) with (repeatn 0 (Z.to_nat p) ++ []) by apply app_nil_r.
  rewrite xz_skip_zeros_app. cbn [xz_skip_zeros fx16b xz_fixed andb]. rewrite Z2Nat.id by lia. cbn [Z.add].
  destruct (p mod 4 =? 0); reflexivity.
Qed.

Lemma try_next_stream_header p ct X : 0 <= p -> check_known ct = true ->
  xz_try_next_stream xz_fixed (repeatn 0 (Z.to_nat p) ++ xz_stream_header ct ++ X) =
  if p mod 4 =? 0 then Ok (Some ct, X) else Err E_INVALID_DATA.
Proof.
  intros Hp Hk. set (Y := xz_stream_flags ct ++ crc32_bytes (xz_stream_flags ct) ++ X).
  assert (EY : xz_stream_header ct ++ X = 253 :: 55 :: 122 :: 88 :: 90 :: 0 :: Y).
  { unfold xz_stream_header, XZ_MAGIC, Y. rewrite <- !app_assoc. reflexivity. }
  rewrite EY. unfold xz_try_next_stream. rewrite xz_skip_zeros_app, Z2Nat.id by lia.
  cbn [xz_skip_zeros]. change (253 =? 0) with false. cbv iota. cbn [fx16 xz_fixed].
  change (253 =? 253) with true. cbn [negb].
  rewrite !zlen_cons. pose proof (zlen_nonneg Y).
  destruct (Z.ltb_spec (zlen Y + 1 + 1 + 1 + 1 + 1) 5); [lia|].
  cbn [firstn skipn]. change (bytes_eqb [253; 55; 122; 88; 90; 0] XZ_MAGIC) with true. cbn [negb].
  replace (0 + p) with p by lia.
  destruct (p mod 4 =? 0); cbn [negb]; [|reflexivity].
  unfold Y. rewrite xz_parse_flags_crc_ok by exact Hk. reflexivity.
Qed.

Lemma try_next_garbage p b X : 0 <= p -> b <> 0 -> b <> 253 ->
  xz_try_next_stream xz_fixed (repeatn 0 (Z.to_nat p) ++ b :: X) = Err E_INVALID_DATA.
Proof.
  intros Hp H0 H253. unfold xz_try_next_stream. rewrite xz_skip_zeros_app.
  cbn [xz_skip_zeros]. destruct (Z.eqb_spec b 0); [contradiction|].
  cbn [fx16 xz_fixed]. destruct (Z.eqb_spec b 253); [contradiction | reflexivity].
Qed.


(* one block of xzd_blocks: header, payload, block padding, check; only the position modulo 4
   matters to the reader *)
Lemma xzd_blocks_block (H : Z -> list Z -> list Z) bdec f ct hdr bh pay c chk rest pos n acc :
  let tail := pay ++ repeatn 0 (Z.to_nat (pad4 (zlen pay))) ++ chk ++ rest in
  xz_parse_block_header (hdr ++ tail) = Ok (Some bh, tail) ->
  bdec (bh_filters bh) tail = Ok (c, repeatn 0 (Z.to_nat (pad4 (zlen pay))) ++ chk ++ rest) ->
  (pos + zlen hdr) mod 4 = 0 ->
  xz_verify_check ct (H ct c) (chk ++ rest) = Ok rest ->
  xzd_blocks H bdec (S f) ct (hdr ++ tail) pos n acc =
  xzd_blocks H bdec f ct rest (pos + zlen hdr + zlen pay + pad4 (zlen pay) + zlen chk) (n + 1) (rev_append c acc).
Proof.
  intros tail Ph Pd Hpos Pc. cbn [xzd_blocks]. rewrite Ph. cbn [obind]. rewrite Pd. cbn [obind].
  pose proof (pad4_range (zlen pay)) as Hpn. set (pn := pad4 (zlen pay)) in *.
  set (tail2 := repeatn 0 (Z.to_nat pn) ++ chk ++ rest) in *.
  assert (Z1 : zlen (hdr ++ tail) - zlen tail = zlen hdr) by (rewrite zlen_app; lia).
  assert (Z2 : zlen tail - zlen tail2 = zlen pay) by (unfold tail; fold tail2; rewrite zlen_app; lia).
  assert (Z3 : zlen tail2 - zlen rest = pn + zlen chk) by (unfold tail2; rewrite !zlen_app, zlen_repeatn; lia).
  rewrite Z1, Z2. unfold tail2 at 1. rewrite (xz_consume_padding_ok _ pn) by (apply pad4_add; exact Hpos). cbn [obind].
  rewrite Pc. cbn [obind]. rewrite Z3. f_equal. lia.
Qed.

(* what XZWriter::new keeps of the options *)
Lemma xzw_new_inv o0 o : xzw_new o0 = Ok o ->
  xo_check o = xo_check o0 /\ xo_filters o = xo_filters o0 /\ xo_dict o = xo_dict o0 /\
  xo_block_size o = match xo_block_size o0 with Some b => Some (Z.max b (xo_dict o0)) | None => None end.
Proof. unfold xzw_new. destruct (3 <? zlen (xo_filters o0)); [discriminate|]. intros E. inversion E. cbn. auto. Qed.

Section Writer.
  Variable penc : Z -> list Z -> list Z.
  Variable fenc : fkind -> Z -> list Z -> list Z.

  (* the writer's chain: the first configured filter sees the data first *)
  Definition chain_enc (fs : list (fkind * Z)) (x : list Z) : list Z :=
    fold_left (fun acc f => fenc (fst f) (snd f) acc) fs x.

  Definition payload_of (o : xzopts) (content : list Z) : list Z :=
    penc (xo_dict o) (chain_enc (xo_filters o) content).

  (* XZWriter as a function of options and write() calls *)
  Definition xz_encode (fx : xzfix) (o0 : xzopts) (parts : list (list Z)) : outcome (list Z) :=
    do o <- xzw_new o0;
    do blocks <- xz_blocks_of fx (xo_block_size o) parts;
    xz_container fx o blocks (map (payload_of o) blocks).

  Lemma xz_encode_is_write fx o0 parts :
    xz_encode fx o0 parts =
    (do o <- xzw_new o0; do blocks <- xz_blocks_of fx (xo_block_size o) parts;
     xz_write fx o0 parts (map (payload_of o) blocks)).
  Proof.
    unfold xz_encode, xz_write. destruct (xzw_new o0) as [o| | |]; cbn [obind]; try reflexivity.
    destruct (xz_blocks_of fx (xo_block_size o) parts); reflexivity.
  Qed.

  (* what the writer emits for one block under header h, and its index record *)
  Definition xz_blk (o : xzopts) (h c : list Z) : list Z :=
    h ++ payload_of o c ++ repeatn 0 (Z.to_nat (pad4 (zlen (payload_of o c)))) ++ xz_check_bytes (xo_check o) c.
  Definition xz_rec (o : xzopts) (h c : list Z) : Z * Z :=
    (zlen h + zlen (payload_of o c) + check_size (xo_check o), zlen c).

  Lemma xz_blocks_bytes_ok o h : xz_block_header o = Ok h -> forall blocks,
    xz_blocks_bytes xz_fixed o blocks (map (payload_of o) blocks)
    = Ok (concat (map (xz_blk o h) blocks), map (xz_rec o h) blocks).
  Proof.
    intros Eh. induction blocks as [|c cs IH]; [reflexivity|].
    cbn [map xz_blocks_bytes]. unfold xz_block. rewrite Eh, IH. reflexivity.
  Qed.

  Lemma xz_blocks_bytes_inv o blocks bytes recs :
    xz_blocks_bytes xz_fixed o blocks (map (payload_of o) blocks) = Ok (bytes, recs) ->
    exists h, (blocks <> [] -> xz_block_header o = Ok h) /\
      bytes = concat (map (xz_blk o h) blocks) /\ recs = map (xz_rec o h) blocks.
  Proof.
    intros E. destruct blocks as [|c cs].
    - inversion E. exists []. split; [congruence | split; reflexivity].
    - destruct (xz_block_header o) as [h| | |] eqn:Eh;
        try (cbn [xz_blocks_bytes map] in E; unfold xz_block in E; rewrite Eh in E; discriminate E).
      rewrite (xz_blocks_bytes_ok o h Eh) in E. inversion E. exists h. split; [reflexivity | split; reflexivity].
  Qed.

  (* lengths of what the writer emits for the blocks, and their index records *)
  Lemma xz_blks_ok o h blocks : opts_ok o -> (blocks <> [] -> xz_block_header o = Ok h) ->
    zlen (concat (map (xz_blk o h) blocks)) mod 4 = 0 /\
    zlen blocks <= zlen (concat (map (xz_blk o h) blocks)) /\ recs_ok (map (xz_rec o h) blocks).
  Proof.
    intros Hopts Hh. pose proof Hopts as [Hk _]. destruct (check_size_mod4 _ Hk) as [Hc4 Hc0].
    induction blocks as [|c cs IH]; [split; [reflexivity | split; [cbn; lia | constructor]]|].
    specialize (Hh ltac:(discriminate)). destruct (xz_block_header_rt o h [] Hopts Hh) as (_ & _ & _ & Hh4 & Hh12).
    destruct (IH (fun _ => Hh)) as (M & L & R). cbn [map concat]. rewrite zlen_app, zlen_cons.
    unfold xz_blk at 1 3. rewrite !zlen_app, zlen_repeatn, zlen_check_bytes by exact Hk.
    pose proof (pad4_range (zlen (payload_of o c))) as Hpn. pose proof (pad4_sum (zlen (payload_of o c))) as Hsum.
    pose proof (zlen_nonneg (payload_of o c)). pose proof (zlen_nonneg c).
    split; [(Z.div_mod_to_equations; lia)|]. split; [lia|]. constructor; [cbn [xz_rec fst snd]; lia | exact R].
  Qed.

  Definition stream_ok (o0 : xzopts) : Prop :=
    opts_ok o0 /\ match xo_block_size o0 with Some b => 1 <= b | None => True end.

  (* what a file the writer returned consists of *)
  Lemma xz_encode_inv o0 parts f : stream_ok o0 -> xz_encode xz_fixed o0 parts = Ok f ->
    exists o blocks h idx,
      xzw_new o0 = Ok o /\ opts_ok o /\
      xz_blocks_of xz_fixed (xo_block_size o) parts = Ok blocks /\ concat blocks = concat parts /\
      (blocks <> [] -> xz_block_header o = Ok h) /\
      xz_index (map (xz_rec o h) blocks) = Ok idx /\
      f = xz_stream_header (xo_check o) ++ concat (map (xz_blk o h) blocks) ++ idx ++
          xz_stream_footer (xo_check o) (map (xz_rec o h) blocks).
  Proof.
    intros [[Hk Hfs] Hbs] E. unfold xz_encode in E.
    apply obind_ok in E as (o & Eo & E). apply obind_ok in E as (blocks & Ebl & E).
    unfold xz_container in E. apply obind_ok in E as ([bytes recs] & Ebb & E). cbn [fx4 xz_fixed] in E.
    assert (E' : (do idx <- xz_index recs;
                  Ok (xz_stream_header (xo_check o) ++ bytes ++ idx ++ xz_stream_footer (xo_check o) recs)) = Ok f)
      by (destruct blocks; exact E).
    apply obind_ok in E' as (idx & Ei & E'). inversion E'.
    destruct (xz_blocks_bytes_inv o blocks bytes recs Ebb) as (h & Hh & -> & ->).
    destruct (xzw_new_inv o0 o Eo) as (Hoc & Hof & _ & Hob).
    exists o, blocks, h, idx. split; [exact Eo|]. split; [split; [rewrite Hoc; exact Hk | rewrite Hof; exact Hfs]|].
    split; [exact Ebl|]. split; [|auto].
    apply (xz_blocks_concat (xo_block_size o)); [|exact Ebl]. rewrite Hob. destruct (xo_block_size o0); [lia | exact I].
  Qed.

  (* the file in closed form, once the options, the block header and the index are known to be
     accepted: no check value has to be computed to see that the writer succeeds *)
  Lemma xz_encode_ok o0 o parts blocks h idx :
    xzw_new o0 = Ok o -> xz_blocks_of xz_fixed (xo_block_size o) parts = Ok blocks ->
    xz_block_header o = Ok h -> xz_index (map (xz_rec o h) blocks) = Ok idx ->
    xz_encode xz_fixed o0 parts
    = Ok (xz_stream_header (xo_check o) ++ concat (map (xz_blk o h) blocks) ++ idx ++
          xz_stream_footer (xo_check o) (map (xz_rec o h) blocks)).
  Proof.
    intros Eo Eb Eh Ei. unfold xz_encode, xz_container. rewrite Eo. cbn [obind]. rewrite Eb. cbn [obind].
    rewrite (xz_blocks_bytes_ok o h Eh). cbn [obind fx4 xz_fixed].
    destruct blocks; rewrite Ei; reflexivity.
  Qed.

  (* a stream as the writer produced it, and the padding that follows it in the file *)
  Record xzstream := mkXzstream { st_opts : xzopts; st_parts : list (list Z); st_file : list Z; st_pad : Z }.
  Definition st_ok (s : xzstream) : Prop :=
    stream_ok (st_opts s) /\ xz_encode xz_fixed (st_opts s) (st_parts s) = Ok (st_file s) /\ 0 <= st_pad s.
  Definition st_bytes (s : xzstream) : list Z := st_file s ++ repeatn 0 (Z.to_nat (st_pad s)).
  Definition xz_file (ss : list xzstream) : list Z := concat (map st_bytes ss).
  Definition xz_content (ss : list xzstream) : list Z := concat (map (fun s => concat (st_parts s)) ss).

  Variable bdec : list (fkind * Z) -> list Z -> outcome (list Z * list Z).
  Variable bgood : xzopts -> list Z -> Prop.
  (* the block decoder for the chain the reader parses from the block header (the configured
     pre-filters, then LZMA2 with an announced dictionary dd >= the writer's) returns the block's
     content and leaves what follows the payload *)
  Hypothesis bdec_ok : forall o c dd tail, bgood o c -> xo_dict o <= dd ->
    bdec (xo_filters o ++ [(FLZMA2, dd)]) (payload_of o c ++ tail) = Ok (c, tail).

  Notation xzd_blocks' := (xzd_blocks xz_check_bytes bdec).
  Notation xzd_streams' := (xzd_streams xz_check_bytes bdec).
  Notation xz_decode' := (xz_decode xz_check_bytes bdec).

  (* the blocks of one stream, then the index indicator byte *)
  Lemma xzd_blocks_rt_c o h : opts_ok o -> forall blocks, (blocks <> [] -> xz_block_header o = Ok h) ->
    Forall (bgood o) blocks ->
    forall fuel rest pos n acc, pos mod 4 = 0 -> (length blocks < fuel)%nat ->
      exists pos', pos' mod 4 = 0 /\
        xzd_blocks' fuel (xo_check o) (concat (map (xz_blk o h) blocks) ++ 0 :: rest) pos n acc
        = Ok (rev_append (concat blocks) acc, rest, pos' + 1, n + zlen blocks).
  Proof.
    intros Hopts. pose proof Hopts as [Hk _]. destruct (check_size_mod4 _ Hk) as [Hc4 Hc0].
    induction blocks as [|c cs IH]; intros Hh Hg fuel rest pos n acc Hpos Hf;
      (destruct fuel as [|fuel]; [cbn in Hf; lia|]).
    - exists pos. split; [exact Hpos|]. cbn [map concat app xzd_blocks xz_parse_block_header]. cbn [Z.eqb obind].
      cbn [concat rev_append]. rewrite zlen_cons. f_equal. f_equal; [f_equal; lia | cbn; lia].
    - specialize (Hh ltac:(discriminate)). inversion Hg as [|x l Hgc Hgcs]; subst x l.
      cbn [map concat]. unfold xz_blk at 1. rewrite <- !app_assoc.
      set (pay := payload_of o c). set (chk := xz_check_bytes (xo_check o) c).
      set (follow := concat (map (xz_blk o h) cs) ++ 0 :: rest).
      destruct (xz_block_header_rt o h (pay ++ repeatn 0 (Z.to_nat (pad4 (zlen pay))) ++ chk ++ follow) Hopts Hh)
        as (dd & Hdd & Ph & Hh4 & _).
      rewrite (xzd_blocks_block xz_check_bytes bdec fuel (xo_check o) h _ pay c chk follow pos n acc Ph
                 (bdec_ok o c dd _ Hgc Hdd) ltac:((Z.div_mod_to_equations; lia)) (xz_verify_check_ok _ c follow Hk)).
      pose proof (pad4_sum (zlen pay)) as Hsum. pose proof (zlen_check_bytes _ c Hk) as Lchk. fold chk in Lchk.
      destruct (IH (fun _ => Hh) Hgcs fuel rest (pos + zlen h + zlen pay + pad4 (zlen pay) + zlen chk) (n + 1)
                  (rev_append c acc) ltac:((Z.div_mod_to_equations; lia)) ltac:(cbn [length] in Hf; lia)) as (pos' & Hp' & EL).
      exists pos'. split; [exact Hp'|]. unfold follow. rewrite EL. cbn [concat].
      rewrite !rev_append_rev, rev_app_distr, <- app_assoc, zlen_cons. f_equal. f_equal. lia.
  Qed.

  (* [bgood] of every block the writer cuts from [parts] under the options XZWriter::new derives *)
  Definition stream_good (o0 : xzopts) (parts : list (list Z)) : Prop :=
    forall o blocks, xzw_new o0 = Ok o -> xz_blocks_of xz_fixed (xo_block_size o) parts = Ok blocks ->
      Forall (bgood o) blocks.

  (* one whole stream followed by anything: the body after the 12-byte header, as xzd_streams
     sees it *)
  Lemma xzd_stream_rt_c o0 parts f : stream_ok o0 -> stream_good o0 parts -> xz_encode xz_fixed o0 parts = Ok f ->
    exists body, f = xz_stream_header (xo_check o0) ++ body /\ zlen body mod 4 = 0 /\ (20 <= zlen body) /\
      forall fuel multi rest pos acc, pos mod 4 = 0 ->
        exists pos1, pos1 mod 4 = 0 /\
        xzd_streams' (S fuel) xz_fixed multi (xo_check o0) (body ++ rest) pos acc =
        (if multi then
           do nx <- xz_try_next_stream xz_fixed rest;
           match fst nx with
           | Some ct2 => xzd_streams' fuel xz_fixed multi ct2 (snd nx) (pos1 + (zlen rest - zlen (snd nx))) (rev_append (concat parts) acc)
           | None => Ok (frev (rev_append (concat parts) acc), snd nx)
           end
         else Ok (frev (rev_append (concat parts) acc), rest)).
  Proof.
    intros Hok Hgood E. pose proof Hok as [[Hk _] _].
    destruct (xz_encode_inv o0 parts f Hok E) as (o & blocks & h & idx & Eo & Hopts & Ebl & Hcat & Hh & Ei & E').
    pose proof (xzd_blocks_rt_c o h Hopts blocks Hh (Hgood o blocks Eo Ebl)) as Loop.
    destruct (xz_blks_ok o h blocks Hopts Hh) as (Mb & Lb & Rk). destruct (xzw_new_inv o0 o Eo) as (Hoc & _).
    set (bytes := concat (map (xz_blk o h) blocks)) in *. set (recs := map (xz_rec o h) blocks) in *.
    assert (Lr : zlen recs = zlen blocks) by (unfold recs, zlen; rewrite map_length; reflexivity).
    clear Hgood. rewrite Hoc in *.
    exists (bytes ++ idx ++ xz_stream_footer (xo_check o0) recs).
    split; [congruence|].
    destruct (xz_index_and_footer_rt (xo_check o0) recs idx [] Hk Rk Ei) as (t0 & Et0 & Mi & _).
    destruct (xz_index_rt recs idx [] Rk Ei) as (_ & _ & _ & Li8 & _).
    split; [rewrite !zlen_app, zlen_stream_footer; (Z.div_mod_to_equations; lia)|].
    split; [rewrite !zlen_app, zlen_stream_footer; pose proof (zlen_nonneg bytes); lia|].
    intros fuel multi rest pos acc Hpos.
    destruct (xz_index_and_footer_rt (xo_check o0) recs idx rest Hk Rk Ei) as (t & Et & _ & IF).
    set (src := (bytes ++ idx ++ xz_stream_footer (xo_check o0) recs) ++ rest).
    assert (Esrc : src = bytes ++ 0 :: (t ++ xz_stream_footer (xo_check o0) recs ++ rest)).
    { unfold src. rewrite Et. rewrite <- !app_assoc. cbn [app]. reflexivity. }
    destruct (Loop (S (length src)) (t ++ xz_stream_footer (xo_check o0) recs ++ rest) pos 0 acc Hpos) as (pos' & Hp' & EB).
    { apply zlen_length_lt. rewrite Nat2Z.inj_succ. fold (zlen src). rewrite Esrc, zlen_app.
      pose proof (zlen_nonneg (0 :: t ++ xz_stream_footer (xo_check o0) recs ++ rest)). lia. }
    exists (pos' + 1 + zlen t + 12). split.
    { assert (zlen idx = 1 + zlen t) by (rewrite Et, zlen_cons; lia). (Z.div_mod_to_equations; lia). }
    cbn [xzd_streams]. fold src. rewrite Esrc at 2. rewrite EB. cbn [obind]. rewrite Hcat.
    replace (0 + zlen blocks) with (zlen recs) by lia. rewrite IF. cbn [obind].
    destruct multi; [|reflexivity].
    destruct (xz_try_next_stream xz_fixed rest) as [[nct r3]| | |]; cbn [obind fst snd]; try reflexivity.
    destruct nct as [ct2|]; [|reflexivity].
    f_equal. rewrite !zlen_app, zlen_stream_footer. lia.
  Qed.

  (* the reader on a written stream followed by [rest]: what follows decides *)
  Lemma xz_decode_stream o0 parts f multi rest : stream_ok o0 -> stream_good o0 parts ->
    xz_encode xz_fixed o0 parts = Ok f ->
    exists pos1, pos1 mod 4 = 0 /\
      xz_decode' xz_fixed multi (f ++ rest) =
      (if multi then
         do nx <- xz_try_next_stream xz_fixed rest;
         match fst nx with
         | Some ct2 => xzd_streams' (length (f ++ rest)) xz_fixed multi ct2 (snd nx) (pos1 + (zlen rest - zlen (snd nx)))
                         (rev_append (concat parts) [])
         | None => Ok (concat parts, snd nx)
         end
       else Ok (concat parts, rest)).
  Proof.
    intros Hok Hg E. pose proof Hok as [[Hk _] _].
    destruct (xzd_stream_rt_c o0 parts f Hok Hg E) as (body & -> & Mb & _ & S).
    unfold xz_decode. rewrite <- app_assoc, xz_parse_stream_header_ok by exact Hk. cbn [obind].
    set (src := xz_stream_header (xo_check o0) ++ body ++ rest).
    destruct (S (length src) multi rest (zlen src - zlen (body ++ rest)) []) as (pos1 & Hp1 & ES).
    { unfold src. rewrite zlen_app, zlen_stream_header. (Z.div_mod_to_equations; lia). }
    exists pos1. split; [exact Hp1|]. rewrite ES, frev_rev, rev_append_rev, app_nil_r, rev_involutive. reflexivity.
  Qed.

  Theorem C02_xz_cond : forall o0 parts f multi, stream_ok o0 -> stream_good o0 parts ->
    xz_encode xz_fixed o0 parts = Ok f ->
    xz_decode' xz_fixed multi f = Ok (concat parts, []).
  Proof.
    intros o0 parts f multi Hok Hg E. destruct (xz_decode_stream o0 parts f multi [] Hok Hg E) as (pos1 & _ & ES).
    rewrite app_nil_r in ES. rewrite ES. destruct multi; reflexivity.
  Qed.

  (* C12: concatenated streams and stream padding *)
  Definition st_ok_c (s : xzstream) : Prop :=
    st_ok s /\ stream_good (st_opts s) (st_parts s).

  Lemma xz_file_len_c ss : Forall st_ok_c ss -> zlen ss <= zlen (xz_file ss).
  Proof.
    induction ss as [|s t IH]; intros Hok; [cbn; lia|]. inversion Hok as [|x l Hs Ht]; subst x l.
    unfold xz_file. cbn [map concat]. fold (xz_file t). rewrite zlen_cons, zlen_app. specialize (IH Ht).
    destruct Hs as ((Hso & He & Hp) & Hg). destruct (xzd_stream_rt_c _ _ _ Hso Hg He) as (body & Ef & _ & Lb & _).
    unfold st_bytes. rewrite zlen_app, Ef, zlen_app, zlen_stream_header.
    pose proof (zlen_nonneg (repeatn 0 (Z.to_nat (st_pad s)))). lia.
  Qed.

  Lemma xz_multi_run_c : forall t s body fuel pos acc,
    st_ok_c s -> Forall st_ok_c t -> Forall (fun x => st_pad x mod 4 = 0) (s :: t) ->
    st_file s = xz_stream_header (xo_check (st_opts s)) ++ body ->
    pos mod 4 = 0 -> (length t < fuel)%nat ->
    xzd_streams' fuel xz_fixed true (xo_check (st_opts s))
       (body ++ repeatn 0 (Z.to_nat (st_pad s)) ++ xz_file t) pos acc
    = Ok (frev (rev_append (xz_content (s :: t)) acc), []).
  Proof.
    induction t as [|s2 t IH]; intros s body fuel pos acc Hs Ht Hpads Ef Hpos Hf.
    - destruct Hs as ((Hso & He & Hp) & Hg). inversion Hpads as [|x l Hp4 _]; subst x l.
      destruct (xzd_stream_rt_c _ _ _ Hso Hg He) as (body' & Ef' & _ & _ & S).
      assert (body' = body) by (rewrite Ef' in Ef; apply app_inv_head in Ef; exact Ef). subst body'.
      destruct fuel as [|fuel]; [cbn in Hf; lia|].
      destruct (S fuel true (repeatn 0 (Z.to_nat (st_pad s)) ++ xz_file []) pos acc Hpos) as (pos1 & _ & ES).
      rewrite ES. unfold xz_file. cbn [map concat]. rewrite app_nil_r.
      rewrite try_next_end by exact Hp. rewrite Hp4. cbn [Z.eqb obind fst snd].
      unfold xz_content. cbn [map concat]. rewrite app_nil_r. reflexivity.
    - destruct Hs as ((Hso & He & Hp) & Hg). inversion Hpads as [|x l Hp4 Hpads']; subst x l.
      inversion Ht as [|x l Hs2 Ht']; subst x l.
      destruct (xzd_stream_rt_c _ _ _ Hso Hg He) as (body' & Ef' & _ & _ & S).
      assert (body' = body) by (rewrite Ef' in Ef; apply app_inv_head in Ef; exact Ef). subst body'.
      destruct fuel as [|fuel]; [cbn in Hf; lia|].
      destruct (S fuel true (repeatn 0 (Z.to_nat (st_pad s)) ++ xz_file (s2 :: t)) pos acc Hpos) as (pos1 & Hp1 & ES).
      rewrite ES. clear ES S.
      pose proof Hs2 as ((Hso2 & He2 & Hp2) & Hg2).
      destruct (xzd_stream_rt_c _ _ _ Hso2 Hg2 He2) as (body2 & Ef2 & Mb2 & _ & _).
      assert (Efile : xz_file (s2 :: t) = xz_stream_header (xo_check (st_opts s2)) ++
                                          (body2 ++ repeatn 0 (Z.to_nat (st_pad s2)) ++ xz_file t)).
      { unfold xz_file. cbn [map concat]. unfold st_bytes. rewrite Ef2, <- !app_assoc. reflexivity. }
      rewrite Efile. destruct Hso2 as [[Hk2 _] _].
      rewrite try_next_stream_header by assumption. rewrite Hp4. cbn [Z.eqb obind fst snd].
      rewrite IH; try assumption.
      + unfold xz_content. cbn [map concat]. rewrite !frev_rev, !rev_append_rev.
        repeat rewrite ?rev_app_distr, ?rev_involutive, <- ?app_assoc. reflexivity.
      + rewrite !zlen_app, zlen_repeatn, zlen_stream_header. (Z.div_mod_to_equations; lia).
      + cbn [length] in Hf. lia.
  Qed.

  Theorem xz_multi_cond : forall s t, Forall st_ok_c (s :: t) -> Forall (fun x => st_pad x mod 4 = 0) (s :: t) ->
    xz_decode' xz_fixed true (xz_file (s :: t)) = Ok (xz_content (s :: t), []).
  Proof.
    intros s t Hok Hpads. inversion Hok as [|x l Hs Ht]; subst x l.
    pose proof Hs as ((Hso & He & Hp) & Hg). pose proof Hso as [[Hk _] _].
    destruct (xzd_stream_rt_c _ _ _ Hso Hg He) as (body & Ef & Mb & _ & _).
    assert (Efile : xz_file (s :: t) = xz_stream_header (xo_check (st_opts s)) ++
                                       (body ++ repeatn 0 (Z.to_nat (st_pad s)) ++ xz_file t)).
    { unfold xz_file. cbn [map concat]. unfold st_bytes. rewrite Ef, <- !app_assoc. reflexivity. }
    unfold xz_decode. rewrite Efile, xz_parse_stream_header_ok by exact Hk. cbn [obind].
    rewrite xz_multi_run_c with (body := body); try assumption.
    - rewrite frev_rev, rev_append_rev, rev_app_distr, rev_involutive. cbn [rev app]. reflexivity.
    - rewrite zlen_app, zlen_stream_header. (Z.div_mod_to_equations; lia).
    - apply zlen_length_lt. rewrite Nat2Z.inj_succ. rewrite <- Efile. fold (zlen (xz_file (s :: t))).
      pose proof (xz_file_len_c (s :: t) Hok). rewrite zlen_cons in H. lia.
  Qed.

  Theorem xz_multi_bad_padding_cond : forall s rest, st_ok_c s -> st_pad s mod 4 <> 0 ->
    (rest = [] \/ exists ct X, check_known ct = true /\ rest = xz_stream_header ct ++ X) ->
    xz_decode' xz_fixed true (st_bytes s ++ rest) = Err E_INVALID_DATA.
  Proof.
    intros s rest ((Hso & He & Hp) & Hg) Hbad Hrest. unfold st_bytes. rewrite <- app_assoc.
    destruct (xz_decode_stream _ _ _ true (repeatn 0 (Z.to_nat (st_pad s)) ++ rest) Hso Hg He) as (pos1 & _ & ->).
    destruct Hrest as [->|(ct & X & Hkc & ->)].
    - rewrite app_nil_r, try_next_end by exact Hp. destruct (Z.eqb_spec (st_pad s mod 4) 0); [contradiction | reflexivity].
    - rewrite try_next_stream_header by assumption. destruct (Z.eqb_spec (st_pad s mod 4) 0); [contradiction | reflexivity].
  Qed.

  Theorem xz_multi_garbage_cond : forall s b X, st_ok_c s -> b <> 0 -> b <> 253 ->
    xz_decode' xz_fixed true (st_bytes s ++ b :: X) = Err E_INVALID_DATA.
  Proof.
    intros s b X ((Hso & He & Hp) & Hg) H0 H253. unfold st_bytes. rewrite <- app_assoc.
    destruct (xz_decode_stream _ _ _ true (repeatn 0 (Z.to_nat (st_pad s)) ++ b :: X) Hso Hg He) as (pos1 & _ & ->).
    rewrite try_next_garbage by assumption. reflexivity.
  Qed.

  (* C12 / C16: single-stream decoding stops behind the footer *)
  Theorem xz_single_stops_cond : forall o0 parts f rest, stream_ok o0 -> stream_good o0 parts ->
    xz_encode xz_fixed o0 parts = Ok f ->
    xz_decode' xz_fixed false (f ++ rest) = Ok (concat parts, rest).
  Proof.
    intros o0 parts f rest Hso Hg He. destruct (xz_decode_stream o0 parts f false rest Hso Hg He) as (pos1 & _ & ->).
    reflexivity.
  Qed.
End Writer.

(* the abstract reader chain under the unrestricted round-trip hypotheses: every block is good *)
Definition all_good (_ : xzopts) (_ : list Z) : Prop := True.

Section RoundTrip.
  (* LZMA2 payload codec: encoder for a dictionary size, decoder for an announced dictionary size *)
  Variable penc : Z -> list Z -> list Z.
  Variable pdec : Z -> list Z -> outcome (list Z * list Z).
  (* C01 + C16: the decoder returns the data and leaves what follows the payload untouched, whenever
     its dictionary is at least the encoder's *)
  Hypothesis pdec_penc : forall d dd x tail, d <= dd -> pdec dd (penc d x ++ tail) = Ok (x, tail).
  (* pre-filter codecs (C11): kind, property, data *)
  Variables fenc fdec : fkind -> Z -> list Z -> list Z.
  Hypothesis fdec_fenc : forall k p x, fdec k p (fenc k p x) = x.

  Definition chain_dec (fs : list (fkind * Z)) (y : list Z) : list Z :=
    fold_right (fun f acc => fdec (fst f) (snd f) acc) y fs.

  Lemma chain_dec_enc fs : forall x, chain_dec fs (chain_enc fenc fs x) = x.
  Proof.
    induction fs as [|f fs IH]; intros x; [reflexivity|].
    cbn [chain_enc chain_dec fold_left fold_right]. fold (chain_enc fenc fs (fenc (fst f) (snd f) x)).
    fold (chain_dec fs (chain_enc fenc fs (fenc (fst f) (snd f) x))). rewrite IH. apply fdec_fenc.
  Qed.

  (* the reader's chain for a parsed block header: LZMA2 innermost, the pre-filters around it *)
  Definition blockdec (fs : list (fkind * Z)) (src : list Z) : outcome (list Z * list Z) :=
    do pr <- pdec (xz_chain_dict fs) src;
    Ok (chain_dec (removelast fs) (fst pr), snd pr).

  Lemma blockdec_ok fs dict dd content tail : dict <= dd ->
    blockdec (fs ++ [(FLZMA2, dd)]) (penc dict (chain_enc fenc fs content) ++ tail) = Ok (content, tail).
  Proof.
    intros Hd. unfold blockdec, xz_chain_dict. rewrite frev_rev, rev_app_distr. cbn [rev app].
    rewrite pdec_penc by exact Hd. cbn [obind fst snd]. rewrite removelast_last, chain_dec_enc. reflexivity.
  Qed.

  Notation xz_decode' := (xz_decode xz_check_bytes blockdec).

  Lemma blockdec_all_good : forall o c dd tail, all_good o c -> xo_dict o <= dd ->
    blockdec (xo_filters o ++ [(FLZMA2, dd)]) (payload_of penc fenc o c ++ tail) = Ok (c, tail).
  Proof. intros o c dd tail _ Hd. apply blockdec_ok. exact Hd. Qed.

  Lemma stream_all_good o0 parts : stream_good all_good o0 parts.
  Proof. intros o blocks _ _. apply Forall_forall. intros c _. exact I. Qed.

  Lemma st_all_good s : st_ok penc fenc s -> st_ok_c penc fenc all_good s.
  Proof. intros H. split; [exact H | apply stream_all_good]. Qed.

  (* C02 (XZ): for every options vector a caller may legally configure and every partition of the
     data into write() calls, whatever file the writer returns is decoded by the reader to exactly
     the bytes written, the whole file is consumed - with multi-stream decoding on or off. *)
  Theorem C02_xz_thm : forall o0 parts f multi, stream_ok o0 ->
    xz_encode penc fenc xz_fixed o0 parts = Ok f ->
    xz_decode' xz_fixed multi f = Ok (concat parts, []).
  Proof.
    intros o0 parts f multi Hok E.
    exact (C02_xz_cond penc fenc blockdec all_good blockdec_all_good o0 parts f multi Hok (stream_all_good o0 parts) E).
  Qed.

  (* C12 (XZ): with multi-stream decoding enabled, any number of complete streams, each followed by
     stream padding of any multiple of four null bytes, decodes to the concatenation of the contents *)
  Theorem xz_multi_thm : forall s t, Forall (st_ok penc fenc) (s :: t) -> Forall (fun x => st_pad x mod 4 = 0) (s :: t) ->
    xz_decode' xz_fixed true (xz_file (s :: t)) = Ok (xz_content (s :: t), []).
  Proof.
    intros s t Hok Hpads. apply (xz_multi_cond penc fenc blockdec all_good blockdec_all_good); [|exact Hpads].
    eapply Forall_impl; [|exact Hok]. exact st_all_good.
  Qed.

  (* malformed stream padding (not a multiple of four bytes) after a stream is rejected, whether the
     file ends there or another stream follows; so is anything that is neither padding nor a stream *)
  Theorem xz_multi_bad_padding : forall s rest, st_ok penc fenc s -> st_pad s mod 4 <> 0 ->
    (rest = [] \/ exists ct X, check_known ct = true /\ rest = xz_stream_header ct ++ X) ->
    xz_decode' xz_fixed true (st_bytes s ++ rest) = Err E_INVALID_DATA.
  Proof.
    intros s rest Hs. exact (xz_multi_bad_padding_cond penc fenc blockdec all_good blockdec_all_good s rest (st_all_good s Hs)).
  Qed.

  Theorem xz_multi_garbage : forall s b X, st_ok penc fenc s -> b <> 0 -> b <> 253 ->
    xz_decode' xz_fixed true (st_bytes s ++ b :: X) = Err E_INVALID_DATA.
  Proof.
    intros s b X Hs. exact (xz_multi_garbage_cond penc fenc blockdec all_good blockdec_all_good s b X (st_all_good s Hs)).
  Qed.

  (* with multi-stream decoding disabled the reader returns the first stream's content and leaves
     the source at the first byte after that stream (C12, C16) *)
  Theorem xz_single_stops : forall o0 parts f rest, stream_ok o0 -> xz_encode penc fenc xz_fixed o0 parts = Ok f ->
    xz_decode' xz_fixed false (f ++ rest) = Ok (concat parts, rest).
  Proof.
    intros o0 parts f rest Hso He.
    exact (xz_single_stops_cond penc fenc blockdec all_good blockdec_all_good o0 parts f rest Hso (stream_all_good o0 parts) He).
  Qed.
End RoundTrip.
