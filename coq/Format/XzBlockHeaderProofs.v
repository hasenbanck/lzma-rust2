(* Format/XzBlockHeaderProofs.v — BlockHeader::parse accepts every header of the general shape
   (optional sizes, a List of Filter Flags with LZMA2 last, zero padding, CRC32); what
   write_block_header writes has that shape: no optional sizes, the same pre-filters with the same
   properties, LZMA2 last with a dictionary at least as large as the encoder's, a length that is a
   multiple of four, never the index indicator.  Also one round of the block loop of the
   whole-file reader (xzd_blocks) as an equation. *)
From LzVerif Require Import Base.Bytes Format.Crc Format.CrcProofs Format.Vli Format.VliProofs
  Format.XzFormat Format.XzHeaderProofs Format.BitflipProofs.

Definition opts_ok (o : xzopts) : Prop :=
  check_known (xo_check o) = true /\ Forall filter_ok (xo_filters o).

(* the writer's List of Filter Flags for pre-filters + LZMA2 is the list for the chain the reader
   will store, with the decoded dictionary size in the LZMA2 entry *)
Lemma xz_filter_flags_list_flags dict : forall pre ff, Forall filter_ok pre ->
  xz_filter_flags_list dict (pre ++ [(FLZMA2, 0)]) = Ok ff ->
  exists dd, dict <= dd /\ fflags (pre ++ [(FLZMA2, dd)]) ff /\ bytes_ok ff = true /\
    3 <= zlen ff <= 6 * zlen pre + 3.
Proof.
  induction pre as [|[k p] pre IH]; intros ff Hok F; cbn [app xz_filter_flags_list] in F.
  - apply obind_ok in F as (a & Ea & F).
    inversion F; subst ff. apply xz_filter_flags_lzma2 in Ea as (b & He & ->).
    destruct (xz_encode_dict_sound _ _ He) as (dd & Hb & Hd & Hle).
    exists dd. split; [exact Hle|]. split; [|split; [|cbn; lia]].
    + change ([33; 1; b] ++ []) with (fkind_id FLZMA2 :: zlen [b] :: [b] ++ []).
      constructor; [apply fp_lzma2; [lia | exact Hd] | constructor].
    + repeat (apply bytes_ok_cons_ok; [lia|]). reflexivity.
  - inversion Hok as [|x l Hf Hpre]; subst x l.
    destruct (xz_filter_flags_pre k p Hf) as (ps & Fp & Bp & W). rewrite (W dict) in F. cbn [obind] in F.
    apply obind_ok in F as (ff' & F' & F). inversion F; subst ff.
    destruct (IH ff' Hpre F') as (dd & Hle & Fl & Bf & Lf). pose proof (fprops_len _ _ _ Fp) as Lp.
    exists dd. split; [exact Hle|]. split; [exact (ff_cons k p ps _ _ Fp Fl)|]. cbn [app]. split.
    + pose proof (fkind_id_small k). repeat (apply bytes_ok_cons_ok; [lia|]). apply bytes_ok_app. split; assumption.
    + rewrite !zlen_cons, zlen_app. lia.
Qed.

Lemma bh_filters_loop_flags : forall fs ff, fflags fs ff -> forall t acc,
  bh_filters_loop (length fs) (ff ++ t) acc = Ok (rev acc ++ fs, t).
Proof.
  induction 1 as [|k p ps fs ff Fp Fl IH]; intros t acc.
  - cbn [length bh_filters_loop app]. rewrite frev_rev, app_nil_r. reflexivity.
  - cbn [length bh_filters_loop app]. destruct (vli_slice_single (fkind_id k) (zlen ps :: (ps ++ ff) ++ t) (fkind_id_small k)) as [V1 V2].
    rewrite V1. cbn [obind]. rewrite fkind_of_id_id, V2, <- app_assoc, (bh_filter_props_bytes k p ps _ Fp). cbn [obind].
    rewrite IH. cbn [rev]. rewrite <- app_assoc. reflexivity.
Qed.

Lemma bh_padding_zeros : forall z crc, forallb (fun b => b =? 0) z = true -> zlen crc = 4 -> bh_padding (z ++ crc) = Ok crc.
Proof.
  induction z as [|b t IH]; intros crc Hz Hc.
  - cbn [app]. destruct crc as [|c0 ct]; [reflexivity|]. cbn [bh_padding]. rewrite Hc. reflexivity.
  - cbn [forallb] in Hz. apply andb_true_iff in Hz as [Hb Ht]. cbn [app bh_padding].
    rewrite zlen_cons, zlen_app, Hc. pose proof (zlen_nonneg t). destruct (Z.ltb_spec 4 (zlen t + 4 + 1)); [|lia].
    rewrite Hb. apply IH; assumption.
Qed.

Lemma bh_vli_bytes v t : 0 <= v <= U63_MAX -> bh_vli (vli_bytes v ++ t) = Ok (v, t).
Proof.
  intros Hv. destruct (vli_slice_ok v t Hv) as (S1 & _ & S3). unfold bh_vli, vli_skip. rewrite S1. cbn [obind].
  rewrite S3. reflexivity.
Qed.

(* an optional size field of the Block Header: absent when its flag bit is clear, else a multibyte integer *)
Definition bh_size_field (bit : Z) (v : option Z) (bytes : list Z) : Prop :=
  match v with
  | None => bit = 0 /\ bytes = []
  | Some x => bit <> 0 /\ 0 <= x <= U63_MAX /\ bytes = vli_bytes x
  end.

(* BlockHeader::parse accepts every header of this shape; the writer's headers and the headers the
   format specification accepts are instances *)
Lemma xz_parse_block_header_shape enc flags cs cb us ub fs ff z crc rest body :
  body = enc :: flags :: cb ++ ub ++ ff ++ z ->
  enc <> 0 -> zlen body + 4 = (enc + 1) * 4 -> zlen body + 4 <= 1024 ->
  bh_size_field (Z.land flags 64) cs cb -> bh_size_field (Z.land flags 128) us ub ->
  (cs <> None -> 8 <= zlen (cb ++ ub ++ ff ++ z ++ crc)) ->
  fflags fs ff -> zlen fs = Z.land flags 3 + 1 -> last_is_lzma2 fs = true ->
  forallb (fun b => b =? 0) z = true -> zlen crc = 4 -> le_value crc = crc32 body ->
  xz_parse_block_header (body ++ crc ++ rest) = Ok (Some (mkBhdr cs us fs), rest).
Proof.
  intros Eb Hne Hsz Hmax Hc Hu H8 Hff Hnf Hlast Hz Lc V.
  set (s0 := cb ++ ub ++ ff ++ z ++ crc) in *.
  assert (Es : body ++ crc ++ rest = enc :: (flags :: s0) ++ rest).
  { rewrite Eb. unfold s0. cbn [app]. rewrite <- !app_assoc. reflexivity. }
  assert (L0 : zlen body = 2 + (zlen s0 - 4)).
  { rewrite Eb, !zlen_cons. unfold s0. rewrite !zlen_app, Lc. lia. }
  pose proof (zlen_nonneg (cb ++ ub ++ ff ++ z)) as Hn0.
  assert (Hn1 : 4 <= zlen s0) by (unfold s0; rewrite !zlen_app, Lc in *; lia).
  rewrite Es. unfold xz_parse_block_header.
  destruct (Z.eqb_spec enc 0); [contradiction|].
  destruct (Z.ltb_spec ((enc + 1) * 4) 8); [lia|]. destruct (Z.ltb_spec 1024 ((enc + 1) * 4)); [lia|]. cbn [orb].
  rewrite (xz_take_app_n ((enc + 1) * 4 - 1)) by (rewrite zlen_cons; lia). cbn [obind].
  assert (C : (if negb (Z.land flags 64 =? 0)
               then if zlen s0 <? 8 then Err E_INVALID_DATA else do pr <- bh_vli s0; Ok (Some (fst pr), snd pr)
               else Ok (None, s0)) = Ok (cs, ub ++ ff ++ z ++ crc)).
  { destruct cs as [x|]; cbn [bh_size_field] in Hc.
    - destruct Hc as (Hb & Hx & Ecb). destruct (Z.eqb_spec (Z.land flags 64) 0); [contradiction|]. cbn [negb].
      destruct (Z.ltb_spec (zlen s0) 8); [specialize (H8 ltac:(discriminate)); lia|].
      unfold s0. rewrite Ecb, bh_vli_bytes by exact Hx. reflexivity.
    - destruct Hc as (Hb & Ecb). unfold s0. rewrite Hb, Ecb. reflexivity. }
  rewrite C. cbn [obind].
  assert (U : (if negb (Z.land flags 128 =? 0)
               then match ub ++ ff ++ z ++ crc with
                    | [] => Err E_INVALID_DATA
                    | _ => do pr <- bh_vli (ub ++ ff ++ z ++ crc); Ok (Some (fst pr), snd pr)
                    end
               else Ok (None, ub ++ ff ++ z ++ crc)) = Ok (us, ff ++ z ++ crc)).
  { destruct us as [x|]; cbn [bh_size_field] in Hu.
    - destruct Hu as (Hb & Hx & Eub). destruct (Z.eqb_spec (Z.land flags 128) 0); [contradiction|]. cbn [negb].
      pose proof (vli_bytes_len x Hx) as Lx. rewrite Eub.
      destruct (vli_bytes x ++ ff ++ z ++ crc) as [|y0 ys] eqn:Ey.
      { apply (f_equal (@zlen Z)) in Ey. rewrite zlen_app in Ey. pose proof (zlen_nonneg (ff ++ z ++ crc)).
        change (zlen (@nil Z)) with 0 in Ey. lia. }
      rewrite <- Ey, bh_vli_bytes by exact Hx. reflexivity.
    - destruct Hu as (Hb & Eub). rewrite Hb, Eub. reflexivity. }
  rewrite U. cbn [obind].
  replace (Z.to_nat (Z.land flags 3 + 1)) with (length fs) by (unfold zlen in Hnf; lia).
  rewrite (bh_filters_loop_flags fs ff Hff). cbn [obind rev app]. rewrite Hlast. cbn [negb].
  rewrite (bh_padding_zeros z crc Hz Lc). cbn [obind]. rewrite Lc. cbn [Z.eqb Pos.eqb negb].
  assert (Ecov : enc :: firstn (Z.to_nat (zlen (flags :: s0) - 4)) (flags :: s0) = body).
  { rewrite Eb. f_equal. unfold s0.
    replace (flags :: cb ++ ub ++ ff ++ z ++ crc) with ((flags :: cb ++ ub ++ ff ++ z) ++ crc)
      by (cbn [app]; rewrite <- !app_assoc; reflexivity).
    apply firstn_app_exact. rewrite zlen_app, Lc. unfold zlen. lia. }
  rewrite Ecov, V, Z.eqb_refl. reflexivity.
Qed.

Lemma flags_small nf : 1 <= nf <= 4 ->
  Z.land (nf - 1) 3 + 1 = nf /\ Z.land (nf - 1) 64 = 0 /\ Z.land (nf - 1) 128 = 0.
Proof.
  intros H. assert (C : nf = 1 \/ nf = 2 \/ nf = 3 \/ nf = 4) by lia.
  destruct C as [C|[C|[C|C]]]; subst nf; repeat split; reflexivity.
Qed.

(* what write_block_header emits: size byte, flags (number of filters - 1, no optional sizes), the
   List of Filter Flags, zero padding to a multiple of four, CRC32 *)
Lemma xz_block_header_shape o hb : opts_ok o -> xz_block_header o = Ok hb ->
  exists dd ff pad, xo_dict o <= dd /\ fflags (xo_filters o ++ [(FLZMA2, dd)]) ff /\
    let nf := zlen (xo_filters o) + 1 in
    let body := (zlen hb / 4 - 1) :: (nf - 1) :: ff ++ repeatn 0 pad in
    hb = body ++ crc32_bytes body /\ bytes_ok body = true /\ 1 <= nf <= 4 /\
    12 <= zlen hb <= 32 /\ zlen hb mod 4 = 0.
Proof.
  intros [Hk Hfs] H. unfold xz_block_header in H. cbv zeta in H.
  assert (Enf : zlen (xo_filters o ++ [(FLZMA2, 0)]) = zlen (xo_filters o) + 1) by (rewrite zlen_app; reflexivity).
  rewrite Enf in H. set (nf := zlen (xo_filters o) + 1) in *.
  destruct (Z.ltb_spec 4 nf) as [|Hnf]; [discriminate|].
  apply obind_ok in H as (ff & Eff & H).
  destruct (xz_filter_flags_list_flags _ _ _ Hfs Eff) as (dd & Hle & Fl & Bf & Lf).
  pose proof (zlen_nonneg (xo_filters o)) as Hnf0.
  assert (Hw : wrap8 (nf - 1) = nf - 1) by (unfold wrap8; rewrite Z.mod_small; lia).
  rewrite Hw, zlen_cons in H.
  set (hsize := (1 + (zlen ff + 1) + 4 + 3) / 4 * 4) in *.
  set (pad := hsize - 1 - (zlen ff + 1) - 4) in *.
  (* the one place where the rounding to a multiple of four is reasoned about *)
  assert (Hh : 12 <= hsize <= 32 /\ hsize mod 4 = 0 /\ 0 <= pad <= 3) by (unfold pad, hsize; (Z.div_mod_to_equations; lia)).
  destruct Hh as (Hh1 & Hh2 & Hpad).
  assert (Henc : wrap8 (hsize / 4 - 1) = hsize / 4 - 1) by (unfold wrap8; rewrite Z.mod_small; (Z.div_mod_to_equations; lia)).
  rewrite Henc in H.
  set (body := (hsize / 4 - 1) :: (nf - 1) :: ff ++ repeatn 0 (Z.to_nat pad)).
  assert (Ehb : hb = body ++ crc32_bytes body) by (inversion H; reflexivity).
  assert (Lhb : zlen hb = hsize).
  { rewrite Ehb. unfold body. rewrite zlen_app, !zlen_cons, zlen_app, zlen_repeatn, zlen_crc32_bytes. unfold pad. lia. }
  exists dd, ff, (Z.to_nat pad). split; [exact Hle|]. split; [exact Fl|]. cbv zeta. rewrite Lhb. fold body.
  split; [exact Ehb|]. split; [|lia].
  unfold body. repeat (apply bytes_ok_cons_ok; [(Z.div_mod_to_equations; lia)|]). apply bytes_ok_app. split; [exact Bf | apply bytes_ok_zeros].
Qed.

Theorem xz_block_header_rt o hb rest : opts_ok o -> xz_block_header o = Ok hb ->
  exists dd, xo_dict o <= dd /\
    xz_parse_block_header (hb ++ rest) = Ok (Some (mkBhdr None None (xo_filters o ++ [(FLZMA2, dd)])), rest) /\
    zlen hb mod 4 = 0 /\ 12 <= zlen hb.
Proof.
  intros Ho H. destruct (xz_block_header_shape o hb Ho H) as (dd & ff & pad & Hle & Fl & Sh).
  cbv zeta in Sh. destruct Sh as (Ehb & Bb & Hnf & Hsz & Hm4).
  exists dd. split; [exact Hle|]. split; [|split; [exact Hm4 | lia]].
  set (nf := zlen (xo_filters o) + 1) in *. set (body := (zlen hb / 4 - 1) :: (nf - 1) :: ff ++ repeatn 0 pad) in *.
  destruct (flags_small nf Hnf) as (Fl1 & Fl2 & Fl3).
  assert (Lb : zlen body + 4 = zlen hb) by (rewrite Ehb at 1; rewrite zlen_app, zlen_crc32_bytes; reflexivity).
  rewrite Ehb at 1. rewrite <- app_assoc.
  apply (xz_parse_block_header_shape (zlen hb / 4 - 1) (nf - 1) None [] None [] _ ff (repeatn 0 pad));
    try (rewrite Lb); try (Z.div_mod_to_equations; lia).
  - reflexivity.
  - split; [exact Fl2 | reflexivity].
  - split; [exact Fl3 | reflexivity].
  - intros C. contradiction.
  - exact Fl.
  - rewrite Fl1, zlen_app. reflexivity.
  - unfold last_is_lzma2. rewrite frev_rev, rev_app_distr. reflexivity.
  - apply forallb_zeros.
  - apply zlen_crc32_bytes.
  - apply le_value_crc32_bytes, Bb.
Qed.

(* one round of xzd_blocks: the position advances by the bytes consumed *)
Lemma xzd_blocks_step H blockdec f ct src pos n acc bh r1 c r2 r3 r4 :
  xz_parse_block_header src = Ok (Some bh, r1) -> blockdec (bh_filters bh) r1 = Ok (c, r2) ->
  xz_consume_padding (pos + (zlen src - zlen r2)) r2 = Ok r3 -> xz_verify_check ct (H ct c) r3 = Ok r4 ->
  xzd_blocks H blockdec (S f) ct src pos n acc
  = xzd_blocks H blockdec f ct r4 (pos + (zlen src - zlen r4)) (n + 1) (rev_append c acc).
Proof.
  intros Ph Pd Pp Pc. cbn [xzd_blocks]. rewrite Ph. cbn [obind]. rewrite Pd. cbn [obind].
  replace (pos + (zlen src - zlen r1) + (zlen r1 - zlen r2)) with (pos + (zlen src - zlen r2)) by lia.
  rewrite Pp. cbn [obind]. rewrite Pc. cbn [obind]. f_equal. lia.
Qed.

Lemma xzd_blocks_end H blockdec f ct src pos n acc r1 :
  xz_parse_block_header src = Ok (None, r1) ->
  xzd_blocks H blockdec (S f) ct src pos n acc = Ok (acc, r1, pos + (zlen src - zlen r1), n).
Proof. intros Ph. cbn [xzd_blocks]. rewrite Ph. reflexivity. Qed.
