(* Format/XzSpecIn3Proofs.v — C03_in (XZ), Blocks and Streams: with the fields of XzSpecIn2Proofs.v,
   the Blocks of a Stream (payload, Block Padding, Check), the Stream as a whole, Stream Padding and
   concatenated Streams: every byte string the independent specification (Format/XzSpec.v, strict
   mode) accepts is decoded by the reader model (xz_decode of Format/XzFormat.v, repaired code) to the
   content the specification assigns to it.  The block decoders are Section variables: the crate's
   chain decoder must decode what the specification's does, and the specification's decoder only
   consumes input. *)
From LzVerif Require Import Base.Bytes Format.Crc Format.CrcProofs Format.Vli Format.VliProofs
  Format.XzFormat Format.XzSpec Format.XzHeaderProofs Format.XzBlockHeaderProofs Format.XzIndexProofs Format.XzProofs
  Format.BitflipProofs Format.XzSoundProofs Format.XzSpecProofs Format.XzSpecIn2Proofs.

Lemma check_size_mod4 ct : check_size ct mod 4 = 0 /\ 0 <= check_size ct.
Proof. unfold check_size. repeat (destruct (_ =? _)); split; try reflexivity; lia. Qed.

(* Block Padding: the crate derives it from the stream position, the specification from the size of
   the Compressed Data; they agree when the Compressed Data starts at a multiple of four *)
Lemma s_padding_crate pos csize r2 pad r3 : (pos - csize) mod 4 = 0 ->
  s_take (s_pad4 csize) r2 = Some (pad, r3) -> s_all_zero pad = true ->
  xz_consume_padding pos r2 = Ok r3 /\ zlen r2 - zlen r3 = pad4 csize.
Proof.
  intros Hpos Ht Hz. apply s_take_inv in Ht as [E L]. rewrite s_pad4_eq in L.
  assert (Ep : pad4 pos = pad4 csize) by (unfold pad4; (Z.div_mod_to_equations; lia)).
  split; [|rewrite E, zlen_app; lia].
  unfold xz_consume_padding. rewrite Ep. destruct (Z.eqb_spec (pad4 csize) 0) as [E0|Hne].
  - rewrite E0 in L. apply zlen_zero_nil in L. subst pad. rewrite E. reflexivity.
  - assert (Lp : length pad = Z.to_nat (pad4 csize)) by (unfold zlen in L; lia).
    rewrite E, (firstn_app_exact pad r3 _ (eq_sym Lp)), L, Z.eqb_refl. cbn [negb].
    unfold s_all_zero in Hz. rewrite Hz. cbn [negb]. rewrite (skipn_app_exact pad r3 _ (eq_sym Lp)). reflexivity.
Qed.

Lemma s_check_crate ct data r3 chk r4 : check_known ct = true ->
  s_take (s_check_size ct) r3 = Some (chk, r4) ->
  negb (s_check_supported ct) || s_eqb chk (s_check_value ct data) = true ->
  xz_verify_check ct (xz_check_bytes ct data) r3 = Ok r4 /\ zlen r3 - zlen r4 = check_size ct.
Proof.
  intros Hk Ht Hc. destruct (s_check_value_eq ct data Hk) as (Ecv & Ecs & Esup).
  rewrite Esup in Hc. cbn [negb orb] in Hc. apply s_eqb_eq in Hc. rewrite Ecv in Hc. subst chk.
  rewrite Ecs in Ht. apply s_take_inv in Ht as [E L].
  split; [|rewrite E, zlen_app; lia].
  unfold xz_verify_check. destruct (Z.eqb_spec ct 0) as [E0|Hne].
  - subst ct. change (check_size 0) with 0 in L. apply zlen_zero_nil in L. rewrite L in E. rewrite E. reflexivity.
  - rewrite E, (xz_take_app_n _ _ _ L). cbn [obind]. rewrite bytes_eqb_refl. reflexivity.
Qed.

Lemma s_strip_zeros_facts : forall l k n r, s_strip_zeros l k = (n, r) ->
  n = k + (zlen l - zlen r) /\ suffix r l /\ xz_skip_zeros l k = (n, r).
Proof.
  induction l as [|b t IH]; intros k n r H.
  - cbn [s_strip_zeros] in H. inversion H; subst. split; [lia|]. split; [apply suffix_refl | reflexivity].
  - cbn [s_strip_zeros] in H. cbn [xz_skip_zeros]. destruct (b =? 0).
    + destruct (IH _ _ _ H) as (E & S & X). split; [rewrite zlen_cons; lia|]. split; [|exact X].
      eapply suffix_trans; [exact S | apply suffix_cons].
    + inversion H; subst. split; [lia|]. split; [apply suffix_refl | reflexivity].
Qed.

Section SpecIn.
  (* the specification's decoding of a block's Compressed Data through its filter chain *)
  Variable sdec : list sfilter -> list Z -> option (list Z * list Z).
  (* the crate's decoder of a block's Compressed Data for a parsed filter chain *)
  Variable blockdec : list (fkind * Z) -> list Z -> outcome (list Z * list Z).
  Hypothesis sdec_blockdec : forall fs src r, sdec (map spec_filter fs) src = Some r -> blockdec fs src = Ok r.
  (* the specification's decoder only consumes input (implied by: its rest is a suffix of its source) *)
  Hypothesis sdec_shrinks : forall fs src x r, bytes_ok src = true -> sdec fs src = Some (x, r) ->
    zlen r <= zlen src /\ bytes_ok r = true.

  Lemma s_blocks_crate : forall fuel ct l acc recs pos n acc1 recs1 l1,
    check_known ct = true -> bytes_ok l = true -> pos mod 4 = 0 ->
    s_blocks sdec fuel ct l acc recs = Some (acc1, recs1, l1) ->
    exists r0 news, l1 = 0 :: r0 /\
      xzd_blocks xz_check_bytes blockdec fuel ct l pos n acc = Ok (acc1, r0, pos + (zlen l - zlen r0), n + zlen news) /\
      recs1 = rev recs ++ news /\ recs_ok news /\ (zlen l - zlen l1) mod 4 = 0 /\ bytes_ok l1 = true.
  Proof.
    induction fuel as [|fuel IH]; intros ct l acc recs pos n acc1 recs1 l1 Hk Hb Hpos H; [discriminate|].
    destruct l as [|b t]; [discriminate|]. rewrite s_blocks_S in H.
    destruct (Z.eqb_spec b 0) as [->|Hne].
    - inversion H; subst acc1 recs1 l1. exists t, []. split; [reflexivity|]. split.
      + rewrite (xzd_blocks_end _ _ _ _ (0 :: t) _ _ _ t eq_refl). change (zlen (@nil (Z * Z))) with 0. rewrite Z.add_0_r. reflexivity.
      + split; [rewrite frev_rev, app_nil_r; reflexivity|]. split; [constructor|]. split; [rewrite Z.sub_diag; reflexivity | exact Hb].
    - apply olet_some in H as ([h r1] & Eh & H).
      apply olet_some in H as ([data r2] & Ed & H). cbv zeta in H.
      destruct (match sb_csize h with Some v => v =? zlen r1 - zlen r2 | None => true end); [|discriminate]. cbn [guard olet] in H.
      destruct (match sb_usize h with Some v => v =? zlen data | None => true end); [|discriminate]. cbn [guard olet] in H.
      apply olet_some in H as ([pad r3] & Ep & H).
      apply guard_some in H as (Ez & H).
      apply olet_some in H as ([chk r4] & Ec & H).
      apply guard_some in H as (Ev & H).
      destruct (s_block_header_crate (b :: t) h r1 Hb Hne Eh) as (fs & Ph & Efs & Lh & Hh8 & Hh4 & Sh).
      rewrite <- Efs in Ed. pose proof (sfx_bytes_ok _ _ Sh Hb) as Hb1.
      destruct (sdec_shrinks _ _ _ _ Hb1 Ed) as [Ld Hb2]. pose proof (sdec_blockdec _ _ _ Ed) as Pd.
      assert (Hpos2 : (pos + (zlen (b :: t) - zlen r2) - (zlen r1 - zlen r2)) mod 4 = 0) by (Z.div_mod_to_equations; lia).
      destruct (s_padding_crate _ _ r2 pad r3 Hpos2 Ep Ez) as [Pp Lp].
      destruct (s_check_crate ct data r3 chk r4 Hk Ec Ev) as [Pc Lc].
      destruct (s_check_value_eq ct data Hk) as (_ & Ecs & _).
      destruct (check_size_mod4 ct) as [Hc4 Hc0].
      pose proof (pad4_sum (zlen r1 - zlen r2)) as Hps.
      (* header, Compressed Data with padding, and Check are multiples of four each *)
      assert (L4 : (zlen (b :: t) - zlen r4) mod 4 = 0) by (Z.div_mod_to_equations; lia).
      assert (S3 : suffix r3 r2) by (apply s_take_inv in Ep as [-> _]; apply sfx_app).
      assert (S4 : suffix r4 r3) by (apply s_take_inv in Ec as [-> _]; apply sfx_app).
      pose proof (sfx_bytes_ok _ _ (suffix_trans _ _ _ S4 S3) Hb2) as Hb4.
      destruct (IH ct r4 (rev_append data acc) ((sb_size h + (zlen r1 - zlen r2) + s_check_size ct, zlen data) :: recs)
                   (pos + (zlen (b :: t) - zlen r4)) (n + 1) acc1 recs1 l1 Hk Hb4 ltac:((Z.div_mod_to_equations; lia)) H)
        as (r0 & news & El1 & Px & Er & Rok & M4 & Sx).
      exists r0, ((sb_size h + (zlen r1 - zlen r2) + s_check_size ct, zlen data) :: news).
      split; [exact El1|]. split.
      + rewrite (xzd_blocks_step _ _ _ _ _ _ _ _ _ _ _ _ _ _ Ph Pd Pp Pc), Px.
        f_equal. f_equal; [f_equal|]; [lia | rewrite zlen_cons; lia].
      + split; [rewrite Er; cbn [rev]; rewrite <- app_assoc; reflexivity|]. split.
        * constructor; [|exact Rok]. cbn [fst snd]. pose proof (zlen_nonneg data). rewrite Ecs. lia.
        * split; [(Z.div_mod_to_equations; lia) | exact Sx].
  Qed.

  Lemma s_stream_crate l acc acc1 r4 ct r1 pos :
    bytes_ok l = true -> s_stream sdec false l acc = Some (acc1, r4) ->
    s_stream_header false l = Some (ct, r1) -> pos mod 4 = 0 ->
    exists n r1' pos1,
      xzd_blocks xz_check_bytes blockdec (S (length r1)) ct r1 pos 0 acc = Ok (acc1, r1', pos1, n) /\
      xz_index_and_footer xz_fixed ct n r1' = Ok r4 /\
      (pos1 + (zlen r1' - zlen r4)) mod 4 = 0 /\ bytes_ok r4 = true /\ check_known ct = true.
  Proof.
    intros Hb H Hh Hpos. unfold s_stream in H. rewrite Hh in H. cbn [olet] in H.
    apply olet_some in H as ([[acc1' recs] r2] & Eb & H).
    apply olet_some in H as ([isz r3] & Ei & H).
    apply olet_some in H as (r4' & Ef & H). inversion H; subst acc1' r4'. clear H.
    destruct (s_stream_header_inv l ct r1 Hb Hh) as [El Hk].
    assert (S1 : suffix r1 l) by (rewrite El; apply sfx_app). pose proof (sfx_bytes_ok _ _ S1 Hb) as Hb1.
    destruct (s_blocks_crate _ ct r1 acc [] pos 0 acc1 recs r2 Hk Hb1 Hpos Eb) as (r0 & news & E2 & Px & Er & Rok & M4 & S2).
    cbn [rev app] in Er. subst recs.
    pose proof S2 as Hb2.
    destruct (s_index_crate news r2 isz r3 Hb2 Rok Ei) as (t & E2' & Pi & Li & Mi & S3).
    assert (t = r0) by (rewrite E2 in E2'; inversion E2'; reflexivity). subst t.
    destruct (s_footer_crate ct isz r3 r4 Ef) as ((bw & Pf) & S4 & Lf).
    exists (zlen news), r0, (pos + (zlen r1 - zlen r0)). split; [exact Px|]. split.
    - unfold xz_index_and_footer. rewrite Pi. cbn [obind]. rewrite Z.eqb_refl. cbn [negb]. rewrite Pf. cbn [obind].
      rewrite bytes_eqb_refl. reflexivity.
    - split.
      + rewrite E2, zlen_cons in M4, Li. (Z.div_mod_to_equations; lia).
      + split; [|exact Hk].
        apply (sfx_bytes_ok r4 r2); [|exact Hb2]. eapply suffix_trans; [exact S4 | exact S3].
  Qed.

  Lemma s_stream_has_header l acc res : s_stream sdec false l acc = Some res ->
    exists ct r1, s_stream_header false l = Some (ct, r1).
  Proof. unfold s_stream. destruct (s_stream_header false l) as [[ct r1]|]; [eauto | discriminate]. Qed.

  Lemma s_streams_has_header fuel l acc d : s_streams sdec fuel false l acc = Some d ->
    exists ct r1, s_stream_header false l = Some (ct, r1).
  Proof.
    destruct fuel as [|fuel]; [discriminate|]. rewrite s_streams_S.
    destruct (s_stream sdec false l acc) as [res|] eqn:Es; [|discriminate]. intros _. exact (s_stream_has_header _ _ _ Es).
  Qed.

  Lemma s_streams_crate : forall fuel l acc d ct r1 pos,
    bytes_ok l = true -> s_streams sdec fuel false l acc = Some d ->
    s_stream_header false l = Some (ct, r1) -> pos mod 4 = 0 ->
    xzd_streams xz_check_bytes blockdec fuel xz_fixed true ct r1 pos acc = Ok (d, []).
  Proof.
    induction fuel as [|fuel IH]; intros l acc d ct r1 pos Hb H Hh Hpos; [discriminate|].
    rewrite s_streams_S in H.
    apply olet_some in H as ([acc1 r4] & Es & H).
    destruct (s_strip_zeros r4 0) as [n r2] eqn:Ez.
    destruct (Z.eqb_spec (n mod 4) 0) as [Hn|]; [|discriminate]. cbn [guard olet] in H.
    destruct (s_stream_crate l acc acc1 r4 ct r1 pos Hb Es Hh Hpos) as (nb & r1' & pos1 & Px & Pif & M4 & Hb4 & Hk).
    destruct (s_strip_zeros_facts r4 0 n r2 Ez) as (En & S2 & Ex).
    cbn [xzd_streams]. rewrite Px. cbn [obind]. rewrite Pif. cbn [obind].
    (* the Stream Padding is n zeros; behind it the input ends or the next Stream Header begins *)
    destruct (xz_skip_zeros_inv r4 0 n r2 Ex) as (k & Ek & Er4 & _). assert (Enk : n = Z.of_nat k) by lia.
    rewrite Er4, <- (Nat2Z.id k), <- Enk.
    destruct r2 as [|b r2t] eqn:Er2.
    - inversion H; subst d. rewrite app_nil_r, try_next_end by lia. rewrite Hn. reflexivity.
    - pose proof (sfx_bytes_ok _ _ S2 Hb4) as Hb2.
      destruct (s_streams_has_header _ _ _ _ H) as (ct2 & r12 & Hh2).
      destruct (s_stream_header_inv _ ct2 r12 Hb2 Hh2) as [E Hk2].
      assert (Hpos2 : (pos1 + (zlen r1' - zlen r12)) mod 4 = 0).
      { assert (L2 : zlen (b :: r2t) = 12 + zlen r12) by (rewrite E, zlen_app, zlen_stream_header; reflexivity). (Z.div_mod_to_equations; lia). }
      rewrite E, try_next_stream_header by (lia || exact Hk2). rewrite Hn. cbn [obind].
      exact (IH (b :: r2t) acc1 d ct2 r12 _ Hb2 H Hh2 Hpos2).
  Qed.

  (* C03_in (XZ): multi-stream decoding of a valid file *)
  Theorem C03_in_xz_gen : forall f d, bytes_ok f = true ->
    xz_spec_decode sdec false f = Some d ->
    xz_decode xz_check_bytes blockdec xz_fixed true f = Ok (d, []).
  Proof.
    intros f d Hb H. unfold xz_spec_decode in H.
    destruct (s_streams_has_header _ _ _ _ H) as (ct & r1 & Hh).
    destruct (s_stream_header_inv f ct r1 Hb Hh) as [El Hk].
    unfold xz_decode. rewrite (s_stream_header_crate f ct r1 Hb Hh). cbn [obind].
    apply (s_streams_crate _ f [] d ct r1 _ Hb H Hh).
    rewrite El at 1. rewrite zlen_app, zlen_stream_header. (Z.div_mod_to_equations; lia).
  Qed.

  (* single-stream decoding: the first Stream's content and what follows its footer *)
  Theorem C03_in_xz_first_gen : forall f d r, bytes_ok f = true ->
    xz_spec_decode_first sdec false f = Some (d, r) ->
    xz_decode xz_check_bytes blockdec xz_fixed false f = Ok (d, r).
  Proof.
    intros f d r Hb H. unfold xz_spec_decode_first in H.
    apply olet_some in H as ([acc1 r4] & Es & H). inversion H; subst d r. clear H.
    destruct (s_stream_has_header _ _ _ Es) as (ct & r1 & Hh).
    destruct (s_stream_header_inv f ct r1 Hb Hh) as [El Hk].
    assert (Hpos : (zlen f - zlen r1) mod 4 = 0) by (rewrite El at 1; rewrite zlen_app, zlen_stream_header; (Z.div_mod_to_equations; lia)).
    destruct (s_stream_crate f [] acc1 r4 ct r1 _ Hb Es Hh Hpos) as (nb & r1' & pos1 & Px & Pif & _ & _ & _).
    unfold xz_decode. rewrite (s_stream_header_crate f ct r1 Hb Hh). cbn [obind xzd_streams]. rewrite Px. cbn [obind]. rewrite Pif. reflexivity.
  Qed.
End SpecIn.

(* the hypothesis "only consumes input" in the form used for LZIP: the rest is a suffix of the source *)
Lemma suffix_shrinks (sdec : list sfilter -> list Z -> option (list Z * list Z)) :
  (forall fs src x r, sdec fs src = Some (x, r) -> suffix r src) ->
  forall fs src x r, bytes_ok src = true -> sdec fs src = Some (x, r) -> zlen r <= zlen src /\ bytes_ok r = true.
Proof. intros Hs fs src x r Hb H. pose proof (Hs _ _ _ _ H) as S. split; [apply sfx_zlen, S | exact (sfx_bytes_ok _ _ S Hb)]. Qed.

Theorem C03_in_xz_thm :
  forall (sdec : list sfilter -> list Z -> option (list Z * list Z))
         (blockdec : list (fkind * Z) -> list Z -> outcome (list Z * list Z)),
  (forall fs src r, sdec (map spec_filter fs) src = Some r -> blockdec fs src = Ok r) ->
  (forall fs src x r, sdec fs src = Some (x, r) -> suffix r src) ->
  forall f d, bytes_ok f = true ->
    xz_spec_decode sdec false f = Some d ->
    xz_decode xz_check_bytes blockdec xz_fixed true f = Ok (d, []).
Proof. intros sdec blockdec H1 H2. apply C03_in_xz_gen; [exact H1 | apply suffix_shrinks, H2]. Qed.

Theorem C03_in_xz_first_thm :
  forall (sdec : list sfilter -> list Z -> option (list Z * list Z))
         (blockdec : list (fkind * Z) -> list Z -> outcome (list Z * list Z)),
  (forall fs src r, sdec (map spec_filter fs) src = Some r -> blockdec fs src = Ok r) ->
  (forall fs src x r, sdec fs src = Some (x, r) -> suffix r src) ->
  forall f d r, bytes_ok f = true ->
    xz_spec_decode_first sdec false f = Some (d, r) ->
    xz_decode xz_check_bytes blockdec xz_fixed false f = Ok (d, r).
Proof. intros sdec blockdec H1 H2. apply C03_in_xz_first_gen; [exact H1 | apply suffix_shrinks, H2]. Qed.
