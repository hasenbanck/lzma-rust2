(* Format/TotalExamplesProofs.v — hostile inputs for the non-vacuity Examples of Properties/C06Readers.v
   (random bytes, a range-coder stream of all ones = a match into the empty dictionary, a stream
   that ends right after the range decoder's initialisation) and the observation functions that
   run a reader model on them. *)
From LzVerif Require Import Base.Bytes Codec.Store Codec.Range Codec.ProbProofs Codec.LzWindow Codec.LzmaDec
  Codec.LzmaAbs Codec.LzmaChunkProofs Codec.LzmaTotalProofs Codec.Lzma1 Codec.LzmaReadProofs Codec.Lzma1LoopProofs Codec.Lzma1ReadProofs
  Codec.Lzma2Dec Codec.TruncLzma1Proofs Codec.TotalCoreProofs Codec.Total1Proofs Format.LzipFormat.

Definition rnd : list Z :=
  [0; 93; 200; 17; 3; 250; 99; 1; 254; 128; 64; 32; 7; 211; 180; 45; 90; 13; 77; 201; 5; 6; 250; 251; 33; 44; 55; 66; 77; 88].
(* code = 0xFFFFFFFF, then 0xFF..: every bit decodes as 1 - a rep3 match into an empty dictionary *)
Definition ones : list Z := [0; 255; 255; 255; 255; 255; 255; 255; 255; 255; 255; 255].
(* an initialised range decoder and nothing behind it *)
Definition zeros5 : list Z := [0; 0; 0; 0; 0].

Definition show1 (o : outcome lzma1) (fuel : nat) (sizes : list Z) : outcome (list Z) :=
  match o with
  | Ok s0 => match lzma1_read_all fuel s0 sizes sizes [] with
             | Ok (out, _) => Ok out | Err e => Err e | Panic e => Panic e | Fuel => Fuel end
  | Err e => Err (100 + e) | Panic e => Panic e | Fuel => Fuel
  end.

Lemma sizes_703 : sizes_ok [7; 0; 3].
Proof. right. constructor. reflexivity. Qed.

Definition show2 (o : outcome lzma2) (fuel : nat) (sizes : list Z) : outcome (list Z * Z) :=
  match o with
  | Ok s0 => match lzma2_read_all fuel s0 sizes sizes [] with
             | Ok (out, st, _) => Ok (out, st) | Err e => Err e | Panic e => Panic e | Fuel => Fuel end
  | Err e => Err (100 + e) | Panic e => Panic e | Fuel => Fuel
  end.

Lemma sizes_20 : sizes_ok [2; 0].
Proof. right. constructor. reflexivity. Qed.

(* an LZIP member whose payload ends right behind the range decoder's initialisation: the first
   4096-byte read runs dry within its first two bytes, which is all that is evaluated (iter1_dry) *)
Lemma lz_zeros5_eof : lz_decode_c lz_fixed ([76; 90; 73; 80; 1; 12] ++ zeros5) = Err E_UNEXPECTED_EOF.
Proof.
  set (d0 := mkRdec 4294967295 0 [] 0).
  set (s0 := mkLzma1 (coder_new 3 0 2) (lzwin_new 4096 None) d0 PLeaf false U64_MAX).
  assert (Hr : lzma1_read s0 4096 = Err E_UNEXPECTED_EOF).
  { apply read1_iter_err; [reflexivity | lia|].
    assert (Hdry : match run_rc (aproduce 2 (mkAstate (coder_new 3 0 2) [] 4096 0 0)) d0 PLeaf with
                   | Ok (_, d2, _) => 0 <? rd_over d2
                   | _ => false
                   end = true) by (vm_compute; reflexivity).
    destruct (run_rc (aproduce 2 (mkAstate (coder_new 3 0 2) [] 4096 0 0)) d0 PLeaf) as [[[[s2 st2] d2] t2]|e|e|] eqn:E;
      try discriminate Hdry.
    apply Z.ltb_lt in Hdry.
    apply (iter1_dry s0 4096 [] 2 s2 st2 d2 t2).
    - apply lzwin_new_rel; [lia | reflexivity].
    - apply hist_bytes_in. intros x [].
    - apply coder_new_ok; lia.
    - intros H. discriminate H.
    - apply probs_ok_empty.
    - unfold rdec_wf. cbn. lia.
    - vm_compute. discriminate.
    - apply Nat.leb_le. vm_compute. reflexivity.
    - exact E.
    - exact Hdry. }
  assert (Hp : lzip_payload_dec 4096 zeros5 = Err E_UNEXPECTED_EOF).
  { unfold lzip_payload_dec, lzip_payload_dec_n.
    change (lzma1_construct2 zeros5 U64_MAX 3 0 2 4096 None) with (Ok s0).
    cbn [obind length zeros5 Nat.add Nat.mul lzma1_drain]. rewrite Hr. reflexivity. }
  unfold lz_decode_c, lz_decode.
  change (length ([76; 90; 73; 80; 1; 12] ++ zeros5)) with 11%nat. cbn [lzd_members].
  change (lz_parse_header lz_fixed true ([76; 90; 73; 80; 1; 12] ++ zeros5)) with (Ok (Some 4096, zeros5)).
  cbn [obind]. rewrite Hp. reflexivity.
Qed.
