(* Format/ContainerRefutations.v — the defects of the unchanged tree (DESIGN §7 F4, F5, F6, F11, F13,
   F16; F20 is in XzSplitProofs.v) established on the faithful models of the historical code ([xz_orig], [lz_orig]) by
   computed witnesses; each witness was replayed on the real code (see docs/design-notes/xz.md).
   The same inputs on the repaired models ([xz_fixed], [lz_fixed]) behave as the properties demand. *)
From LzVerif Require Import Base.Bytes Format.XzFormat Format.LzipFormat Format.XzSpec Format.XzSpecExec.

Definition w_content : list Z := [104; 101; 108; 108; 111; 32; 119; 111; 114; 108; 100].       (* "hello world" *)
Definition w_payload : list Z := [1; 0; 10; 104; 101; 108; 108; 111; 32; 119; 111; 114; 108; 100; 0].       (* its LZMA2 payload: one stored chunk *)
Definition w_opts : xzopts := mkXzopts 1 None [] 262144.   (* CRC32, no block size, dict 256 KiB *)
Definition w_hello : list Z := [253; 55; 122; 88; 90; 0; 0; 1; 105; 34; 222; 54; 2; 0; 33; 1; 12; 0; 0; 0; 143; 152; 65; 156; 1; 0; 10; 104; 101; 108; 108; 111; 32; 119; 111; 114; 108; 100; 0; 0; 133; 17; 74; 13; 0; 1; 31; 11; 61; 98; 14; 122; 144; 66; 153; 13; 1; 0; 0; 0; 0; 1; 89; 90].           (* the file the repaired writer produces for it *)

Lemma w_hello_is_written : xz_write xz_fixed w_opts [w_content] [w_payload] = Ok w_hello.
Proof. vm_compute. reflexivity. Qed.

(* F4 (C02): finish() with no block open.  The historical writer's output for EMPTY input is
   rejected by the crate's own reader (index CRC32 mismatch) and by the format specification. *)
Theorem xz_finish_empty_refuted :
  exists f, xz_write xz_orig w_opts [] [] = Ok f /\
            xz_decode_c xz_orig false f = Err E_INVALID_DATA /\
            xz_spec_decode_c true f = None.
Proof. eexists. split; [vm_compute; reflexivity|]. split; vm_compute; reflexivity. Qed.

Lemma xz_finish_empty_fixed :
  exists f, xz_write xz_fixed w_opts [] [] = Ok f /\ xz_decode_c xz_fixed false f = Ok ([], []) /\
            xz_spec_decode_c true f = Some [].
Proof. eexists. split; [vm_compute; reflexivity|]. split; vm_compute; reflexivity. Qed.

(* F5 (C03): the index record's Unpadded Size omitted the Block Header.  The crate's reader does not
   compare it and accepts; the specification (and liblzma) reject every non-empty file. *)
Theorem xz_unpadded_size_refuted :
  exists f, xz_write xz_orig w_opts [w_content] [w_payload] = Ok f /\
            xz_decode_c xz_orig false f = Ok (w_content, []) /\
            xz_spec_decode_c true f = None.
Proof. eexists. split; [vm_compute; reflexivity|]. split; vm_compute; reflexivity. Qed.

Lemma xz_unpadded_size_fixed : xz_spec_decode_c true w_hello = Some w_content.
Proof. vm_compute. reflexivity. Qed.

(* F11 (C06): Index::parse pre-allocated for the record count read from the file. *)
Definition w_huge_index : list Z := [253; 55; 122; 88; 90; 0; 0; 1; 105; 34; 222; 54; 0; 255; 255; 255; 255; 255; 255; 255; 255; 127; 0; 0; 0; 0; 0; 0; 0; 0].
Theorem xz_index_alloc_refuted : xz_decode_c xz_orig false w_huge_index = Panic 62.
Proof. vm_compute. reflexivity. Qed.
Lemma xz_index_alloc_fixed : xz_decode_c xz_fixed false w_huge_index = Err E_INVALID_DATA.
Proof. vm_compute. reflexivity. Qed.

(* F13 (C07): a zero-length destination buffer was taken for the end of the block: reads of
   4, 0, 4, ... bytes fail after the first four bytes on a valid file. *)
Definition read_history (fx : xzfix) (f : list Z) (sizes : list Z) : outcome (list Z * Z) :=
  match xzr_read_all 200 fx (xzr_new f false) sizes sizes [] with
  | Ok (b, st, _) => Ok (b, st) | Err e => Err e | Panic e => Panic e | Fuel => Fuel
  end.
Theorem xz_empty_buffer_refuted : read_history xz_orig w_hello [4; 0; 4] = Ok ([104; 101; 108; 108], E_INVALID_DATA).
Proof. vm_compute. reflexivity. Qed.
Lemma xz_empty_buffer_fixed : read_history xz_fixed w_hello [4; 0; 4] = Ok (w_content, 0).
Proof. vm_compute. reflexivity. Qed.

(* F16 (C12): two concatenated streams were rejected (inverted test of the first magic byte); and
   stream padding that is not a multiple of four bytes was accepted at the end of the input. *)
Theorem xz_concat_refuted : xz_decode_c xz_orig true (w_hello ++ w_hello) = Err E_INVALID_DATA.
Proof. vm_compute. reflexivity. Qed.
Lemma xz_concat_fixed : xz_decode_c xz_fixed true (w_hello ++ [0; 0; 0; 0] ++ w_hello) = Ok (w_content ++ w_content, []).
Proof. vm_compute. reflexivity. Qed.
Theorem xz_trailing_padding_refuted : xz_decode_c xz_orig true (w_hello ++ [0; 0; 0]) = Ok (w_content, []).
Proof. vm_compute. reflexivity. Qed.
Lemma xz_trailing_padding_fixed : xz_decode_c xz_fixed true (w_hello ++ [0; 0; 0]) = Err E_INVALID_DATA.
Proof. vm_compute. reflexivity. Qed.

(* F6 (C04): LZIPReader took every member header error for a clean end of stream: input that is not
   LZIP at all decoded successfully to nothing. *)
Definition w_not_lzip : list Z := [116; 104; 105; 115; 32; 105; 115; 32; 110; 111; 116; 32; 108; 122; 105; 112].      (* "this is not lzip" *)
Theorem lzip_garbage_refuted : exists rest, lz_decode_c lz_orig w_not_lzip = Ok ([], rest).
Proof. eexists. vm_compute. reflexivity. Qed.
Lemma lzip_garbage_fixed : lz_decode_c lz_fixed w_not_lzip = Err E_INVALID_DATA.
Proof. vm_compute. reflexivity. Qed.
