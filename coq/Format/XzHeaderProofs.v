(* Format/XzHeaderProofs.v — what XZWriter writes for the stream header and the stream footer is
   parsed back by the reader's parsers, the rest of the input untouched; the dictionary-size property
   announces at least the dictionary in use; and the Filter Flags of a block header as relations
   between a chain as the reader stores it and its bytes ([fprops], [fflags]), with what writer and
   reader do on them.  The block header as a whole is in XzBlockHeaderProofs.v. *)
From LzVerif Require Import Base.Bytes Format.Crc Format.CrcProofs Format.Vli Format.VliProofs
  Format.XzFormat.


Lemma xz_take_app_n n a b : zlen a = n -> xz_take n (a ++ b) = Ok (a, b).
Proof.
  intros <-. unfold xz_take. rewrite zlen_app. pose proof (zlen_nonneg b).
  destruct (Z.ltb_spec (zlen a + zlen b) (zlen a)); [lia|].
  unfold zlen. rewrite Nat2Z.id, firstn_app, Nat.sub_diag, firstn_all, skipn_app, Nat.sub_diag, skipn_all.
  cbn [firstn skipn app]. rewrite app_nil_r. reflexivity.
Qed.

Lemma bytes_eqb_refl a : bytes_eqb a a = true.
Proof.
  unfold bytes_eqb. rewrite Nat.eqb_refl. cbn [andb].
  induction a as [|x t IH]; [reflexivity|]. cbn [combine forallb fst snd]. rewrite Z.eqb_refl. exact IH.
Qed.

Lemma bytes_eqb_eq a b : bytes_eqb a b = true -> a = b.
Proof.
  unfold bytes_eqb. intros H. apply andb_true_iff in H as [Hl Hf]. apply Nat.eqb_eq in Hl.
  revert b Hl Hf. induction a as [|x t IH]; intros [|y u] Hl Hf; try discriminate; [reflexivity|].
  cbn [combine forallb fst snd] in Hf. apply andb_true_iff in Hf as [Hxy Hr]. apply Z.eqb_eq in Hxy.
  cbn [length] in Hl. f_equal; [exact Hxy | apply IH; [lia | exact Hr]].
Qed.

Lemma bytes_ok_zeros n : bytes_ok (repeatn 0 n) = true.
Proof. induction n; [reflexivity|]. cbn. exact IHn. Qed.

Lemma forallb_zeros n : forallb (fun b => b =? 0) (repeatn 0 n) = true.
Proof. induction n; [reflexivity|]. cbn. exact IHn. Qed.

Lemma zlen_crc32_bytes l : zlen (crc32_bytes l) = 4.
Proof. unfold crc32_bytes. apply zlen_le_bytes. Qed.

Lemma pad4_range n : 0 <= pad4 n < 4.
Proof. unfold pad4. (Z.div_mod_to_equations; lia). Qed.
Lemma pad4_sum n : (n + pad4 n) mod 4 = 0.
Proof. unfold pad4. (Z.div_mod_to_equations; lia). Qed.

Lemma bytes_ok_flags ct : check_known ct = true -> bytes_ok (xz_stream_flags ct) = true.
Proof.
  unfold check_known. intros H. repeat (apply orb_true_iff in H as [H|H]); apply Z.eqb_eq in H; subst; reflexivity.
Qed.

Lemma xz_parse_flags_crc_ok ct rest : check_known ct = true ->
  xz_parse_flags_crc (xz_stream_flags ct ++ crc32_bytes (xz_stream_flags ct) ++ rest) = Ok (ct, rest).
Proof.
  intros Hk. unfold xz_parse_flags_crc.
  rewrite (xz_take_app_n 2 (xz_stream_flags ct)) by reflexivity. cbn [obind].
  unfold xz_stream_flags at 1. rewrite Z.eqb_refl. cbn [negb]. rewrite Hk. cbn [negb].
  rewrite (xz_take_app_n 4) by apply zlen_crc32_bytes. cbn [obind].
  change [0; ct] with (xz_stream_flags ct).
  rewrite le_value_crc32_bytes by (apply bytes_ok_flags; exact Hk). rewrite Z.eqb_refl. reflexivity.
Qed.

Lemma xz_parse_stream_header_ok ct rest : check_known ct = true ->
  xz_parse_stream_header (xz_stream_header ct ++ rest) = Ok (ct, rest).
Proof.
  intros Hk. unfold xz_parse_stream_header, xz_stream_header. rewrite <- !app_assoc.
  rewrite (xz_take_app_n 6 XZ_MAGIC) by reflexivity. cbn [obind]. rewrite bytes_eqb_refl. cbn [negb].
  apply xz_parse_flags_crc_ok. exact Hk.
Qed.

Lemma zlen_stream_header ct : zlen (xz_stream_header ct) = 12.
Proof. unfold xz_stream_header. rewrite !zlen_app, zlen_crc32_bytes. reflexivity. Qed.

(* StreamFooter::parse on twelve bytes of the right shape: the CRC32 of backward size ++ flags,
   these two fields, the footer magic *)
Lemma xz_parse_footer_shape crc bwb fl rest : zlen crc = 4 -> zlen bwb = 4 -> zlen fl = 2 ->
  le_value crc = crc32 (bwb ++ fl) ->
  xz_parse_footer (crc ++ bwb ++ fl ++ XZ_FOOTER_MAGIC ++ rest) = Ok (le_value bwb, fl, rest).
Proof.
  intros L1 L2 L3 V. unfold xz_parse_footer.
  rewrite (xz_take_app_n 4) by exact L1. cbn [obind]. rewrite (xz_take_app_n 4) by exact L2. cbn [obind].
  rewrite (xz_take_app_n 2) by exact L3. cbn [obind]. rewrite V, Z.eqb_refl. cbn [negb].
  rewrite (xz_take_app_n 2 XZ_FOOTER_MAGIC) by reflexivity. cbn [obind]. rewrite bytes_eqb_refl. reflexivity.
Qed.

Lemma xz_parse_footer_ok ct recs rest : check_known ct = true ->
  xz_parse_footer (xz_stream_footer ct recs ++ rest) = Ok (xz_backward_size recs, xz_stream_flags ct, rest).
Proof.
  intros Hk. unfold xz_stream_footer. rewrite <- !app_assoc.
  rewrite xz_parse_footer_shape; [|apply zlen_crc32_bytes | apply zlen_le_bytes | reflexivity|].
  - rewrite le_value_bytes; [reflexivity|]. unfold xz_backward_size, wrap32.
    change (256 ^ Z.of_nat 4) with 4294967296. apply Z.mod_pos_bound. lia.
  - apply le_value_crc32_bytes. apply bytes_ok_app. split; [apply bytes_ok_le_bytes | apply bytes_ok_flags, Hk].
Qed.

Lemma zlen_stream_footer ct recs : zlen (xz_stream_footer ct recs) = 12.
Proof. unfold xz_stream_footer. rewrite !zlen_app, zlen_crc32_bytes, zlen_le_bytes. reflexivity. Qed.

(* whatever property the writer accepted for the dictionary, the reader sees at least that size *)
Lemma xz_encode_dict_loop_sound d : forall n p r,
  xz_encode_dict_loop n p d = Ok r -> p <= r < p + Z.of_nat n /\ d <= lzma2_prop_size r.
Proof.
  induction n as [|n IH]; intros p r H; [discriminate|]. cbn [xz_encode_dict_loop] in H.
  destruct (Z.leb_spec d (lzma2_prop_size p)) as [Hle|Hgt].
  - inversion H; subst r. split; [lia | exact Hle].
  - apply IH in H. lia.
Qed.

Lemma xz_encode_dict_sound d p : xz_encode_dict d = Ok p ->
  exists dd, 0 <= p <= 40 /\ xz_decode_dict p = Ok dd /\ d <= dd.
Proof.
  unfold xz_encode_dict. intros H. destruct (Z.ltb_spec d 4096); [discriminate|].
  destruct (Z.eqb_spec d 4294967295) as [->|Hne].
  - inversion H; subst p. exists 4294967295. split; [lia|]. split; [reflexivity | lia].
  - apply xz_encode_dict_loop_sound in H as [Hr Hs]. exists (lzma2_prop_size p).
    split; [lia|]. split; [|exact Hs]. unfold xz_decode_dict.
    destruct (Z.ltb_spec 40 p); [lia|]. destruct (Z.eqb_spec p 40); [lia | reflexivity].
Qed.

(* up to the largest encodable size, 3 GiB, the loop finds a property before its 40 steps run out *)
Lemma xz_encode_dict_loop_total d : forall n p, Z.of_nat n + p = 40 -> (0 < n)%nat -> d <= lzma2_prop_size 39 ->
  exists r, xz_encode_dict_loop n p d = Ok r.
Proof.
  induction n as [|n IH]; intros p Hn Hpos Hd; [lia|]. cbn [xz_encode_dict_loop].
  destruct (Z.leb_spec d (lzma2_prop_size p)) as [|Hgt]; [eauto|].
  destruct n as [|n']; [replace p with 39 in Hgt by lia; lia | apply IH; lia].
Qed.

(* the LZMA2 dictionary-size property announces at least the dictionary in use *)
Theorem xz_dict_ok : forall d,
  4096 <= d <= 3221225472 \/ d = 4294967295 ->
  exists p dd, xz_encode_dict d = Ok p /\ 0 <= p <= 40 /\ xz_decode_dict p = Ok dd /\ d <= dd.
Proof.
  intros d Hd.
  assert (E : exists p, xz_encode_dict d = Ok p).
  { unfold xz_encode_dict. destruct Hd as [Hr| ->]; [|exists 40; reflexivity].
    destruct (Z.ltb_spec d 4096); [lia|]. destruct (Z.eqb_spec d 4294967295); [lia|].
    apply xz_encode_dict_loop_total; [reflexivity | lia | change (lzma2_prop_size 39) with 3221225472; lia]. }
  destruct E as (p & E). destruct (xz_encode_dict_sound d p E) as (dd & Hp & Hdd & Hle). exists p, dd. auto.
Qed.

(* the bound 3 GiB of xz_dict_ok is sharp: the next size is refused *)
Lemma xz_dict_out_of_range : exists d, 4096 <= d < 4294967296 /\ xz_encode_dict d = Err E_INVALID_INPUT.
Proof. exists 3221225473. vm_compute. split; [split; congruence | reflexivity]. Qed.


(* options a caller can legally configure (C19 is about the others): known check type, delta
   distances 1..256, BCJ start offsets below 2^32 aligned to the filter's alignment, no LZMA2 among
   the pre-filters *)
Definition filter_ok (f : fkind * Z) : Prop :=
  match fst f with
  | FLZMA2 => False
  | FDelta => 1 <= snd f <= 256
  | k => 0 <= snd f < 4294967296 /\ snd f mod bcj_alignment k = 0
  end.

(* the reader's view of a filter written by the writer: same kind and property; for LZMA2 the
   decoded dictionary size *)
Definition reader_view (dd : Z) (f : fkind * Z) : fkind * Z :=
  match fst f with FLZMA2 => (FLZMA2, dd) | _ => f end.

Lemma vli_slice_single b tail : 0 <= b < 128 ->
  vli_parse_slice (b :: tail) = Ok b /\ vli_skip (b :: tail) = tail.
Proof.
  intros Hb. destruct (last_byte b Hb) as [L1 L2].
  unfold vli_parse_slice, vli_skip. cbn [vli_parse_slice_loop vli_size_slice]. rewrite L1, L2.
  cbn. split; [f_equal; lia | reflexivity].
Qed.

Lemma vli_encode_small b : 0 <= b < 128 -> vli_encode b = Ok [b].
Proof.
  intros Hb. unfold vli_encode, U63_MAX. destruct (Z.ltb_spec 9223372036854775807 b); [lia|].
  cbn [vli_encode_loop]. destruct (Z.leb_spec 128 b); [lia|]. rewrite Z.mod_small by lia. reflexivity.
Qed.

Lemma fkind_id_small k : 0 <= fkind_id k < 128.
Proof. destruct k; cbn; lia. Qed.
Lemma fkind_of_id_id k : fkind_of_id (fkind_id k) = Some k.
Proof. destruct k; reflexivity. Qed.

Lemma bh_vli_single b t : 0 <= b < 128 -> bh_vli (b :: t) = Ok (b, t).
Proof. intros Hb. unfold bh_vli. destruct (vli_slice_single b t Hb) as [-> ->]. reflexivity. Qed.

(* All eight BCJ kinds take the same branch of bh_filter_props and of xz_filter_flags; only the
   alignment differs. *)
Definition bh_bcj_props (al : Z) (s : list Z) : outcome (Z * list Z) :=
  match s with [] => Err E_INVALID_DATA | _ =>
  do pr <- bh_vli s;
  let '(psize, s1) := pr in
  if psize =? 0 then Ok (0, s1)
  else if psize =? 4 then
    match s1 with
    | b0 :: b1 :: b2 :: b3 :: s2 =>
        let v := le_value [b0; b1; b2; b3] in
        if negb (v mod al =? 0) then Err E_INVALID_DATA else Ok (v, s2)
    | _ => Err E_INVALID_DATA
    end
  else Err E_INVALID_DATA
  end.

Lemma bh_filter_props_bcj k s : fkind_is_bcj k = true -> bh_filter_props k s = bh_bcj_props (bcj_alignment k) s.
Proof. destruct k; try discriminate; reflexivity. Qed.

Lemma xz_filter_flags_bcj d k p : fkind_is_bcj k = true ->
  xz_filter_flags d (k, p) = Ok (fkind_id k :: if p =? 0 then [0] else 4 :: le_bytes 4 p).
Proof.
  intros Hk. destruct k; try discriminate; cbv beta iota delta [xz_filter_flags]; destruct (p =? 0); reflexivity.
Qed.

(* [fprops k p ps]: [ps] is the Filter Properties field of a filter of kind [k] whose property, as
   the reader stores it, is [p]: Delta: distance - 1; LZMA2: the dictionary-size byte; BCJ: nothing
   (start offset 0) or the start offset in four bytes *)
Inductive fprops : fkind -> Z -> list Z -> Prop :=
| fp_delta b : fprops FDelta (b + 1) [b]
| fp_lzma2 b d : 0 <= b -> xz_decode_dict b = Ok d -> fprops FLZMA2 d [b]
| fp_bcj0 k : fkind_is_bcj k = true -> fprops k 0 []
| fp_bcj4 k b0 b1 b2 b3 : fkind_is_bcj k = true -> le_value [b0; b1; b2; b3] mod bcj_alignment k = 0 ->
    fprops k (le_value [b0; b1; b2; b3]) [b0; b1; b2; b3].

Lemma fprops_len k p ps : fprops k p ps -> 0 <= zlen ps <= 4.
Proof. destruct 1; cbn; lia. Qed.

(* the reader on one entry after its id: size of properties, properties *)
Lemma bh_filter_props_bytes k p ps t : fprops k p ps -> bh_filter_props k (zlen ps :: ps ++ t) = Ok (p, t).
Proof.
  destruct 1 as [b | b d Hb Hd | k Hk | k b0 b1 b2 b3 Hk Ha].
  - change (zlen [b]) with 1. cbn [app bh_filter_props]. rewrite bh_vli_single by lia. reflexivity.
  - change (zlen [b]) with 1. cbn [app bh_filter_props]. rewrite bh_vli_single by lia.
    cbn [obind Z.eqb Pos.eqb negb]. rewrite Hd. reflexivity.
  - rewrite bh_filter_props_bcj by exact Hk. change (zlen (@nil Z)) with 0. cbn [app bh_bcj_props].
    rewrite bh_vli_single by lia. reflexivity.
  - rewrite bh_filter_props_bcj by exact Hk. change (zlen [b0; b1; b2; b3]) with 4. cbn [app bh_bcj_props].
    rewrite bh_vli_single by lia. cbn [obind Z.eqb Pos.eqb]. cbv zeta. rewrite Ha. reflexivity.
Qed.

Lemma le_bytes4 v : le_bytes 4 v = [v mod 256; v / 256 mod 256; v / 256 / 256 mod 256; v / 256 / 256 / 256 mod 256].
Proof. reflexivity. Qed.

Lemma xz_filter_flags_pre k p : filter_ok (k, p) ->
  exists ps, fprops k p ps /\ bytes_ok ps = true /\
    forall d, xz_filter_flags d (k, p) = Ok (fkind_id k :: zlen ps :: ps).
Proof.
  unfold filter_ok; cbn [fst snd]. intros Hf. destruct (fkind_is_bcj k) eqn:Eb.
  - assert (Hr : 0 <= p < 4294967296 /\ p mod bcj_alignment k = 0) by (destruct k; try discriminate; exact Hf).
    destruct Hr as [Hr Ha]. destruct (Z.eqb_spec p 0) as [->|Hne].
    + exists []. split; [apply fp_bcj0, Eb|]. split; [reflexivity|].
      intros d. rewrite xz_filter_flags_bcj by exact Eb. reflexivity.
    + assert (LV : le_value (le_bytes 4 p) = p) by (apply le_value_bytes; cbn; lia).
      exists (le_bytes 4 p). split; [|split; [apply bytes_ok_le_bytes|]].
      * rewrite <- LV at 1. rewrite le_bytes4. apply fp_bcj4; [exact Eb | rewrite <- le_bytes4, LV; exact Ha].
      * intros d. rewrite xz_filter_flags_bcj by exact Eb. destruct (Z.eqb_spec p 0); [contradiction|].
        rewrite zlen_le_bytes. reflexivity.
  - destruct k; try discriminate; [|contradiction].
    exists [p - 1]. split; [replace p with (p - 1 + 1) at 1 by lia; constructor|]. split.
    + apply bytes_ok_cons_ok; [lia | reflexivity].
    + intros d. unfold xz_filter_flags. rewrite (vli_encode_small _ (fkind_id_small FDelta)). cbn [obind].
      rewrite (vli_encode_small 1 ltac:(lia)). cbn [obind]. destruct (Z.leb_spec p 0); [lia|].
      unfold wrap8, wrap32. rewrite (Z.mod_small (p - 1) 4294967296), (Z.mod_small (p - 1) 256) by lia. reflexivity.
Qed.

(* the LZMA2 entry the writer appends: it is written exactly when the dictionary size is encodable *)
Lemma xz_filter_flags_lzma2 dict a : xz_filter_flags dict (FLZMA2, 0) = Ok a ->
  exists b, xz_encode_dict dict = Ok b /\ a = [33; 1; b].
Proof.
  unfold xz_filter_flags. rewrite (vli_encode_small _ (fkind_id_small FLZMA2)), (vli_encode_small 1 ltac:(lia)).
  cbn [obind]. destruct (xz_encode_dict dict) as [b| | |]; try discriminate. cbn [obind].
  intros H. inversion H. exists b. split; reflexivity.
Qed.

(* the List of Filter Flags for a chain as the reader stores it: per filter its id, the size of its
   properties, its properties *)
Inductive fflags : list (fkind * Z) -> list Z -> Prop :=
| ff_nil : fflags [] []
| ff_cons k p ps fs ff : fprops k p ps -> fflags fs ff ->
    fflags ((k, p) :: fs) (fkind_id k :: zlen ps :: ps ++ ff).
