(* Format/XzSpecIn2Proofs.v — C03_in (XZ), the fields.  What the independent specification
   (Format/XzSpec.v) accepts for a field, given that the input consists of bytes, are the very bytes the
   writer model emits for the value read (multibyte integer, List of Filter Flags, Stream Header,
   Index) or a header of the shape BlockHeader::parse accepts (Block Header); so the crate's parser
   reads the same value, by the lemmas about the writer's bytes.  Blocks and Streams follow in
   XzSpecIn3Proofs.v, the closed executable instance and the example files in XzSpecIn4Proofs.v. *)
From LzVerif Require Import Base.Bytes Format.Crc Format.CrcProofs Format.Vli Format.VliProofs
  Format.XzFormat Format.XzSpec Format.XzHeaderProofs Format.XzBlockHeaderProofs
  Format.XzIndexProofs Format.BitflipProofs Format.XzSoundProofs Format.XzSpecProofs.

(* the accepted encoding is the one encode_multibyte_integer writes *)
Lemma s_vli_loop_canon : forall n l i num v r room,
  bytes_ok l = true -> 0 <= i -> (n <= room)%nat ->
  s_vli_loop n l i num = Some (v, r) ->
  exists w, v = num + w * 2 ^ (7 * i) /\ l = vli_encode_loop room w ++ r /\
            0 <= w < 128 ^ Z.of_nat n /\ (0 < i -> 0 < w).
Proof.
  induction n as [|n IH]; intros l i num v r room Hb Hi Hr H; [discriminate|].
  destruct l as [|b t]; [discriminate|]. rewrite s_vli_loop_S in H.
  apply bytes_ok_cons in Hb as [Hbb Hbt].
  destruct room as [|room]; [lia|].
  destruct ((0 <? i) && (b =? 0)) eqn:Enm; [discriminate|].
  rewrite pow128_succ.
  assert (Hp : 0 < 128 ^ Z.of_nat n) by (apply Z.pow_pos_nonneg; lia).
  destruct (Z.ltb_spec b 128) as [Hlt|Hge].
  - inversion H; subst v r. exists b. rewrite Z.mod_small by lia.
    split; [reflexivity|]. split.
    + cbn [vli_encode_loop]. destruct (Z.leb_spec 128 b); [lia|]. rewrite Z.mod_small by lia. reflexivity.
    + split; [nia|]. intros Hi0. destruct (Z.ltb_spec 0 i); [|lia]. destruct (Z.eqb_spec b 0); [discriminate|]. lia.
  - destruct (IH t (i + 1) (num + b mod 128 * 2 ^ (7 * i)) v r room Hbt ltac:(lia) ltac:(lia) H) as (w' & Ev & Et & Hw' & Hpos).
    specialize (Hpos ltac:(lia)).
    exists (b mod 128 + 128 * w').
    assert (P7 : 2 ^ (7 * (i + 1)) = 128 * 2 ^ (7 * i)).
    { replace (7 * (i + 1)) with (7 * i + 7) by lia. apply pow2_plus7. lia. }
    split; [rewrite Ev, P7; ring|]. split.
    + cbn [vli_encode_loop]. destruct (Z.leb_spec 128 (b mod 128 + 128 * w')); [|(Z.div_mod_to_equations; lia)].
      replace ((b mod 128 + 128 * w') / 128) with w' by (Z.div_mod_to_equations; lia).
      destruct (cont_byte_spec (b mod 128 + 128 * w') ltac:(lia)) as (C1 & C3). cbv zeta in C1, C3.
      set (b' := Z.lor ((b mod 128 + 128 * w') mod 256) 128) in *.
      assert (Eb : b' = b).
      { assert (b' mod 128 = b mod 128) by (rewrite C1; (Z.div_mod_to_equations; lia)). (Z.div_mod_to_equations; lia). }
      rewrite Eb, Et. reflexivity.
    + split; [(Z.div_mod_to_equations; nia) | (Z.div_mod_to_equations; lia)].
Qed.

Theorem s_vli_canon l v r : bytes_ok l = true -> s_vli l = Some (v, r) ->
  0 <= v <= U63_MAX /\ l = vli_bytes v ++ r /\ vli_size_value v = zlen l - zlen r /\ 1 <= zlen l - zlen r <= 9.
Proof.
  intros Hb H. unfold s_vli in H.
  destruct (s_vli_loop_canon 9 l 0 0 v r 10 Hb ltac:(lia) ltac:(lia) H) as (w & Ev & El & Hw & _).
  change (2 ^ (7 * 0)) with 1 in Ev. assert (v = w) by lia. subst w.
  assert (Hv : 0 <= v <= U63_MAX) by (pose proof u63_pow; lia).
  split; [exact Hv|]. fold (vli_bytes v) in El. split; [exact El|].
  pose proof (vli_bytes_len v Hv). rewrite (vli_size_value_bytes v Hv).
  assert (Ll : zlen l = zlen (vli_bytes v) + zlen r) by (rewrite El at 1; apply zlen_app). lia.
Qed.

Lemma vli_bytes_small b : 0 <= b < 128 -> vli_bytes b = [b].
Proof.
  intros Hb. unfold vli_bytes. cbn [vli_encode_loop]. destruct (Z.leb_spec 128 b); [lia|].
  rewrite Z.mod_small by lia. reflexivity.
Qed.

(* one entry of the List of Filter Flags: the accepted properties are those of a filter the reader knows *)
Lemma s_filter_id id ps f : s_filter id ps = Some f ->
  id = 33 \/ id = 3 \/ exists k, fkind_is_bcj k = true /\ id = fkind_id k.
Proof.
  unfold s_filter. intros H. destruct (Z.eqb_spec id 33); [auto|]. destruct (Z.eqb_spec id 3); [auto|].
  destruct (Z.leb_spec 4 id); destruct (Z.leb_spec id 11); cbn [andb] in H; try discriminate. right. right.
  assert (C : id = 4 \/ id = 5 \/ id = 6 \/ id = 7 \/ id = 8 \/ id = 9 \/ id = 10 \/ id = 11) by lia.
  destruct C as [->|[->|[->|[->|[->|[->|[->| ->]]]]]]];
    [exists FX86 | exists FPPC | exists FIA64 | exists FARM | exists FARMT | exists FSPARC | exists FARM64 | exists FRISCV];
    split; reflexivity.
Qed.

Lemma s_filter_inv id ps f : bytes_ok ps = true -> s_filter id ps = Some f ->
  exists k p, id = fkind_id k /\ fprops k p ps /\ spec_filter (k, p) = f.
Proof.
  intros Hb H. destruct (s_filter_id id ps f H) as [->|[->|(k & Hk & ->)]].
  - unfold s_filter in H. cbn [Z.eqb Pos.eqb] in H. destruct ps as [|b [|? ?]]; try discriminate.
    destruct (Z.leb_spec b 40); [|discriminate]. inversion H; subst f. apply bytes_ok_cons in Hb as [Hb0 _].
    exists FLZMA2, (s_lzma2_dict b). split; [reflexivity|]. split; [|reflexivity].
    apply fp_lzma2; [lia | apply xz_decode_dict_spec; lia].
  - unfold s_filter in H. cbn [Z.eqb Pos.eqb] in H. destruct ps as [|b [|? ?]]; try discriminate. inversion H; subst f.
    exists FDelta, (b + 1). split; [reflexivity|]. split; [constructor | reflexivity].
  - rewrite s_filter_bcj in H by exact Hk. destruct ps as [|b0 [|b1 [|b2 [|b3 [|? ?]]]]]; try discriminate.
    + inversion H; subst f. exists k, 0. split; [reflexivity|]. split; [apply fp_bcj0, Hk | apply spec_filter_bcj, Hk].
    + cbv beta iota zeta in H. destruct (Z.eqb_spec (le_value [b0; b1; b2; b3] mod bcj_alignment k) 0) as [Ea|]; [|discriminate].
      inversion H; subst f. exists k, (le_value [b0; b1; b2; b3]). split; [reflexivity|].
      split; [apply fp_bcj4; assumption | apply spec_filter_bcj, Hk].
Qed.

Lemma last_is_lzma2_cons x y l : last_is_lzma2 (x :: y :: l) = last_is_lzma2 (y :: l).
Proof. unfold last_is_lzma2. rewrite !frev_rev. cbn [rev]. destruct (rev l) as [|z q]; reflexivity. Qed.

Lemma fflags_len fs ff : fflags fs ff -> 2 * zlen fs <= zlen ff.
Proof.
  induction 1 as [|k p ps fs ff Fp Fl IH]; [reflexivity|]. rewrite !zlen_cons, zlen_app. pose proof (zlen_nonneg ps). lia.
Qed.

(* the List of Filter Flags the specification accepts is the list for a chain of the reader's *)
Lemma s_filter_flags_inv : forall n l sfs r, bytes_ok l = true -> s_filter_flags n l = Some (sfs, r) ->
  exists fs ff, l = ff ++ r /\ fflags fs ff /\ map spec_filter fs = sfs /\ length fs = n /\
    (n <> O -> last_is_lzma2 fs = true).
Proof.
  induction n as [|n IH]; intros l sfs r Hb H.
  - cbn [s_filter_flags] in H. inversion H; subst sfs r. exists [], [].
    split; [reflexivity|]. split; [constructor|]. split; [reflexivity|]. split; [reflexivity|]. intros C; contradiction.
  - rewrite s_filter_flags_S in H.
    apply olet_some in H as ([id r1] & E1 & H).
    apply olet_some in H as ([psize r2] & E2 & H).
    apply olet_some in H as ([props r3] & E3 & H).
    apply olet_some in H as (f & E4 & H).
    apply guard_some in H as (E5 & H).
    apply olet_some in H as ([sfs' r4] & E6 & H). inversion H; subst sfs r4; clear H.
    (* both integers are minimal, so the entry is the canonical one *)
    destruct (s_vli_canon l id r1 Hb E1) as (_ & El & _ & _).
    assert (Hb1 : bytes_ok r1 = true) by (rewrite El in Hb; apply bytes_ok_app in Hb; apply Hb).
    destruct (s_vli_canon r1 psize r2 Hb1 E2) as (_ & Er1 & _ & _).
    assert (Hb2 : bytes_ok r2 = true) by (rewrite Er1 in Hb1; apply bytes_ok_app in Hb1; apply Hb1).
    apply s_take_inv in E3 as [Er2 Lp]. rewrite Er2 in Hb2. apply bytes_ok_app in Hb2 as [Hbp Hb3].
    destruct (s_filter_inv id props f Hbp E4) as (k & p & -> & Fp & Ef).
    destruct (IH r3 sfs' r Hb3 E6) as (fs & ff & Er3 & Fl & Em & Ln & Hlast).
    pose proof (fprops_len _ _ _ Fp) as Lps. subst psize.
    exists ((k, p) :: fs), (fkind_id k :: zlen props :: props ++ ff).
    split; [|split; [exact (ff_cons k p props fs ff Fp Fl)|split; [|split]]].
    + rewrite El, Er1, Er2, Er3, !vli_bytes_small by (pose proof (fkind_id_small k); lia).
      cbn [app]. rewrite <- app_assoc. reflexivity.
    + cbn [map]. rewrite Ef, Em. reflexivity.
    + cbn [length]. rewrite Ln. reflexivity.
    + intros _. destruct n as [|n'].
      * destruct fs; [|discriminate]. apply Bool.eqb_prop in E5. rewrite <- Ef, spec_filter_is_lzma2 in E5.
        destruct k; try discriminate. reflexivity.
      * destruct fs as [|y fs']; [discriminate|]. rewrite last_is_lzma2_cons. apply Hlast. discriminate.
Qed.

Lemma byte_flag_facts : forall b, 0 <= b < 256 ->
  ((Z.land b 3 =? b mod 4) && (Bool.eqb (negb (Z.land b 64 =? 0)) (64 <=? b mod 128)) &&
   (Bool.eqb (negb (Z.land b 128 =? 0)) (128 <=? b))) = true.
Proof. apply VliProofs.byte_sweep. vm_compute. reflexivity. Qed.

Theorem s_block_header_crate l h rest :
  bytes_ok l = true -> (match l with b :: _ => b <> 0 | [] => True end) ->
  s_block_header l = Some (h, rest) ->
  exists fs, xz_parse_block_header l = Ok (Some (mkBhdr (sb_csize h) (sb_usize h) fs), rest) /\
    map spec_filter fs = sb_filters h /\
    zlen l - zlen rest = sb_size h /\ 8 <= sb_size h /\ sb_size h mod 4 = 0 /\ suffix rest l.
Proof.
  intros Hb Hnz H. unfold s_block_header in H. destruct l as [|enc r0]; [discriminate|].
  pose proof Hb as Hb'. apply bytes_ok_cons in Hb' as [Henc Hb0].
  set (size := (enc + 1) * 4) in *.
  apply olet_some in H as ([hdr rest'] & E1 & H).
  apply olet_some in H as ([body crc] & E2 & H).
  destruct (Z.eqb_spec (le_value crc) (crc32 body)) as [V|]; [|discriminate]. cbn [guard olet] in H.
  destruct body as [|e0 [|flags f0]]; try discriminate.
  destruct (Z.eqb_spec ((flags / 4) mod 16) 0) as [Hres|]; [|discriminate]. cbn [guard olet] in H.
  apply s_take_inv in E1 as [El Lh]. apply s_take_inv in E2 as [Eh Lb].
  assert (Lcrc : zlen crc = 4) by (rewrite Eh, zlen_app in Lh; lia).
  assert (Ee : e0 = enc) by (rewrite Eh in El; cbn [app] in El; inversion El; reflexivity). subst e0.
  assert (Hbh : bytes_ok hdr = true) by (rewrite El in Hb; apply bytes_ok_app in Hb; apply Hb).
  rewrite Eh in Hbh. apply bytes_ok_app in Hbh as [Hbb _]. apply bytes_ok_cons in Hbb as [_ Hbb]. apply bytes_ok_cons in Hbb as [Hfl Hbf0].
  destruct (if 64 <=? flags mod 128
            then olet! (v, r) <- s_vli f0; olet! _ <- guard (0 <? v); Some (Some v, r)
            else Some (None, f0)) as [[cs f1]|] eqn:Ec; [|discriminate]. cbn [olet] in H.
  destruct (if 128 <=? flags then olet! (v, r) <- s_vli f1; Some (Some v, r) else Some (None, f1)) as [[us f2]|] eqn:Eu; [|discriminate].
  cbn [olet] in H.
  apply olet_some in H as ([sfs f3] & Ef & H).
  apply guard_some in H as (Ez & H). inversion H; subst h rest'. clear H.
  cbn [sb_csize sb_usize sb_filters sb_size].
  pose proof (byte_flag_facts flags Hfl) as F.
  apply andb_true_iff in F as [F F128]. apply andb_true_iff in F as [F3 F64].
  apply Z.eqb_eq in F3. apply Bool.eqb_prop in F64. apply Bool.eqb_prop in F128.
  (* the optional sizes are minimal multibyte integers, hence the bytes the crate's slice parser reads back *)
  assert (C : exists cb, bh_size_field (Z.land flags 64) cs cb /\ f0 = cb ++ f1).
  { destruct (Z.eqb_spec (Z.land flags 64) 0) as [E0|N0]; cbn [negb] in F64; rewrite <- F64 in Ec.
    - inversion Ec; subst cs f1. exists []. split; [split; [exact E0 | reflexivity] | reflexivity].
    - apply olet_some in Ec as ([v r] & Ev & Ec).
      destruct (0 <? v); [|discriminate]. cbn [guard olet] in Ec. inversion Ec; subst cs f1.
      destruct (s_vli_canon f0 v r Hbf0 Ev) as (Hv & Ey & _ & _). exists (vli_bytes v).
      split; [exact (conj N0 (conj Hv eq_refl)) | exact Ey]. }
  destruct C as (cb & Hcb & Ef0).
  assert (Hbf1 : bytes_ok f1 = true) by (rewrite Ef0 in Hbf0; apply bytes_ok_app in Hbf0; apply Hbf0).
  assert (U : exists ub, bh_size_field (Z.land flags 128) us ub /\ f1 = ub ++ f2).
  { destruct (Z.eqb_spec (Z.land flags 128) 0) as [E0|N0]; cbn [negb] in F128; rewrite <- F128 in Eu.
    - inversion Eu; subst us f2. exists []. split; [split; [exact E0 | reflexivity] | reflexivity].
    - apply olet_some in Eu as ([v r] & Ev & Eu). inversion Eu; subst us f2.
      destruct (s_vli_canon f1 v r Hbf1 Ev) as (Hv & Ey & _ & _). exists (vli_bytes v).
      split; [exact (conj N0 (conj Hv eq_refl)) | exact Ey]. }
  destruct U as (ub & Hub & Ef1).
  assert (Hbf2 : bytes_ok f2 = true) by (rewrite Ef1 in Hbf1; apply bytes_ok_app in Hbf1; apply Hbf1).
  destruct (s_filter_flags_inv _ f2 sfs f3 Hbf2 Ef) as (fs & ff & Ef2 & Fl & Em & Ln & Hlast).
  pose proof (fflags_len _ _ Fl) as Lff.
  assert (Hsz : 8 <= size <= 1024) by (rewrite !zlen_cons in Lb; pose proof (zlen_nonneg f0); unfold size in *; lia).
  exists fs. split.
  - assert (Es : enc :: r0 = (enc :: flags :: f0) ++ crc ++ rest) by (rewrite El, Eh, <- app_assoc; reflexivity).
    rewrite Es. apply (xz_parse_block_header_shape enc flags cs cb us ub fs ff f3);
      try assumption; try (fold size; lia).
    + rewrite Ef0, Ef1, Ef2. reflexivity.
    + (* with a Compressed Size field the body is long enough for the crate's test *)
      intros Hcs. destruct cs as [v|]; [|contradiction]. destruct Hcb as (_ & Hv & ->).
      pose proof (vli_bytes_len v Hv). rewrite Ef0, Ef1, Ef2, !zlen_cons, !zlen_app in Lb.
      rewrite !zlen_app, Lcrc. pose proof (zlen_nonneg ub). pose proof (zlen_nonneg f3).
      assert (1 <= zlen fs) by (unfold zlen; (Z.div_mod_to_equations; lia)). unfold size in Lb. lia.
    + unfold zlen. rewrite Ln, F3. (Z.div_mod_to_equations; lia).
    + apply Hlast. (Z.div_mod_to_equations; lia).
  - split; [exact Em|]. split.
    + rewrite El, zlen_app. lia.
    + split; [lia|]. split; [unfold size; (Z.div_mod_to_equations; lia)|]. rewrite El. apply sfx_app.
Qed.

(* a CRC32 field that consists of bytes and holds the right value is the field the writer emits *)
Lemma crc_field_canon crc d : zlen crc = 4 -> bytes_ok crc = true -> bytes_ok d = true ->
  le_value crc = crc32 d -> crc = crc32_bytes d.
Proof.
  intros L Hc Hd V. apply le_value_inj.
  - pose proof (zlen_crc32_bytes d) as Z4. unfold zlen in *. lia.
  - exact Hc.
  - apply bytes_ok_le_bytes.
  - rewrite le_value_crc32_bytes by exact Hd. exact V.
Qed.

(* stream header: the accepted bytes are the ones the writer emits *)
Lemma s_stream_header_inv l ct r : bytes_ok l = true -> s_stream_header false l = Some (ct, r) ->
  l = xz_stream_header ct ++ r /\ check_known ct = true.
Proof.
  unfold s_stream_header. intros Hb H.
  apply olet_some in H as ([magic r1] & E1 & H).
  apply guard_some in H as (Em & H).
  apply olet_some in H as ([flags r2] & E2 & H).
  apply olet_some in H as ([crc r3] & E3 & H).
  destruct (Z.eqb_spec (le_value crc) (crc32 flags)) as [V|]; [|discriminate]. cbn [guard olet] in H.
  destruct flags as [|f0 [|f1 [|? ?]]]; try discriminate.
  apply guard_some in H as (Ef & H).
  destruct (s_check_supported f1) eqn:Es; [|discriminate]. cbn [orb guard olet] in H. inversion H; subst ct r3.
  apply andb_true_iff in Ef as [Ef0 _]. apply Z.eqb_eq in Ef0. subst f0.
  apply s_take_inv in E1 as [E1 L1]. apply s_take_inv in E2 as [E2 L2]. apply s_take_inv in E3 as [E3 L3].
  apply s_eqb_eq in Em. change S_HEADER_MAGIC with XZ_MAGIC in Em. subst magic.
  assert (Hk : check_known f1 = true) by exact Es. split; [|exact Hk].
  assert (Hbc : bytes_ok crc = true).
  { rewrite E1, E2, E3 in Hb. apply bytes_ok_app in Hb as [_ Hb]. apply bytes_ok_app in Hb as [_ Hb]. apply bytes_ok_app in Hb as [Hb _]. exact Hb. }
  rewrite E1, E2, E3, (crc_field_canon crc (xz_stream_flags f1) L3 Hbc (bytes_ok_flags f1 Hk) V).
  unfold xz_stream_header. rewrite <- !app_assoc. reflexivity.
Qed.

Lemma s_stream_header_crate l ct r : bytes_ok l = true -> s_stream_header false l = Some (ct, r) ->
  xz_parse_stream_header l = Ok (ct, r).
Proof. intros Hb H. destruct (s_stream_header_inv l ct r Hb H) as [-> Hk]. apply xz_parse_stream_header_ok, Hk. Qed.

(* the stream footer: the crate does not look at the backward size *)
Lemma s_footer_crate ct isz l r : s_footer ct isz l = Some r ->
  (exists bw, xz_parse_footer l = Ok (bw, xz_stream_flags ct, r)) /\ suffix r l /\ zlen l - zlen r = 12.
Proof.
  unfold s_footer. intros H.
  apply olet_some in H as ([crc r1] & E1 & H).
  apply olet_some in H as ([bwb r2] & E2 & H).
  apply olet_some in H as ([fl r3] & E3 & H).
  apply olet_some in H as ([mg r4] & E4 & H).
  destruct (Z.eqb_spec (le_value crc) (crc32 (bwb ++ fl))) as [V|]; [|discriminate]. cbn [guard olet] in H.
  destruct ((le_value bwb + 1) * 4 =? isz); [|discriminate]. cbn [guard olet] in H.
  destruct (s_eqb fl [0; ct]) eqn:Ef; [|discriminate]. cbn [guard olet] in H.
  apply guard_some in H as (Em & H). inversion H; subst r4.
  apply s_take_inv in E1 as [-> L1]. apply s_take_inv in E2 as [-> L2]. apply s_take_inv in E3 as [-> L3].
  apply s_take_inv in E4 as [-> L4]. apply s_eqb_eq in Ef. apply s_eqb_eq in Em. subst fl mg.
  split; [|split].
  - exists (le_value bwb). apply (xz_parse_footer_shape crc bwb (xz_stream_flags ct) r L1 L2 eq_refl V).
  - exists (crc ++ bwb ++ [0; ct] ++ S_FOOTER_MAGIC). rewrite <- !app_assoc. reflexivity.
  - rewrite !zlen_app. lia.
Qed.

(* the index: the accepted bytes are the ones write_index emits for the records *)
Lemma s_index_records_canon : forall recs l r, bytes_ok l = true -> s_index_records recs l = Some r ->
  exists re, xz_index_records recs = Ok re /\ l = re ++ r.
Proof.
  induction recs as [|[u c] t IH]; intros l r Hb H.
  - cbn [s_index_records] in H. inversion H; subst. exists []. split; reflexivity.
  - cbn [s_index_records] in H.
    apply olet_some in H as ([a r1] & E1 & H).
    apply olet_some in H as ([b r2] & E2 & H).
    apply guard_some in H as (Eab & H).
    apply andb_true_iff in Eab as [Ea Eb]. apply Z.eqb_eq in Ea. apply Z.eqb_eq in Eb. subst a b.
    destruct (s_vli_canon l u r1 Hb E1) as (Hu & El & _ & _).
    assert (Hb1 : bytes_ok r1 = true) by (rewrite El in Hb; apply bytes_ok_app in Hb; apply Hb).
    destruct (s_vli_canon r1 c r2 Hb1 E2) as (Hc & Er1 & _ & _).
    assert (Hb2 : bytes_ok r2 = true) by (rewrite Er1 in Hb1; apply bytes_ok_app in Hb1; apply Hb1).
    destruct (IH r2 r Hb2 H) as (re & Ere & Er2).
    exists (vli_bytes u ++ vli_bytes c ++ re). split.
    + cbn [xz_index_records]. rewrite (vli_encode_ok u Hu), (vli_encode_ok c Hc). cbn [obind]. rewrite Ere. reflexivity.
    + rewrite El at 1. rewrite Er1 at 1. rewrite Er2 at 1. rewrite <- !app_assoc. reflexivity.
Qed.

Theorem s_index_crate recs l isz r : bytes_ok l = true -> recs_ok recs -> s_index recs l = Some (isz, r) ->
  exists t, l = 0 :: t /\ xz_parse_index xz_fixed t = Ok (zlen recs, recs, r) /\
            isz = zlen l - zlen r /\ isz mod 4 = 0 /\ suffix r l.
Proof.
  intros Hb Hok H. unfold s_index in H. destruct l as [|z r0]; [discriminate|]. destruct z; try discriminate.
  apply olet_some in H as ([n r1] & En & H).
  destruct (Z.eqb_spec n (zlen recs)) as [->|]; [|discriminate]. cbn [guard olet] in H.
  apply olet_some in H as (r2 & Er & H).
  set (used := zlen (0 :: r0) - zlen r2) in *.
  apply olet_some in H as ([pad r3] & Ep & H).
  apply guard_some in H as (Ez & H).
  apply olet_some in H as ([crc r4] & Ec & H).
  destruct (Z.eqb_spec (le_value crc) (crc32 (firstn (Z.to_nat (used + s_pad4 used)) (0 :: r0)))) as [V|]; [|discriminate].
  cbn [guard olet] in H. inversion H; subst isz r4. clear H.
  apply bytes_ok_cons in Hb as [_ Hb0].
  destruct (s_vli_canon r0 (zlen recs) r1 Hb0 En) as (Hn & E0 & _ & _).
  assert (Hb1 : bytes_ok r1 = true) by (rewrite E0 in Hb0; apply bytes_ok_app in Hb0; apply Hb0).
  destruct (s_index_records_canon recs r1 r2 Hb1 Er) as (re & Ere & E1).
  apply s_take_inv in Ep as [E2 Lp]. apply s_take_inv in Ec as [E3 Lc]. rewrite s_pad4_eq in Lp.
  set (body := 0 :: vli_bytes (zlen recs) ++ re) in *.
  assert (El : 0 :: r0 = body ++ pad ++ crc ++ r).
  { unfold body. cbn [app]. f_equal. rewrite E0 at 1. rewrite E1 at 1. rewrite E2 at 1. rewrite E3 at 1.
    rewrite <- !app_assoc. reflexivity. }
  assert (Lu : used = zlen body).
  { unfold used. rewrite El, E2, E3, !zlen_app. lia. }
  rewrite Lu in *. rewrite s_pad4_eq in V.
  assert (Epad : pad = repeatn 0 (Z.to_nat (pad4 (zlen body)))).
  { unfold s_all_zero in Ez. rewrite (forallb_zero_repeat pad Ez). f_equal. unfold zlen in *. lia. }
  assert (Ecov : firstn (Z.to_nat (zlen body + pad4 (zlen body))) (0 :: r0) = body ++ pad).
  { rewrite El, app_assoc. apply firstn_app_exact. pose proof (zlen_app body pad) as Za. unfold zlen in *. lia. }
  rewrite Ecov in V.
  assert (Hbb : bytes_ok (body ++ pad) = true /\ bytes_ok crc = true).
  { assert (Hall : bytes_ok (0 :: r0) = true) by (cbn [bytes_ok forallb]; fold (bytes_ok r0); rewrite Hb0; reflexivity).
    rewrite El, app_assoc in Hall. apply bytes_ok_app in Hall as [H1 H2]. apply bytes_ok_app in H2 as [H2 _]. split; assumption. }
  destruct Hbb as [Hbbp Hbcrc].
  assert (Ecrc : crc = crc32_bytes (body ++ pad)) by (apply crc_field_canon; [lia | assumption..]).
  set (idx := (body ++ pad) ++ crc32_bytes (body ++ pad)).
  assert (Eidx : xz_index recs = Ok idx).
  { unfold xz_index. rewrite (vli_encode_ok _ Hn). cbn [obind]. rewrite Ere. cbn [obind].
    fold body. rewrite <- Epad. reflexivity. }
  destruct (xz_index_rt recs idx r Hok Eidx) as (t & Et & M4 & _ & P).
  assert (El2 : 0 :: r0 = idx ++ r) by (unfold idx; rewrite El, Ecrc, <- !app_assoc; reflexivity).
  exists (t ++ r). split; [rewrite El2, Et; reflexivity|]. split; [exact P|].
  assert (Li : zlen idx = zlen body + pad4 (zlen body) + 4).
  { unfold idx. rewrite !zlen_app, zlen_crc32_bytes. lia. }
  rewrite s_pad4_eq. split; [rewrite El2, zlen_app; lia|]. split; [rewrite <- Li; exact M4 | rewrite El2; apply sfx_app].
Qed.

