(* Format/TruncXzProofs.v — C05 for the XZ container (whole-file reader model xz_decode,
   Format/XzFormat.v) under TRUNCATION of the file.
   (A) Every parser of the reader (stream header, block header, block padding, check field, index,
       stream footer) and the block loop, for ANY input [src] and any bytes [tl] appended to it:
       over the shorter input the step fails with an error, or the step over the longer input is
       the same step with [tl] left unread behind its rest ([trx]).  The payload decoder is
       abstract with exactly this property as hypothesis (for LZMA2Reader see
       lzma2_payload_dec_n_trx below: the model has it for every budget of read calls) and the
       property that it only consumes input.
   (B) Hence: if the reader accepts a file in single-stream mode and leaves nothing unread, it
       rejects every proper prefix of that file with an error - in both modes; in particular every
       proper prefix (the empty one included) of every file XZWriter produces. *)
From LzVerif Require Import Base.Bytes Format.Crc Format.Vli Format.XzFormat Format.XzHeaderProofs
  Format.BitflipProofs Format.XzSoundProofs Format.XzProofs Format.TotalProofs Codec.Lzma2Dec Codec.TruncProofs Codec.TruncLzma2Proofs.

(* the step over the truncated input [rt] and over the complete input [rf] *)
Definition trx {A} (f : A -> A) (rt rf : outcome A) : Prop := (exists e, rt = Err e) \/ rf = omap f rt.

Lemma trx_bind {A B} (f : A -> A) (g : B -> B) x xf (k kf : A -> outcome B) :
  trx f x xf -> (forall a, x = Ok a -> trx g (k a) (kf (f a))) -> trx g (obind x k) (obind xf kf).
Proof.
  intros [(e & ->)| ->] Hk; [left; exists e; reflexivity|].
  destruct x as [a|e|e|]; cbn [obind omap]; [apply Hk; reflexivity | right; reflexivity..].
Qed.

Definition rapp {A} (tl : list Z) (r : A * list Z) : A * list Z := (fst r, snd r ++ tl).

(* tactic for the parts of a parser that do not look at the rest of the input *)
Ltac same_step :=
  match goal with
  | |- trx _ (obind ?x _) (obind ?x _) => destruct x as [?|?|?|]; cbn [obind]; try (right; reflexivity)
  | |- trx _ (if ?c then _ else _) (if ?c then _ else _) => destruct c; try (right; reflexivity)
  | |- trx _ (let '(_, _) := ?p in _) _ => destruct p
  | |- trx _ (match ?l with [] => _ | _ :: _ => _ end) (match ?l with [] => _ | _ :: _ => _ end) =>
      destruct l; try (right; reflexivity)
  end.

Section Tr.
Variable tl : list Z.

Ltac rapp_red :=
  repeat match goal with |- context [rapp tl (?a, ?b)] => change (rapp tl (a, b)) with (a, b ++ tl) end;
  cbv beta; cbn [fst snd].

Lemma xz_take_tr n src : trx (rapp tl) (xz_take n src) (xz_take n (src ++ tl)).
Proof.
  unfold xz_take. rewrite zlen_app. pose proof (zlen_nonneg tl).
  destruct (Z.ltb_spec (zlen src) n); [left; eexists; reflexivity|].
  destruct (Z.ltb_spec (zlen src + zlen tl) n); [lia|].
  right. unfold rapp; cbn [omap fst snd].
  assert (Hn : (Z.to_nat n <= length src)%nat) by (unfold zlen in *; lia).
  rewrite firstn_app_le, skipn_app_le by exact Hn. reflexivity.
Qed.

Lemma xz_take_len n src a r : xz_take n src = Ok (a, r) -> (length r <= length src)%nat.
Proof. intros H. apply sfx_length, (xz_take_suffix _ _ _ _ H). Qed.

Lemma flags_crc_tr src : trx (rapp tl) (xz_parse_flags_crc src) (xz_parse_flags_crc (src ++ tl)).
Proof.
  unfold xz_parse_flags_crc. apply trx_bind with (f := rapp tl); [apply xz_take_tr|].
  intros [flags r1] _. rapp_red.
  destruct flags as [|f0 [|f1 [|f2 fl]]]; try (right; reflexivity).
  destruct (negb (f0 =? 0)); [right; reflexivity|]. destruct (negb (check_known f1)); [right; reflexivity|].
  apply trx_bind with (f := rapp tl); [apply xz_take_tr|].
  intros [crc r2] _. rapp_red. destruct (negb _); right; reflexivity.
Qed.

Lemma stream_header_tr src : trx (rapp tl) (xz_parse_stream_header src) (xz_parse_stream_header (src ++ tl)).
Proof.
  unfold xz_parse_stream_header. apply trx_bind with (f := rapp tl); [apply xz_take_tr|].
  intros [magic r1] _. rapp_red.
  destruct (negb (bytes_eqb magic XZ_MAGIC)); [right; reflexivity | apply flags_crc_tr].
Qed.

Lemma block_header_tr src : trx (rapp tl) (xz_parse_block_header src) (xz_parse_block_header (src ++ tl)).
Proof.
  unfold xz_parse_block_header. destruct src as [|enc r0]; [left; eexists; reflexivity|]. cbn [app].
  destruct (enc =? 0); [right; reflexivity|]. cbv zeta.
  destruct ((_ <? 8) || (1024 <? _)); [right; reflexivity|].
  apply trx_bind with (f := rapp tl); [apply xz_take_tr|].
  intros [hd rest] _. rapp_red.
  destruct hd as [|flags s0]; [right; reflexivity|]. cbv zeta.
  repeat same_step.
Qed.

Lemma consume_padding_tr pos src : trx (fun r => r ++ tl) (xz_consume_padding pos src) (xz_consume_padding pos (src ++ tl)).
Proof.
  unfold xz_consume_padding. cbv zeta. pose proof (pad4_range pos) as Hr.
  destruct (pad4 pos =? 0); [right; reflexivity|].
  destruct (Z.eqb_spec (zlen (firstn (Z.to_nat (pad4 pos)) src)) (pad4 pos)) as [L|]; [|left; eexists; reflexivity].
  cbn [negb].
  assert (Hn : (Z.to_nat (pad4 pos) <= length src)%nat).
  { unfold zlen in L. rewrite firstn_length in L. lia. }
  rewrite firstn_app_le, skipn_app_le by exact Hn.
  destruct (Z.eqb_spec (zlen (firstn (Z.to_nat (pad4 pos)) src)) (pad4 pos)); [|contradiction]. cbn [negb].
  destruct (negb (forallb _ _)); right; reflexivity.
Qed.

Lemma verify_check_tr ct computed src :
  trx (fun r => r ++ tl) (xz_verify_check ct computed src) (xz_verify_check ct computed (src ++ tl)).
Proof.
  unfold xz_verify_check. destruct (ct =? 0); [right; reflexivity|].
  apply trx_bind with (f := rapp tl); [apply xz_take_tr|].
  intros [stored rest] _. rapp_red. destruct (bytes_eqb stored computed); right; reflexivity.
Qed.

Lemma vli_reader_loop_tr n : forall input res sh,
  trx (rapp tl) (vli_parse_reader_loop n input res sh) (vli_parse_reader_loop n (input ++ tl) res sh).
Proof.
  induction n as [|k IH]; intros input res sh; cbn [vli_parse_reader_loop]; [right; reflexivity|].
  destruct input as [|b t]; [left; eexists; reflexivity|]. cbn [app].
  destruct (63 <=? sh); [right; reflexivity|]. cbv zeta.
  destruct (Z.land b 128 =? 0); [right; reflexivity | apply IH].
Qed.

Lemma vli_reader_tr input : trx (rapp tl) (vli_parse_reader input) (vli_parse_reader (input ++ tl)).
Proof. apply vli_reader_loop_tr. Qed.

(* the record loop of the index; the fuels of the two runs differ (they are lengths) *)
Lemma index_records_tr : forall ft ff count src acc, (length src < ft)%nat -> (ft <= ff)%nat ->
  trx (rapp tl) (xz_index_records_loop ft count src acc) (xz_index_records_loop ff count (src ++ tl) acc).
Proof.
  induction ft as [|f IH]; intros ff count src acc Hl Hf; [lia|].
  destruct ff as [|f']; [lia|]. cbn [xz_index_records_loop].
  destruct (count <=? 0); [right; reflexivity|].
  apply trx_bind with (f := rapp tl); [apply vli_reader_tr|].
  intros [unpadded r1] E1. rapp_red.
  apply trx_bind with (f := rapp tl); [apply vli_reader_tr|].
  intros [uncompressed r2] E2. rapp_red.
  destruct (unpadded =? 0); [right; reflexivity|].
  apply (shrk_ok _ _ _ _ _ (vli_parse_reader_shr _)) in E1. apply (shrk_ok _ _ _ _ _ (vli_parse_reader_shr _)) in E2.
  apply IH; lia.
Qed.

Lemma parse_index_tr fx src :
  trx (fun r : Z * list (Z * Z) * list Z => (fst r, snd r ++ tl)) (xz_parse_index fx src) (xz_parse_index fx (src ++ tl)).
Proof.
  unfold xz_parse_index. apply trx_bind with (f := rapp tl); [apply vli_reader_tr|].
  intros [count r1] _. rapp_red.
  destruct (negb (fx11 fx) && _); [right; reflexivity|].
  apply trx_bind with (f := rapp tl).
  { apply index_records_tr; [lia|]. rewrite app_length. lia. }
  intros [recs r2] _. rapp_red. cbv zeta.
  apply trx_bind with (f := rapp tl); [apply xz_take_tr|].
  intros [padding r3] _. rapp_red.
  destruct (negb (forallb _ padding)); [right; reflexivity|].
  apply trx_bind with (f := rapp tl); [apply xz_take_tr|].
  intros [crc r4] _. rapp_red.
  repeat same_step.
Qed.

Lemma parse_footer_tr src :
  trx (fun r : Z * list Z * list Z => (fst r, snd r ++ tl)) (xz_parse_footer src) (xz_parse_footer (src ++ tl)).
Proof.
  unfold xz_parse_footer. apply trx_bind with (f := rapp tl); [apply xz_take_tr|].
  intros [crc r1] _. rapp_red.
  apply trx_bind with (f := rapp tl); [apply xz_take_tr|].
  intros [bw r2] _. rapp_red.
  apply trx_bind with (f := rapp tl); [apply xz_take_tr|].
  intros [flags r3] _. rapp_red.
  destruct (negb _); [right; reflexivity|].
  apply trx_bind with (f := rapp tl); [apply xz_take_tr|].
  intros [magic r4] _. rapp_red.
  destruct (negb _); right; reflexivity.
Qed.

Lemma index_and_footer_tr fx ct blocks src :
  trx (fun r => r ++ tl) (xz_index_and_footer fx ct blocks src) (xz_index_and_footer fx ct blocks (src ++ tl)).
Proof.
  unfold xz_index_and_footer.
  apply trx_bind with (f := fun r : Z * list (Z * Z) * list Z => (fst r, snd r ++ tl)); [apply parse_index_tr|].
  intros [[count recs] r1] _. cbn [fst snd].
  destruct (negb (count =? blocks)); [right; reflexivity|].
  apply trx_bind with (f := fun r : Z * list Z * list Z => (fst r, snd r ++ tl)); [apply parse_footer_tr|].
  intros [[bw flags] r2] _. cbn [fst snd].
  destruct (negb _); right; reflexivity.
Qed.

(* the block loop and the whole file, over an abstract check function and block decoder *)
Section Blocks.
Variable H : Z -> list Z -> list Z.
Variable blockdec : list (fkind * Z) -> list Z -> outcome (list Z * list Z).
Hypothesis bd_tr : forall fs src, trx (rapp tl) (blockdec fs src) (blockdec fs (src ++ tl)).
Hypothesis bd_len : forall fs src c r, blockdec fs src = Ok (c, r) -> (length r <= length src)%nat.

Definition bl_app (r : list Z * list Z * Z * Z) : list Z * list Z * Z * Z :=
  (fst (fst (fst r)), snd (fst (fst r)) ++ tl, snd (fst r), snd r).

Lemma zlen_sub_app (a b : list Z) : zlen (a ++ tl) - zlen (b ++ tl) = zlen a - zlen b.
Proof. rewrite !zlen_app. lia. Qed.

Lemma blocks_tr : forall ft ff ct src pos n acc, (length src < ft)%nat -> (ft <= ff)%nat ->
  trx bl_app (xzd_blocks H blockdec ft ct src pos n acc) (xzd_blocks H blockdec ff ct (src ++ tl) pos n acc).
Proof.
  induction ft as [|f IH]; intros ff ct src pos n acc Hl Hf; [lia|].
  destruct ff as [|f']; [lia|]. cbn [xzd_blocks].
  apply trx_bind with (f := rapp tl); [apply block_header_tr|].
  intros [h r1] E1. rapp_red. cbv zeta.
  rewrite zlen_sub_app.
  destruct h as [bh|]; [|right; reflexivity].
  apply trx_bind with (f := rapp tl); [apply bd_tr|].
  intros [content r2] E2. rapp_red. cbv zeta.
  rewrite zlen_sub_app.
  apply trx_bind with (f := fun r => r ++ tl); [apply consume_padding_tr|].
  intros r3 E3.
  apply trx_bind with (f := fun r => r ++ tl); [apply verify_check_tr|].
  intros r4 E4.
  rewrite zlen_sub_app.
  apply (shrk_ok _ _ _ _ _ (xz_parse_block_header_shr _)) in E1. apply bd_len in E2.
  apply (post_ok _ _ _ (xz_consume_padding_spec _ _)) in E3. apply (post_ok _ _ _ (xz_verify_check_spec _ _ _)) in E4.
  apply IH; lia.
Qed.

(* (B) a file accepted in single-stream mode with nothing left: every proper prefix is rejected,
   whether multi-stream decoding is on or off *)
Theorem xz_truncated_gen : forall fx p d, tl <> [] ->
  xz_decode H blockdec fx false (p ++ tl) = Ok (d, []) ->
  forall multi, exists e, xz_decode H blockdec fx multi p = Err e.
Proof.
  intros fx p d Htl Hfull multi. unfold xz_decode in *.
  destruct (stream_header_tr p) as [(e & He)|Hh]; [rewrite He; exists e; reflexivity|].
  rewrite Hh in Hfull.
  destruct (xz_parse_stream_header p) as [[ct r1]|e|e|]; cbn [omap obind] in Hfull; try discriminate.
  unfold rapp in Hfull; cbn [fst snd obind] in Hfull. cbn [obind].
  rewrite zlen_sub_app in Hfull.
  cbn [xzd_streams] in Hfull |- *.
  destruct (blocks_tr (S (length r1)) (S (length (r1 ++ tl))) ct r1 (zlen p - zlen r1) 0 [] ltac:(lia)
              ltac:(rewrite app_length; lia)) as [(e & He)|Hb]; [rewrite He; exists e; reflexivity|].
  rewrite Hb in Hfull.
  destruct (xzd_blocks H blockdec (S (length r1)) ct r1 (zlen p - zlen r1) 0 []) as [[[[acc1 r1'] pos1] n]|e|e|];
    cbn [omap obind] in Hfull; try discriminate.
  unfold bl_app in Hfull; cbn [fst snd obind] in Hfull. cbn [obind].
  destruct (index_and_footer_tr fx ct n r1') as [(e & He)|Hi]; [rewrite He; exists e; reflexivity|].
  rewrite Hi in Hfull.
  destruct (xz_index_and_footer fx ct n r1') as [r2|e|e|]; cbn [omap obind] in Hfull; try discriminate.
  exfalso. injection Hfull as _ Hr.
  apply app_eq_nil in Hr as [_ Hr]. exact (Htl Hr).
Qed.

End Blocks.
End Tr.

(* Files of the writer: payload and filter codecs abstract as in XzProofs.v (round trip with exact
   consumption = C01 + C16, filters = C11), plus the two properties of the payload DECODER used
   above: over a truncated input it fails or does what it does over the complete input, and it
   only consumes input *)
Section Written.
  Variable penc : Z -> list Z -> list Z.
  Variable pdec : Z -> list Z -> outcome (list Z * list Z).
  Hypothesis pdec_penc : forall d dd x tail, d <= dd -> pdec dd (penc d x ++ tail) = Ok (x, tail).
  Hypothesis pdec_trx : forall tl dd src, trx (rapp tl) (pdec dd src) (pdec dd (src ++ tl)).
  Hypothesis pdec_len : forall dd src x r, pdec dd src = Ok (x, r) -> (length r <= length src)%nat.
  Variables fenc fdec : fkind -> Z -> list Z -> list Z.
  Hypothesis fdec_fenc : forall k p x, fdec k p (fenc k p x) = x.

  Lemma blockdec_trx tl fs src : trx (rapp tl) (blockdec pdec fdec fs src) (blockdec pdec fdec fs (src ++ tl)).
  Proof.
    unfold blockdec. apply trx_bind with (f := rapp tl); [apply pdec_trx|].
    intros [x r] _. right. reflexivity.
  Qed.

  Lemma blockdec_len fs src c r : blockdec pdec fdec fs src = Ok (c, r) -> (length r <= length src)%nat.
  Proof.
    unfold blockdec. destruct (pdec (xz_chain_dict fs) src) as [[x r']|e|e|] eqn:E; cbn [obind]; try discriminate.
    intros Hq. inversion Hq; subst. cbn [snd]. eapply pdec_len; exact E.
  Qed.

  (* every proper prefix (the empty one included) of every file XZWriter produces is rejected
     with an error, with multi-stream decoding on or off *)
  Theorem xz_truncated_written : forall o0 parts f p tl multi, stream_ok o0 ->
    xz_encode penc fenc xz_fixed o0 parts = Ok f ->
    f = p ++ tl -> tl <> [] ->
    exists e, xz_decode xz_check_bytes (blockdec pdec fdec) xz_fixed multi p = Err e.
  Proof.
    intros o0 parts f p tl multi Hok E Hf Htl.
    pose proof (C02_xz_thm penc pdec pdec_penc fenc fdec fdec_fenc o0 parts f false Hok E) as Hfull.
    rewrite Hf in Hfull.
    exact (xz_truncated_gen tl xz_check_bytes (blockdec pdec fdec) (blockdec_trx tl) blockdec_len xz_fixed p
             (concat parts) Htl Hfull multi).
  Qed.
End Written.

(* The LZMA2Reader model, read to its end with any budget of 4096-byte read() calls, has the
   truncation property assumed of the payload decoder (UnexpectedEof being the error) *)
Lemma lzma2_drain_trx tl calls : forall s acc,
  trx (rapp tl) (lzma2_drain calls s acc) (lzma2_drain calls (m_app s tl) acc).
Proof.
  induction calls as [|c IH]; intros s acc; cbn [lzma2_drain]; [right; reflexivity|].
  destruct (lzma2_read_tr tl s 4096) as [He|Hf].
  - left. rewrite He. eexists. reflexivity.
  - rewrite Hf. destruct (lzma2_read s 4096) as [[out s1]|e|e|]; cbn [omap obind]; try (right; reflexivity).
    unfold l2_res_app; cbn [fst snd]. destruct out; [right; reflexivity | apply IH].
Qed.

Theorem lzma2_payload_dec_n_trx : forall calls tl dict src,
  trx (rapp tl) (lzma2_payload_dec_n calls dict src) (lzma2_payload_dec_n calls dict (src ++ tl)).
Proof.
  intros calls tl dict src. unfold lzma2_payload_dec_n, lzma2_new, lzma2_get_dict_size. cbn [obind].
  apply (lzma2_drain_trx tl calls (mkLzma2 src _ _ _ _ _ _ _ _ _ _) []).
Qed.

(* Non-vacuity: the toy codec of RoundTripExamples.v satisfies all hypotheses; every cut point of a
   written two-block file evaluated *)
From LzVerif Require Import Format.RoundTripExamples.

Lemma toy_loop_trx tl : forall n src acc, (length src <= n)%nat ->
  trx (rapp tl) (toy_pdec_loop src acc) (toy_pdec_loop (src ++ tl) acc).
Proof.
  induction n as [|n IH]; intros src acc Hn.
  - destruct src; [left; eexists; reflexivity | cbn [length] in Hn; lia].
  - destruct src as [|c [|b t]]; [left; eexists; reflexivity | |].
    + cbn [app toy_pdec_loop]. destruct (c =? 0); [right; reflexivity | left; eexists; reflexivity].
    + cbn [app toy_pdec_loop]. destruct (c =? 0); [right; reflexivity|]. apply IH. cbn [length] in Hn. lia.
Qed.

Lemma toy_loop_len : forall n src acc x r, (length src <= n)%nat ->
  toy_pdec_loop src acc = Ok (x, r) -> (length r <= length src)%nat.
Proof.
  induction n as [|n IH]; intros src acc x r Hn H.
  - destruct src; [discriminate | cbn [length] in Hn; lia].
  - destruct src as [|c [|b t]]; [discriminate | |]; cbn [toy_pdec_loop] in H.
    + destruct (c =? 0); [|discriminate]. inversion H; subst. cbn [length]. lia.
    + destruct (c =? 0); [inversion H; subst; cbn [length]; lia|].
      apply IH in H; [|cbn [length] in Hn; lia]. cbn [length]. lia.
Qed.

Lemma truncating_xz_codec_exists :
  exists (penc : Z -> list Z -> list Z) (pdec : Z -> list Z -> outcome (list Z * list Z)),
    (forall d dd x tail, d <= dd -> pdec dd (penc d x ++ tail) = Ok (x, tail)) /\
    (forall tl dd src, trx (rapp tl) (pdec dd src) (pdec dd (src ++ tl))) /\
    (forall dd src x r, pdec dd src = Ok (x, r) -> (length r <= length src)%nat).
Proof.
  exists toy_penc, toy_pdec. split; [exact toy_rt|]. split.
  - intros tl dd src. exact (toy_loop_trx tl (length src) src [] (le_n _)).
  - intros dd src x r. exact (toy_loop_len (length src) src [] x r (le_n _)).
Qed.

Definition ex_trunc_opts : xzopts := mkXzopts 1 (Some 1) [(FDelta, 3)] 4096.
Definition xz_cut_rejected (multi : bool) (f : list Z) (k : nat) : bool :=
  match xz_decode xz_check_bytes (blockdec toy_pdec (fun _ _ x => x)) xz_fixed multi (firstn k f) with
  | Err _ => true
  | _ => false
  end.

Example xz_truncated_example :
  exists f, xz_encode toy_penc (fun _ _ x => x) xz_fixed ex_trunc_opts [[1; 2; 3]; []; [4; 5]] = Ok f /\
    (50 <? length f)%nat = true /\
    xz_decode xz_check_bytes (blockdec toy_pdec (fun _ _ x => x)) xz_fixed true f = Ok ([1; 2; 3; 4; 5], []) /\
    forallb (xz_cut_rejected true f) (seq 0 (length f)) = true /\
    forallb (xz_cut_rejected false f) (seq 0 (length f)) = true.
Proof. eexists. split; [vm_compute; reflexivity|]. vm_compute. repeat split; reflexivity. Qed.

Lemma ex_trunc_stream_ok : stream_ok ex_trunc_opts.
Proof.
  split; [split; [reflexivity|]|cbn; lia]. constructor; [|constructor]. unfold filter_ok; cbn. lia.
Qed.

Print Assumptions xz_truncated_gen.
Print Assumptions xz_truncated_written.
Print Assumptions lzma2_payload_dec_n_trx.
