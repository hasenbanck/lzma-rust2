(* Format/LzipSoundProofs.v — C04_sound_lzip and C04_magic (LZIP): whenever LZIPReader (repaired
   code) reports success, the input is a sequence of members, each with the magic, version 1 and a
   valid dictionary-size byte, an LZMA stream decoded to exactly the bytes returned for it, and a
   trailer whose CRC-32, data size and member size equal the values computed from those bytes and
   from the bytes consumed; followed by nothing, or (only after a complete member) by trailing data
   that is not (a prefix of) the member magic.  An input that is not empty and does not begin with
   a valid member header is never accepted; one damaged byte in a member trailer is never
   accepted. *)
From LzVerif Require Import Base.Bytes Format.Crc Format.CrcProofs Format.LzipDict Format.XzFormat Format.LzipFormat
  Format.XzHeaderProofs Format.BitflipProofs Format.XzSoundProofs.

Lemma lz_take_inv n src a b : 0 <= n -> lz_take n src = Ok (a, b) -> src = a ++ b /\ zlen a = n.
Proof. intros Hn H. exact (xz_take_inv n src a b Hn H). Qed.

Lemma lz_bytes_eqb_eq a b : lz_bytes_eqb a b = true -> a = b.
Proof. exact (bytes_eqb_eq a b). Qed.

(* the repaired header parse: a member header, or the end of the stream *)
Lemma lz_parse_header_some_inv first src dd rest : lz_parse_header lz_fixed first src = Ok (Some dd, rest) ->
  exists d, src = LZIP_MAGIC ++ [1; d] ++ rest /\ lzip_decode_dict_size d = Ok dd.
Proof.
  unfold lz_parse_header. cbn [fz6 lz_fixed]. unfold lz_parse_header_fixed. intros H.
  destruct (firstn 4 src) as [|m0 ms] eqn:E4; [discriminate|].
  destruct (lz_bytes_eqb (m0 :: ms) (firstn (length (m0 :: ms)) LZIP_MAGIC)) eqn:Em; cbn [negb] in H.
  2:{ destruct first; discriminate. }
  destruct (length (m0 :: ms) <? 4)%nat eqn:El; [discriminate|].
  destruct (skipn 4 src) as [|v r2] eqn:Es; [discriminate|].
  destruct (Z.eqb_spec v 1) as [->|]; [|discriminate]. cbn [negb] in H.
  destruct r2 as [|d r3]; [discriminate|].
  destruct (lzip_decode_dict_size d) as [ds| | |] eqn:Ed; try discriminate. cbn [obind] in H. inversion H; subst dd rest.
  exists d. split; [|exact Ed].
  apply Nat.ltb_ge in El. apply lz_bytes_eqb_eq in Em.
  assert (L4 : length (m0 :: ms) = 4%nat).
  { pose proof (firstn_le_length 4 src) as Hle. rewrite E4 in Hle. pose proof (firstn_length 4 src) as Hf. rewrite E4 in Hf. lia. }
  rewrite L4 in Em. change (firstn 4 LZIP_MAGIC) with LZIP_MAGIC in Em.
  rewrite <- (firstn_skipn 4 src), E4, Es, Em. reflexivity.
Qed.

Lemma lz_parse_header_none_inv first src rest : lz_parse_header lz_fixed first src = Ok (None, rest) ->
  (src = [] /\ rest = []) \/
  (first = false /\ src <> [] /\ rest = skipn 4 src /\
   lz_bytes_eqb (firstn 4 src) (firstn (length (firstn 4 src)) LZIP_MAGIC) = false).
Proof.
  unfold lz_parse_header. cbn [fz6 lz_fixed]. unfold lz_parse_header_fixed. intros H.
  destruct (firstn 4 src) as [|m0 ms] eqn:E4.
  - inversion H; subst. left. destruct src; [auto | discriminate].
  - right. destruct (lz_bytes_eqb (m0 :: ms) (firstn (length (m0 :: ms)) LZIP_MAGIC)) eqn:Em; cbn [negb] in H.
    + destruct (length (m0 :: ms) <? 4)%nat; [discriminate|].
      destruct (skipn 4 src) as [|v r2]; [discriminate|]. destruct (negb (v =? 1)); [discriminate|].
      destruct r2 as [|d r3]; [discriminate|]. destruct (lzip_decode_dict_size d); discriminate.
    + destruct first; [discriminate|]. inversion H; subst. repeat split; auto. destruct src; discriminate.
Qed.

(* the trailer comparison *)
Lemma lz_check_trailer_inv crc ds cs src rest : lz_check_trailer crc ds cs src = Ok rest ->
  exists cb db mb, src = cb ++ db ++ mb ++ rest /\ zlen cb = 4 /\ zlen db = 8 /\ zlen mb = 8 /\
    le_value cb = crc /\ le_value db = ds /\ le_value mb = LZIP_HEADER_SIZE + cs + LZIP_TRAILER_SIZE.
Proof.
  unfold lz_check_trailer. intros H.
  apply obind_ok in H as ([cb r1] & E1 & H). apply obind_ok in H as ([db r2] & E2 & H).
  apply obind_ok in H as ([mb r3] & E3 & H).
  destruct (Z.eqb_spec (le_value cb) crc); [|discriminate]. cbn [negb] in H.
  destruct (Z.eqb_spec (le_value db) ds); [|discriminate]. cbn [negb] in H.
  destruct (Z.eqb_spec (le_value mb) (LZIP_HEADER_SIZE + cs + LZIP_TRAILER_SIZE)); [|discriminate]. cbn [negb] in H.
  inversion H; subst r3.
  apply lz_take_inv in E1 as [-> L1]; [|lia]. apply lz_take_inv in E2 as [-> L2]; [|lia]. apply lz_take_inv in E3 as [-> L3]; [|lia].
  exists cb, db, mb. repeat split; auto.
Qed.

(* C04_bitflip (LZIP trailer): two 20-byte trailers that are both accepted for the same decoded
   data and the same number of consumed bytes are equal - any damage inside the trailer is detected *)
Theorem bitflip_lzip_trailer crc ds cs t t' rest rest' r r' :
  zlen t = 20 -> zlen t' = 20 -> bytes_ok t = true -> bytes_ok t' = true ->
  lz_check_trailer crc ds cs (t ++ rest) = Ok r -> lz_check_trailer crc ds cs (t' ++ rest') = Ok r' -> t = t'.
Proof.
  intros L L' B B' P P'.
  apply lz_check_trailer_inv in P as (cb & db & mb & E & L1 & L2 & L3 & V1 & V2 & V3).
  apply lz_check_trailer_inv in P' as (cb' & db' & mb' & E' & L1' & L2' & L3' & V1' & V2' & V3').
  assert (Et : t = cb ++ db ++ mb).
  { assert (E2 : t ++ rest = (cb ++ db ++ mb) ++ r) by (rewrite E, <- !app_assoc; reflexivity).
    apply app_eq_len in E2 as [E2 _]; [exact E2|]. rewrite !app_length. unfold zlen in *. lia. }
  assert (Et' : t' = cb' ++ db' ++ mb').
  { assert (E2 : t' ++ rest' = (cb' ++ db' ++ mb') ++ r') by (rewrite E', <- !app_assoc; reflexivity).
    apply app_eq_len in E2 as [E2 _]; [exact E2|]. rewrite !app_length. unfold zlen in *. lia. }
  subst t t'. apply bytes_ok_app in B as [B1 B]. apply bytes_ok_app in B as [B2 B3].
  apply bytes_ok_app in B' as [B1' B']. apply bytes_ok_app in B' as [B2' B3'].
  f_equal; [|f_equal]; apply le_value_inj; try assumption; try congruence; unfold zlen in *; lia.
Qed.

Section Sound.
  Variable pdec : Z -> list Z -> outcome (list Z * list Z).

  Inductive lz_members_ok : bool -> list Z -> list (list Z) -> list Z -> Prop :=
  | lmo_empty : forall first, lz_members_ok first [] [] []
  | lmo_trailing : forall t, t <> [] ->
      lz_bytes_eqb (firstn 4 t) (firstn (length (firstn 4 t)) LZIP_MAGIC) = false ->
      lz_members_ok false t [] (skipn 4 t)
  | lmo_member : forall first d dd tail1 content tail2 cb db mb src' cs rest,
      lzip_decode_dict_size d = Ok dd ->
      pdec dd tail1 = Ok (content, tail2) ->
      tail2 = cb ++ db ++ mb ++ src' -> zlen cb = 4 -> zlen db = 8 -> zlen mb = 8 ->
      le_value cb = crc32 content -> le_value db = zlen content ->
      le_value mb = LZIP_HEADER_SIZE + (zlen tail1 - zlen tail2) + LZIP_TRAILER_SIZE ->
      lz_members_ok false src' cs rest ->
      lz_members_ok first (LZIP_MAGIC ++ [1; d] ++ tail1) (content :: cs) rest.

  Theorem lzd_members_sound : forall fuel first src acc d rest,
    lzd_members pdec fuel lz_fixed first src acc = Ok (d, rest) ->
    exists cs, lz_members_ok first src cs rest /\ d = rev acc ++ concat cs.
  Proof.
    induction fuel as [|fuel IH]; intros first src acc d rest E; [discriminate|].
    cbn [lzd_members] in E.
    apply obind_ok in E as ([h r1] & Eh & E). destruct h as [dd|].
    - apply lz_parse_header_some_inv in Eh as (dbyte & Es & Ed).
      apply obind_ok in E as ([content r2] & Ep & E). apply obind_ok in E as (r3 & Et & E).
      apply lz_check_trailer_inv in Et as (cb & db & mb & E2 & L1 & L2 & L3 & V1 & V2 & V3).
      apply IH in E as (cs & Mk & Ed'). exists (content :: cs). split.
      + subst src. eapply lmo_member; eauto.
      + rewrite Ed', rev_append_rev, rev_app_distr, rev_involutive. cbn [concat]. rewrite <- app_assoc. reflexivity.
    - inversion E; subst d rest. exists []. rewrite frev_rev. cbn [concat]. rewrite app_nil_r. split; [|reflexivity].
      apply lz_parse_header_none_inv in Eh as [[-> ->]|(-> & Hne & -> & Hm)]; [constructor | constructor; assumption].
  Qed.

  Theorem C04_sound_lzip_thm src d rest : lz_decode pdec lz_fixed src = Ok (d, rest) ->
    exists cs, lz_members_ok true src cs rest /\ d = concat cs.
  Proof. unfold lz_decode. intros E. apply lzd_members_sound in E as (cs & Mk & Ed). exists cs. auto. Qed.

  (* C04_magic (LZIP): accepted input is empty or begins with a valid member header - input that
     is not LZIP is an error, never an empty result *)
  Theorem C04_magic_lzip_thm src d rest : lz_decode pdec lz_fixed src = Ok (d, rest) ->
    src = [] \/ exists dbyte dd tl, src = LZIP_MAGIC ++ [1; dbyte] ++ tl /\ lzip_decode_dict_size dbyte = Ok dd.
  Proof.
    intros E. apply C04_sound_lzip_thm in E as (cs & Mk & _). inversion Mk; subst; [left; reflexivity|].
    right. eauto.
  Qed.

  (* the one accepted input without a member: the empty input (known finding lzip-empty-input) *)
  Theorem lz_decode_empty_known : lz_decode pdec lz_fixed [] = Ok ([], []).
  Proof. reflexivity. Qed.
End Sound.
