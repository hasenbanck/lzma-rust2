(* Format/XzIndexProofs.v — Index::parse and StreamFooter::parse read back what write_index and
   write_stream_footer wrote: the same records, record count, flags; the rest of the input is
   untouched; the index length is a multiple of four. *)
From LzVerif Require Import Base.Bytes Format.Crc Format.CrcProofs Format.Vli Format.VliProofs
  Format.XzFormat Format.XzHeaderProofs.

(* sizes as the writer produces them: positive unpadded size, non-negative uncompressed size *)
Definition recs_ok (rs : list (Z * Z)) : Prop := Forall (fun r => 1 <= fst r /\ 0 <= snd r) rs.

Lemma index_records_rt : forall rs r, recs_ok rs -> xz_index_records rs = Ok r ->
  bytes_ok r = true /\ zlen r = xz_index_vli_sizes rs /\ 2 * zlen rs <= zlen r /\
  forall fuel tail acc, (length rs < fuel)%nat ->
    xz_index_records_loop fuel (zlen rs) (r ++ tail) acc = Ok (rev acc ++ rs, tail).
Proof.
  induction rs as [|[u c] rs IH]; intros r Hok H.
  - cbn [xz_index_records] in H. inversion H; subst r. split; [reflexivity|]. split; [reflexivity|]. split; [cbn; lia|].
    intros fuel tail acc Hf. destruct fuel; cbn [xz_index_records_loop zlen length Z.of_nat Z.leb Z.compare app];
      rewrite frev_rev, app_nil_r; reflexivity.
  - inversion Hok as [|x l [Hu Hc] Hrs]; subst x l. cbn [fst snd] in Hu, Hc.
    cbn [xz_index_records] in H.
    apply obind_ok in H as (a & Ea & H).
    apply obind_ok in H as (b & Eb & H).
    apply obind_ok in H as (r' & Er & H).
    inversion H; subst r; clear H.
    apply vli_encode_inv in Ea as [Ea Hu2]; [|lia]. apply vli_encode_inv in Eb as [Eb Hc2]; [|lia]. subst a b.
    destruct (IH r' Hrs Er) as (B' & L' & M' & Loop').
    pose proof (vli_bytes_len u ltac:(lia)) as Lu. pose proof (vli_bytes_len c ltac:(lia)) as Lc.
    split; [rewrite !bytes_ok_app, !vli_bytes_ok by lia; auto|].
    split; [rewrite !zlen_app; cbn [xz_index_vli_sizes]; rewrite !vli_size_value_bytes by lia; lia|].
    split; [rewrite !zlen_app, zlen_cons; lia|].
    intros fuel tail acc Hf. destruct fuel as [|fuel]; [cbn in Hf; lia|].
    cbn [xz_index_records_loop]. rewrite zlen_cons.
    destruct (Z.leb_spec (zlen rs + 1) 0); [pose proof (zlen_nonneg rs); lia|].
    rewrite <- !app_assoc.
    rewrite vli_reader_ok by lia. cbn [obind]. rewrite vli_reader_ok by lia. cbn [obind].
    destruct (Z.eqb_spec u 0); [lia|].
    replace (zlen rs + 1 - 1) with (zlen rs) by lia.
    rewrite Loop' by (cbn [length] in Hf; lia). cbn [rev]. rewrite <- app_assoc. reflexivity.
Qed.

Lemma zlen_length_lt {A} (l : list A) n : zlen l < Z.of_nat n -> (length l < n)%nat.
Proof. unfold zlen. lia. Qed.

(* what write_index emits: indicator, record count, records, zero padding to a multiple of four, CRC32 *)
Lemma xz_index_shape rs idx : recs_ok rs -> xz_index rs = Ok idx ->
  exists r, xz_index_records rs = Ok r /\ zlen rs <= U63_MAX /\
    let body := 0 :: vli_bytes (zlen rs) ++ r in
    let pad := repeatn 0 (Z.to_nat (pad4 (zlen body))) in
    idx = (body ++ pad) ++ crc32_bytes (body ++ pad) /\ bytes_ok (body ++ pad) = true /\
    zlen body = 1 + vli_size_value (zlen rs) + xz_index_vli_sizes rs /\ 2 <= zlen body /\
    zlen idx = zlen body + pad4 (zlen body) + 4.
Proof.
  intros Hok H. unfold xz_index in H.
  apply obind_ok in H as (nb & En & H).
  apply obind_ok in H as (r & Er & H).
  apply vli_encode_inv in En as [-> Hn]; [|apply zlen_nonneg].
  destruct (index_records_rt rs r Hok Er) as (Br & Lr & _ & _).
  assert (Hn' : 0 <= zlen rs <= U63_MAX) by (pose proof (zlen_nonneg rs); lia).
  pose proof (vli_bytes_len _ Hn') as Ln.
  exists r. split; [exact Er|]. split; [exact Hn|]. cbv zeta.
  set (body := 0 :: vli_bytes (zlen rs) ++ r) in *.
  assert (Lb : zlen body = 1 + zlen (vli_bytes (zlen rs)) + zlen r) by (unfold body; rewrite zlen_cons, zlen_app; lia).
  split; [inversion H; reflexivity|]. split; [|split; [|split]].
  - apply bytes_ok_app. split; [|apply bytes_ok_zeros]. unfold body. apply bytes_ok_cons_ok; [lia|].
    apply bytes_ok_app. split; [apply vli_bytes_ok; lia | exact Br].
  - rewrite vli_size_value_bytes by exact Hn'. lia.
  - pose proof (zlen_nonneg r). lia.
  - injection H as <-. pose proof (pad4_range (zlen body)). rewrite zlen_cons, !zlen_app, zlen_repeatn, zlen_crc32_bytes. lia.
Qed.

Theorem xz_index_rt rs idx rest : recs_ok rs -> xz_index rs = Ok idx ->
  exists t, idx = 0 :: t /\ zlen idx mod 4 = 0 /\ 8 <= zlen idx /\
    xz_parse_index xz_fixed (t ++ rest) = Ok (zlen rs, rs, rest).
Proof.
  intros Hok H. destruct (xz_index_shape rs idx Hok H) as (r & Er & Hn & Sh). cbv zeta in Sh.
  destruct Sh as (Ei & Bb & Lb & L2 & Li).
  destruct (index_records_rt rs r Hok Er) as (_ & _ & Mr & Loop).
  set (body := 0 :: vli_bytes (zlen rs) ++ r) in *. set (pn := pad4 (zlen body)) in *.
  pose proof (pad4_range (zlen body)) as Hpn. pose proof (pad4_sum (zlen body)) as Hsum. fold pn in Hpn, Hsum.
  pose proof (zlen_nonneg rs) as Hrs.
  set (crc := crc32_bytes (body ++ repeatn 0 (Z.to_nat pn))) in *.
  exists ((vli_bytes (zlen rs) ++ r) ++ repeatn 0 (Z.to_nat pn) ++ crc).
  split; [rewrite Ei; unfold body; cbn [app]; rewrite <- !app_assoc; reflexivity|].
  split; [(Z.div_mod_to_equations; lia)|]. split; [(Z.div_mod_to_equations; lia)|].
  unfold xz_parse_index. rewrite <- !app_assoc.
  rewrite vli_reader_ok by lia. cbn [obind fx11 xz_fixed negb andb].
  rewrite Loop.
  2:{ apply zlen_length_lt. rewrite Nat2Z.inj_succ. fold (zlen (r ++ repeatn 0 (Z.to_nat pn) ++ crc ++ rest)).
      rewrite zlen_app. pose proof (zlen_nonneg (repeatn 0 (Z.to_nat pn) ++ crc ++ rest)). lia. }
  cbn [obind rev app]. rewrite <- Lb. fold pn.
  rewrite (xz_take_app_n pn) by (rewrite zlen_repeatn; lia). cbn [obind]. rewrite forallb_zeros. cbn [negb].
  rewrite (xz_take_app_n 4) by apply zlen_crc32_bytes. cbn [obind].
  rewrite (vli_encode_ok (zlen rs)) by lia. cbn [obind]. rewrite Er. cbn [obind].
  replace (0 :: vli_bytes (zlen rs) ++ r ++ repeatn 0 (Z.to_nat pn)) with (body ++ repeatn 0 (Z.to_nat pn))
    by (unfold body; cbn [app]; rewrite <- app_assoc; reflexivity).
  unfold crc. rewrite le_value_crc32_bytes by exact Bb. rewrite Z.eqb_refl. reflexivity.
Qed.

(* parse_index_and_footer on what finish() writes after the last block *)
Theorem xz_index_and_footer_rt ct rs idx rest : check_known ct = true -> recs_ok rs -> xz_index rs = Ok idx ->
  exists t, idx = 0 :: t /\ zlen idx mod 4 = 0 /\
    xz_index_and_footer xz_fixed ct (zlen rs) (t ++ xz_stream_footer ct rs ++ rest) = Ok rest.
Proof.
  intros Hk Hok H. destruct (xz_index_rt rs idx (xz_stream_footer ct rs ++ rest) Hok H) as (t & Et & Lm & _ & P).
  exists t. split; [exact Et|]. split; [exact Lm|].
  unfold xz_index_and_footer. rewrite P. cbn [obind]. rewrite Z.eqb_refl. cbn [negb].
  rewrite xz_parse_footer_ok by exact Hk. cbn [obind]. rewrite bytes_eqb_refl. reflexivity.
Qed.
