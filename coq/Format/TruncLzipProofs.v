(* Format/TruncLzipProofs.v — C05 for the LZIP container (whole-file reader model lz_decode,
   Format/LzipFormat.v, with the fix patches): a TRUNCATED file.
   A file is a sequence of members; for every proper prefix p of it:
     - p ends inside a member (after at least one byte of it): lz_decode p fails with an error -
       in the header (UnexpectedEof), in the LZMA stream (the payload decoder's error), or in the
       20-byte trailer (UnexpectedEof);
     - p ends exactly between two members: p is itself a complete LZIP file (the format has no
       end-of-file record), lz_decode returns the data of the members it contains;
     - p = []: accepted as an empty file - the KNOWN FINDING lzip-empty-input.
   For a file of ONE member (what LZIPWriter produces unless a member size is configured) every
   proper non-empty prefix is rejected.
   The LZMA payload codec is abstract, as in LzipProofs.v: hypotheses are its round trip with exact
   consumption (C01 + C16) and that it rejects a truncated payload ([pdec_trunc]).  The second
   hypothesis is discharged here only for the toy codec of the examples; for the payload decoder
   of the executable model (lzip_payload_dec: LZMAReader drained in 4096-byte reads, reader
   dictionary >= the writer's) it is not proved - lzma1_truncated_raw of Codec/TruncLzma1Proofs.v
   is the corresponding statement about LZMAReader with the writer's own dictionary size and a
   read history that stops at the first error. *)
From LzVerif Require Import Base.Bytes Format.Crc Format.CrcProofs Format.LzipFormat Format.LzipDict Format.LzipDictProofs
  Format.LzipSplitProofs Format.LzipProofs Format.LzipSoundProofs.

Section Trunc.
  Variable penc : Z -> list Z -> list Z.
  Variable pdec : Z -> list Z -> outcome (list Z * list Z).
  Hypothesis pdec_penc : forall d dd x tail, d <= dd -> pdec dd (penc d x ++ tail) = Ok (x, tail).
  (* a truncated payload is an error *)
  Hypothesis pdec_trunc : forall d dd x p tl, d <= dd -> penc d x = p ++ tl -> tl <> [] -> exists e, pdec dd p = Err e.

  Notation lm_bytes := (lm_bytes penc).
  Notation lm_ok := (lm_ok penc).
  Notation lm_file := (lm_file penc).

  (* fewer than 20 bytes where the trailer should be *)
  Lemma check_trailer_short a b c l : zlen l < 20 -> exists e, lz_check_trailer a b c l = Err e.
  Proof.
    intros Hl. unfold lz_check_trailer, lz_take.
    destruct (Z.ltb_spec (zlen l) 4); [eexists; reflexivity|]. cbn [obind].
    assert (H1 : zlen (skipn (Z.to_nat 4) l) = zlen l - 4) by (apply zlen_skipn; lia).
    destruct (Z.ltb_spec (zlen (skipn (Z.to_nat 4) l)) 8); [eexists; reflexivity|]. cbn [obind].
    assert (H2 : zlen (skipn (Z.to_nat 8) (skipn (Z.to_nat 4) l)) = zlen l - 12) by (rewrite zlen_skipn; lia).
    destruct (Z.ltb_spec (zlen (skipn (Z.to_nat 8) (skipn (Z.to_nat 4) l))) 8); [eexists; reflexivity | lia].
  Qed.

  (* the part of a member behind its header, cut short *)
  Lemma member_body_trunc m dd l tl fuel acc : lm_ok m -> lzip_decode_dict_size (lm_byte m) = Ok dd -> lm_dict m <= dd ->
    l ++ tl = penc (lm_dict m) (lm_content m) ++
              le_bytes 4 (crc32 (lm_content m)) ++ le_bytes 8 (zlen (lm_content m)) ++
              le_bytes 8 (LZIP_HEADER_SIZE + zlen (penc (lm_dict m) (lm_content m)) + LZIP_TRAILER_SIZE) ->
    tl <> [] ->
    exists e, (do pr <- pdec dd l;
               let '(content, r2) := pr in
               do r3 <- lz_check_trailer (crc32 content) (zlen content) (zlen l - zlen r2) r2;
               lzd_members pdec fuel lz_fixed false r3 (rev_append content acc)) = Err e.
  Proof.
    intros Hok Hd Hle Hsplit Htl.
    set (P := penc (lm_dict m) (lm_content m)) in *.
    set (T := le_bytes 4 (crc32 (lm_content m)) ++ le_bytes 8 (zlen (lm_content m)) ++
              le_bytes 8 (LZIP_HEADER_SIZE + zlen P + LZIP_TRAILER_SIZE)) in *.
    assert (HT : zlen T = 20) by (unfold T; rewrite !zlen_app, !zlen_le_bytes; reflexivity).
    assert (Hdone : forall l2 tl2, T = l2 ++ tl2 -> tl2 <> [] ->
              exists e, (do pr <- pdec dd (P ++ l2);
                         let '(content, r2) := pr in
                         do r3 <- lz_check_trailer (crc32 content) (zlen content) (zlen (P ++ l2) - zlen r2) r2;
                         lzd_members pdec fuel lz_fixed false r3 (rev_append content acc)) = Err e).
    { intros l2 tl2 HT2 Htl2. unfold P. rewrite pdec_penc by exact Hle. cbn [obind].
      assert (Hl2 : zlen l2 < 20).
      { rewrite HT2, zlen_app in HT. destruct tl2; [contradiction|]. rewrite zlen_cons in HT. pose proof (zlen_nonneg tl2). lia. }
      destruct (check_trailer_short (crc32 (lm_content m)) (zlen (lm_content m))
                  (zlen (penc (lm_dict m) (lm_content m) ++ l2) - zlen l2) l2 Hl2) as (e & ->).
      exists e. reflexivity. }
    destruct (app_eq_app _ _ _ _ Hsplit) as (x & [(Hl & HT2)|(HP & Htl2)]).
    - (* the payload is complete *)
      subst l. exact (Hdone x tl HT2 Htl).
    - destruct x as [|b x].
      + rewrite app_nil_r in HP. cbn [app] in Htl2. subst tl. rewrite <- (app_nil_r l), <- HP.
        apply (Hdone [] T); [reflexivity|]. intros HTn. rewrite HTn in HT. discriminate HT.
      + (* the payload is cut *)
        destruct (pdec_trunc (lm_dict m) dd (lm_content m) l (b :: x) Hle HP ltac:(discriminate)) as (e & ->).
        exists e. reflexivity.
  Qed.

  (* one member cut anywhere after its first byte *)
  Lemma member_trunc m q tl fuel first acc : lm_ok m -> lm_bytes m = q ++ tl -> q <> [] -> tl <> [] ->
    exists e, lzd_members pdec (S fuel) lz_fixed first q acc = Err e.
  Proof.
    intros Hok Hsplit Hq Htl. pose proof Hok as ((dd & Hd & Hle) & _).
    unfold LzipProofs.lm_bytes, lz_member in Hsplit.
    set (body := penc (lm_dict m) (lm_content m) ++ _) in Hsplit.
    change (LZIP_MAGIC ++ [1; lm_byte m] ++ body) with ([76; 90; 73; 80; 1; lm_byte m] ++ body) in Hsplit.
    destruct (app_eq_app _ _ _ _ Hsplit) as (x & [(Hq6 & Hb)|(H6 & Htl2)]).
    - (* header cut: q ++ x = the six header bytes, x <> [] or handled below *)
      destruct x as [|x0 x].
      + rewrite app_nil_r in Hq6. cbn [app] in Hb. subst q.
        cbn [lzd_members].
        assert (Hh : lz_parse_header lz_fixed first ([76; 90; 73; 80; 1; lm_byte m] ++ []) = Ok (Some dd, [])).
        { change ([76; 90; 73; 80; 1; lm_byte m] ++ []) with (LZIP_MAGIC ++ [1; lm_byte m] ++ []).
          apply lz_header_ok; exact Hd. }
        rewrite app_nil_r in Hh. rewrite Hh. cbn [obind].
        apply (member_body_trunc m dd [] tl fuel acc Hok Hd Hle); [cbn [app]; first [exact Hb | symmetry; exact Hb] | exact Htl].
      + assert (Hh : lz_parse_header lz_fixed first q = Err E_UNEXPECTED_EOF).
        { destruct q as [|a [|b [|c [|d [|e [|f q']]]]]]; cbn [app] in Hq6; [contradiction|..].
          - inversion Hq6; subst. reflexivity.
          - inversion Hq6; subst. reflexivity.
          - inversion Hq6; subst. reflexivity.
          - inversion Hq6; subst. reflexivity.
          - inversion Hq6; subst. reflexivity.
          - exfalso. inversion Hq6 as [[H1 H2 H3 H4 H5 H6 H7]]. destruct q'; discriminate H7. }
        cbn [lzd_members]. rewrite Hh. exists E_UNEXPECTED_EOF. reflexivity.
    - (* header complete *)
      subst q.
      assert (Hh : lz_parse_header lz_fixed first ([76; 90; 73; 80; 1; lm_byte m] ++ x) = Ok (Some dd, x)).
      { change ([76; 90; 73; 80; 1; lm_byte m] ++ x) with (LZIP_MAGIC ++ [1; lm_byte m] ++ x).
        apply lz_header_ok; exact Hd. }
      cbn [lzd_members]. rewrite Hh. cbn [obind].
      apply (member_body_trunc m dd x tl fuel acc Hok Hd Hle); [first [exact Htl2 | symmetry; exact Htl2] | exact Htl].
  Qed.

  (* where a prefix of a file ends: between two members, or inside one *)
  Lemma lm_file_prefix : forall ms p tl, lm_file ms = p ++ tl ->
    exists ms1 ms2 q, ms = ms1 ++ ms2 /\ p = lm_file ms1 ++ q /\
      (q = [] \/ exists m ms3 tl', ms2 = m :: ms3 /\ lm_bytes m = q ++ tl' /\ q <> [] /\ tl' <> []).
  Proof.
    induction ms as [|m ms IH]; intros p tl H.
    - unfold LzipProofs.lm_file in H. cbn [map concat] in H. symmetry in H. apply app_eq_nil in H as [-> _].
      exists [], [], []. split; [reflexivity|]. split; [reflexivity | left; reflexivity].
    - unfold LzipProofs.lm_file in H. cbn [map concat] in H. fold (lm_file ms) in H. symmetry in H.
      destruct (app_eq_app _ _ _ _ H) as (x & [(Hp & Hf)|(Hm & Htl)]).
      + destruct (IH x tl Hf) as (ms1 & ms2 & q & Hms & Hx & Hq).
        exists (m :: ms1), ms2, q. split; [rewrite Hms; reflexivity|]. split; [|exact Hq].
        rewrite Hp, Hx. unfold LzipProofs.lm_file. cbn [map concat]. rewrite app_assoc. reflexivity.
      + destruct p as [|p0 p].
        * exists [], (m :: ms), []. split; [reflexivity|]. split; [reflexivity | left; reflexivity].
        * destruct x as [|x0 x].
          -- rewrite app_nil_r in Hm. exists [m], ms, []. split; [reflexivity|]. split; [|left; reflexivity].
             unfold LzipProofs.lm_file. cbn [map concat]. rewrite !app_nil_r. symmetry. exact Hm.
          -- exists [], (m :: ms), (p0 :: p). split; [reflexivity|]. split; [reflexivity|].
             right. exists m, ms, (x0 :: x). split; [reflexivity|]. split; [exact Hm|]. split; discriminate.
  Qed.

  (* TRUNCATED FILE, any number of members *)
  Theorem lzip_truncated_thm : forall ms p tl, Forall lm_ok ms -> lm_file ms = p ++ tl -> tl <> [] ->
    (exists e, lz_decode pdec lz_fixed p = Err e) \/
    (exists ms1 ms2, ms = ms1 ++ ms2 /\ ms2 <> [] /\ p = lm_file ms1 /\
                     lz_decode pdec lz_fixed p = Ok (lm_data ms1, [])).
  Proof.
    intros ms p tl Hok Hf Htl.
    destruct (lm_file_prefix ms p tl Hf) as (ms1 & ms2 & q & Hms & Hp & Hq).
    rewrite Hms in Hok. apply Forall_app in Hok as [Hok1 Hok2].
    destruct Hq as [->|(m & ms3 & tl' & Hms2 & Hm & Hqn & Htln)].
    - right. rewrite app_nil_r in Hp. exists ms1, ms2. split; [exact Hms|]. split.
      + intros ->. rewrite app_nil_r in Hms. subst ms1. rewrite Hp in Hf.
        rewrite <- (app_nil_r (lm_file ms)) in Hf at 1. apply app_inv_head in Hf. symmetry in Hf. exact (Htl Hf).
      + split; [exact Hp|]. subst p. destruct ms1 as [|m1 ms1].
        * apply lz_decode_empty_known.
        * apply (lzip_multi_thm penc pdec pdec_penc); exact Hok1.
    - left. subst p ms2. inversion Hok2 as [|? ? Hm_ok _]; subst.
      unfold lz_decode.
      pose proof (lm_file_len penc ms1) as Hl.
      assert (Ef : exists fuel, S (length (lm_file ms1 ++ q)) = (length ms1 + S fuel)%nat).
      { exists (length (lm_file ms1 ++ q) - length ms1)%nat. rewrite app_length. unfold zlen in Hl. lia. }
      destruct Ef as (fuel & ->).
      rewrite (lz_members_rt penc pdec pdec_penc) by exact Hok1.
      eapply member_trunc; eassumption.
  Qed.

  (* a file of one member: every proper non-empty prefix is rejected *)
  Corollary lzip_truncated_single : forall m p tl, lm_ok m -> lm_file [m] = p ++ tl -> tl <> [] -> p <> [] ->
    exists e, lz_decode pdec lz_fixed p = Err e.
  Proof.
    intros m p tl Hok Hf Htl Hp.
    destruct (lzip_truncated_thm [m] p tl (Forall_cons _ Hok (Forall_nil _)) Hf Htl) as [He|(ms1 & ms2 & Hms & Hne & Hpf & _)];
      [exact He|].
    exfalso. destruct ms1 as [|m1 ms1].
    - apply Hp. rewrite Hpf. reflexivity.
    - destruct ms1; [|discriminate]. cbn [app] in Hms. inversion Hms. subst ms2. apply Hne. reflexivity.
  Qed.

  (* what LZIPWriter returned, cut anywhere: an error, unless the cut is exactly between two
     members - then the members before the cut are returned, a prefix of the data written *)
  Theorem lzip_truncated_written : forall o0 parts f p tl,
    bytes_ok (concat parts) = true ->
    (forall members, lz_members_of (lo_member_size (lzw_new o0)) parts = Ok members ->
                     lz_sizes_ok penc (lo_dict (lzw_new o0)) members) ->
    match lo_member_size o0 with Some m => 1 <= m | None => True end ->
    lz_encode penc o0 parts = Ok f ->
    f = p ++ tl -> tl <> [] -> p <> [] ->
    (exists e, lz_decode pdec lz_fixed p = Err e) \/
    (exists cs1 cs2, cs1 <> [] /\ cs2 <> [] /\ concat parts = concat cs1 ++ concat cs2 /\
                     lz_decode pdec lz_fixed p = Ok (concat cs1, [])).
  Proof.
    intros o0 parts f p tl Hb Hsz Hms E Hf Htl Hp.
    destruct (lz_encode_shape penc o0 parts f Hb Hsz Hms E) as (byte & c & cs & _ & Ef & Hok & Hcat).
    set (mk := fun x => mkLzm byte (lo_dict (lzw_new o0)) x) in *.
    rewrite Ef in Hf.
    destruct (lzip_truncated_thm (map mk (c :: cs)) p tl Hok Hf Htl) as [He|(ms1 & ms2 & Hsplit & Hne & Hpf & Hdec)];
      [left; exact He|].
    right.
    apply map_eq_app in Hsplit as (cs1 & cs2 & Hmem & H1 & H2).
    exists cs1, cs2. subst ms1 ms2.
    split; [intros ->; apply Hp; rewrite Hpf; reflexivity|].
    split; [intros ->; apply Hne; reflexivity|].
    split; [rewrite <- Hcat, Hmem, concat_app; reflexivity|].
    rewrite Hdec. unfold mk. rewrite concat_map_content. reflexivity.
  Qed.

  (* the writer without a configured member size writes one member: every proper non-empty prefix
     of its output is rejected *)
  Theorem lzip_truncated_written_single : forall o0 parts f p tl,
    bytes_ok (concat parts) = true ->
    lz_sizes_ok penc (lo_dict (lzw_new o0)) [concat parts] ->
    lo_member_size o0 = None ->
    lz_encode penc o0 parts = Ok f ->
    f = p ++ tl -> tl <> [] -> p <> [] ->
    exists e, lz_decode pdec lz_fixed p = Err e.
  Proof.
    intros o0 parts f p tl Hb Hsz Hnone E Hf Htl Hp.
    unfold lz_encode in E. cbv zeta in E.
    assert (Hmo : lo_member_size (lzw_new o0) = None) by (unfold lzw_new; cbn [lo_member_size]; rewrite Hnone; reflexivity).
    rewrite Hmo, lz_members_none in E. cbn [obind] in E. unfold lz_write in E.
    set (o := lzw_new o0) in *.
    assert (Hd : LZIP_MIN_DICT <= lo_dict o <= LZIP_MAX_DICT).
    { unfold o, lzw_new; cbn [lo_dict]. unfold lzip_clamp_dict, LZIP_MIN_DICT, LZIP_MAX_DICT.
      destruct (Z.ltb_spec (lo_dict o0) 4096); [lia|]. destruct (Z.ltb_spec 536870912 (lo_dict o0)); lia. }
    destruct (lzip_dict_ok _ Hd) as (byte & dd & Eb & Hbr & Edd & Hle & _).
    rewrite Eb in E. cbn [obind] in E. rewrite Hmo, lz_members_none in E. cbn [obind] in E.
    apply lz_members_bytes_file in E. cbn [map] in E.
    assert (Hm : lm_ok (mkLzm byte (lo_dict o) (concat parts))).
    { unfold LzipProofs.lm_ok; cbn [lm_byte lm_dict lm_content]. split; [exists dd; auto|]. split; [exact Hb|].
      inversion Hsz; subst. tauto. }
    rewrite E in Hf. exact (lzip_truncated_single _ p tl Hm Hf Htl Hp).
  Qed.
End Trunc.

(* non-vacuity: the toy payload codec of RoundTripExamples.v satisfies both hypotheses; the
   statements evaluated at every cut point of a one-member and of a three-member file *)
From LzVerif Require Import Format.XzFormat Format.RoundTripExamples.

Lemma toy_loop_trunc x : forall p tl acc, toy_penc 0 x = p ++ tl -> tl <> [] ->
  toy_pdec_loop p acc = Err E_UNEXPECTED_EOF.
Proof.
  induction x as [|b x IH]; intros p tl acc H Htl.
  - unfold toy_penc in H. cbn [map concat app] in H.
    destruct p as [|c p]; [reflexivity|]. cbn [app] in H. inversion H as [[Hc Hp]].
    symmetry in Hp. apply app_eq_nil in Hp as [_ Hp]. contradiction.
  - unfold toy_penc in H. cbn [map concat app] in H. fold (toy_penc 0 x) in H.
    destruct p as [|c [|b' p]]; [reflexivity | |].
    + cbn [app] in H. inversion H; subst. reflexivity.
    + cbn [app] in H. inversion H as [[Hc Hb Hp]]. subst c b'. cbn [toy_pdec_loop Z.eqb].
      apply (IH p tl); [exact Hp | exact Htl].
Qed.

Lemma toy_trunc : forall d dd x p tl, d <= dd -> toy_penc d x = p ++ tl -> tl <> [] -> exists e, toy_pdec dd p = Err e.
Proof. intros d dd x p tl _ H Htl. exists E_UNEXPECTED_EOF. exact (toy_loop_trunc x p tl [] H Htl). Qed.

Lemma truncating_payload_codec_exists :
  exists (penc : Z -> list Z -> list Z) (pdec : Z -> list Z -> outcome (list Z * list Z)),
    (forall d dd x tail, d <= dd -> pdec dd (penc d x ++ tail) = Ok (x, tail)) /\
    (forall d dd x p tl, d <= dd -> penc d x = p ++ tl -> tl <> [] -> exists e, pdec dd p = Err e).
Proof. exists toy_penc, toy_pdec. split; [exact toy_rt | exact toy_trunc]. Qed.

Definition lz_cut_rejected (f : list Z) (k : nat) : bool :=
  match lz_decode toy_pdec lz_fixed (firstn k f) with Err _ => true | _ => false end.

(* one member (no member size): every cut point 1 .. length-1 is rejected; the empty prefix is the
   known finding *)
Example lzip_truncated_single_example :
  exists f, lz_encode toy_penc (mkLzopts 5000 None) [[1; 2; 3]; []; [4; 5]] = Ok f /\
    length f = 37%nat /\
    forallb (lz_cut_rejected f) (seq 1 (length f - 1)) = true /\
    lz_decode toy_pdec lz_fixed (firstn 0 f) = Ok ([], []).
Proof. eexists. split; [vm_compute; reflexivity|]. vm_compute. repeat split; reflexivity. Qed.

(* a member size below the dictionary size is clamped to it, so a written file with several
   members is too big to evaluate: three members put together by hand through lm_file instead *)
Definition ex_members : list lzm := [mkLzm 12 4096 [1; 2]; mkLzm 12 4096 []; mkLzm 12 4096 [3]].

Example lzip_truncated_multi_example :
  let f := lm_file toy_penc ex_members in
  length f = 87%nat /\
  (* rejected everywhere except at the two inner member boundaries (and the empty prefix) *)
  filter (fun k => negb (lz_cut_rejected f k)) (seq 0 (length f)) = [0; 31; 58]%nat /\
  lz_decode toy_pdec lz_fixed (firstn 31 f) = Ok ([1; 2], []) /\
  lz_decode toy_pdec lz_fixed (firstn 58 f) = Ok ([1; 2], []) /\
  lz_decode toy_pdec lz_fixed f = Ok ([1; 2; 3], []).
Proof. vm_compute. repeat split; reflexivity. Qed.

Print Assumptions lzip_truncated_thm.
Print Assumptions lzip_truncated_written.
Print Assumptions lzip_truncated_written_single.
