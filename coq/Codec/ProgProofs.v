(* Codec/ProgProofs.v — generic facts about decision programs: equivalence of programs under
   well-formed answers (bits are 0/1, n direct bits give a value below 2^n), postconditions,
   and how run_rc / run_trace respect them.  Also the index checks key1/key2 (key1_ok, key1_inv,
   key2_ok, key2_inv) and state_update_range. *)
From LzVerif Require Import Base.Bytes Codec.Store Codec.Range Codec.LzmaDec.

Definition bit_ok (b : Z) : Prop := b = 0 \/ b = 1.
Definition direct_ok (n : nat) (v : Z) : Prop := 0 <= v < 2 ^ Z.of_nat (Nat.min n 32).

(* two programs ask the same questions and give R-related answers *)
Inductive peq {A B : Type} (R : A -> B -> Prop) : prog A -> prog B -> Prop :=
| peq_ret a b : R a b -> peq R (Ret a) (Ret b)
| peq_fail e : peq R (Fail e) (Fail e)
| peq_bit key k1 k2 : (forall b, bit_ok b -> peq R (k1 b) (k2 b)) -> peq R (Bit key k1) (Bit key k2)
| peq_direct n k1 k2 : (forall v, direct_ok n v -> peq R (k1 v) (k2 v)) -> peq R (Direct n k1) (Direct n k2).

(* every result a program can return under well-formed answers satisfies P *)
Inductive pall {A : Type} (P : A -> Prop) : prog A -> Prop :=
| pall_ret a : P a -> pall P (Ret a)
| pall_fail e : pall P (Fail e)
| pall_bit key k : (forall b, bit_ok b -> pall P (k b)) -> pall P (Bit key k)
| pall_direct n k : (forall v, direct_ok n v -> pall P (k v)) -> pall P (Direct n k).

Lemma peq_refl {A} (p : prog A) : peq eq p p.
Proof. induction p as [a|e|key k IH|n k IH]; constructor; auto. Qed.

Lemma peq_pall_refl {A} (P : A -> Prop) (p : prog A) : pall P p -> peq (fun a b => a = b /\ P a) p p.
Proof. induction 1; constructor; auto. Qed.

Lemma pall_mono {A} (P Q : A -> Prop) p : (forall a, P a -> Q a) -> pall P p -> pall Q p.
Proof. intros H; induction 1; constructor; auto. Qed.

Lemma peq_mono {A B} (R S : A -> B -> Prop) p q : (forall a b, R a b -> S a b) -> peq R p q -> peq S p q.
Proof. intros H; induction 1; constructor; auto. Qed.

Lemma peq_bind {A B C D} (R : A -> B -> Prop) (S : C -> D -> Prop) p q f g :
  peq R p q -> (forall a b, R a b -> peq S (f a) (g b)) -> peq S (pbind p f) (pbind q g).
Proof. intros H Hf; induction H; cbn [pbind]; try constructor; auto. Qed.

Lemma pall_bind {A B} (P : A -> Prop) (Q : B -> Prop) p f :
  pall P p -> (forall a, P a -> pall Q (f a)) -> pall Q (pbind p f).
Proof. intros H Hf; induction H; cbn [pbind]; try constructor; auto. Qed.

Lemma peq_trans {A B C} (R : A -> B -> Prop) (S : B -> C -> Prop) p q r :
  peq R p q -> peq S q r -> peq (fun a c => exists b, R a b /\ S b c) p r.
Proof.
  intros H; revert r; induction H as [a b Hab|e|key k1 k2 Hk IH|n k1 k2 Hk IH]; intros r Hr; inversion Hr; subst.
  - constructor. eauto.
  - constructor.
  - constructor. intros b0 Hb. apply IH; auto.
  - constructor. intros v Hv. apply IH; auto.
Qed.

Lemma peq_sym {A B} (R : A -> B -> Prop) p q : peq R p q -> peq (fun b a => R a b) q p.
Proof. induction 1; constructor; auto. Qed.

Lemma pbind_ret {A} (p : prog A) : peq eq (pbind p (fun a => Ret a)) p.
Proof. induction p; cbn [pbind]; constructor; auto. Qed.

Lemma pbind_assoc {A B C} (p : prog A) (f : A -> prog B) (g : B -> prog C) :
  peq eq (pbind (pbind p f) g) (pbind p (fun a => pbind (f a) g)).
Proof. induction p; cbn [pbind]; try constructor; auto. apply peq_refl. Qed.

Lemma lift_ok {A} (o : outcome A) a : o = Ok a -> lift o = Ret a.
Proof. intros ->. reflexivity. Qed.

Lemma key2_ok base rows cols i j :
  0 <= i < rows -> 0 <= j < cols -> key2 base rows cols i j = Ok (base + i * cols + j).
Proof.
  intros Hi Hj. unfold key2.
  destruct (Z.ltb_spec i 0), (Z.leb_spec rows i), (Z.ltb_spec j 0), (Z.leb_spec cols j); try lia.
  reflexivity.
Qed.

Lemma key2_inv base rows cols i j k :
  key2 base rows cols i j = Ok k -> 0 <= i < rows /\ 0 <= j < cols /\ k = base + i * cols + j.
Proof.
  unfold key2.
  destruct (Z.ltb_spec i 0) as [Ha|Ha], (Z.leb_spec rows i) as [Hb|Hb], (Z.ltb_spec j 0) as [Hc|Hc],
    (Z.leb_spec cols j) as [Hd|Hd]; cbn [orb]; intros HK; inversion HK; lia.
Qed.

Lemma key1_ok base len i : 0 <= i < len -> key1 base len i = Ok (base + i).
Proof.
  intros Hi. unfold key1. destruct (Z.ltb_spec i 0), (Z.leb_spec len i); try lia. reflexivity.
Qed.

Lemma key1_inv base len i k : key1 base len i = Ok k -> 0 <= i < len /\ k = base + i.
Proof.
  unfold key1. destruct (Z.ltb_spec i 0) as [Ha|Ha], (Z.leb_spec len i) as [Hb|Hb]; cbn [orb];
    intros HK; inversion HK; lia.
Qed.

Lemma state_update_range s : 0 <= s < 12 ->
  0 <= state_update_literal s < 12 /\ 0 <= state_update_match s < 12 /\
  0 <= state_update_long_rep s < 12 /\ 0 <= state_update_short_rep s < 12.
Proof.
  intros H. unfold state_update_literal, state_update_match, state_update_long_rep, state_update_short_rep, LIT_STATES.
  destruct (s <=? 3) eqn:E1; destruct (s <=? 9) eqn:E2; destruct (s <? 7) eqn:E3; lia.
Qed.

(* the range decoder gives well-formed answers *)
Lemma decode_bit_bit d t k b d' t' : decode_bit d t k = Some (b, d', t') -> bit_ok b.
Proof.
  unfold decode_bit. destruct (P2_32 <=? _); [discriminate|].
  destruct (rd_code _ <? _); intros H; inversion H; subst; [left | right]; reflexivity.
Qed.

Lemma shiftr31_bit x : 0 <= x < 4294967296 -> Z.shiftr x 31 = 0 \/ Z.shiftr x 31 = 1.
Proof.
  intros H. rewrite Z.shiftr_div_pow2 by lia. change (2 ^ 31) with 2147483648.
  assert (0 <= x / 2147483648 < 2) by (split; [apply Z.div_pos; lia | apply Z.div_lt_upper_bound; lia]).
  lia.
Qed.

(* n direct bits appended to an accumulator below 2^k stay below 2^(k+n) while k + n <= 32 *)
Lemma decode_direct_bits_small n : forall d acc k v d',
  0 <= acc < 2 ^ Z.of_nat k -> (k + n <= 32)%nat ->
  decode_direct_bits d n acc = (v, d') -> 0 <= v < 2 ^ Z.of_nat (k + n).
Proof.
  induction n as [|m IH]; intros d acc k v d' Hacc Hk H.
  - cbn [decode_direct_bits] in H. inversion H; subst. rewrite Nat.add_0_r. exact Hacc.
  - cbn [decode_direct_bits] in H.
    set (d1 := rdec_normalize d) in *.
    set (t := Z.shiftr (wrap32 (rd_code d1 - Z.shiftr (rd_range d1) 1)) 31) in *.
    assert (Ht : t = 0 \/ t = 1) by (apply shiftr31_bit, wrap32_range).
    assert (Hp : 2 ^ Z.of_nat (S k) = 2 * 2 ^ Z.of_nat k) by (rewrite Nat2Z.inj_succ, Z.pow_succ_r by lia; reflexivity).
    assert (Hle : 2 ^ Z.of_nat (S k) <= 2 ^ 32) by (apply Z.pow_le_mono_r; lia).
    assert (Hnew : 0 <= acc * 2 + (1 - t) < 2 ^ Z.of_nat (S k)) by lia.
    assert (Hw : wrap32 (acc * 2 + (1 - t)) = acc * 2 + (1 - t)).
    { unfold wrap32. apply Z.mod_small. change (2 ^ 32) with 4294967296 in Hle. lia. }
    rewrite Hw in H.
    replace (k + S m)%nat with (S k + m)%nat by lia.
    eapply IH; [exact Hnew | lia | exact H].
Qed.

Lemma decode_direct_bits_u32 n : forall d acc v d',
  0 <= acc < 4294967296 -> decode_direct_bits d n acc = (v, d') -> 0 <= v < 4294967296.
Proof.
  induction n as [|m IH]; intros d acc v d' Hacc H.
  - cbn [decode_direct_bits] in H. inversion H; subst. exact Hacc.
  - cbn [decode_direct_bits] in H. eapply IH; [|exact H]. apply wrap32_range.
Qed.

Lemma decode_direct_bits_ok n d v d' : decode_direct_bits d n 0 = (v, d') -> direct_ok n v.
Proof.
  intros H. unfold direct_ok. destruct (Nat.le_gt_cases n 32) as [Hle|Hgt].
  - rewrite Nat.min_l by assumption.
    apply (decode_direct_bits_small n d 0 0%nat v d'); [cbn; lia | lia | exact H].
  - rewrite Nat.min_r by lia. change (2 ^ Z.of_nat 32) with 4294967296.
    eapply decode_direct_bits_u32; [|exact H]. lia.
Qed.

(* run_rc respects peq: same result up to R, same decoder state and tables *)
Lemma run_rc_peq {A B} (R : A -> B -> Prop) p q :
  peq R p q -> forall d t,
  match run_rc p d t, run_rc q d t with
  | Ok (a, d1, t1), Ok (b, d2, t2) => R a b /\ d1 = d2 /\ t1 = t2
  | Err e1, Err e2 => e1 = e2
  | Panic e1, Panic e2 => e1 = e2
  | Fuel, Fuel => True
  | _, _ => False
  end.
Proof.
  induction 1 as [a b Hab|e|key k1 k2 Hk IH|n k1 k2 Hk IH]; intros d t; cbn [run_rc].
  - auto.
  - destruct e as [u|c|c|]; auto.
  - destruct (decode_bit d t key) as [[[b d1] t1]|] eqn:E; [|reflexivity].
    apply IH. eapply decode_bit_bit; eassumption.
  - destruct (decode_direct_bits d n 0) as [v d1] eqn:E.
    apply IH. eapply decode_direct_bits_ok; eassumption.
Qed.

(* the same, read from the result of the second program *)
Lemma run_rc_peq_match {A B} (R : A -> B -> Prop) p q d t :
  peq R p q ->
  match run_rc q d t with
  | Ok (b, d2, t2) => exists a, run_rc p d t = Ok (a, d2, t2) /\ R a b
  | Err e => run_rc p d t = Err e
  | Panic e => run_rc p d t = Panic e
  | Fuel => run_rc p d t = Fuel
  end.
Proof.
  intros H. pose proof (run_rc_peq R p q H d t) as HR.
  destruct (run_rc q d t) as [[[b d2] t2]|e|e|], (run_rc p d t) as [[[a d1] t1]|e1|e1|];
    try contradiction; try (subst; reflexivity).
  destruct HR as (Hr & -> & ->). eauto.
Qed.

Lemma run_rc_pall {A} (P : A -> Prop) p :
  pall P p -> forall d t a d1 t1, run_rc p d t = Ok (a, d1, t1) -> P a.
Proof.
  induction 1 as [a Ha|e|key k Hk IH|n k Hk IH]; intros d t a0 d1 t1 Hr; cbn [run_rc] in Hr.
  - inversion Hr; subst; assumption.
  - destruct e; discriminate.
  - destruct (decode_bit d t key) as [[[b d2] t2]|] eqn:E; [|discriminate].
    eapply IH; [eapply decode_bit_bit; eassumption | eassumption].
  - destruct (decode_direct_bits d n 0) as [v d2] eqn:E.
    eapply IH; [eapply decode_direct_bits_ok; eassumption | eassumption].
Qed.

Lemma run_rc_bind {A B} (p : prog A) (f : A -> prog B) d t :
  run_rc (pbind p f) d t =
  match run_rc p d t with
  | Ok (a, d1, t1) => run_rc (f a) d1 t1
  | Err e => Err e
  | Panic e => Panic e
  | Fuel => Fuel
  end.
Proof.
  revert d t; induction p as [a|e|key k IH|n k IH]; intros d t; cbn [pbind run_rc].
  - reflexivity.
  - destruct e; reflexivity.
  - destruct (decode_bit d t key) as [[[b d1] t1]|]; [apply IH | reflexivity].
  - destruct (decode_direct_bits d n 0) as [v d1]. apply IH.
Qed.

Lemma run_trace_bind {A B} (p : prog A) (f : A -> prog B) evs :
  run_trace (pbind p f) evs =
  match run_trace p evs with
  | Some (Ok a, rest) => run_trace (f a) rest
  | Some (Err e, rest) => Some (Err e, rest)
  | Some (Panic e, rest) => Some (Panic e, rest)
  | Some (Fuel, rest) => Some (Fuel, rest)
  | None => None
  end.
Proof.
  revert evs; induction p as [a|e|key k IH|n k IH]; intros evs; cbn [pbind run_trace].
  - reflexivity.
  - destruct e; reflexivity.
  - destruct evs as [|[key' b|n' v] rest]; try reflexivity.
    destruct ((key =? key') && ((b =? 0) || (b =? 1))); [apply IH | reflexivity].
  - destruct evs as [|[key' b|n' v] rest]; try reflexivity.
    destruct (Nat.eqb n n'); [apply IH | reflexivity].
Qed.

(* bind nested on the left (the shape produced by helper definitions) *)
Lemma peq_bind2 {A B C D E} (R : A -> B -> Prop) (S : D -> E -> Prop) p q (f : A -> prog C) (g : C -> prog D) h :
  peq R p q -> (forall a b, R a b -> peq S (pbind (f a) g) (h b)) -> peq S (pbind (pbind p f) g) (pbind q h).
Proof. intros H Hf; induction H; cbn [pbind]; try constructor; auto. Qed.

Lemma peq_trans_eq {A} (p q r : prog A) : peq eq p q -> peq eq q r -> peq eq p r.
Proof.
  intros H1 H2. eapply peq_mono; [|eapply peq_trans; eassumption].
  intros a c (b & -> & ->). reflexivity.
Qed.

Lemma peq_sym_eq {A} (p q : prog A) : peq eq p q -> peq eq q p.
Proof. intros H. eapply peq_mono; [|apply peq_sym; exact H]. intros a b ->. reflexivity. Qed.
