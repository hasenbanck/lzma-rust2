(* Codec/RangeProofs.v — range coder round trip (DESIGN.md 4.1: rc_roundtrip; what DESIGN.md
   calls rc_consumes_exactly and rc_finished are the last three conjuncts of its conclusion).
   For ANY decision program whose requests are answered by
   the recorded events, running it against the range decoder over the encoder's output followed
   by arbitrary trailing bytes returns the same result and the same probability tables; after
   the trailing normalize exactly the encoder's bytes are consumed and code = 0.  The prefix
   form [rc_sim] lets callers run many programs in sequence over one encoded chunk.

   Side condition that is really needed: the total number of coded bits is below 2^32 - 6.
   [cache_size] is a u32 that counts a run of pending 0xFF bytes; `self.cache_size += 1`
   overflows once cache_size = 2^32 - 1 (the cache byte and 2^32 - 2 pending bytes; debug: panic;
   release, and the model's wrap32: the pending bytes are lost), and an adversarial event list can keep every byte pending.  Each
   coded bit shifts out at most one byte, so the bound on the bit count excludes this. *)
From LzVerif Require Import Base.Bytes Codec.Store Codec.Range Codec.ProbProofs Codec.RangeArithProofs.
From LzVerif Require Import Codec.LzmaDec Codec.LzmaEnc Codec.RangeEncProofs Codec.RangeDecProofs.

(* what run_rc returns when run_trace returns o *)
Definition rc_result {A} (o : outcome A) (d : rdec) (t : probs) : outcome (A * rdec * probs) :=
  match o with
  | Ok a => Ok (a, d, t)
  | Err c => Err c
  | Panic c => Panic c
  | Fuel => Fuel
  end.

Lemma ev_ok_direct n v : ev_ok (EDirect n v) = true -> (1 <= n <= 32)%nat /\ 0 <= v < 2 ^ Z.of_nat n.
Proof.
  cbn [ev_ok]. rewrite !andb_true_iff, !Nat.leb_le, Z.leb_le, Z.ltb_lt.
  rewrite Z.shiftl_1_l. lia.
Qed.

Lemma renc_output_cons e t ev r :
  renc_output e t (ev :: r) =
  renc_output (fst (renc_events e t [ev])) (snd (renc_events e t [ev])) r.
Proof. change (ev :: r) with ([ev] ++ r). rewrite renc_events_app. reflexivity. Qed.

Lemma run_sim A (p : prog A) : forall evs rest o e t d out tail,
  run_trace p evs = Some (o, rest) ->
  renc_inv e -> probs_ok t -> forallb ev_ok evs = true ->
  re_cache_size e + events_bits evs + 5 < 4294967296 ->
  out = renc_output e t evs -> bytes_ok out = true ->
  dec_match out tail (rdec_normalize d) e ->
  exists c d',
    evs = c ++ rest /\
    run_rc p d t = rc_result o d' (snd (renc_events e t c)) /\
    dec_match out tail (rdec_normalize d') (fst (renc_events e t c)).
Proof.
  induction p as [a | x | key k IH | n k IH]; intros evs rest o e t d out tail Hrun HI Ht Hok Hs Hout Hb Hm.
  - cbn [run_trace] in Hrun. inversion Hrun; subst o rest. exists [], d.
    cbn [app renc_events fst snd run_rc rc_result]. split; [reflexivity|]. split; [reflexivity | exact Hm].
  - exists [], d. cbn [app renc_events fst snd].
    destruct x as [u | c | c |]; cbn [run_trace] in Hrun; inversion Hrun; subst o rest;
      cbn [run_rc rc_result]; (split; [reflexivity|]; split; [reflexivity | exact Hm]).
  - cbn [run_trace] in Hrun. destruct evs as [|[key' b | n' v] r]; try discriminate.
    destruct ((key =? key') && ((b =? 0) || (b =? 1))) eqn:Hchk; [|discriminate].
    apply andb_true_iff in Hchk as [Hkey _]. apply Z.eqb_eq in Hkey. subst key'.
    cbn [forallb] in Hok. apply andb_true_iff in Hok as [Hev Hok]. pose proof (ev_ok_bit _ _ Hev) as Hbit.
    cbn [events_bits ev_bits] in Hs. pose proof (events_bits_nonneg r) as Hnn.
    destruct (encode_bit_ok e t key b HI Ht Hbit ltac:(lia)) as (I1 & T1 & S1 & _).
    rewrite renc_output_cons in Hout. cbn [renc_events] in Hout.
    assert (Hf : renc_fut out (fst (encode_bit e t key b))).
    { destruct (encode_bit e t key b) as [e1 t1] eqn:E. cbn [fst snd] in *. subst out.
      apply renc_output_fut; try assumption. lia. }
    destruct (decode_bit_ok out tail d e t key b HI Ht Hbit ltac:(lia) Hb Hm Hf) as (d1 & Hdec & Hm1).
    destruct (encode_bit e t key b) as [e1 t1] eqn:E. cbn [fst snd] in *.
    destruct (IH b r rest o e1 t1 d1 out tail Hrun I1 T1 Hok ltac:(lia) Hout Hb Hm1) as (c & d' & Hc & Hrc & Hm').
    exists (EBit key b :: c), d'. cbn [app renc_events]. rewrite E.
    split; [rewrite Hc; reflexivity|]. split; [|exact Hm'].
    cbn [run_rc]. rewrite Hdec. exact Hrc.
  - cbn [run_trace] in Hrun. destruct evs as [|[key' b | n' v] r]; try discriminate.
    destruct (Nat.eqb n n') eqn:Hchk; [|discriminate]. apply Nat.eqb_eq in Hchk. subst n'.
    cbn [forallb] in Hok. apply andb_true_iff in Hok as [Hev Hok].
    apply ev_ok_direct in Hev as [Hn Hv].
    cbn [events_bits ev_bits] in Hs. pose proof (events_bits_nonneg r) as Hnn.
    destruct (encode_direct_bits_ok n e v HI ltac:(lia)) as (I1 & S1 & _).
    rewrite renc_output_cons in Hout. cbn [renc_events fst snd] in Hout.
    assert (Hf : renc_fut out (encode_direct_bits e v n)).
    { subst out. apply renc_output_fut; try assumption. lia. }
    assert (Hpow : 2 ^ Z.of_nat n <= 4294967296).
    { change 4294967296 with (2 ^ 32). apply Z.pow_le_mono_r; lia. }
    destruct (decode_direct_ok out tail n e v d 0 HI ltac:(lia) Hb Hm Hf ltac:(lia) ltac:(lia)) as (d1 & Hdec & Hm1).
    rewrite Z.mul_0_l, Z.add_0_l, Z.mod_small in Hdec by exact Hv.
    destruct (IH v r rest o (encode_direct_bits e v n) t d1 out tail Hrun I1 Ht Hok ltac:(lia) Hout Hb Hm1)
      as (c & d' & Hc & Hrc & Hm').
    exists (EDirect n v :: c), d'. cbn [app renc_events].
    split; [rewrite Hc; reflexivity|]. split; [|exact Hm'].
    cbn [run_rc]. rewrite Hdec. exact Hrc.
Qed.

Definition RC_MAX_BITS : Z := 4294967289.   (* 2^32 - 7 *)

Lemma renc_output_facts e t evs :
  renc_inv e -> probs_ok t -> forallb ev_ok evs = true ->
  re_cache_size e + events_bits evs + 5 < 4294967296 ->
  bytes_ok (renc_output e t evs) = true /\
  zlen (renc_output e t evs) = enc_digits (fst (renc_events e t evs)) /\
  be_val (renc_output e t evs) = enc_V (fst (renc_events e t evs)).
Proof.
  intros HI Ht Hok Hs. pose proof (events_bits_nonneg evs) as Hnn.
  destruct (renc_events_ok evs e t HI Ht Hok ltac:(lia)) as (I1 & _ & S1 & _).
  destruct (renc_finish_ok _ _ (proj1 I1) ltac:(lia)) as (H1 & H2 & H3 & _).
  tauto.
Qed.

Theorem renc_output_bytes_ok t0 evs :
  probs_ok t0 -> forallb ev_ok evs = true -> events_bits evs <= RC_MAX_BITS ->
  bytes_ok (renc_bytes (renc_finish (fst (renc_events renc_init t0 evs)))) = true.
Proof.
  intros Ht Hok Hbits. unfold RC_MAX_BITS in Hbits.
  apply (renc_output_facts renc_init t0 evs renc_inv_init Ht Hok). cbn [renc_init re_cache_size]. lia.
Qed.

(* the output starts with the 5 bytes that rdec_init reads, and the first one is 0 *)
Lemma renc_output_head t0 evs :
  probs_ok t0 -> forallb ev_ok evs = true -> events_bits evs <= RC_MAX_BITS ->
  exists b1 b2 b3 b4 rest,
    renc_output renc_init t0 evs = 0 :: b1 :: b2 :: b3 :: b4 :: rest /\
    0 <= ((b1 * 256 + b2) * 256 + b3) * 256 + b4 < 4294967295.
Proof.
  intros Ht Hok Hbits. unfold RC_MAX_BITS in Hbits.
  assert (Hs : re_cache_size renc_init + events_bits evs + 5 < 4294967296) by (cbn [renc_init re_cache_size]; lia).
  destruct (renc_output_facts renc_init t0 evs renc_inv_init Ht Hok Hs) as (Hb & _).
  pose proof (renc_output_fut renc_init t0 evs renc_inv_init Ht Hok Hs) as [Hd Hf].
  rewrite enc_V_init, enc_digits_init in *. cbn [renc_init re_range] in Hf.
  remember (renc_output renc_init t0 evs) as out eqn:Eout. clear Eout.
  destruct out as [|b0 [|b1 [|b2 [|b3 [|b4 rest]]]]]; try (unfold zlen in Hd; cbn [length] in Hd; lia).
  change (b0 :: b1 :: b2 :: b3 :: b4 :: rest) with ([b0; b1; b2; b3; b4] ++ rest) in Hf, Hb.
  apply bytes_ok_app in Hb as [Hb5 Hbr].
  rewrite be_val_app, zlen_app in Hf. change (zlen [b0; b1; b2; b3; b4]) with 5 in Hf.
  replace (5 + zlen rest - 5) with (zlen rest) in Hf by lia.
  pose proof (be_val_bound rest Hbr) as HT.
  assert (HM : 0 < 256 ^ zlen rest) by (apply Z.pow_pos_nonneg; [lia | apply zlen_nonneg]).
  assert (H5v : be_val [b0; b1; b2; b3; b4] = b4 + 256 * (b3 + 256 * (b2 + 256 * (b1 + 256 * b0))))
    by (unfold be_val; cbn [rev app le_value]; lia).
  repeat (apply bytes_ok_cons in Hb5 as [? Hb5]).
  set (M := 256 ^ zlen rest) in *.
  assert (H5 : 0 <= be_val [b0; b1; b2; b3; b4] - 0 < 4294967295).
  { apply (code_in_interval M (be_val rest)); [exact HM | exact HT | lia]. }
  rewrite H5v in H5.
  assert (b0 = 0) by lia. subst b0.
  exists b1, b2, b3, b4, rest. split; [reflexivity | lia].
Qed.

Theorem renc_output_first_zero t0 evs :
  probs_ok t0 -> forallb ev_ok evs = true -> events_bits evs <= RC_MAX_BITS ->
  exists rest, renc_bytes (renc_finish (fst (renc_events renc_init t0 evs))) = 0 :: rest /\ 4 <= zlen rest.
Proof.
  intros Ht Hok Hbits.
  destruct (renc_output_head t0 evs Ht Hok Hbits) as (b1 & b2 & b3 & b4 & rest & Hout & _).
  rewrite Hout. eexists. split; [reflexivity|].
  rewrite !zlen_cons. pose proof (zlen_nonneg rest). lia.
Qed.

Definition rc_sim (all : list event) (t0 : probs) (tail : list Z)
           (done : list event) (d : rdec) (t : probs) : Prop :=
  probs_ok t0 /\ forallb ev_ok all = true /\ events_bits all <= RC_MAX_BITS /\
  exists rest, all = done ++ rest /\
    t = snd (renc_events renc_init t0 done) /\
    dec_match (renc_output renc_init t0 all) tail (rdec_normalize d) (fst (renc_events renc_init t0 done)).

Lemma rc_sim_init all t0 tail :
  probs_ok t0 -> forallb ev_ok all = true -> events_bits all <= RC_MAX_BITS ->
  exists d0,
    rdec_init (renc_bytes (renc_finish (fst (renc_events renc_init t0 all))) ++ tail) = Ok d0 /\
    rc_sim all t0 tail [] d0 t0.
Proof.
  intros Ht Hok Hbits.
  destruct (renc_output_head t0 all Ht Hok Hbits) as (b1 & b2 & b3 & b4 & rest & Hout & Hcode).
  rewrite Hout.
  eexists. split; [reflexivity|].
  split; [exact Ht|]. split; [exact Hok|]. split; [exact Hbits|].
  exists all. split; [reflexivity|]. cbn [renc_events fst snd]. split; [reflexivity|].
  rewrite Hout. apply dec_match_init.
Qed.

Lemma rc_sim_state all t0 tail done d t :
  rc_sim all t0 tail done d t ->
  renc_inv (fst (renc_events renc_init t0 done)) /\ probs_ok t /\
  exists rest, all = done ++ rest /\ forallb ev_ok rest = true /\
    re_cache_size (fst (renc_events renc_init t0 done)) + events_bits rest + 5 < 4294967296.
Proof.
  intros (Ht & Hok & Hbits & rest & Hall & Htt & Hm). unfold RC_MAX_BITS in Hbits.
  subst all. rewrite forallb_app in Hok. apply andb_true_iff in Hok as [Hok1 Hok2].
  rewrite events_bits_app in Hbits.
  pose proof (events_bits_nonneg done) as Hn1. pose proof (events_bits_nonneg rest) as Hn2.
  destruct (renc_events_ok done renc_init t0 renc_inv_init Ht Hok1) as (I1 & T1 & S1 & _).
  { cbn [renc_init re_cache_size]. lia. }
  cbn [renc_init re_cache_size] in S1. subst t.
  split; [exact I1|]. split; [exact T1|]. exists rest. split; [reflexivity|]. split; [exact Hok2 | lia].
Qed.

Lemma rc_sim_probs_ok all t0 tail done d t : rc_sim all t0 tail done d t -> probs_ok t.
Proof. intros H. apply rc_sim_state in H. tauto. Qed.

(* general form: whatever the trace run returns (a value, or an error raised by the program
   logic through Fail), the run against the range decoder returns the same *)
Lemma rc_sim_run_gen all t0 tail done d t A (p : prog A) evs1 evs2 o :
  rc_sim all t0 tail done d t ->
  all = done ++ evs1 ++ evs2 ->
  run_trace p (evs1 ++ evs2) = Some (o, evs2) ->
  exists d' t',
    run_rc p d t = rc_result o d' t' /\ rc_sim all t0 tail (done ++ evs1) d' t'.
Proof.
  intros Hsim Hall Hrun.
  destruct (rc_sim_state _ _ _ _ _ _ Hsim) as (HI & Htok & rest & Hall' & Hokr & Hs).
  destruct Hsim as (Ht & Hok & Hbits & rest' & Hall'' & Htt & Hm).
  assert (rest = evs1 ++ evs2) by (apply (app_inv_head done); congruence).
  assert (rest' = rest) by (apply (app_inv_head done); congruence). subst rest' rest.
  set (e := fst (renc_events renc_init t0 done)) in *.
  assert (Houtb : bytes_ok (renc_output renc_init t0 all) = true).
  { apply renc_output_bytes_ok; assumption. }
  assert (Hout : renc_output renc_init t0 all = renc_output e t (evs1 ++ evs2)).
  { rewrite Hall, renc_events_app. subst t. reflexivity. }
  destruct (run_sim A p (evs1 ++ evs2) evs2 o e t d _ tail Hrun HI Htok Hokr Hs Hout Houtb Hm)
    as (c & d' & Hc & Hrc & Hm').
  apply app_inv_tail in Hc. subst c.
  exists d', (snd (renc_events e t evs1)). split; [exact Hrc|].
  split; [exact Ht|]. split; [exact Hok|]. split; [exact Hbits|].
  exists evs2. split; [rewrite <- app_assoc; exact Hall|].
  rewrite renc_events_app. fold e. rewrite <- Htt. split; [reflexivity | exact Hm'].
Qed.

Lemma rc_sim_run all t0 tail done d t A (p : prog A) evs1 evs2 a :
  rc_sim all t0 tail done d t ->
  all = done ++ evs1 ++ evs2 ->
  run_trace p (evs1 ++ evs2) = Some (Ok a, evs2) ->
  exists d' t',
    run_rc p d t = Ok (a, d', t') /\ rc_sim all t0 tail (done ++ evs1) d' t'.
Proof. intros Hsim Hall Hrun. exact (rc_sim_run_gen _ _ _ _ _ _ A p evs1 evs2 (Ok a) Hsim Hall Hrun). Qed.

Lemma rc_sim_normalize all t0 tail done d t :
  rc_sim all t0 tail done d t -> rc_sim all t0 tail done (rdec_normalize d) t.
Proof.
  intros Hsim. destruct (rc_sim_state _ _ _ _ _ _ Hsim) as (HI & _).
  destruct Hsim as (Ht & Hok & Hbits & rest & Hall & Htt & Hm).
  split; [exact Ht|]. split; [exact Hok|]. split; [exact Hbits|].
  exists rest. split; [exact Hall|]. split; [exact Htt|].
  rewrite (dec_match_normalized _ _ _ _ Hm HI). exact Hm.
Qed.

Lemma rc_sim_end all t0 tail d t :
  rc_sim all t0 tail all d t ->
  t = snd (renc_events renc_init t0 all) /\
  rd_in (rdec_normalize d) = tail /\ rd_code (rdec_normalize d) = 0 /\ rd_over (rdec_normalize d) = 0.
Proof.
  intros Hsim.
  destruct Hsim as (Ht & Hok & Hbits & rest & Hall & Htt & Hm).
  destruct (renc_events_ok all renc_init t0 renc_inv_init Ht Hok) as (I1 & _ & S1 & _);
    unfold RC_MAX_BITS in Hbits; cbn [renc_init re_cache_size] in *; [lia|].
  assert (rest = []) by (apply (app_inv_head all); rewrite app_nil_r; symmetry; exact Hall).
  subst rest. split; [exact Htt|].
  apply (dec_match_final _ tail _ _ Hm (proj1 I1)); [lia | reflexivity].
Qed.

Theorem rc_roundtrip : forall (A : Type) (p : prog A) (evs : list event) (a : A) (tail : list Z) (t0 : probs),
  probs_ok t0 ->
  forallb ev_ok evs = true ->
  events_bits evs <= RC_MAX_BITS ->
  run_trace p evs = Some (Ok a, []) ->
  let '(e, t1) := renc_events renc_init t0 evs in
  let bytes := renc_bytes (renc_finish e) in
  exists d0 d1, rdec_init (bytes ++ tail) = Ok d0 /\
                run_rc p d0 t0 = Ok (a, d1, t1) /\
                probs_ok t1 /\
                rd_in (rdec_normalize d1) = tail /\ rd_code (rdec_normalize d1) = 0 /\
                rd_over (rdec_normalize d1) = 0.
Proof.
  intros A p evs a tail t0 Ht Hok Hbits Hrun.
  destruct (rc_sim_init evs t0 tail Ht Hok Hbits) as (d0 & Hinit & Hsim).
  destruct (rc_sim_run evs t0 tail [] d0 t0 A p evs [] a Hsim) as (d1 & t1' & Hrc & Hsim1).
  { rewrite app_nil_r. reflexivity. }
  { rewrite app_nil_r. exact Hrun. }
  cbn [app] in Hsim1.
  pose proof (rc_sim_probs_ok _ _ _ _ _ _ Hsim1) as Ht1.
  destruct (rc_sim_end evs t0 tail d1 t1' Hsim1) as (Htt & Hin & Hcode & Hover).
  destruct (renc_events renc_init t0 evs) as [e t1] eqn:E. cbn [fst snd] in *. subst t1'.
  exists d0, d1. tauto.
Qed.

(* why the bound on the number of coded bits is there: a state that satisfies every invariant
   of the encoder (a run of 2^32 - 2 pending 0xFF bytes) on which shift_low wraps cache_size to
   0, so that the pending bytes are never written.  (Rust, debug build: `self.cache_size += 1`
   panics; release build: wraps as the model does.) *)
Lemma renc_pending_state_inv s : 1 <= s -> renc_inv (mkRenc 4278190080 16777216 0 s []).
Proof.
  intros Hs. split; [|cbn [re_range]; lia].
  assert (HP : 0 < 256 ^ (s - 1)) by (apply Z.pow_pos_nonneg; lia).
  constructor; cbn [re_low re_range re_cache re_cache_size re_out]; [lia | lia | lia | lia | lia | reflexivity |].
  unfold enc_V, enc_cap, enc_O, Vof. cbn [re_low re_range re_cache re_cache_size re_out le_value].
  remember (256 ^ (s - 1)) as P eqn:EP. clear EP. lia.
Qed.

Lemma renc_cache_size_overflow_state :
  let e := mkRenc 4278190080 16777216 0 4294967295 [] in
  renc_inv e /\ re_cache_size (shift_low e) = 0 /\ re_out (shift_low e) = [].
Proof.
  cbv zeta. split; [apply renc_pending_state_inv; lia|].
  split; vm_compute; reflexivity.
Qed.

(* non-vacuity: a small program, its trace, and the complete pipeline evaluated *)
Definition rc_example_prog : prog (Z * Z * Z) :=
  Bit 7 (fun b1 => Direct 5 (fun v => Bit 7 (fun b2 => Ret (b1, v, b2)))).
Definition rc_example_evs : list event := [EBit 7 1; EDirect 5 19; EBit 7 0].

Example rc_example_hyps :
  probs_ok PLeaf /\ forallb ev_ok rc_example_evs = true /\ events_bits rc_example_evs <= RC_MAX_BITS /\
  run_trace rc_example_prog rc_example_evs = Some (Ok (1, 19, 0), []).
Proof. split; [exact probs_ok_empty|]. vm_compute. repeat split; congruence. Qed.

Example rc_example_run :
  let '(e, t1) := renc_events renc_init PLeaf rc_example_evs in
  let bytes := renc_bytes (renc_finish e) in
  bytes = [0; 203; 255; 254; 93] /\
  match rdec_init (bytes ++ [1; 2; 3]) with
  | Ok d0 =>
      match run_rc rc_example_prog d0 PLeaf with
      | Ok (a, d1, t1') => a = (1, 19, 0) /\ rd_in (rdec_normalize d1) = [1; 2; 3] /\ rd_code (rdec_normalize d1) = 0
      | _ => False
      end
  | _ => False
  end.
Proof. vm_compute. repeat split; reflexivity. Qed.

(* nothing beyond the encoder's bytes is ever requested *)
Lemma rc_sim_no_overread all t0 tail done d t :
  rc_sim all t0 tail done d t -> rd_over (rdec_normalize d) = 0.
Proof. intros (_ & _ & _ & rest & _ & _ & (_ & Hover & _)). exact Hover. Qed.
