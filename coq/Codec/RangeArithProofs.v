(* Codec/RangeArithProofs.v — small arithmetic facts used by the range-coder proofs:
   big-endian values of byte lists, the bit-operation idioms of the Rust code rewritten as
   div/mod, and the pure interval arithmetic of one coding step. *)
From LzVerif Require Import Base.Bytes.

(* big-endian value: most significant byte first *)
Definition be_val (l : list Z) : Z := le_value (rev l).

Lemma be_val_nil : be_val [] = 0.
Proof. reflexivity. Qed.

Lemma be_val_snoc l b : be_val (l ++ [b]) = b + 256 * be_val l.
Proof. unfold be_val. rewrite rev_app_distr. reflexivity. Qed.

Lemma be_val_app a b : be_val (a ++ b) = be_val b + 256 ^ zlen b * be_val a.
Proof. unfold be_val. rewrite rev_app_distr, le_value_app, zlen_rev. reflexivity. Qed.

Lemma be_val_cons x l : be_val (x :: l) = be_val l + 256 ^ zlen l * x.
Proof. change (x :: l) with ([x] ++ l). rewrite be_val_app. unfold be_val at 2. cbn [rev app le_value]. lia. Qed.

Lemma be_val_bound l : bytes_ok l = true -> 0 <= be_val l < 256 ^ zlen l.
Proof. intros H. unfold be_val. rewrite <- (zlen_rev l). apply le_value_bound. rewrite bytes_ok_rev. exact H. Qed.

Lemma shiftr_div x n : 0 <= n -> Z.shiftr x n = x / 2 ^ n.
Proof. intros H. apply Z.shiftr_div_pow2. exact H. Qed.

(* range & 0xFF000000 == 0  <->  range < 2^24   (u32 range) *)
Lemma top_mask_zero r : 0 <= r < 4294967296 -> (Z.land r 4278190080 =? 0) = (r <? 16777216).
Proof.
  intros Hr.
  change 4278190080 with (Z.ldiff (Z.ones 32) (Z.ones 24)).
  rewrite Z.ldiff_land, Z.land_assoc, Z.land_ones by lia.
  rewrite <- Z.ldiff_land, Z.ldiff_ones_r by lia.
  rewrite Z.shiftl_mul_pow2, Z.shiftr_div_pow2 by lia.
  change (2 ^ 32) with 4294967296. change (2 ^ 24) with 16777216.
  rewrite (Z.mod_small r) by lia.
  destruct (Z.ltb_spec r 16777216) as [Hlt|Hge].
  - apply Z.eqb_eq. (Z.div_mod_to_equations; lia).
  - apply Z.eqb_neq. (Z.div_mod_to_equations; lia).
Qed.

(* (code << 8) | b  for a byte b *)
Lemma lor_shift8 c b : 0 <= c -> 0 <= b < 256 -> Z.lor (c * 256) b = c * 256 + b.
Proof.
  intros Hc Hb.
  rewrite <- Z.lxor_lor, <- Z.add_nocarry_lxor; try reflexivity.
  all: apply Z.bits_inj'; intros n Hn; rewrite Z.land_spec, Z.bits_0;
    change 256 with (2 ^ 8); rewrite <- Z.shiftl_mul_pow2 by lia;
    destruct (Z.ltb_spec n 8) as [Hlt|Hge].
  all: try (rewrite Z.shiftl_spec_low by lia; reflexivity).
  all: replace b with (b mod 2 ^ 8) by (apply Z.mod_small; change (2 ^ 8) with 256; lia);
    rewrite Z.mod_pow2_bits_high by lia; apply andb_false_r.
Qed.

(* (v >> c) & 1 *)
Lemma land_one x : Z.land x 1 = x mod 2.
Proof. change 1 with (Z.ones 1). rewrite Z.land_ones by lia. reflexivity. Qed.

Lemma bound_facts r p : 16777216 <= r < 4294967296 -> 31 <= p <= 2017 ->
  let bound := r / 2048 * p in
  65536 <= bound /\ bound < r /\ 65536 <= r - bound /\ bound < 4294967296.
Proof. intros Hr Hp bound. subst bound. (Z.div_mod_to_equations; nia). Qed.

(* the code value lies in the current interval as soon as the final numeral does *)
Lemma code_in_interval M T V R br :
  0 < M -> 0 <= T < M -> V * M <= br * M + T < (V + R) * M -> 0 <= br - V < R.
Proof. intros HM HT H. nia. Qed.
