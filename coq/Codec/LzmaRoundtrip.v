(* Codec/LzmaRoundtrip.v — the specification decoder (LzmaAbs.v) reads back what the symbol
   encoder (LzmaEnc.v) wrote, at the level of recorded decisions: one symbol (enc_symbol_inv,
   sym_reads, sym_abs_step), then lists (enc_syms, no_end, aproduce_syms), under hist_rel between
   the encoder's view of the data and the decoder's history. *)
From LzVerif Require Import Base.Bytes Codec.Store Codec.Range Codec.LzWindow Codec.LzmaDec
  Codec.LzmaEnc Codec.LzmaAbs Codec.LzWindowProofs Codec.ProgProofs Codec.LzmaAbsProofs Codec.LzmaSymProofs.

(* the encoder's view of the data and the decoder's history describe the same bytes *)
Definition hist_rel (h : ehist) (hist : list Z) : Prop :=
  zlen hist = h_pos h - h_base h /\ 0 <= h_base h /\
  forall d, 0 <= d < zlen hist -> hnth hist d = hget h (h_pos h - 1 - d).

Lemma hnth_nil d : hnth [] d = 0.
Proof. unfold hnth, zth. destruct (d <? 0); [reflexivity|]. destruct (Z.to_nat d); reflexivity. Qed.

Lemma hist_rel_prev h hist : hist_rel h hist ->
  hnth hist 0 = (if zlen hist <=? 0 then 0 else hget h (h_pos h - 1)).
Proof.
  intros (Hl & Hb & Hc). destruct (Z.leb_spec (zlen hist) 0) as [Hle|Hgt].
  - destruct hist as [|x t]; [apply hnth_nil|]. rewrite zlen_cons in Hle. pose proof (zlen_nonneg t). lia.
  - rewrite Hc by lia. f_equal. lia.
Qed.

Lemma hist_rel_lit h hist b : hist_rel h hist -> hget h (h_pos h) = b -> hist_rel (h_advance h 1) (b :: hist).
Proof.
  intros (Hl & Hb & Hc) Hd. unfold hist_rel, h_advance; cbn [h_pos h_base]. rewrite zlen_cons.
  split; [lia|]. split; [assumption|]. intros d Hr. unfold hget in *; cbn [h_data].
  destruct (Z.eq_dec d 0) as [->|Hne].
  - rewrite hnth_cons_0. rewrite <- Hd. f_equal. lia.
  - rewrite hnth_cons_S by lia. rewrite Hc by lia. f_equal. lia.
Qed.

(* a validated copy extends the history exactly as hcopy does *)
Lemma hist_rel_copy n : forall h hist dist,
  hist_rel h hist -> 0 <= dist < zlen hist ->
  match_ok (h_data h) (h_pos h) (h_pos h - dist - 1) n = true ->
  hist_rel (h_advance h (Z.of_nat n)) (hcopy hist dist n).
Proof.
  induction n as [|k IH]; intros h hist dist Hr Hd Hm.
  - cbn [hcopy Z.of_nat]. destruct Hr as (Hl & Hb & Hc). unfold hist_rel, h_advance; cbn [h_pos h_base].
    split; [lia|]. split; [assumption|]. intros d Hdr. unfold hget in *; cbn [h_data]. rewrite Hc by lia. f_equal. lia.
  - cbn [match_ok] in Hm. apply andb_true_iff in Hm as [Hb1 Hrest]. apply Z.eqb_eq in Hb1.
    cbn [hcopy].
    assert (Hnew : hist_rel (h_advance h 1) (hnth hist dist :: hist)).
    { apply hist_rel_lit; [assumption|]. destruct Hr as (Hl & Hb & Hc). rewrite Hc by lia.
      unfold hget. rewrite Hb1. f_equal. lia. }
    specialize (IH (h_advance h 1) (hnth hist dist :: hist) dist Hnew).
    rewrite zlen_cons in IH. specialize (IH ltac:(lia)).
    assert (Hrest' : match_ok (h_data (h_advance h 1)) (h_pos (h_advance h 1)) (h_pos (h_advance h 1) - dist - 1) k = true).
    { unfold h_advance; cbn [h_data h_pos]. replace (h_pos h + 1 - dist - 1) with (h_pos h - dist - 1 + 1) by lia. exact Hrest. }
    specialize (IH Hrest').
    unfold h_advance in *; cbn [h_data h_total h_base h_pos h_dict] in *.
    replace (h_pos h + Z.of_nat (S k)) with (h_pos h + 1 + Z.of_nat k) by lia. exact IH.
Qed.

Definition sym_res (c' : coder) (s : sym) : symres :=
  match s with
  | SLit b => RLit b
  | SMatch _ len => RCopy (rep_as_usize (c_rep0 c')) len
  | SRep _ len => RCopy (rep_as_usize (c_rep0 c')) len
  | SEnd => RCopy (rep_as_usize (c_rep0 c')) 2
  end.

Definition sym_len (s : sym) : Z :=
  match s with SLit _ => 1 | SMatch _ len => len | SRep _ len => len | SEnd => 0 end.

Lemma rep_as_usize_small r : 0 <= r < 2147483648 -> rep_as_usize r = r.
Proof. intros H. unfold rep_as_usize, P2_31. destruct (Z.ltb_spec r 2147483648); lia. Qed.

Definition data_ok (h : ehist) : Prop := forall i, 0 <= hget h i < 256.

Lemma copy_valid_inv h dist len : copy_valid h dist len = true ->
  0 <= dist < h_pos h - h_base h /\ dist < h_dict h /\ h_pos h + len <= h_total h /\
  match_ok (h_data h) (h_pos h) (h_pos h - dist - 1) (Z.to_nat len) = true.
Proof.
  unfold copy_valid. rewrite !andb_true_iff, Z.leb_le, !Z.ltb_lt, Z.leb_le. tauto.
Qed.

Lemma enc_match_events_coder c ps dist len evs c' :
  enc_match_events c ps dist len = Ok (evs, c') ->
  c' = mkCoder (state_update_match (c_state c)) dist (c_rep0 c) (c_rep1 c) (c_rep2 c) (c_lc c) (c_lp c) (c_pb c).
Proof.
  unfold enc_match_events. intros H.
  apply obind_ok in H as (elen & _ & H). apply obind_ok in H as (dsk & _ & H).
  apply Ok_inj in H. apply pair_inj in H as [_ <-]. reflexivity.
Qed.

Lemma enc_rep_events_reps c ps idx len evs c' :
  reps_nonneg c -> enc_rep_events c ps idx len = Ok (evs, c') -> reps_nonneg c'.
Proof.
  intros (H0 & H1 & H2 & H3) H. destruct (enc_rep_events_cases _ _ _ _ _ _ H) as (_ & Hc). cbv zeta in Hc.
  destruct Hc as [(_ & _ & _ & _ & ->) | (elen & _ & [(_ & _ & _ & ->) | [(_ & _ & ->) | [(_ & _ & ->) | (_ & _ & ->)]]])];
    unfold reps_nonneg, set_state, set_reps; cbn; auto.
Qed.

(* what enc_symbol accepts, and what it then returns *)
Lemma enc_symbol_inv c h s evs c' h' :
  enc_symbol c h s = Ok (evs, c', h') ->
  let rel := h_pos h - h_base h in
  let ps := pos_state_of c rel in
  exists km, key2 K_IS_MATCH 12 16 (c_state c) ps = Ok km /\
  match s with
  | SLit b => exists lbase mb,
      h_pos h < h_total h /\ hget h (h_pos h) = b /\
      lit_base c (if rel <=? 0 then 0 else hget h (h_pos h - 1)) rel = Ok lbase /\
      (if state_is_literal (c_state c) then mb = None
       else c_rep0 c < rel /\ c_rep0 c < h_dict h /\ mb = Some (hget h (h_pos h - c_rep0 c - 1))) /\
      evs = EBit km 0 :: lit_events lbase mb b /\
      c' = set_state c (state_update_literal (c_state c)) /\ h' = h_advance h 1
  | SMatch dist len => exists kr ev1,
      2 <= len <= 273 /\ copy_valid h dist len = true /\
      key1 K_IS_REP 12 (c_state c) = Ok kr /\ enc_match_events c ps dist len = Ok (ev1, c') /\
      evs = EBit km 1 :: EBit kr 0 :: ev1 /\ h' = h_advance h len
  | SRep idx len => exists kr ev1,
      1 <= len <= 273 /\ copy_valid h (c_rep0 c') len = true /\
      key1 K_IS_REP 12 (c_state c) = Ok kr /\ enc_rep_events c ps idx len = Ok (ev1, c') /\
      evs = EBit km 1 :: EBit kr 1 :: ev1 /\ h' = h_advance h len
  | SEnd => exists kr ev1,
      key1 K_IS_REP 12 (c_state c) = Ok kr /\ enc_match_events c ps 4294967295 2 = Ok (ev1, c') /\
      evs = EBit km 1 :: EBit kr 0 :: ev1 /\ h' = h
  end.
Proof.
  unfold enc_symbol. cbv zeta. intros H. apply obind_ok in H as (km & Hkm & H).
  exists km. split; [exact Hkm|]. destruct s as [b|dist len|idx len|].
  - destruct ((h_pos h <? h_total h) && (hget h (h_pos h) =? b)) eqn:Ev; cbn [negb] in H; [|discriminate].
    apply andb_true_iff in Ev as [Hpt Hb]. apply Z.ltb_lt in Hpt. apply Z.eqb_eq in Hb.
    apply obind_ok in H as (lbase & Hlb & H). apply obind_ok in H as (mb & Hmb & H).
    apply Ok_inj, pair_inj in H as [H <-]. apply pair_inj in H as [<- <-].
    exists lbase, mb. repeat (split; [assumption || reflexivity|]). split; [|auto].
    destruct (state_is_literal (c_state c)); [apply Ok_inj in Hmb; auto|].
    destruct ((c_rep0 c <? h_pos h - h_base h) && (c_rep0 c <? h_dict h)) eqn:Er; cbn [negb] in Hmb; [|discriminate].
    apply andb_true_iff in Er as [Er1 Er2]. apply Z.ltb_lt in Er1, Er2. apply Ok_inj in Hmb. auto.
  - destruct ((2 <=? len) && (len <=? 273) && copy_valid h dist len) eqn:Ev; cbn [negb] in H; [|discriminate].
    rewrite !andb_true_iff, !Z.leb_le in Ev.
    apply obind_ok in H as (kr & Hkr & H). apply obind_ok in H as ([ev1 c1] & Hec & H).
    apply Ok_inj, pair_inj in H as [H <-]. apply pair_inj in H as [<- <-].
    exists kr, ev1. tauto.
  - apply obind_ok in H as (kr & Hkr & H). apply obind_ok in H as ([ev1 c1] & Hec & H). cbn [fst snd] in H.
    destruct ((1 <=? len) && (len <=? 273) && copy_valid h (c_rep0 c1) len) eqn:Ev; cbn [negb] in H; [|discriminate].
    rewrite !andb_true_iff, !Z.leb_le in Ev.
    apply Ok_inj, pair_inj in H as [H <-]. apply pair_inj in H as [<- <-].
    exists kr, ev1. tauto.
  - apply obind_ok in H as (kr & Hkr & H). apply obind_ok in H as ([ev1 c1] & Hec & H).
    apply Ok_inj, pair_inj in H as [H <-]. apply pair_inj in H as [<- <-].
    exists kr, ev1. auto.
Qed.

(* enc_symbol only moves the position, by the length of the symbol, and stays inside the data *)
Lemma enc_symbol_frame c h s evs c' h' :
  enc_symbol c h s = Ok (evs, c', h') ->
  h_base h' = h_base h /\ h_dict h' = h_dict h /\ h_total h' = h_total h /\ h_data h' = h_data h /\
  h_pos h' = h_pos h + sym_len s /\ 0 <= sym_len s <= 273 /\
  (s <> SEnd -> 1 <= sym_len s /\ h_pos h' <= h_total h).
Proof.
  intros H. destruct (enc_symbol_inv _ _ _ _ _ _ H) as (km & _ & Hs).
  destruct s as [b|dist len|idx len|]; cbn [sym_len].
  - destruct Hs as (lbase & mb & Hpt & _ & _ & _ & _ & _ & ->). cbn. repeat split; lia.
  - destruct Hs as (kr & ev1 & Hl & Hcv & _ & _ & _ & ->). apply copy_valid_inv in Hcv. cbn. repeat split; lia.
  - destruct Hs as (kr & ev1 & Hl & Hcv & _ & _ & _ & ->). apply copy_valid_inv in Hcv. cbn. repeat split; lia.
  - destruct Hs as (kr & ev1 & _ & _ & _ & ->). repeat split; try lia; congruence.
Qed.

Theorem sym_reads c h hist s evs c' h' :
  hist_rel h hist -> h_dict h <= 2147483648 -> data_ok h -> reps_nonneg c ->
  enc_symbol c h s = Ok (evs, c', h') -> reads (asym c hist) evs (c', sym_res c' s).
Proof.
  intros Hr Hdict Hdata (Hn0 & _) He. pose proof Hr as (Hl & Hb & Hcells).
  destruct (enc_symbol_inv _ _ _ _ _ _ He) as (km & Hkm & Hs). cbv zeta in Hkm, Hs. rewrite <- Hl in Hkm, Hs.
  unfold asym. rewrite Hkm. cbn [lift pbind].
  assert (B0 : 0 = 0 \/ 0 = 1) by (left; reflexivity).
  assert (B1 : 1 = 0 \/ 1 = 1) by (right; reflexivity).
  destruct s as [b|dist len|idx len|].
  - destruct Hs as (lbase & mb & Hpt & Hb' & Hlb & Hmb & -> & -> & _).
    apply reads_bit; [exact B0|]. cbn [Z.eqb].
    rewrite <- (hist_rel_prev h hist Hr) in Hlb. rewrite Hlb. cbn [lift pbind].
    assert (Hbr : 0 <= b < 256) by (rewrite <- Hb'; apply Hdata).
    assert (Emb : mb = if state_is_literal (c_state c) then None else Some (hnth hist (rep_as_usize (c_rep0 c)))).
    { destruct (state_is_literal (c_state c)); [exact Hmb|]. destruct Hmb as (E1 & E2 & ->).
      rewrite rep_as_usize_small, Hcells by lia. do 2 f_equal. lia. }
    rewrite <- Emb. apply (reads_map _ _ _ _ _ (lit_reads lbase mb b Hbr)).
    cbn [sym_res]. do 2 f_equal. unfold wrap8. (Z.div_mod_to_equations; lia).
  - destruct Hs as (kr & ev1 & Hlen & Hcv & Hkr & Hec & -> & _).
    apply copy_valid_inv in Hcv as (Hd & Hdd & _).
    apply reads_bit; [exact B1|]. cbn [Z.eqb Pos.eqb]. rewrite Hkr. cbn [lift pbind].
    apply reads_bit; [exact B0|]. cbn [Z.eqb].
    apply (reads_map _ _ _ (c', len)); [|reflexivity]. eapply match_reads; [|exact Hec]; lia.
  - destruct Hs as (kr & ev1 & Hlen & Hcv & Hkr & Hec & -> & _).
    apply reads_bit; [exact B1|]. cbn [Z.eqb Pos.eqb]. rewrite Hkr. cbn [lift pbind].
    apply reads_bit; [exact B1|]. cbn [Z.eqb Pos.eqb].
    apply (reads_map _ _ _ (c', len)); [|reflexivity]. exact (rep_reads _ _ _ _ _ _ Hec).
  - destruct Hs as (kr & ev1 & Hkr & Hec & -> & _).
    apply reads_bit; [exact B1|]. cbn [Z.eqb Pos.eqb]. rewrite Hkr. cbn [lift pbind].
    apply reads_bit; [exact B0|]. cbn [Z.eqb].
    apply (reads_map _ _ _ (c', 2)); [|reflexivity]. eapply match_reads; [|exact Hec]; lia.
Qed.

Theorem sym_abs_step c h hist s evs c' h' rest :
  hist_rel h hist -> h_dict h <= 2147483648 -> data_ok h -> reps_nonneg c ->
  enc_symbol c h s = Ok (evs, c', h') ->
  run_trace (asym c hist) (evs ++ rest) = Some (Ok (c', sym_res c' s), rest) /\
  reps_nonneg c' /\
  match s with
  | SLit b => hist_rel h' (b :: hist) /\ h_pos h' = h_pos h + 1
  | SEnd => h' = h /\ c_rep0 c' = 4294967295
  | _ => 0 <= rep_as_usize (c_rep0 c') < Z.min (zlen hist) (h_dict h) /\ 1 <= sym_len s <= 273 /\
         hist_rel h' (hcopy hist (rep_as_usize (c_rep0 c')) (Z.to_nat (sym_len s))) /\ h_pos h' = h_pos h + sym_len s
  end /\
  h_base h' = h_base h /\ h_dict h' = h_dict h /\ h_total h' = h_total h /\ h_data h' = h_data h /\
  (s <> SEnd -> h_pos h' <= h_total h).
Proof.
  intros Hr Hdict Hdata Hreps He.
  split; [apply (sym_reads c h hist s evs c' h' Hr Hdict Hdata Hreps He)|].
  pose proof Hr as (Hl & Hb & Hcells). pose proof Hreps as (Hn0 & Hn1 & Hn2 & Hn3).
  destruct (enc_symbol_frame _ _ _ _ _ _ He) as (Fb & Fdi & Ft & Fda & Fp & Fl & Fpt).
  destruct (enc_symbol_inv _ _ _ _ _ _ He) as (km & _ & Hs). cbv zeta in Hs.
  assert (Hcopy : forall len, 1 <= len <= 273 -> copy_valid h (c_rep0 c') len = true -> h' = h_advance h len ->
            0 <= rep_as_usize (c_rep0 c') < Z.min (zlen hist) (h_dict h) /\ 1 <= len <= 273 /\
            hist_rel h' (hcopy hist (rep_as_usize (c_rep0 c')) (Z.to_nat len)) /\ h_pos h' = h_pos h + len).
  { intros len Hlen Hcv ->. apply copy_valid_inv in Hcv as (Hd & Hdd & Htot & Hmo).
    rewrite rep_as_usize_small by lia. split; [lia|]. split; [lia|]. split; [|reflexivity].
    rewrite <- (Z2Nat.id len) at 1 by lia. apply hist_rel_copy; [assumption | lia | assumption]. }
  destruct s as [b|dist len|idx len|]; cbn [sym_len] in *.
  - destruct Hs as (lbase & mb & Hpt & Hb' & _ & _ & _ & -> & ->).
    split; [unfold reps_nonneg, set_state; cbn; auto|].
    split; [split; [apply hist_rel_lit; assumption | reflexivity]|]. repeat split; auto; intros _; lia.
  - destruct Hs as (kr & ev1 & Hlen & Hcv & _ & Hec & _ & Hh).
    pose proof (enc_match_events_coder _ _ _ _ _ _ Hec) as Hc1.
    assert (Hr0 : c_rep0 c' = dist) by (rewrite Hc1; reflexivity). rewrite <- Hr0 in Hcv.
    pose proof (copy_valid_inv _ _ _ Hcv) as (Hd & _ & Htot & _).
    split; [rewrite Hc1; unfold reps_nonneg; cbn; repeat split; lia|].
    split; [apply Hcopy; [lia | exact Hcv | exact Hh]|]. repeat split; auto; intros _; lia.
  - destruct Hs as (kr & ev1 & Hlen & Hcv & _ & Hec & _ & Hh).
    pose proof (copy_valid_inv _ _ _ Hcv) as (_ & _ & Htot & _).
    split; [eapply enc_rep_events_reps; eassumption|].
    split; [apply Hcopy; assumption|]. repeat split; auto; intros _; lia.
  - destruct Hs as (kr & ev1 & _ & Hec & _ & ->).
    pose proof (enc_match_events_coder _ _ _ _ _ _ Hec) as Hc1.
    split; [rewrite Hc1; unfold reps_nonneg; cbn; repeat split; lia|].
    split; [split; [reflexivity | rewrite Hc1; reflexivity]|]. repeat split; auto. intros X; congruence.
Qed.

Fixpoint enc_syms (c : coder) (h : ehist) (l : list sym) : outcome (list event * coder * ehist) :=
  match l with
  | [] => Ok ([], c, h)
  | s :: r =>
      do x <- enc_symbol c h s;
      do y <- enc_syms (snd (fst x)) (snd x) r;
      Ok (fst (fst x) ++ fst (fst y), snd (fst y), snd y)
  end.

Definition no_end (l : list sym) : Prop := forall s, In s l -> s <> SEnd.

Lemma enc_syms_mono r : forall c h evs c' h', enc_syms c h r = Ok (evs, c', h') -> h_pos h <= h_pos h'.
Proof.
  induction r as [|s r IH]; intros c h evs c' h' H; cbn [enc_syms] in H.
  - apply Ok_inj in H. apply pair_inj in H as [_ <-]. lia.
  - apply obind_ok in H as ([[ea ca] ha] & Hsa & H). cbn [fst snd] in H.
    apply obind_ok in H as ([[eb cb] hb] & Hsb & H). cbn [fst snd] in H.
    apply Ok_inj in H. apply pair_inj in H as [_ <-].
    pose proof (enc_symbol_frame _ _ _ _ _ _ Hsa) as (_ & _ & _ & _ & Hp & Hl & _). pose proof (IH _ _ _ _ _ Hsb). lia.
Qed.

Theorem aproduce_syms : forall syms c h hist dict pd n evs c' h' rest,
  no_end syms -> hist_rel h hist -> h_dict h <= 2147483648 ->
  (h_dict h <= dict \/ h_total h - h_base h <= dict) -> data_ok h -> reps_nonneg c ->
  enc_syms c h syms = Ok (evs, c', h') ->
  Z.of_nat n = h_pos h' - h_pos h ->
  exists hist' pd',
    run_trace (aproduce n (mkAstate c hist dict 0 pd)) (evs ++ rest)
      = Some (Ok (mkAstate c' hist' dict 0 pd', Ok tt), rest) /\
    hist_rel h' hist' /\ reps_nonneg c' /\
    h_base h' = h_base h /\ h_dict h' = h_dict h /\ h_total h' = h_total h /\ h_data h' = h_data h.
Proof.
  induction syms as [|s r IH]; intros c h hist dict pd n evs c' h' rest Hne Hr Hd Hdd Hdata Hreps He Hn.
  - cbn [enc_syms] in He. apply Ok_inj in He. apply pair_inj in He as [He <-]. apply pair_inj in He as [<- <-].
    assert (n = 0%nat) by lia. subst n. cbn [aproduce app]. rewrite run_trace_ret.
    exists hist, pd. split; [reflexivity|]. split; [exact Hr|]. split; [exact Hreps|]. auto.
  - cbn [enc_syms] in He.
    apply obind_ok in He as ([[e1 c1] h1] & Hs & He). cbn [fst snd] in He.
    apply obind_ok in He as ([[e2 c2] h2] & Hrs & He). cbn [fst snd] in He.
    apply Ok_inj in He. apply pair_inj in He as [He <-]. apply pair_inj in He as [<- <-].
    assert (Hs_ne : s <> SEnd) by (apply Hne; left; reflexivity).
    assert (Hne' : no_end r) by (intros x Hx; apply Hne; right; assumption).
    destruct (sym_abs_step c h hist s e1 c1 h1 (e2 ++ rest) Hr Hd Hdata Hreps Hs)
      as (Htr & Hreps1 & Hshape & Hb1 & Hd1 & Ht1 & Hda1 & Hpt1).
    specialize (Hpt1 Hs_ne).
    assert (Hdd1 : h_dict h1 <= dict \/ h_total h1 - h_base h1 <= dict) by (rewrite Hd1, Ht1, Hb1; exact Hdd).
    assert (Hdata1 : data_ok h1) by (intros i; unfold hget; rewrite Hda1; apply Hdata).
    rewrite <- app_assoc.
    (* how far the rest advances *)
    pose proof (enc_syms_mono _ _ _ _ _ _ Hrs) as Hmono.
    assert (Hadv : exists k, n = S k).
    { destruct n as [|k]; [|eauto]. exfalso.
      destruct s as [b|dist len|idx len|]; try congruence; cbn [sym_len] in Hshape; lia. }
    destruct Hadv as (k & ->).
    cbn [aproduce a_pend_len a_coder a_hist a_dict a_pend_dist]. change (0 <? 0) with false. cbv iota.
    rewrite (run_trace_bind_ok _ _ _ _ _ Htr). cbn [fst snd].
    destruct s as [b|dist len|idx len|]; try congruence; cbn [sym_res].
    { destruct Hshape as (Hr1 & Hp1).
      destruct (IH c1 h1 (b :: hist) dict pd k e2 c2 h2 rest Hne' Hr1) as (hist' & pd' & Hrun & Hr2 & Hreps2 & Hb2 & Hd2 & Ht2 & Hda2);
        try assumption; try lia.
      exists hist', pd'. rewrite Hrun. split; [reflexivity|]. split; [exact Hr2|]. split; [exact Hreps2|]. repeat split; congruence. }
    (* a match and a repeated match are the same copy *)
    all: destruct Hshape as (Hdist & Hlen & Hr1 & Hp1); cbn [sym_len] in *.
    all: set (d := rep_as_usize (c_rep0 c1)) in *.
    all: unfold a_full; cbn [a_hist a_dict].
    all: destruct (Z.leb_spec (Z.min (zlen hist) dict) d); [destruct Hr as (Hzl & _); lia|].
    all: destruct (Z.leb_spec len 0); [lia|].
    all: rewrite (aproduce_copy k c1 hist dict len d len) by lia.
    all: replace (len - len) with 0 by lia.
    all: destruct (IH c1 h1 (hcopy hist d (Z.to_nat len)) dict d (S k - Z.to_nat len)%nat e2 c2 h2 rest Hne' Hr1)
        as (hist' & pd' & Hrun & Hr2 & Hreps2 & Hb2 & Hd2 & Ht2 & Hda2); try assumption; try lia.
    all: exists hist', pd'; rewrite Hrun.
    all: split; [reflexivity|]; split; [exact Hr2|]; split; [exact Hreps2|]; repeat split; congruence.
Qed.
