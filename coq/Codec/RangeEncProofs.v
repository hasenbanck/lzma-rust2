(* Codec/RangeEncProofs.v — the range encoder of Codec/Range.v refines an exact interval
   [V, V + range) of d-digit base-256 numerals (DESIGN.md 4.1, steps 1 and 2):
   shift_low multiplies the value by 256 without ever touching bytes already written, a coded
   bit narrows the interval, renc_finish writes the numeral of the lower end, and therefore the
   final output lies in the interval of every intermediate state (renc_fut, renc_output_fut).
   Every coding step is rstep = enc_step, then renc_normalize; rstep_ok is what the decoder side
   (RangeDecProofs.v) and the no-wrap side (RangeNoWrapProofs.v) start from. *)
From LzVerif Require Import Base.Bytes Codec.Store Codec.Range Codec.ProbProofs Codec.RangeArithProofs.
From LzVerif Require Import Codec.LzmaDec Codec.LzmaEnc.

Definition enc_O (e : renc) : Z := le_value (re_out e).
Definition Vof (O cache P low : Z) : Z := ((O * 256 + cache) * P + (P - 1)) * 4294967296 + low.
Definition enc_V (e : renc) : Z := Vof (enc_O e) (re_cache e) (256 ^ (re_cache_size e - 1)) (re_low e).
Definition enc_cap (e : renc) : Z := (enc_O e + 1) * (256 * 256 ^ (re_cache_size e - 1)) * 4294967296.
Definition enc_digits (e : renc) : Z := zlen (re_out e) + re_cache_size e + 4.

(* invariant relative to an interval width R (R is re_range e except inside renc_finish) *)
Record renc_invR (e : renc) (R : Z) : Prop := mk_renc_invR {
  ir_low : 0 <= re_low e;
  ir_R : 0 < R;
  ir_sum : re_low e + R <= 8589934592;
  ir_cache : 0 <= re_cache e < 256;
  ir_size : 1 <= re_cache_size e;
  ir_out : bytes_ok (re_out e) = true;
  ir_cap : enc_V e + R <= enc_cap e
}.

Lemma renc_invR_weaken e R R' : renc_invR e R -> 0 < R' <= R -> renc_invR e R'.
Proof. intros [H1 H2 H3 H4 H5 H6 H7] HR. constructor; try assumption; lia. Qed.

Lemma emit_ff_len n c out : zlen (emit_ff n c out) = zlen out + Z.of_nat n.
Proof.
  revert out; induction n as [|k IH]; intros out; cbn [emit_ff]; [lia|].
  rewrite IH, zlen_cons. lia.
Qed.

Lemma emit_ff_ok n c out : bytes_ok out = true -> bytes_ok (emit_ff n c out) = true.
Proof.
  revert out; induction n as [|k IH]; intros out Hout; cbn [emit_ff]; [exact Hout|].
  apply IH. apply bytes_ok_cons. split; [|exact Hout]. unfold wrap8. (Z.div_mod_to_equations; lia).
Qed.

Lemma emit_ff_val n c out : c = 0 \/ c = 1 ->
  le_value (emit_ff n c out) = (le_value out + 1 - c) * 256 ^ Z.of_nat n - (1 - c).
Proof.
  intros Hc. revert out; induction n as [|k IH]; intros out; cbn [emit_ff].
  - change (Z.of_nat 0) with 0. lia.
  - rewrite IH. cbn [le_value]. rewrite Nat2Z.inj_succ, Z.pow_succ_r by lia.
    destruct Hc as [-> | ->]; [change (wrap8 (255 + 0)) with 255 | change (wrap8 (255 + 1)) with 0]; lia.
Qed.

(* no wrap-around happens in shift_low: it equals the same function over unbounded integers *)
Definition shift_low_exact (e : renc) : renc :=
  let low := re_low e in
  let low_hi := Z.shiftr low 32 in
  if negb (low_hi =? 0) || (low <? 4278190080) then
    let out1 := wrap8 (re_cache e + low_hi) :: re_out e in
    let out2 := emit_ff (Z.to_nat (re_cache_size e - 1)) low_hi out1 in
    mkRenc ((low mod P2_24) * 256) (re_range e) (wrap8 (Z.shiftr low 24)) 1 out2
  else
    mkRenc ((low mod P2_24) * 256) (re_range e) (re_cache e) (re_cache_size e + 1) (re_out e).

Lemma shift_low_nowrap e :
  0 <= re_low e < 8589934592 -> re_cache_size e + 1 < 4294967296 -> 0 <= re_cache_size e ->
  shift_low e = shift_low_exact e.
Proof.
  intros Hlow Hs Hs0. unfold shift_low, shift_low_exact.
  rewrite !shiftr_div by lia. change (2 ^ 32) with 4294967296. change (2 ^ 24) with 16777216.
  unfold wrap32, wrap64, P2_24. cbv zeta.
  rewrite (Z.mod_small (re_low e / 4294967296)) by (Z.div_mod_to_equations; lia).
  rewrite (Z.mod_small (re_low e mod 16777216 * 256)) by (Z.div_mod_to_equations; lia).
  rewrite (Z.mod_small (re_cache_size e + 1)) by lia.
  reflexivity.
Qed.

(* shift_low at value level: V is multiplied by 256, one more digit, invariant kept.
   Write low = 2^32 c + 2^24 q + r with carry c.  Either q is not 0xFF or there is a carry: then
   cache + c and the pending bytes 0xFF + c are written and q becomes the cache.  Or c = 0 and
   q = 0xFF: one more byte is pending. *)
Lemma shift_arith_emit O cache P low R R' c q r :
  0 < P -> 0 <= cache < 256 -> 0 <= O -> c = 0 \/ c = 1 ->
  low = 4294967296 * c + 16777216 * q + r -> 0 <= r < 16777216 -> 0 <= q < 256 ->
  16777216 * q + r + R <= 4294967296 -> 0 < R -> 0 < R' <= 256 * R ->
  Vof O cache P low + R <= (O + 1) * (256 * P) * 4294967296 ->
  cache + c < 256 /\
  let O' := (cache + c + 256 * O + 1 - c) * P - (1 - c) in
  Vof O' q 1 (r * 256) = 256 * Vof O cache P low /\
  Vof O' q 1 (r * 256) + R' <= (O' + 1) * (256 * 1) * 4294967296.
Proof.
  intros HP Hcache HO Hc Hlow Hr Hq Hfit HR HR' Hcap. subst low. unfold Vof in *.
  assert (Hc1 : cache + c < 256) by (destruct Hc as [-> | ->]; nia).
  split; [exact Hc1|]. cbv zeta. destruct Hc as [-> | ->]; split; lia.
Qed.

Lemma shift_arith_pend O cache P low R R' r :
  0 < P -> 0 <= cache < 256 -> low = 16777216 * 255 + r -> 0 <= r < 16777216 ->
  0 < R -> 0 < R' <= 256 * R ->
  Vof O cache P low + R <= (O + 1) * (256 * P) * 4294967296 ->
  Vof O cache (256 * P) (r * 256) = 256 * Vof O cache P low /\
  Vof O cache (256 * P) (r * 256) + R' <= (O + 1) * (256 * (256 * P)) * 4294967296.
Proof.
  intros HP Hc Hlow Hr HR HR' Hcap. subst low. unfold Vof in *. split; lia.
Qed.

Lemma pow256_pos n : 0 < 256 ^ n \/ n < 0.
Proof. destruct (Z.ltb_spec n 0); [right; assumption | left; apply Z.pow_pos_nonneg; lia]. Qed.

Lemma shift_low_ok e R R' :
  renc_invR e R -> R <= 16777216 -> re_cache_size e + 1 < 4294967296 -> 0 < R' <= 256 * R ->
  renc_invR (shift_low e) R' /\
  enc_V (shift_low e) = 256 * enc_V e /\
  enc_digits (shift_low e) = enc_digits e + 1 /\
  re_range (shift_low e) = re_range e /\
  re_low (shift_low e) = (re_low e * 256) mod 4294967296 /\
  1 <= re_cache_size (shift_low e) <= re_cache_size e + 1.
Proof.
  intros [Hlow HR Hsum Hcache Hsize Hout Hcap] HR24 Hs HR'.
  rewrite shift_low_nowrap by lia.
  destruct e as [low range cache s out].
  unfold enc_V, enc_cap, enc_O, enc_digits, shift_low_exact in *.
  cbn [re_low re_range re_cache re_cache_size re_out] in *.
  rewrite !shiftr_div by lia. change (2 ^ 32) with 4294967296. change (2 ^ 24) with 16777216.
  unfold P2_24, wrap8.
  set (c := low / 4294967296). set (q := low / 16777216 mod 256). set (r := low mod 16777216).
  assert (Hc : c = 0 \/ c = 1) by (unfold c; (Z.div_mod_to_equations; lia)).
  assert (Hq : 0 <= q < 256) by (unfold q; (Z.div_mod_to_equations; lia)).
  assert (Hr : 0 <= r < 16777216) by (unfold r; (Z.div_mod_to_equations; lia)).
  assert (Hdec : low = 4294967296 * c + 16777216 * q + r) by (unfold c, q, r; (Z.div_mod_to_equations; lia)).
  assert (Hlow' : r * 256 = low * 256 mod 4294967296) by (unfold r; (Z.div_mod_to_equations; lia)).
  assert (HP : 0 < 256 ^ (s - 1)) by (apply Z.pow_pos_nonneg; lia).
  pose proof (le_value_bound out Hout) as [HO _].
  assert (Hn : Z.of_nat (Z.to_nat (s - 1)) = s - 1) by (apply Z2Nat.id; lia).
  assert (Hcases : (negb (c =? 0) || (low <? 4278190080) = true /\ 16777216 * q + r + R <= 4294967296)
                   \/ (negb (c =? 0) || (low <? 4278190080) = false /\ low = 16777216 * 255 + r)).
  { destruct (Z.eqb_spec c 0), (Z.ltb_spec low 4278190080); cbn [negb orb]; lia. }
  clearbody c q r.
  destruct Hcases as [[-> Hfit] | [-> Hpend]]; cbn [re_low re_range re_cache re_cache_size re_out].
  - destruct (shift_arith_emit (le_value out) cache (256 ^ (s - 1)) low R R' c q r) as (Hc1 & HV & Hcp);
      try assumption.
    cbv zeta in HV, Hcp. rewrite (Z.mod_small (cache + c)) by lia.
    rewrite emit_ff_val, emit_ff_len, zlen_cons, Hn by exact Hc. cbn [le_value].
    change (256 ^ (1 - 1)) with 1.
    split; [|repeat split; try lia; exact HV].
    constructor; unfold enc_V, enc_cap, enc_O; cbn [re_low re_range re_cache re_cache_size re_out]; try lia.
    + apply emit_ff_ok. apply bytes_ok_cons. split; [lia | exact Hout].
    + rewrite emit_ff_val, Hn by exact Hc. cbn [le_value]. change (256 ^ (1 - 1)) with 1. exact Hcp.
  - replace (s + 1 - 1) with (Z.succ (s - 1)) by lia. rewrite Z.pow_succ_r by lia.
    destruct (shift_arith_pend (le_value out) cache (256 ^ (s - 1)) low R R' r) as [HV Hcp]; try lia.
    split; [|repeat split; try lia; exact HV].
    constructor; unfold enc_V, enc_cap, enc_O; cbn [re_low re_range re_cache re_cache_size re_out]; try lia.
    + exact Hout.
    + replace (s + 1 - 1) with (Z.succ (s - 1)) by lia. rewrite Z.pow_succ_r by lia. exact Hcp.
Qed.

(* [b] is [f] applied n times to [a].  A relation and not Nat.iter: comparing an iterate with the
   nested applications written out in renc_finish makes the kernel unfold shift_low at every level. *)
Inductive iterated {A : Type} (f : A -> A) : nat -> A -> A -> Prop :=
| iterated_O a : iterated f 0 a a
| iterated_S n a b : iterated f n a b -> iterated f (S n) a (f b).

Lemma shift_low_iter n : forall e e',
  iterated shift_low n e e' -> renc_invR e 1 -> re_cache_size e + Z.of_nat n < 4294967296 ->
  renc_invR e' 1 /\
  enc_V e' = 256 ^ Z.of_nat n * enc_V e /\
  enc_digits e' = enc_digits e + Z.of_nat n /\
  ((1 <= n)%nat -> re_low e' = (re_low e * 256 ^ Z.of_nat n) mod 4294967296) /\
  re_cache_size e' <= re_cache_size e + Z.of_nat n /\
  forall x, iterated shift_low_exact n e x -> e' = x.
Proof.
  induction n as [|k IH]; intros e e' Hit HI Hs; inversion Hit as [|k' a ek Hk]; subst.
  - change (256 ^ Z.of_nat 0) with 1.
    split; [exact HI|]. split; [lia|]. split; [lia|]. split; [lia|]. split; [lia|].
    intros x Hx. inversion Hx. reflexivity.
  - destruct (IH e ek Hk HI ltac:(lia)) as (Ik & Vk & Dk & Lk & Sk & Ek).
    destruct (shift_low_ok ek 1 1 Ik) as (I1 & V1 & D1 & _ & L1 & S1); try lia.
    rewrite Nat2Z.inj_succ, Z.pow_succ_r by lia.
    split; [exact I1|]. split; [lia|]. split; [lia|]. split; [|split; [lia|]].
    + intros _. rewrite L1. destruct k as [|j]; [inversion Hk; subst; f_equal; lia|].
      rewrite Lk, Z.mul_mod_idemp_l by lia. f_equal. ring.
    + intros x Hx. inversion Hx as [|k' a xk Hxk]; subst. rewrite <- (Ek xk Hxk).
      pose proof (ir_low _ _ Ik). pose proof (ir_sum _ _ Ik). pose proof (ir_size _ _ Ik).
      apply shift_low_nowrap; lia.
Qed.

(* invariants of encoder states: [renc_inv] between coding steps (range >= 2^24), [renc_inv1] after the
   interval has been narrowed and before renc_normalize *)
Definition renc_inv1 (e : renc) : Prop := renc_invR e (re_range e) /\ 65536 <= re_range e < 4294967296.
Definition renc_inv (e : renc) : Prop := renc_invR e (re_range e) /\ 16777216 <= re_range e < 4294967296.

Lemma renc_inv_inv1 e : renc_inv e -> renc_inv1 e.
Proof. intros [H1 H2]. split; [exact H1 | lia]. Qed.

Lemma renc_inv_init : renc_inv renc_init.
Proof.
  split; [|cbn; lia]. constructor; unfold enc_V, enc_cap, enc_O, Vof; cbn; try lia; try reflexivity.
Qed.

Lemma enc_V_init : enc_V renc_init = 0.
Proof. reflexivity. Qed.

Lemma enc_digits_init : enc_digits renc_init = 5.
Proof. reflexivity. Qed.

Definition set_range (e : renc) (r : Z) : renc :=
  mkRenc (re_low e) r (re_cache e) (re_cache_size e) (re_out e).

Lemma renc_invR_set_range e r R : renc_invR e R -> renc_invR (set_range e r) R.
Proof. intros [H1 H2 H3 H4 H5 H6 H7]. constructor; assumption. Qed.

Lemma renc_normalize_small e :
  0 <= re_range e < 16777216 -> renc_normalize e = shift_low (set_range e (re_range e * 256)).
Proof.
  intros Hr. unfold renc_normalize. rewrite top_mask_zero by lia.
  replace (re_range e <? 16777216) with true by (symmetry; apply Z.ltb_lt; lia).
  unfold wrap32. rewrite Z.mod_small by lia. reflexivity.
Qed.

Lemma renc_normalize_big e :
  16777216 <= re_range e < 4294967296 -> renc_normalize e = e.
Proof.
  intros Hr. unfold renc_normalize. rewrite top_mask_zero by lia.
  replace (re_range e <? 16777216) with false by (symmetry; apply Z.ltb_ge; lia). reflexivity.
Qed.

Lemma renc_normalize_ok e :
  renc_inv1 e -> re_cache_size e + 1 < 4294967296 ->
  renc_inv (renc_normalize e) /\
  1 <= re_cache_size (renc_normalize e) <= re_cache_size e + 1 /\
  ((re_range e < 16777216 /\ enc_V (renc_normalize e) = 256 * enc_V e /\
    re_range (renc_normalize e) = 256 * re_range e /\
    enc_digits (renc_normalize e) = enc_digits e + 1)
   \/ (16777216 <= re_range e /\ renc_normalize e = e)).
Proof.
  intros [HI Hr] Hs.
  destruct (Z.ltb_spec (re_range e) 16777216) as [Hlt|Hge].
  - rewrite renc_normalize_small by lia.
    destruct (shift_low_ok (set_range e (re_range e * 256)) (re_range e) (re_range e * 256))
      as (H1 & H2 & H3 & H4 & H5 & H6); try lia.
    { apply renc_invR_set_range. exact HI. }
    { exact Hs. }
    cbn [set_range re_range re_cache_size] in H4, H6.
    split; [split; [rewrite H4; exact H1 | rewrite H4; lia]|].
    split; [exact H6|]. left. repeat split; try lia.
    + exact H2.
    + exact H3.
  - rewrite renc_normalize_big by lia.
    split; [split; [exact HI | lia]|]. pose proof (ir_size _ _ HI). split; [lia|]. right. split; [lia | reflexivity].
Qed.

(* one narrowing step: the lower end moves up by off, the width becomes R1 *)
Definition enc_step (e : renc) (off R1 : Z) : renc :=
  mkRenc (re_low e + off) R1 (re_cache e) (re_cache_size e) (re_out e).

Lemma enc_step_ok e off R1 :
  renc_invR e (re_range e) -> 0 <= off -> 0 < R1 -> off + R1 <= re_range e ->
  renc_invR (enc_step e off R1) R1 /\ enc_V (enc_step e off R1) = enc_V e + off /\
  enc_digits (enc_step e off R1) = enc_digits e /\
  re_cache_size (enc_step e off R1) = re_cache_size e.
Proof.
  intros [H1 H2 H3 H4 H5 H6 H7] Hoff HR1 Hsum.
  assert (HV : enc_V (enc_step e off R1) = enc_V e + off).
  { unfold enc_V, enc_step, enc_O, Vof. cbn [re_low re_range re_cache re_cache_size re_out]. lia. }
  split; [|repeat split; [exact HV]].
  constructor; try rewrite HV; unfold enc_cap, enc_O, enc_step in *;
    cbn [re_low re_range re_cache re_cache_size re_out] in *; try lia; assumption.
Qed.

(* every coding step is a narrowing followed by the normalisation *)
Definition rstep (e : renc) (off R1 : Z) : renc := renc_normalize (enc_step e off R1).

(* encode_bit = narrow, then normalise; no u32/u64 overflow *)
Definition bit_off (r p bit : Z) : Z := if bit =? 0 then 0 else r / 2048 * p.
Definition bit_width (r p bit : Z) : Z := if bit =? 0 then r / 2048 * p else r - r / 2048 * p.

Lemma encode_bit_eq e t k bit :
  renc_inv e -> probs_ok t ->
  encode_bit e t k bit =
    (rstep e (bit_off (re_range e) (prob_get t k) bit) (bit_width (re_range e) (prob_get t k) bit),
     prob_set t k (prob_update_enc (prob_get t k) bit)).
Proof.
  intros [HI Hr] Ht. pose proof (probs_ok_get t k Ht) as Hp. apply prob_ok_iff in Hp.
  pose proof (bound_facts (re_range e) (prob_get t k) Hr Hp) as Hb. cbv zeta in Hb.
  pose proof (ir_low _ _ HI) as Hlow. pose proof (ir_sum _ _ HI) as Hsum.
  unfold encode_bit, bit_off, bit_width, rstep, enc_step. rewrite shiftr_div by lia. change (2 ^ 11) with 2048.
  unfold wrap32, wrap64. rewrite (Z.mod_small (re_range e / 2048 * prob_get t k)) by lia.
  destruct (bit =? 0).
  - rewrite Z.add_0_r. reflexivity.
  - rewrite !Z.mod_small by lia. reflexivity.
Qed.

Lemma bit_step_bounds r p bit :
  16777216 <= r < 4294967296 -> 31 <= p <= 2017 ->
  0 <= bit_off r p bit /\ 65536 <= bit_width r p bit < 4294967296 /\ bit_off r p bit + bit_width r p bit <= r.
Proof.
  intros Hr Hp. pose proof (bound_facts r p Hr Hp) as Hb. cbv zeta in Hb.
  unfold bit_off, bit_width. destruct (bit =? 0); lia.
Qed.

(* encode_direct_bits: one bit *)
Definition dir_off (r b : Z) : Z := if b =? 1 then r / 2 else 0.

Lemma encode_direct_bits_S e v c :
  renc_inv e ->
  encode_direct_bits e v (S c) =
    encode_direct_bits (rstep e (dir_off (re_range e) (Z.land (Z.shiftr v (Z.of_nat c)) 1)) (re_range e / 2)) v c.
Proof.
  intros [HI Hr]. pose proof (ir_low _ _ HI) as Hlow. pose proof (ir_sum _ _ HI) as Hsum.
  cbn [encode_direct_bits]. rewrite (shiftr_div (re_range e) 1) by lia. change (2 ^ 1) with 2.
  unfold dir_off, rstep, enc_step, wrap64.
  destruct (Z.land (Z.shiftr v (Z.of_nat c)) 1 =? 1).
  - rewrite Z.mod_small by (Z.div_mod_to_equations; lia). reflexivity.
  - rewrite Z.add_0_r. reflexivity.
Qed.

Lemma dir_step_bounds r b :
  16777216 <= r < 4294967296 ->
  0 <= dir_off r b /\ 65536 <= r / 2 < 4294967296 /\ dir_off r b + r / 2 <= r.
Proof. intros Hr. unfold dir_off. destruct (b =? 1); (Z.div_mod_to_equations; lia). Qed.

Lemma shift_low_zero e :
  re_low e = 0 -> 0 <= re_cache_size e -> re_cache_size e + 1 < 4294967296 ->
  re_low (shift_low e) = 0 /\ re_cache (shift_low e) = 0 /\ re_cache_size (shift_low e) = 1.
Proof.
  intros H0 Hs0 Hs. rewrite shift_low_nowrap by lia. unfold shift_low_exact. rewrite H0. repeat split.
Qed.

(* once low is 0, one more shift flushes the cache and the pending bytes: the output is the numeral *)
Lemma shift_low_flush e V D :
  renc_invR e 1 -> re_low e = 0 -> re_cache_size e + 1 < 4294967296 ->
  enc_V e = 4294967296 * V -> enc_digits e = D + 4 ->
  bytes_ok (renc_bytes (shift_low e)) = true /\
  zlen (renc_bytes (shift_low e)) = D /\
  be_val (renc_bytes (shift_low e)) = V /\
  re_low (shift_low e) = 0 /\ re_cache (shift_low e) = 0 /\ re_cache_size (shift_low e) = 1.
Proof.
  intros HI Hl Hs HV HD. pose proof (ir_size _ _ HI) as Hs1.
  destruct (shift_low_ok e 1 1 HI) as (I5 & V5 & D5 & _); try lia.
  destruct (shift_low_zero e Hl) as (L5 & C5 & S5); try lia.
  unfold enc_V at 1 in V5. unfold enc_O, Vof in V5. unfold enc_digits at 1 in D5.
  rewrite L5, C5, S5 in V5. rewrite S5 in D5. change (256 ^ (1 - 1)) with 1 in V5.
  unfold renc_bytes, be_val. rewrite frev_rev, bytes_ok_rev, zlen_rev, rev_involutive.
  split; [exact (ir_out _ _ I5)|]. split; [lia|]. split; [lia|]. split; [exact L5|]. split; [exact C5 | exact S5].
Qed.

(* four shifts push the 32 bits of low out *)
Lemma renc_finish_ok e R :
  renc_invR e R -> re_cache_size e + 5 < 4294967296 ->
  bytes_ok (renc_bytes (renc_finish e)) = true /\
  zlen (renc_bytes (renc_finish e)) = enc_digits e /\
  be_val (renc_bytes (renc_finish e)) = enc_V e /\
  re_low (renc_finish e) = 0 /\ re_cache (renc_finish e) = 0 /\ re_cache_size (renc_finish e) = 1.
Proof.
  intros HI Hs. apply (renc_invR_weaken e R 1) in HI; [|pose proof (ir_R _ _ HI); lia].
  destruct (shift_low_iter 4 e (shift_low (shift_low (shift_low (shift_low e)))))
    as (I4 & V4 & D4 & L4 & S4 & _); [repeat constructor | exact HI | lia |].
  unfold renc_finish. apply shift_low_flush; [exact I4 | | lia | exact V4 | exact D4].
  rewrite L4 by lia. apply Z.mod_mul. lia.
Qed.

(* future containment: the final output, read as a numeral, lies in the interval of the state *)
Definition renc_fut (out : list Z) (e : renc) : Prop :=
  enc_digits e <= zlen out /\
  enc_V e * 256 ^ (zlen out - enc_digits e) <= be_val out
    < (enc_V e + re_range e) * 256 ^ (zlen out - enc_digits e).

Lemma renc_fut_finish e :
  renc_invR e (re_range e) -> re_cache_size e + 5 < 4294967296 ->
  renc_fut (renc_bytes (renc_finish e)) e.
Proof.
  intros HI Hs. destruct (renc_finish_ok e _ HI Hs) as (_ & Hlen & Hval & _).
  pose proof (ir_R _ _ HI) as HR.
  unfold renc_fut. rewrite Hlen, Hval, Z.sub_diag. change (256 ^ 0) with 1. lia.
Qed.

Lemma renc_fut_step_back out e off R1 :
  renc_fut out (enc_step e off R1) -> renc_invR e (re_range e) ->
  0 <= off -> 0 < R1 -> off + R1 <= re_range e -> renc_fut out e.
Proof.
  intros [Hd Hc] HI Hoff HR1 Hsum.
  destruct (enc_step_ok e off R1 HI Hoff HR1 Hsum) as (_ & HV & HD & _).
  rewrite HV, HD in *. cbn [enc_step re_range] in Hc.
  split; [exact Hd|].
  assert (HM : 0 < 256 ^ (zlen out - enc_digits e)) by (apply Z.pow_pos_nonneg; lia).
  set (M := 256 ^ (zlen out - enc_digits e)) in *. nia.
Qed.

Lemma renc_fut_norm_back out e :
  renc_fut out (renc_normalize e) -> renc_inv1 e -> re_cache_size e + 1 < 4294967296 -> renc_fut out e.
Proof.
  intros [Hd Hc] HI Hs.
  destruct (renc_normalize_ok e HI Hs) as (_ & _ & [(Hlt & HV & HR & HD) | (Hge & Heq)]).
  - rewrite HV, HR, HD in *. split; [lia|].
    replace (zlen out - enc_digits e) with (Z.succ (zlen out - (enc_digits e + 1))) by lia.
    rewrite Z.pow_succ_r by lia.
    set (M := 256 ^ (zlen out - (enc_digits e + 1))) in *. lia.
  - rewrite Heq in *. split; assumption.
Qed.

Lemma rstep_ok e off R1 :
  renc_inv e -> 0 <= off -> 65536 <= R1 < 4294967296 -> off + R1 <= re_range e ->
  re_cache_size e + 1 < 4294967296 ->
  renc_inv (rstep e off R1) /\ re_cache_size (rstep e off R1) <= re_cache_size e + 1 /\
  forall out, renc_fut out (rstep e off R1) -> renc_fut out e.
Proof.
  intros [HI Hr] Hoff HR1 Hsum Hs. unfold rstep.
  destruct (enc_step_ok e off R1 HI Hoff ltac:(lia) Hsum) as (I1 & _ & _ & S1).
  assert (HI1 : renc_inv1 (enc_step e off R1)) by (split; [exact I1 | exact HR1]).
  destruct (renc_normalize_ok _ HI1 ltac:(lia)) as (I2 & S2 & _).
  split; [exact I2|]. split; [lia|]. intros out Hf.
  apply (renc_fut_step_back out e off R1); [|exact HI | exact Hoff | lia | exact Hsum].
  apply renc_fut_norm_back; [exact Hf | exact HI1 | lia].
Qed.

Definition ev_ok (ev : event) : bool :=
  match ev with
  | EBit k b => (b =? 0) || (b =? 1)
  | EDirect n v => (Nat.leb 1 n) && (Nat.leb n 32) && (0 <=? v) && (v <? Z.shiftl 1 (Z.of_nat n))
  end.

Definition ev_bits (ev : event) : Z :=
  match ev with EBit _ _ => 1 | EDirect n _ => Z.of_nat n end.
Fixpoint events_bits (evs : list event) : Z :=
  match evs with [] => 0 | ev :: r => ev_bits ev + events_bits r end.

Lemma ev_bits_nonneg ev : 0 <= ev_bits ev.
Proof. destruct ev; cbn [ev_bits]; lia. Qed.

Lemma events_bits_nonneg evs : 0 <= events_bits evs.
Proof. induction evs as [|ev r IH]; cbn [events_bits]; [lia | pose proof (ev_bits_nonneg ev); lia]. Qed.

Lemma events_bits_app a b : events_bits (a ++ b) = events_bits a + events_bits b.
Proof. induction a as [|ev r IH]; cbn [app events_bits]; lia. Qed.

Lemma renc_events_app a b e t :
  renc_events e t (a ++ b) = renc_events (fst (renc_events e t a)) (snd (renc_events e t a)) b.
Proof.
  revert e t; induction a as [|ev r IH]; intros e t; [reflexivity|].
  cbn [app renc_events]. destruct ev as [k bit | n v].
  - destruct (encode_bit e t k bit) as [e1 t1]. apply IH.
  - apply IH.
Qed.

Lemma encode_bit_ok e t k bit :
  renc_inv e -> probs_ok t -> bit = 0 \/ bit = 1 -> re_cache_size e + 1 < 4294967296 ->
  renc_inv (fst (encode_bit e t k bit)) /\ probs_ok (snd (encode_bit e t k bit)) /\
  re_cache_size (fst (encode_bit e t k bit)) <= re_cache_size e + 1 /\
  forall out, renc_fut out (fst (encode_bit e t k bit)) -> renc_fut out e.
Proof.
  intros HI Ht Hbit Hs. rewrite encode_bit_eq by assumption. cbn [fst snd].
  pose proof (probs_ok_get t k Ht) as Hp.
  pose proof (bit_step_bounds (re_range e) (prob_get t k) bit (proj2 HI) (proj1 (prob_ok_iff _) Hp))
    as (Ho & Hw & Hsum).
  destruct (rstep_ok e _ _ HI Ho Hw Hsum Hs) as (I2 & S2 & F2).
  split; [exact I2|]. split; [|split; [exact S2 | exact F2]].
  apply probs_ok_set; [exact Ht|]. apply prob_update_twins; assumption.
Qed.

Lemma encode_direct_bits_ok n : forall e v,
  renc_inv e -> re_cache_size e + Z.of_nat n < 4294967296 ->
  renc_inv (encode_direct_bits e v n) /\
  re_cache_size (encode_direct_bits e v n) <= re_cache_size e + Z.of_nat n /\
  forall out, renc_fut out (encode_direct_bits e v n) -> renc_fut out e.
Proof.
  induction n as [|c IH]; intros e v HI Hs.
  - cbn [encode_direct_bits]. split; [exact HI|]. split; [lia|]. intros out Hf; exact Hf.
  - rewrite encode_direct_bits_S by exact HI.
    pose proof (dir_step_bounds (re_range e) (Z.land (Z.shiftr v (Z.of_nat c)) 1) (proj2 HI)) as (Ho & Hw & Hsum).
    destruct (rstep_ok e _ _ HI Ho Hw Hsum ltac:(lia)) as (I2 & S2 & F2).
    destruct (IH _ v I2 ltac:(lia)) as (I3 & S3 & F3).
    split; [exact I3|]. split; [lia|]. intros out Hf. apply F2, F3, Hf.
Qed.

Lemma ev_ok_bit k b : ev_ok (EBit k b) = true -> b = 0 \/ b = 1.
Proof. cbn [ev_ok]. rewrite orb_true_iff, !Z.eqb_eq. tauto. Qed.

Lemma renc_events_ok evs : forall e t,
  renc_inv e -> probs_ok t -> forallb ev_ok evs = true ->
  re_cache_size e + events_bits evs < 4294967296 ->
  renc_inv (fst (renc_events e t evs)) /\ probs_ok (snd (renc_events e t evs)) /\
  re_cache_size (fst (renc_events e t evs)) <= re_cache_size e + events_bits evs /\
  forall out, renc_fut out (fst (renc_events e t evs)) -> renc_fut out e.
Proof.
  induction evs as [|ev r IH]; intros e t HI Ht Hok Hs.
  - cbn [renc_events fst snd events_bits].
    split; [exact HI|]. split; [exact Ht|]. split; [lia|]. intros out Hf; exact Hf.
  - cbn [forallb] in Hok. apply andb_true_iff in Hok as [Hev Hok].
    cbn [events_bits] in Hs. pose proof (events_bits_nonneg r) as Hnn.
    cbn [renc_events events_bits]. destruct ev as [k bit | n v].
    + cbn [ev_bits] in *.
      destruct (encode_bit_ok e t k bit HI Ht (ev_ok_bit _ _ Hev) ltac:(lia)) as (I1 & T1 & S1 & F1).
      destruct (encode_bit e t k bit) as [e1 t1]. cbn [fst snd] in *.
      destruct (IH e1 t1 I1 T1 Hok ltac:(lia)) as (I2 & T2 & S2 & F2).
      split; [exact I2|]. split; [exact T2|]. split; [lia|]. intros out Hf. apply F1, F2, Hf.
    + cbn [ev_bits] in *.
      destruct (encode_direct_bits_ok n e v HI ltac:(lia)) as (I1 & S1 & F1).
      destruct (IH (encode_direct_bits e v n) t I1 Ht Hok ltac:(lia)) as (I2 & T2 & S2 & F2).
      split; [exact I2|]. split; [exact T2|]. split; [lia|]. intros out Hf. apply F1, F2, Hf.
Qed.

(* the complete output of a run that starts in state e
(a notation, not a definition: a constant here makes the kernel unfold renc_bytes/shift_low first when
   it compares the folded with the unfolded form, which takes minutes) *)
Notation renc_output e t evs := (renc_bytes (renc_finish (fst (renc_events e t evs)))) (only parsing).

Lemma renc_output_fut e t evs :
  renc_inv e -> probs_ok t -> forallb ev_ok evs = true ->
  re_cache_size e + events_bits evs + 5 < 4294967296 ->
  renc_fut (renc_output e t evs) e.
Proof.
  intros HI Ht Hok Hs. pose proof (events_bits_nonneg evs) as Hnn.
  destruct (renc_events_ok evs e t HI Ht Hok ltac:(lia)) as (I1 & _ & S1 & F1).
  apply F1. apply renc_fut_finish; [exact (proj1 I1) | lia].
Qed.
