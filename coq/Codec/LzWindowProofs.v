(* Codec/LzWindowProofs.v — the cyclic dictionary buffer refines a plain history list.
   [hist] is everything written since the last dictionary reset, newest byte first. *)
From LzVerif Require Import Base.Bytes Codec.Store Codec.LzWindow.

(* index of the byte at distance d behind the write position: the formula of get_byte / repeat *)
Definition widx (w : lzwin) (d : Z) : Z :=
  if w_pos w <=? d then w_size w + w_pos w - d - 1 else w_pos w - d - 1.

Definition hprev (hist : list Z) : Z := hnth hist 0.

Record Rel (w : lzwin) (hist : list Z) : Prop := mkRel {
  r_size : 0 < w_size w /\ w_size w mod 16 = 0;
  r_pos : 0 <= w_start w <= w_pos w /\ w_pos w <= w_size w;
  r_full : w_full w = Z.min (zlen hist) (w_size w) /\ w_pos w <= w_full w /\ (zlen hist < w_size w -> w_pos w = zlen hist);
  r_limit : w_limit w <= w_size w;
  r_mod : w_pos w mod 16 = zlen hist mod 16;
  r_cells : forall d, 0 <= d < w_full w -> bget w (widx w d) = hnth hist d;
  r_empty : zlen hist = 0 -> bget w (w_size w - 1) = 0;
  r_pending : 0 <= w_pending_len w
}.

Lemma Rel_bounds w hist : Rel w hist ->
  0 < w_size w /\ 0 <= w_start w <= w_pos w /\ w_pos w <= w_full w <= w_size w /\
  w_full w = Z.min (zlen hist) (w_size w) /\ w_limit w <= w_size w /\ 0 <= w_pending_len w.
Proof. intros [[Hs _] [Hp Hp2] [Hf [Hpf _]] Hl _ _ _ Hpe]. lia. Qed.

Lemma hnth_cons_0 x l : hnth (x :: l) 0 = x.
Proof. reflexivity. Qed.

Lemma hnth_cons_S x l d : 1 <= d -> hnth (x :: l) d = hnth l (d - 1).
Proof.
  intros H. unfold hnth, zth. destruct (Z.ltb_spec d 0); [lia|]. destruct (Z.ltb_spec (d - 1) 0); [lia|].
  replace (Z.to_nat d) with (S (Z.to_nat (d - 1))) by lia. reflexivity.
Qed.

(* get_byte agrees with the history for every distance inside the dictionary *)
Lemma get_byte_rel w hist d :
  Rel w hist -> 0 <= d < w_full w -> lzwin_get_byte w d = Ok (hnth hist d).
Proof.
  intros R Hd. destruct R as [[Hs _] [Hp Hp2] [Hf [Hpf Hnw]] _ _ Hc _ _].
  unfold lzwin_get_byte. fold (widx w d).
  assert (Hr : 0 <= widx w d < w_size w).
  { unfold widx. destruct (Z.leb_spec (w_pos w) d); lia. }
  destruct (Z.ltb_spec (widx w d) 0); [lia|]. destruct (Z.leb_spec (w_size w) (widx w d)); [lia|].
  cbn [orb]. rewrite Hc by assumption. reflexivity.
Qed.

(* the byte before the write position, 0 at the very start (buf[buf_size - 1] = 0) *)
Lemma get_prev_rel w hist :
  Rel w hist -> lzwin_get_byte w 0 = Ok (hprev hist).
Proof.
  intros R. destruct (Z.eq_dec (zlen hist) 0) as [He|Hne].
  - destruct R as [[Hs _] [Hp Hp2] [Hf [Hpf Hnw]] _ _ _ Hem _].
    assert (w_pos w = 0) by lia.
    unfold lzwin_get_byte. destruct (Z.leb_spec (w_pos w) 0); [|lia].
    replace (w_size w + w_pos w - 0 - 1) with (w_size w - 1) by lia.
    destruct (Z.ltb_spec (w_size w - 1) 0); [lia|]. destruct (Z.leb_spec (w_size w) (w_size w - 1)); [lia|].
    cbn [orb]. rewrite Hem by assumption.
    destruct hist; [reflexivity | rewrite zlen_cons in He; pose proof (zlen_nonneg hist); lia].
  - apply get_byte_rel; [assumption|]. destruct R as [[Hs _] _ [Hf [_ _]] _ _ _ _ _].
    pose proof (zlen_nonneg hist). lia.
Qed.

Lemma bget_aset_same w i x : bget (set_buf w (aset (w_buf w) i x)) i = x.
Proof. unfold bget, set_buf; cbn [w_buf]. apply agss. Qed.

(* put_byte appends to the history *)
Lemma put_byte_rel w hist b :
  Rel w hist -> w_pos w < w_size w ->
  exists w', lzwin_put_byte w b = Ok w' /\ Rel w' (b :: hist) /\
             w_start w' = w_start w /\ w_limit w' = w_limit w /\ w_pos w' = w_pos w + 1 /\
             w_size w' = w_size w /\ w_pending_len w' = w_pending_len w /\ w_pending_dist w' = w_pending_dist w.
Proof.
  intros R Hlt. destruct R as [[Hs Hs16] [Hp Hp2] [Hf [Hpf Hnw]] Hl Hm Hc Hem Hpe].
  unfold lzwin_put_byte.
  destruct (Z.ltb_spec (w_pos w) 0); [lia|]. destruct (Z.leb_spec (w_size w) (w_pos w)); [lia|]. cbn [orb].
  eexists. split; [reflexivity|]. split; [|cbn; repeat split; reflexivity].
  pose proof (zlen_nonneg hist) as Hz.
  constructor; cbn [w_size w_start w_pos w_full w_limit w_pending_len w_buf]; try rewrite zlen_cons.
  - split; assumption.
  - lia.
  - lia.
  - assumption.
  - (Z.div_mod_to_equations; lia).
  - intros d Hd. unfold widx, bget; cbn [w_pos w_size w_buf].
    destruct (Z.eq_dec d 0) as [->|Hd0].
    + destruct (Z.leb_spec (w_pos w + 1) 0); [lia|].
      replace (w_pos w + 1 - 0 - 1) with (w_pos w) by lia. rewrite agss. reflexivity.
    + rewrite hnth_cons_S by lia.
      assert (Hd' : 0 <= d - 1 < w_full w) by lia.
      specialize (Hc (d - 1) Hd'). unfold widx, bget in Hc.
      destruct (Z.leb_spec (w_pos w + 1) d); destruct (Z.leb_spec (w_pos w) (d - 1)); try lia.
      * rewrite agso by lia. replace (w_size w + (w_pos w + 1) - d - 1) with (w_size w + w_pos w - (d - 1) - 1) by lia.
        exact Hc.
      * rewrite agso by lia. replace (w_pos w + 1 - d - 1) with (w_pos w - (d - 1) - 1) by lia. exact Hc.
  - lia.
  - assumption.
Qed.

(* spec of a match copy on the history: each new byte repeats the one at distance dist *)
Fixpoint hcopy (hist : list Z) (dist : Z) (n : nat) : list Z :=
  match n with
  | O => hist
  | S k => hcopy (hnth hist dist :: hist) dist k
  end.

Lemma hcopy_length hist dist n : zlen (hcopy hist dist n) = zlen hist + Z.of_nat n.
Proof.
  revert hist; induction n as [|k IH]; intros hist; cbn [hcopy]; [lia|].
  rewrite IH, zlen_cons. lia.
Qed.

(* the copy loop of repeat(): n bytes, n <= room in the buffer *)
Lemma copy_match_rel n : forall w hist dist,
  Rel w hist -> 0 <= dist < w_full w -> w_pos w + Z.of_nat n <= w_size w ->
  let '(buf, pos) := copy_match (w_buf w) (w_size w) (w_pos w) dist n in
  pos = w_pos w + Z.of_nat n /\
  Rel (mkLzwin buf (w_size w) (w_start w) pos (Z.max (w_full w) pos) (w_limit w) (w_pending_len w) (w_pending_dist w))
      (hcopy hist dist n).
Proof.
  induction n as [|k IH]; intros w hist dist R Hd Hroom.
  - cbn [copy_match hcopy]. split; [lia|].
    destruct R as [A B [C1 [C2 C3]] D E F G H].
    replace (Z.max (w_full w) (w_pos w)) with (w_full w) by lia.
    destruct w; constructor; cbn in *; auto.
  - cbn [copy_match hcopy].
    assert (Hlt : w_pos w < w_size w) by lia.
    pose proof (get_byte_rel w hist dist R Hd) as Hg. unfold lzwin_get_byte in Hg.
    fold (widx w dist) in Hg.
    assert (Hsrc : aget 0 (w_buf w) (if w_pos w <=? dist then w_size w + w_pos w - dist - 1 else w_pos w - dist - 1) = hnth hist dist).
    { destruct R as [[Hs _] [Hp Hp2] [Hf [Hpf Hnw]] _ _ Hc _ _]. apply (Hc dist Hd). }
    rewrite Hsrc.
    destruct (put_byte_rel w hist (hnth hist dist) R Hlt) as (w' & Hput & R' & Hst & Hli & Hpo & Hsz & Hpl & Hpd).
    unfold lzwin_put_byte in Hput.
    destruct (Z.ltb_spec (w_pos w) 0); [destruct R as [_ [? ?] _ _ _ _ _ _]; lia|].
    destruct (Z.leb_spec (w_size w) (w_pos w)); [lia|]. cbn [orb] in Hput. inversion Hput as [Hw']; clear Hput.
    assert (Hd' : 0 <= dist < w_full w').
    { rewrite <- Hw'. cbn [w_full]. lia. }
    assert (Hroom' : w_pos w' + Z.of_nat k <= w_size w') by (rewrite Hpo, Hsz; lia).
    specialize (IH w' (hnth hist dist :: hist) dist R' Hd' Hroom').
    rewrite <- Hw' in IH. cbn [w_buf w_size w_pos w_start w_full w_limit w_pending_len w_pending_dist] in IH.
    destruct (copy_match (aset (w_buf w) (w_pos w) (hnth hist dist)) (w_size w) (w_pos w + 1) dist k) as [buf pos].
    destruct IH as [Hpos Hrel]. split; [lia|].
    replace (Z.max (Z.max (w_full w) (w_pos w + 1)) pos) with (Z.max (w_full w) pos) in Hrel by lia.
    exact Hrel.
Qed.

Lemma rev_firstn_S k : forall l, (S k <= length l)%nat ->
  rev (firstn (S k) l) = hnth l (Z.of_nat k) :: rev (firstn k l).
Proof.
  induction k as [|j IH]; intros l Hlen.
  - destruct l as [|x t]; [cbn in Hlen; lia|]. reflexivity.
  - destruct l as [|x t]; [cbn in Hlen; lia|]. cbn [length] in Hlen.
    change (firstn (S (S j)) (x :: t)) with (x :: firstn (S j) t).
    change (firstn (S j) (x :: t)) with (x :: firstn j t).
    cbn [rev]. rewrite (IH t) by lia.
    rewrite hnth_cons_S by lia. replace (Z.of_nat (S j) - 1) with (Z.of_nat j) by lia.
    reflexivity.
Qed.

(* reading the cells start..pos returns the newest pos-start bytes, oldest first *)
Lemma aget_list_rel n : forall w hist i,
  Rel w hist -> 0 <= i -> i + Z.of_nat n = w_pos w ->
  aget_list (w_buf w) i n = rev (firstn n hist).
Proof.
  induction n as [|k IH]; intros w hist i R Hi Hsum; [reflexivity|].
  cbn [aget_list].
  destruct R as [[Hs Hs16] [Hp Hp2] [Hf [Hpf Hnw]] Hl Hm Hc Hem Hpe].
  pose proof (zlen_nonneg hist) as Hz.
  assert (Hk : Z.of_nat (S k) <= zlen hist) by lia.
  (* cell i holds the byte at distance k *)
  assert (Hcell : aget 0 (w_buf w) i = hnth hist (Z.of_nat k)).
  { assert (Hd : 0 <= Z.of_nat k < w_full w) by lia.
    specialize (Hc _ Hd). unfold widx, bget in Hc.
    destruct (Z.leb_spec (w_pos w) (Z.of_nat k)); [lia|].
    replace (w_pos w - Z.of_nat k - 1) with i in Hc by lia. exact Hc. }
  rewrite Hcell.
  assert (Hrest : aget_list (w_buf w) (i + 1) k = rev (firstn k hist)).
  { apply (IH w hist (i + 1)); [constructor; auto | lia | lia]. }
  rewrite Hrest.
  rewrite rev_firstn_S; [reflexivity|]. unfold zlen in Hk. lia.
Qed.

(* the pending fields do not matter for the contents *)
Lemma Rel_set_pending w hist pl pd :
  Rel w hist -> 0 <= pl ->
  Rel (mkLzwin (w_buf w) (w_size w) (w_start w) (w_pos w) (w_full w) (w_limit w) pl pd) hist.
Proof.
  intros [A B C D E F G H] Hpl. constructor; cbn [w_buf w_size w_start w_pos w_full w_limit w_pending_len]; auto.
Qed.

(* repeat(dist, len): rejects a distance outside the dictionary, otherwise copies
   min(limit - pos, len) bytes and leaves the rest pending *)
Lemma repeat_err w hist dist len :
  Rel w hist -> w_full w <= dist -> lzwin_repeat w dist len = Err E_OTHER.
Proof. intros _ H. unfold lzwin_repeat. destruct (Z.leb_spec (w_full w) dist); [reflexivity | lia]. Qed.

Lemma repeat_rel w hist dist len :
  Rel w hist -> w_pos w <= w_limit w -> 0 <= dist < w_full w -> 0 <= len ->
  let m := Z.min (w_limit w - w_pos w) len in
  exists w', lzwin_repeat w dist len = Ok w' /\ Rel w' (hcopy hist dist (Z.to_nat m)) /\
             w_pending_len w' = len - m /\ w_pending_dist w' = dist /\
             w_start w' = w_start w /\ w_limit w' = w_limit w /\ w_size w' = w_size w /\
             w_pos w' = w_pos w + m.
Proof.
  intros R Hpl Hd Hlen m. unfold lzwin_repeat.
  destruct (Z.leb_spec (w_full w) dist); [lia|].
  destruct (Z.ltb_spec (w_limit w) (w_pos w)); [lia|].
  fold m.
  assert (Hm : 0 <= m) by (unfold m; lia).
  assert (Hroom : w_pos w + Z.of_nat (Z.to_nat m) <= w_size w).
  { destruct R as [_ _ _ Hl _ _ _ _]. unfold m. lia. }
  pose proof (copy_match_rel (Z.to_nat m) w hist dist R Hd Hroom) as Hc.
  destruct (copy_match (w_buf w) (w_size w) (w_pos w) dist (Z.to_nat m)) as [buf pos].
  destruct Hc as [Hpos Hrel].
  eexists. split; [reflexivity|].
  split.
  - apply (Rel_set_pending _ _ (len - m) dist) in Hrel; [|unfold m; lia].
    cbn [w_buf w_size w_start w_pos w_full w_limit] in Hrel. exact Hrel.
  - cbn [w_pending_len w_pending_dist w_start w_limit w_size w_pos]. repeat split; lia.
Qed.

(* set_limit keeps the contents *)
Lemma set_limit_rel w hist n : Rel w hist -> 0 <= n -> Rel (lzwin_set_limit w n) hist /\ w_pos w <= w_limit (lzwin_set_limit w n).
Proof.
  intros R Hn. destruct R as [A [B1 B2] C D E F G H]. unfold lzwin_set_limit.
  split; [constructor; cbn; auto; lia | cbn; lia].
Qed.

(* flush(): hands out the bytes produced since the last flush, oldest first *)
Lemma flush_rel w hist :
  Rel w hist ->
  let '(out, w') := lzwin_flush w in
  out = rev (firstn (Z.to_nat (w_pos w - w_start w)) hist) /\ Rel w' hist /\
  w_start w' = w_pos w' /\ w_size w' = w_size w /\ w_limit w' = w_limit w /\
  w_pending_len w' = w_pending_len w /\ w_pending_dist w' = w_pending_dist w.
Proof.
  intros R. unfold lzwin_flush.
  pose proof R as [[Hs Hs16] [[Hp0 Hp1] Hp2] [Hf [Hpf Hnw]] Hl Hm Hc Hem Hpe].
  split.
  - apply (aget_list_rel _ w hist (w_start w) R); lia.
  - split; [|cbn; repeat split; reflexivity].
    destruct (Z.eqb_spec (w_pos w) (w_size w)) as [Heq|Hne].
    + (* the write position wraps to the start of the buffer *)
      constructor; cbn [w_size w_start w_pos w_full w_limit w_pending_len w_buf].
      * split; assumption.
      * lia.
      * pose proof (zlen_nonneg hist). split; [assumption|]. split; [lia|]. intros Hlt. lia.
      * assumption.
      * rewrite <- Hm, Heq. rewrite Hs16. reflexivity.
      * intros d Hd. specialize (Hc d Hd). unfold widx, bget in *. cbn [w_pos w_size w_buf].
        destruct (Z.leb_spec 0 d); [|lia]. destruct (Z.leb_spec (w_pos w) d); [lia|].
        replace (w_size w + 0 - d - 1) with (w_pos w - d - 1) by lia. exact Hc.
      * intros Hz. apply Hem; assumption.
      * assumption.
    + constructor; cbn [w_size w_start w_pos w_full w_limit w_pending_len w_buf]; auto.
      * lia.
Qed.
