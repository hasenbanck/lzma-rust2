(* Codec/TruncProofs.v — C05, truncation of the source under the range decoder.
   INPUT MONOTONICITY: a run of a decision program against the range decoder that never fetched a
   byte past the end of its input ([rd_over] unchanged) is reproduced verbatim when more bytes
   follow that input: same answers, same result, same tables, and the additional bytes are left
   unread behind the bytes the shorter run left unread.  Read from right to left: over a TRUNCATED
   input (a prefix of the real one) the run either does exactly what the run over the complete
   input does - or it has fetched past the end, which the readers turn into UnexpectedEof.
   Lifted to one decode call: lzma_decode_mono, lzma_decode_truncated.  Defines the observers these
   speak of (rd_app, run_rc_end, res_app). *)
From LzVerif Require Import Base.Bytes Codec.Store Codec.Range Codec.LzWindow Codec.LzmaDec.

(* the decoder with [tl] appended to the unread input *)
Definition rd_app (d : rdec) (tl : list Z) : rdec :=
  mkRdec (rd_range d) (rd_code d) (rd_in d ++ tl) (rd_over d).

Lemma rd_app_nil d : rd_app d [] = d.
Proof. destruct d as [r c i o]. unfold rd_app; cbn [rd_range rd_code rd_in rd_over]. rewrite app_nil_r. reflexivity. Qed.

Lemma rd_app_app d a b : rd_app (rd_app d a) b = rd_app d (a ++ b).
Proof. unfold rd_app; cbn [rd_range rd_code rd_in rd_over]. rewrite app_assoc. reflexivity. Qed.

Lemma rd_app_over d tl : rd_over (rd_app d tl) = rd_over d.
Proof. reflexivity. Qed.

Lemma rd_app_range d tl : rd_range (rd_app d tl) = rd_range d.
Proof. reflexivity. Qed.

Lemma normalize_over_mono d : rd_over d <= rd_over (rdec_normalize d).
Proof.
  unfold rdec_normalize. destruct (rd_range d <? P2_24); [|lia].
  unfold rdec_read. destruct (rd_in d); cbn [rd_over]; lia.
Qed.

Lemma normalize_range_app d tl : rd_range (rdec_normalize (rd_app d tl)) = rd_range (rdec_normalize d).
Proof.
  unfold rdec_normalize. rewrite rd_app_range. destruct (rd_range d <? P2_24); [|reflexivity].
  unfold rdec_read, rd_app; cbn [rd_in rd_range rd_code rd_over].
  destruct (rd_in d) as [|b r]; cbn [app]; [destruct tl|]; reflexivity.
Qed.

Lemma normalize_app d tl : rd_over (rdec_normalize d) = rd_over d ->
  rdec_normalize (rd_app d tl) = rd_app (rdec_normalize d) tl.
Proof.
  unfold rdec_normalize. rewrite rd_app_range. destruct (rd_range d <? P2_24); [|reflexivity].
  unfold rdec_read, rd_app; cbn [rd_in rd_range rd_code rd_over].
  destruct (rd_in d) as [|b r]; cbn [app rd_in rd_over rd_range rd_code]; [intros H; lia | reflexivity].
Qed.

Lemma decode_bit_over_mono d t k b d1 t1 : decode_bit d t k = Some (b, d1, t1) -> rd_over d <= rd_over d1.
Proof.
  unfold decode_bit. pose proof (normalize_over_mono d) as Hn.
  destruct (P2_32 <=? _); [discriminate|].
  destruct (rd_code _ <? _); intros H; inversion H; subst; cbn [rd_over]; exact Hn.
Qed.

(* whether the checked product overflows depends on the range only, never on the input bytes *)
Lemma decode_bit_none_app d t k tl : decode_bit d t k = None -> decode_bit (rd_app d tl) t k = None.
Proof.
  unfold decode_bit. rewrite normalize_range_app.
  destruct (P2_32 <=? _); [reflexivity|]. destruct (rd_code _ <? _); discriminate.
Qed.

Lemma decode_bit_app d t k b d1 t1 tl :
  decode_bit d t k = Some (b, d1, t1) -> rd_over d1 = rd_over d ->
  decode_bit (rd_app d tl) t k = Some (b, rd_app d1 tl, t1).
Proof.
  unfold decode_bit. intros H Ho.
  assert (Hn : rd_over (rdec_normalize d) = rd_over d).
  { pose proof (normalize_over_mono d).
    destruct (P2_32 <=? _); [discriminate|].
    destruct (rd_code _ <? _); inversion H; subst; cbn [rd_over] in Ho; exact Ho. }
  rewrite (normalize_app d tl Hn).
  change (rd_range (rd_app (rdec_normalize d) tl)) with (rd_range (rdec_normalize d)).
  change (rd_code (rd_app (rdec_normalize d) tl)) with (rd_code (rdec_normalize d)).
  destruct (P2_32 <=? _); [discriminate|].
  destruct (rd_code _ <? _); inversion H; subst; reflexivity.
Qed.

Lemma direct_bits_over_mono n : forall d acc v d1, decode_direct_bits d n acc = (v, d1) -> rd_over d <= rd_over d1.
Proof.
  induction n as [|m IH]; intros d acc v d1 H; cbn [decode_direct_bits] in H.
  - inversion H; subst. lia.
  - apply IH in H. cbn [rd_over] in H. pose proof (normalize_over_mono d). lia.
Qed.

Lemma direct_bits_app n : forall d acc v d1 tl,
  decode_direct_bits d n acc = (v, d1) -> rd_over d1 = rd_over d ->
  decode_direct_bits (rd_app d tl) n acc = (v, rd_app d1 tl).
Proof.
  induction n as [|m IH]; intros d acc v d1 tl H Ho; cbn [decode_direct_bits] in *.
  - inversion H; subst. reflexivity.
  - pose proof (direct_bits_over_mono _ _ _ _ _ H) as Hm. cbn [rd_over] in Hm.
    pose proof (normalize_over_mono d) as Hn.
    assert (Hn' : rd_over (rdec_normalize d) = rd_over d) by lia.
    rewrite (normalize_app d tl Hn').
    change (rd_range (rd_app (rdec_normalize d) tl)) with (rd_range (rdec_normalize d)).
    change (rd_code (rd_app (rdec_normalize d) tl)) with (rd_code (rdec_normalize d)).
    change (rd_in (rd_app (rdec_normalize d) tl)) with (rd_in (rdec_normalize d) ++ tl).
    change (rd_over (rd_app (rdec_normalize d) tl)) with (rd_over (rdec_normalize d)).
    specialize (IH _ _ _ _ tl H ltac:(cbn [rd_over]; lia)).
    exact IH.
Qed.

(* the range decoder at the point where the run stops - with a value or with a failure *)
Fixpoint run_rc_end {A} (p : prog A) (d : rdec) (t : probs) : rdec :=
  match p with
  | Ret _ => d
  | Fail _ => d
  | Bit key k =>
      match decode_bit d t key with
      | None => rdec_normalize d
      | Some (b, d1, t1) => run_rc_end (k b) d1 t1
      end
  | Direct n k => let '(v, d1) := decode_direct_bits d n 0 in run_rc_end (k v) d1 t
  end.

Definition omap {A B} (f : A -> B) (o : outcome A) : outcome B :=
  match o with Ok a => Ok (f a) | Err e => Err e | Panic e => Panic e | Fuel => Fuel end.

Definition res_app {A} (tl : list Z) (r : A * rdec * probs) : A * rdec * probs :=
  (fst (fst r), rd_app (snd (fst r)) tl, snd r).

Lemma run_rc_end_ok {A} (p : prog A) : forall d t a d1 t1, run_rc p d t = Ok (a, d1, t1) -> run_rc_end p d t = d1.
Proof.
  induction p as [a|e|key k IH|n k IH]; intros d t a0 d1 t1 H; cbn [run_rc run_rc_end] in *.
  - inversion H; reflexivity.
  - destruct e; discriminate.
  - destruct (decode_bit d t key) as [[[b d2] t2]|]; [eapply IH; exact H | discriminate].
  - destruct (decode_direct_bits d n 0) as [v d2]. eapply IH; exact H.
Qed.

Lemma run_rc_end_over_mono {A} (p : prog A) : forall d t, rd_over d <= rd_over (run_rc_end p d t).
Proof.
  induction p as [a|e|key k IH|n k IH]; intros d t; cbn [run_rc_end]; try lia.
  - destruct (decode_bit d t key) as [[[b d2] t2]|] eqn:E.
    + pose proof (decode_bit_over_mono _ _ _ _ _ _ E). specialize (IH b d2 t2). lia.
    + apply normalize_over_mono.
  - destruct (decode_direct_bits d n 0) as [v d2] eqn:E.
    pose proof (direct_bits_over_mono _ _ _ _ _ E). specialize (IH v d2 t). lia.
Qed.

(* INPUT MONOTONICITY of run_rc: whatever the run over [rd_in d] returns - a value or a failure -
   provided it never fetched past the end, the run over [rd_in d ++ tl] returns the same, and [tl]
   stays unread behind what was left *)
Theorem run_rc_mono {A} (p : prog A) : forall d t tl,
  rd_over (run_rc_end p d t) = rd_over d ->
  run_rc p (rd_app d tl) t = omap (res_app tl) (run_rc p d t).
Proof.
  induction p as [a|e|key k IH|n k IH]; intros d t tl Ho; cbn [run_rc run_rc_end] in *.
  - reflexivity.
  - destruct e; reflexivity.
  - destruct (decode_bit d t key) as [[[b d2] t2]|] eqn:E.
    + pose proof (decode_bit_over_mono _ _ _ _ _ _ E) as H1.
      pose proof (run_rc_end_over_mono (k b) d2 t2) as H2.
      rewrite (decode_bit_app _ _ _ _ _ _ tl E ltac:(lia)).
      apply IH. lia.
    + rewrite (decode_bit_none_app _ _ _ tl E). reflexivity.
  - destruct (decode_direct_bits d n 0) as [v d2] eqn:E.
    pose proof (direct_bits_over_mono _ _ _ _ _ E) as H1.
    pose proof (run_rc_end_over_mono (k v) d2 t) as H2.
    rewrite (direct_bits_app _ _ _ _ _ tl E ltac:(lia)).
    apply IH. lia.
Qed.

(* the successful case (for lzma_decode_mono) *)
Corollary run_rc_mono_ok {A} (p : prog A) d t tl a d1 t1 :
  run_rc p d t = Ok (a, d1, t1) -> rd_over d1 = rd_over d ->
  run_rc p (rd_app d tl) t = Ok (a, rd_app d1 tl, t1).
Proof.
  intros H Ho. rewrite run_rc_mono by (rewrite (run_rc_end_ok _ _ _ _ _ _ H); exact Ho).
  rewrite H. reflexivity.
Qed.

Lemma run_rc_over_mono {A} (p : prog A) d t a d1 t1 : run_rc p d t = Ok (a, d1, t1) -> rd_over d <= rd_over d1.
Proof. intros H. rewrite <- (run_rc_end_ok _ _ _ _ _ _ H). apply run_rc_end_over_mono. Qed.

(* TRUNCATION: [full] is the complete input, the decoder is given only [firstn k full]; the run
   either is the run over the complete input (which leaves, in addition, the cut-off bytes
   unread) or it has fetched a byte past the end of the truncated input *)
Theorem run_rc_truncated {A} (p : prog A) : forall range code full over t k,
  let dt := mkRdec range code (firstn k full) over in
  let df := mkRdec range code full over in
  over < rd_over (run_rc_end p dt t) \/
  run_rc p df t = omap (res_app (skipn k full)) (run_rc p dt t).
Proof.
  intros range code full over t k dt df.
  pose proof (run_rc_end_over_mono p dt t) as Hm. change (rd_over dt) with over in Hm.
  destruct (Z.eq_dec (rd_over (run_rc_end p dt t)) over) as [He|Hne]; [right | left; lia].
  rewrite <- (run_rc_mono p dt t (skipn k full) He).
  unfold rd_app, dt, df; cbn [rd_range rd_code rd_in rd_over]. rewrite firstn_skipn. reflexivity.
Qed.

Lemma lzma_decode_over_mono c w d t c1 w1 st d1 t1 :
  lzma_decode c w d t = Ok (c1, w1, st, d1, t1) -> rd_over d <= rd_over d1.
Proof.
  unfold lzma_decode. destruct (lzwin_repeat_pending w) as [w0|e|e|]; try discriminate.
  - destruct (run_rc _ d t) as [[[r d2] t2]|e|e|] eqn:E; try discriminate.
    pose proof (run_rc_over_mono _ _ _ _ _ _ E) as Hm.
    destruct (snd r); intros H; inversion H; subst; try exact Hm.
    pose proof (normalize_over_mono d2). lia.
  - intros H; inversion H; subst. lia.
Qed.

(* one decode call that did not fetch past the end is the same call over the longer input *)
Theorem lzma_decode_mono c w d t tl c1 w1 st d1 t1 :
  lzma_decode c w d t = Ok (c1, w1, st, d1, t1) -> rd_over d1 = rd_over d ->
  lzma_decode c w (rd_app d tl) t = Ok (c1, w1, st, rd_app d1 tl, t1).
Proof.
  unfold lzma_decode. destruct (lzwin_repeat_pending w) as [w0|e|e|]; try discriminate.
  - destruct (run_rc _ d t) as [[[r d2] t2]|e|e|] eqn:E; try discriminate.
    pose proof (run_rc_over_mono _ _ _ _ _ _ E) as Hm.
    intros H Ho.
    assert (Ho2 : rd_over d2 = rd_over d).
    { destruct (snd r); inversion H; subst; try exact Ho.
      pose proof (normalize_over_mono d2). lia. }
    rewrite (run_rc_mono_ok _ _ _ tl _ _ _ E Ho2).
    destruct (snd r) eqn:Er; inversion H; subst; try reflexivity.
    rewrite normalize_app by lia. reflexivity.
  - intros H Ho; inversion H; subst. reflexivity.
Qed.

(* truncated input under one decode call: whenever the call over the truncated input returns
   without having fetched past its end, the call over the complete input returns the same coder,
   window, status and tables, and its unread input is the truncated run's plus the cut-off part *)
Corollary lzma_decode_truncated c w range code full t k c1 w1 st d1 t1 :
  lzma_decode c w (mkRdec range code (firstn k full) 0) t = Ok (c1, w1, st, d1, t1) ->
  0 < rd_over d1 \/
  lzma_decode c w (mkRdec range code full 0) t = Ok (c1, w1, st, rd_app d1 (skipn k full), t1).
Proof.
  intros H. pose proof (lzma_decode_over_mono _ _ _ _ _ _ _ _ _ H) as Hm. cbn [rd_over] in Hm.
  destruct (Z.eq_dec (rd_over d1) 0) as [He|Hne]; [right | left; lia].
  pose proof (lzma_decode_mono _ _ _ _ (skipn k full) _ _ _ _ _ H He) as HM.
  unfold rd_app at 1 in HM; cbn [rd_range rd_code rd_in rd_over] in HM. rewrite firstn_skipn in HM. exact HM.
Qed.
