(* Codec/RangeNoWrapProofs.v — "no overflow in a debug build" facts for the range coder.
   The encoder functions of Codec/Range.v carry the u32/u64 wrap-arounds of the Rust code
   explicitly (wrap32/wrap64, and wrap16/wrap32 in the probability update).  Here the same
   functions are written over unbounded integers ([*_exact]; only the intended `as u8`
   truncations remain) and shown to compute the same result on every run that satisfies the
   hypotheses of rc_roundtrip: none of the wraps ever wraps.  On the decoder side the checked
   u32 product of decode_bit never overflows (decode_bit is never None). *)
From LzVerif Require Import Base.Bytes Codec.Store Codec.Range Codec.ProbProofs Codec.RangeArithProofs.
From LzVerif Require Import Codec.LzmaDec Codec.LzmaEnc Codec.RangeEncProofs.

Definition prob_update_exact (p bit : Z) : Z :=
  if bit =? 0 then p + Z.shiftr (P2_11 - p) 5 else p - Z.shiftr p 5.

Definition renc_normalize_exact (e : renc) : renc :=
  if Z.land (re_range e) 4278190080 =? 0 then
    shift_low_exact (mkRenc (re_low e) (re_range e * 256) (re_cache e) (re_cache_size e) (re_out e))
  else e.

Definition encode_bit_exact (e : renc) (t : probs) (k : Z) (bit : Z) : renc * probs :=
  let p := prob_get t k in
  let bound := Z.shiftr (re_range e) 11 * p in
  let e1 :=
    if bit =? 0 then mkRenc (re_low e) bound (re_cache e) (re_cache_size e) (re_out e)
    else mkRenc (re_low e + bound) (re_range e - bound) (re_cache e) (re_cache_size e) (re_out e) in
  (renc_normalize_exact e1, prob_set t k (prob_update_exact p bit)).

Fixpoint encode_direct_bits_exact (e : renc) (value : Z) (count : nat) : renc :=
  match count with
  | O => e
  | S c =>
      let range := Z.shiftr (re_range e) 1 in
      let b := Z.land (Z.shiftr value (Z.of_nat c)) 1 in
      let low := if b =? 1 then re_low e + range else re_low e in
      encode_direct_bits_exact
        (renc_normalize_exact (mkRenc low range (re_cache e) (re_cache_size e) (re_out e))) value c
  end.

Definition renc_finish_exact (e : renc) : renc :=
  shift_low_exact (shift_low_exact (shift_low_exact (shift_low_exact (shift_low_exact e)))).

Fixpoint renc_events_exact (e : renc) (t : probs) (evs : list event) : renc * probs :=
  match evs with
  | [] => (e, t)
  | EBit key bit :: r => let '(e1, t1) := encode_bit_exact e t key bit in renc_events_exact e1 t1 r
  | EDirect n v :: r => renc_events_exact (encode_direct_bits_exact e v n) t r
  end.

Lemma prob_update_nowrap p bit :
  prob_ok p = true -> bit = 0 \/ bit = 1 -> prob_update_enc p bit = prob_update_exact p bit.
Proof.
  intros Hp Hbit. apply prob_ok_iff in Hp.
  unfold prob_update_enc, prob_update_exact, wrap16, wrap32, P2_11.
  rewrite !shiftr_div by lia. change (2 ^ 5) with 32.
  rewrite (Z.mod_small (2048 - p)) by lia.
  destruct Hbit as [-> | ->]; cbn [Z.eqb]; rewrite Z.mod_small; (Z.div_mod_to_equations; lia).
Qed.

Lemma renc_normalize_nowrap e :
  renc_inv1 e -> re_cache_size e + 1 < 4294967296 -> renc_normalize e = renc_normalize_exact e.
Proof.
  intros [HI Hr] Hs. unfold renc_normalize, renc_normalize_exact.
  rewrite top_mask_zero by lia.
  destruct (Z.ltb_spec (re_range e) 16777216) as [Hlt|Hge]; [|reflexivity].
  unfold wrap32. rewrite Z.mod_small by lia.
  pose proof (ir_low _ _ HI). pose proof (ir_sum _ _ HI). pose proof (ir_size _ _ HI).
  apply shift_low_nowrap; cbn [re_low re_cache_size]; lia.
Qed.

Lemma rstep_nowrap e off R1 :
  renc_inv e -> 0 <= off -> 65536 <= R1 < 4294967296 -> off + R1 <= re_range e ->
  re_cache_size e + 1 < 4294967296 ->
  rstep e off R1 = renc_normalize_exact (enc_step e off R1).
Proof.
  intros [HI Hr] Hoff HR1 Hsum Hs.
  destruct (enc_step_ok e off R1 HI Hoff ltac:(lia) Hsum) as (I1 & _ & _ & S1).
  apply renc_normalize_nowrap; [split; [exact I1 | exact HR1] | rewrite S1; exact Hs].
Qed.

Lemma encode_bit_nowrap e t k bit :
  renc_inv e -> probs_ok t -> bit = 0 \/ bit = 1 -> re_cache_size e + 1 < 4294967296 ->
  encode_bit e t k bit = encode_bit_exact e t k bit.
Proof.
  intros HI Ht Hbit Hs. rewrite encode_bit_eq by assumption.
  pose proof (probs_ok_get t k Ht) as Hp.
  pose proof (bit_step_bounds (re_range e) (prob_get t k) bit (proj2 HI) (proj1 (prob_ok_iff _) Hp))
    as (Ho & Hw & Hsum).
  rewrite (rstep_nowrap e _ _ HI Ho Hw Hsum Hs), (prob_update_nowrap _ _ Hp Hbit).
  unfold encode_bit_exact, enc_step, bit_off, bit_width.
  rewrite shiftr_div by lia. change (2 ^ 11) with 2048.
  destruct (bit =? 0); [rewrite Z.add_0_r|]; reflexivity.
Qed.

Lemma encode_direct_bits_nowrap n : forall e v,
  renc_inv e -> re_cache_size e + Z.of_nat n < 4294967296 ->
  encode_direct_bits e v n = encode_direct_bits_exact e v n.
Proof.
  induction n as [|c IH]; intros e v HI Hs; [reflexivity|].
  rewrite encode_direct_bits_S by exact HI.
  set (b := Z.land (Z.shiftr v (Z.of_nat c)) 1).
  pose proof (dir_step_bounds (re_range e) b (proj2 HI)) as (Ho & Hw & Hsum).
  destruct (rstep_ok e _ _ HI Ho Hw Hsum ltac:(lia)) as (I2 & S2 & _).
  rewrite IH by (try exact I2; lia).
  rewrite (rstep_nowrap e _ _ HI Ho Hw Hsum) by lia.
  cbn [encode_direct_bits_exact]. fold b.
  rewrite (shiftr_div (re_range e) 1) by lia. change (2 ^ 1) with 2.
  unfold enc_step, dir_off. destruct (b =? 1); [|rewrite Z.add_0_r]; reflexivity.
Qed.

Lemma renc_finish_nowrap e R :
  renc_invR e R -> re_cache_size e + 5 < 4294967296 -> renc_finish e = renc_finish_exact e.
Proof.
  intros HI Hs. apply (renc_invR_weaken e R 1) in HI; [|pose proof (ir_R _ _ HI); lia].
  unfold renc_finish, renc_finish_exact.
  destruct (shift_low_iter 5 e (shift_low (shift_low (shift_low (shift_low (shift_low e))))))
    as (_ & _ & _ & _ & _ & E); [repeat constructor | exact HI | lia |].
  apply E. repeat constructor.
Qed.

Lemma renc_events_nowrap evs : forall e t,
  renc_inv e -> probs_ok t -> forallb ev_ok evs = true ->
  re_cache_size e + events_bits evs < 4294967296 ->
  renc_events e t evs = renc_events_exact e t evs.
Proof.
  induction evs as [|ev r IH]; intros e t HI Ht Hok Hs; [reflexivity|].
  cbn [forallb] in Hok. apply andb_true_iff in Hok as [Hev Hok].
  cbn [events_bits] in Hs. pose proof (events_bits_nonneg r) as Hnn.
  cbn [renc_events renc_events_exact]. destruct ev as [k bit | n v]; cbn [ev_bits] in Hs.
  - pose proof (ev_ok_bit _ _ Hev) as Hbit.
    destruct (encode_bit_ok e t k bit HI Ht Hbit ltac:(lia)) as (I1 & T1 & S1 & _).
    rewrite <- encode_bit_nowrap by (try assumption; lia).
    destruct (encode_bit e t k bit) as [e1 t1]. cbn [fst snd] in *. apply IH; try assumption. lia.
  - destruct (encode_direct_bits_ok n e v HI ltac:(lia)) as (I1 & S1 & _).
    rewrite <- encode_direct_bits_nowrap by (try assumption; lia).
    apply IH; try assumption. lia.
Qed.

(* the whole encoder run of rc_roundtrip *)
Theorem renc_run_nowrap t0 evs :
  probs_ok t0 -> forallb ev_ok evs = true -> events_bits evs <= 4294967289 ->
  renc_events renc_init t0 evs = renc_events_exact renc_init t0 evs /\
  renc_finish (fst (renc_events renc_init t0 evs)) =
    renc_finish_exact (fst (renc_events_exact renc_init t0 evs)).
Proof.
  intros Ht Hok Hbits. pose proof (events_bits_nonneg evs) as Hnn.
  assert (Hs : re_cache_size renc_init + events_bits evs < 4294967296) by (cbn [renc_init re_cache_size]; lia).
  pose proof (renc_events_nowrap evs renc_init t0 renc_inv_init Ht Hok Hs) as E.
  split; [exact E|]. rewrite <- E.
  destruct (renc_events_ok evs renc_init t0 renc_inv_init Ht Hok Hs) as (I1 & _ & S1 & _).
  cbn [renc_init re_cache_size] in S1.
  apply (renc_finish_nowrap _ _ (proj1 I1)). lia.
Qed.

(* decoder: the checked product (range >> 11) * prob fits u32 whenever the table is valid *)
Lemma rdec_normalize_range d : rd_range d < 4294967296 -> rd_range (rdec_normalize d) < 4294967296.
Proof.
  intros H. unfold rdec_normalize. destruct (rd_range d <? P2_24); [|exact H].
  destruct (rdec_read d) as [b d1]. cbn [rd_range]. unfold wrap32. (Z.div_mod_to_equations; lia).
Qed.

Theorem decode_bit_never_none d t k :
  probs_ok t -> rd_range d < 4294967296 -> decode_bit d t k <> None.
Proof.
  intros Ht Hr. pose proof (probs_ok_get t k Ht) as Hp. apply prob_ok_iff in Hp.
  pose proof (rdec_normalize_range d Hr) as Hr1.
  unfold decode_bit. rewrite shiftr_div by lia. change (2 ^ 11) with 2048.
  replace (P2_32 <=? rd_range (rdec_normalize d) / 2048 * prob_get t k) with false.
  - destruct (rd_code (rdec_normalize d) <? rd_range (rdec_normalize d) / 2048 * prob_get t k); discriminate.
  - symmetry. apply Z.leb_gt. unfold P2_32. (Z.div_mod_to_equations; nia).
Qed.
