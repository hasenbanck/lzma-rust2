(* Codec/Lzma2BitsProofs.v — size and shape facts about the symbol encoder (LzmaEnc.v) used by the
   LZMA2 chunking argument: one symbol codes a bounded number of range-coder decisions, every
   symbol but the end marker advances the position, and lc/lp/pb and the data view are invariant:
   the per-symbol facts (enc_symbol_facts) are read off one inversion of enc_symbol (enc_symbol_shape),
   the bit counts of the pieces are computed on the encoder functions. *)
From LzVerif Require Import Base.Bytes Codec.Store Codec.Range Codec.ProbProofs Codec.LzWindow Codec.LzmaDec
  Codec.LzmaEnc Codec.LzmaAbs Codec.LzWindowProofs Codec.ProgProofs Codec.LzmaAbsProofs
  Codec.RangeEncProofs Codec.RangeProofs Codec.LzmaSymProofs Codec.LzmaRoundtrip.

Definition SYM_MAX_BITS : Z := 64.

Lemma enc_bittree_bits base l : forall s i, events_bits (enc_bittree base l s i) = Z.of_nat l.
Proof.
  induction l as [|k IH]; intros s i; [reflexivity|].
  cbn [enc_bittree]. cbv zeta. cbn [events_bits ev_bits]. rewrite IH. lia.
Qed.

Lemma enc_rev_bittree_bits base l : forall s i, events_bits (enc_rev_bittree base l s i) = Z.of_nat l.
Proof.
  induction l as [|k IH]; intros s i; [reflexivity|].
  cbn [enc_rev_bittree]. cbv zeta. cbn [events_bits ev_bits]. rewrite IH. lia.
Qed.

Lemma enc_lit_matched_bits lbase n : forall m off s, events_bits (enc_lit_matched lbase n m off s) = Z.of_nat n.
Proof.
  induction n as [|k IH]; intros m off s; [reflexivity|].
  cbn [enc_lit_matched]. cbv zeta. cbn [events_bits ev_bits]. rewrite IH. lia.
Qed.

Lemma enc_lit_normal_bits lbase n : forall s, events_bits (enc_lit_normal lbase n s) = Z.of_nat n.
Proof.
  induction n as [|k IH]; intros s; [reflexivity|].
  cbn [enc_lit_normal]. cbn [events_bits ev_bits]. rewrite IH. lia.
Qed.

Lemma lit_events_bits lbase mb b : events_bits (lit_events lbase mb b) = 8.
Proof.
  unfold lit_events. destruct mb as [m|].
  - rewrite enc_lit_matched_bits. reflexivity.
  - rewrite enc_lit_normal_bits. reflexivity.
Qed.

Lemma enc_len_bits base len ps evs : enc_len base len ps = Ok evs -> events_bits evs <= 10.
Proof.
  unfold enc_len. cbv zeta. intros H.
  destruct (len - 2 <? 0); [discriminate|].
  destruct (len - 2 <? 8).
  { apply obind_ok in H as (low & _ & H). apply Ok_inj in H. subst evs.
    cbn [events_bits ev_bits]. rewrite enc_bittree_bits. lia. }
  destruct (len - 2 <? 16).
  { apply obind_ok in H as (mid & _ & H). apply Ok_inj in H. subst evs.
    cbn [events_bits ev_bits]. rewrite enc_bittree_bits. lia. }
  destruct (len - 2 <? 272); [|discriminate].
  apply Ok_inj in H. subst evs.
  cbn [events_bits ev_bits]. rewrite enc_bittree_bits. lia.
Qed.

Lemma enc_match_events_bits c ps dist len evs c' :
  0 <= dist < 2 ^ 32 -> enc_match_events c ps dist len = Ok (evs, c') -> events_bits evs <= 46.
Proof.
  intros Hd H. unfold enc_match_events in H. cbv zeta in H.
  apply obind_ok in H as (elen & Hlen & H). apply obind_ok in H as (dsk & _ & H).
  apply Ok_inj in H. apply pair_inj in H as [<- _].
  apply enc_len_bits in Hlen.
  destruct (dist_slot_spec dist Hd) as (Hslot & _).
  set (slot := get_dist_slot dist) in *. clearbody slot.
  rewrite !events_bits_app, enc_bittree_bits.
  rewrite shiftr1_div2.
  destruct (slot <? 4); [cbn [events_bits]; lia|].
  destruct (slot <? 14).
  - rewrite enc_rev_bittree_bits. (Z.div_mod_to_equations; lia).
  - cbn [events_bits ev_bits]. rewrite enc_rev_bittree_bits. (Z.div_mod_to_equations; lia).
Qed.

Lemma enc_rep_events_bits c ps idx len evs c' :
  enc_rep_events c ps idx len = Ok (evs, c') -> events_bits evs <= 13.
Proof.
  unfold enc_rep_events. intros H.
  apply obind_ok in H as (k0 & _ & H).
  destruct (idx =? 0).
  - apply obind_ok in H as (k0l & _ & H). destruct (len =? 1).
    + apply Ok_inj in H. apply pair_inj in H as [<- _]. cbn [events_bits ev_bits]. lia.
    + apply obind_ok in H as (elen & Hlen & H). apply Ok_inj in H. apply pair_inj in H as [<- _].
      apply enc_len_bits in Hlen. cbn [events_bits ev_bits]. lia.
  - destruct ((idx <? 0) || (3 <? idx) || (len =? 1)); [discriminate|].
    apply obind_ok in H as (k1 & _ & H). apply obind_ok in H as (k2 & _ & H).
    destruct (idx =? 1); [|destruct (idx =? 2)];
      apply obind_ok in H as (elen & Hlen & H); apply Ok_inj in H; apply pair_inj in H as [<- _];
      apply enc_len_bits in Hlen; cbn [app events_bits ev_bits]; lia.
Qed.

(* LzmaRoundtrip.enc_symbol_inv without the key equations and the literal side conditions *)
Lemma enc_symbol_shape c h s evs c' h' : enc_symbol c h s = Ok (evs, c', h') ->
  let ps := pos_state_of c (h_pos h - h_base h) in
  exists km,
  match s with
  | SLit b => exists lbase mb, evs = EBit km 0 :: lit_events lbase mb b /\
      c' = set_state c (state_update_literal (c_state c)) /\ h' = h_advance h 1
  | SMatch dist len => exists kr ev, 2 <= len <= 273 /\ copy_valid h dist len = true /\
      enc_match_events c ps dist len = Ok (ev, c') /\ evs = EBit km 1 :: EBit kr 0 :: ev /\ h' = h_advance h len
  | SRep idx len => exists kr ev, 1 <= len <= 273 /\ copy_valid h (c_rep0 c') len = true /\
      enc_rep_events c ps idx len = Ok (ev, c') /\ evs = EBit km 1 :: EBit kr 1 :: ev /\ h' = h_advance h len
  | SEnd => exists kr ev,
      enc_match_events c ps 4294967295 2 = Ok (ev, c') /\ evs = EBit km 1 :: EBit kr 0 :: ev /\ h' = h
  end.
Proof.
  intros He ps. unfold enc_symbol in He. cbv zeta in He. fold ps in He.
  apply obind_ok in He as (km & _ & He). exists km.
  destruct s as [b|dist len|idx len|].
  - destruct (negb _); [discriminate|]. apply obind_ok in He as (lb & _ & He). apply obind_ok in He as (mb & _ & He).
    apply Ok_inj in He. apply pair_inj in He as [He <-]. apply pair_inj in He as [<- <-]. exists lb, mb. auto.
  - destruct ((2 <=? len) && (len <=? 273) && copy_valid h dist len) eqn:E; cbn [negb] in He; [|discriminate].
    apply andb_true_iff in E as [E Hcv]. apply andb_true_iff in E as [E1 E2]. apply Z.leb_le in E1, E2.
    apply obind_ok in He as (kr & _ & He). apply obind_ok in He as ([ev c1] & Hec & He).
    apply Ok_inj in He. apply pair_inj in He as [He <-]. apply pair_inj in He as [<- <-]. exists kr, ev. auto.
  - apply obind_ok in He as (kr & _ & He). apply obind_ok in He as ([ev c1] & Hec & He). cbn [fst snd] in He.
    destruct ((1 <=? len) && (len <=? 273) && copy_valid h (c_rep0 c1) len) eqn:E; cbn [negb] in He; [|discriminate].
    apply andb_true_iff in E as [E Hcv]. apply andb_true_iff in E as [E1 E2]. apply Z.leb_le in E1, E2.
    apply Ok_inj in He. apply pair_inj in He as [He <-]. apply pair_inj in He as [<- <-]. exists kr, ev. auto.
  - apply obind_ok in He as (kr & _ & He). apply obind_ok in He as ([ev c1] & Hec & He).
    apply Ok_inj in He. apply pair_inj in He as [He <-]. apply pair_inj in He as [<- <-]. exists kr, ev. auto.
Qed.

Lemma enc_rep_events_params c ps idx len evs c' :
  enc_rep_events c ps idx len = Ok (evs, c') -> c_lc c' = c_lc c /\ c_lp c' = c_lp c /\ c_pb c' = c_pb c.
Proof.
  unfold enc_rep_events. intros H.
  apply obind_ok in H as (k0 & _ & H).
  destruct (idx =? 0).
  - apply obind_ok in H as (k0l & _ & H). destruct (len =? 1).
    + apply Ok_inj in H. apply pair_inj in H as [_ <-]. unfold set_state; cbn [c_lc c_lp c_pb]. auto.
    + apply obind_ok in H as (elen & _ & H). apply Ok_inj in H. apply pair_inj in H as [_ <-].
      unfold set_state; cbn [c_lc c_lp c_pb]. auto.
  - destruct ((idx <? 0) || (3 <? idx) || (len =? 1)); [discriminate|].
    apply obind_ok in H as (k1 & _ & H). apply obind_ok in H as (k2 & _ & H).
    destruct (idx =? 1); [|destruct (idx =? 2)];
      apply obind_ok in H as (elen & _ & H); apply Ok_inj in H; apply pair_inj in H as [_ <-];
      unfold set_state, set_reps; cbn [c_lc c_lp c_pb]; auto.
Qed.

(* Only the position of the encoder's view changes, by at most 273 and, except for the end marker,
   by at least 1; lc/lp/pb never change; one symbol codes at least one bit and at most 64
   (literal 9; match <= 2 + 10 + 6 + 30; rep <= 5 + 10). *)
Lemma enc_symbol_facts c h s evs c' h' : enc_symbol c h s = Ok (evs, c', h') ->
  (h_data h' = h_data h /\ h_total h' = h_total h /\ h_base h' = h_base h /\ h_dict h' = h_dict h) /\
  (c_lc c' = c_lc c /\ c_lp c' = c_lp c /\ c_pb c' = c_pb c) /\
  h_pos h' - h_pos h <= 273 /\ (s <> SEnd -> h_pos h + 1 <= h_pos h') /\
  1 <= events_bits evs /\ (h_dict h <= 2147483648 -> events_bits evs <= SYM_MAX_BITS).
Proof.
  intros He. destruct (enc_symbol_shape _ _ _ _ _ _ He) as (km & H). unfold SYM_MAX_BITS.
  destruct s as [b|dist len|idx len|].
  - destruct H as (lb & mb & -> & -> & ->). cbn [h_advance h_data h_total h_base h_dict h_pos set_state c_lc c_lp c_pb
      events_bits ev_bits]. rewrite lit_events_bits. repeat split; try reflexivity; lia.
  - destruct H as (kr & ev & Hl & Hcv & Hec & -> & ->). apply copy_valid_inv in Hcv as (Hd0 & Hdd & _).
    pose proof (events_bits_nonneg ev). rewrite (enc_match_events_coder _ _ _ _ _ _ Hec).
    cbn [h_advance h_data h_total h_base h_dict h_pos c_lc c_lp c_pb events_bits ev_bits].
    repeat split; try reflexivity; try lia.
    intros Hd. assert (events_bits ev <= 46) by (eapply enc_match_events_bits; [|exact Hec]; lia). lia.
  - destruct H as (kr & ev & Hl & _ & Hec & -> & ->). pose proof (events_bits_nonneg ev).
    pose proof (enc_rep_events_bits _ _ _ _ _ _ Hec).
    cbn [h_advance h_data h_total h_base h_dict h_pos events_bits ev_bits].
    split; [repeat split; reflexivity|]. split; [exact (enc_rep_events_params _ _ _ _ _ _ Hec)|].
    repeat split; lia.
  - destruct H as (kr & ev & Hec & -> & ->). pose proof (events_bits_nonneg ev).
    rewrite (enc_match_events_coder _ _ _ _ _ _ Hec). cbn [c_lc c_lp c_pb events_bits ev_bits].
    repeat split; try reflexivity; try lia; [congruence|].
    intros Hd. assert (events_bits ev <= 46) by (eapply enc_match_events_bits; [|exact Hec]; lia). lia.
Qed.

Lemma no_end_cons s r : no_end (s :: r) -> s <> SEnd /\ no_end r.
Proof.
  intros Hne. split; [apply Hne; left; reflexivity|]. intros x Hx. apply Hne. right. exact Hx.
Qed.

Lemma enc_syms_nil c h E c' h' : enc_syms c h [] = Ok (E, c', h') -> E = [] /\ c' = c /\ h' = h.
Proof. cbn [enc_syms]. intros H. apply Ok_inj in H. apply pair_inj in H as [H <-]. apply pair_inj in H as [<- <-]. auto. Qed.

Lemma enc_syms_cons c h s r E c' h' : enc_syms c h (s :: r) = Ok (E, c', h') ->
  exists e1 c1 h1 e2, enc_symbol c h s = Ok (e1, c1, h1) /\ enc_syms c1 h1 r = Ok (e2, c', h') /\ E = e1 ++ e2.
Proof.
  cbn [enc_syms]. intros H. apply obind_ok in H as ([[e1 c1] h1] & Hs & H). cbn [fst snd] in H.
  apply obind_ok in H as ([[e2 c2] h2] & Hr & H). cbn [fst snd] in H.
  apply Ok_inj in H. apply pair_inj in H as [H <-]. apply pair_inj in H as [<- <-]. exists e1, c1, h1, e2. auto.
Qed.

Lemma enc_syms_facts syms : forall c h evs c' h', enc_syms c h syms = Ok (evs, c', h') ->
  (h_data h' = h_data h /\ h_total h' = h_total h /\ h_base h' = h_base h /\ h_dict h' = h_dict h) /\
  (c_lc c' = c_lc c /\ c_lp c' = c_lp c /\ c_pb c' = c_pb c) /\
  h_pos h' - h_pos h <= 273 * events_bits evs /\
  (no_end syms -> (syms <> [] -> h_pos h + 1 <= h_pos h') /\
     (h_dict h <= 2147483648 -> events_bits evs <= SYM_MAX_BITS * (h_pos h' - h_pos h))).
Proof.
  induction syms as [|s r IH]; intros c h evs c' h' He.
  - apply enc_syms_nil in He as (-> & -> & ->). cbn [events_bits].
    repeat split; try reflexivity; try lia. congruence.
  - apply enc_syms_cons in He as (e1 & c1 & h1 & e2 & Hs & Hr & ->).
    destruct (enc_symbol_facts _ _ _ _ _ _ Hs) as ((A1 & A2 & A3 & A4) & (B1 & B2 & B3) & A5 & A6 & A7 & A8).
    destruct (IH _ _ _ _ _ Hr) as ((C1 & C2 & C3 & C4) & (D1 & D2 & D3) & C5 & C6).
    pose proof (enc_syms_mono _ _ _ _ _ _ Hr) as Hm. rewrite events_bits_app.
    split; [repeat split; congruence|]. split; [repeat split; congruence|]. split; [lia|].
    intros Hne. apply no_end_cons in Hne as [Hs_ne Hne]. specialize (A6 Hs_ne). destruct (C6 Hne) as (_ & C7).
    split; [lia|]. intros Hd. specialize (A8 Hd). specialize (C7 ltac:(lia)). unfold SYM_MAX_BITS in *. lia.
Qed.

Lemma enc_syms_bits syms c h evs c' h' :
  no_end syms -> h_dict h <= 2147483648 -> enc_syms c h syms = Ok (evs, c', h') ->
  events_bits evs <= SYM_MAX_BITS * (h_pos h' - h_pos h).
Proof. intros Hne Hd He. apply (enc_syms_facts _ _ _ _ _ _ He); assumption. Qed.

Lemma enc_syms_advance syms c h evs c' h' :
  no_end syms -> syms <> [] -> enc_syms c h syms = Ok (evs, c', h') -> h_pos h + 1 <= h_pos h'.
Proof. intros Hne Hnil He. apply (enc_syms_facts _ _ _ _ _ _ He); assumption. Qed.

Lemma enc_syms_params syms c h evs c' h' :
  enc_syms c h syms = Ok (evs, c', h') -> c_lc c' = c_lc c /\ c_lp c' = c_lp c /\ c_pb c' = c_pb c.
Proof. intros He. apply (enc_syms_facts _ _ _ _ _ _ He). Qed.

Lemma enc_syms_fields syms c h evs c' h' :
  enc_syms c h syms = Ok (evs, c', h') ->
  h_data h' = h_data h /\ h_total h' = h_total h /\ h_base h' = h_base h /\ h_dict h' = h_dict h.
Proof. intros He. apply (enc_syms_facts _ _ _ _ _ _ He). Qed.
