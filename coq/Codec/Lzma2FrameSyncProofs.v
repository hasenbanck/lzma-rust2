(* Codec/Lzma2FrameSyncProofs.v — whatever the LZMA2 writer model (LzmaWriters.v: l2_step, l2_steps,
   lzma2_write) accepts and writes is a well-formed chunk sequence in the sense of
   Lzma2SpecProofs.v ([chunks_ok]).  The four flags of the writer only occur in the combinations
   named by [rlevel]; a writer state at a chunk boundary is described by [wb]. *)
From LzVerif Require Import Base.Bytes Codec.Store Codec.Range Codec.ProbProofs Codec.LzWindow Codec.LzmaDec
  Codec.LzmaEnc Codec.LzmaAbs Codec.LzWindowProofs Codec.ProgProofs Codec.LzmaAbsProofs
  Codec.RangeEncProofs Codec.RangeProofs Codec.LzmaSymProofs Codec.LzmaRoundtrip Codec.LzmaWriters
  Codec.Lzma2SpecProofs Codec.Lzma2BitsProofs.

Definition l2_no_end (evs : list l2ev) : Prop := forall ev, In ev evs -> ev <> L2Sym SEnd.
Definition start_level (preset : option (list Z)) : rlevel :=
  match preset with Some (_ :: _) => RProps | _ => RDict end.
Definition preset_list (preset : option (list Z)) : list Z :=
  match preset with Some p => p | None => [] end.

Lemma rev_l2_emit out bytes : rev (l2_emit out bytes) = rev out ++ bytes.
Proof. unfold l2_emit. rewrite rev_append_rev, rev_app_distr, rev_involutive. reflexivity. Qed.

Lemma l2_steps_app lc lp pb a : forall s b,
  l2_steps lc lp pb s (a ++ b) = obind (l2_steps lc lp pb s a) (fun s1 => l2_steps lc lp pb s1 b).
Proof.
  induction a as [|ev r IH]; intros s b; cbn [app l2_steps]; [reflexivity|].
  destruct (l2_step lc lp pb s ev) as [s1|code|code|]; cbn [obind]; auto.
Qed.

Definition not_sym (ev : l2ev) : Prop := forall x, ev <> L2Sym x.

Lemma l2_no_end_tail ev r : l2_no_end (ev :: r) -> l2_no_end r.
Proof. intros H x Hin. apply H. right. exact Hin. Qed.

Lemma enc_step_inv s x s1 : enc_step s x = Ok s1 ->
  exists evs c1 h1, enc_symbol (es_coder s) (es_hist s) x = Ok (evs, c1, h1) /\
    s1 = mkEncst c1 h1 (fst (renc_events (es_rc s) (es_probs s) evs))
                       (snd (renc_events (es_rc s) (es_probs s) evs)).
Proof.
  unfold enc_step. intros H. apply obind_ok in H as ([[evs c1] h1] & He & H).
  cbv beta iota in H.
  exists evs, c1, h1. split; [exact He|].
  destruct (renc_events (es_rc s) (es_probs s) evs) as [e1 t1]. apply Ok_inj in H.
  rewrite <- H. reflexivity.
Qed.

Definition with_enc (s : l2st) (e : encst) : l2st :=
  mkL2st e (w_chunk_start s) (w_dict_reset_needed s) (w_state_reset_needed s) (w_props_needed s)
         (w_force_independent s) (w_out s).

Lemma run_syms lc lp pb syms : forall s s',
  l2_steps lc lp pb s (map L2Sym syms) = Ok s' ->
  exists E c' h',
    enc_syms (es_coder (w_enc s)) (es_hist (w_enc s)) syms = Ok (E, c', h') /\
    s' = with_enc s (mkEncst c' h' (fst (renc_events (es_rc (w_enc s)) (es_probs (w_enc s)) E))
                                   (snd (renc_events (es_rc (w_enc s)) (es_probs (w_enc s)) E))).
Proof.
  induction syms as [|x r IH]; intros s s' H.
  - cbn [map l2_steps] in H. apply Ok_inj in H. subst s'.
    exists [], (es_coder (w_enc s)), (es_hist (w_enc s)). split; [reflexivity|].
    cbn [renc_events fst snd]. destruct s as [[c h e t] a b0 b1 b2 b3 o]. reflexivity.
  - cbn [map l2_steps] in H. apply obind_ok in H as (s1 & Hs & H).
    cbn [l2_step] in Hs. apply obind_ok in Hs as (e1 & He & Hs). apply Ok_inj in Hs.
    apply enc_step_inv in He as (evs & c1 & h1 & Hsym & He1).
    apply IH in H as (E & c' & h' & Hsyms & Hs').
    subst s1 e1. cbn [w_enc es_coder es_hist es_rc es_probs] in Hsyms, Hs'.
    exists (evs ++ E), c', h'. split.
    + cbn [enc_syms]. rewrite Hsym. cbn [obind fst snd]. rewrite Hsyms. cbn [obind fst snd]. reflexivity.
    + rewrite renc_events_app. exact Hs'.
Qed.

Lemma h_at_same h h' p : h_data h' = h_data h -> h_total h' = h_total h -> h_base h' = h_base h ->
  h_dict h' = h_dict h -> h_at h' p = h_at h p.
Proof. intros H1 H2 H3 H4. unfold h_at. rewrite H1, H2, H3, H4. reflexivity. Qed.

Lemma after_unc_idem r : after_unc (after_unc r) = after_unc r.
Proof. destruct r; reflexivity. Qed.

Section Sync.
Variables lc lp pb : Z.

Definition level_of (s : l2st) : rlevel :=
  if w_dict_reset_needed s then RDict else if w_props_needed s then RProps
  else if w_state_reset_needed s then RState else RNone (es_coder (w_enc s)) (es_probs (w_enc s)).

(* writer at a chunk boundary *)
Record wb (s : l2st) : Prop := {
  wb_rc : es_rc (w_enc s) = renc_init;
  wb_start : w_chunk_start s = h_pos (es_hist (w_enc s));
  wb_flags : (w_dict_reset_needed s = true -> w_props_needed s = true) /\
             (w_props_needed s = true -> w_state_reset_needed s = true) /\
             (w_force_independent s = true -> w_dict_reset_needed s = true);
  wb_fresh : w_state_reset_needed s = true ->
             es_coder (w_enc s) = coder_new lc lp pb /\ es_probs (w_enc s) = PLeaf;
  wb_params : coder_params (es_coder (w_enc s)) lc lp pb;
  wb_dict : h_dict (es_hist (w_enc s)) <= 2147483648 }.

(* the flags are functions of the level; the level names the coder and probabilities a chunk starts from *)
Lemma wb_level s : wb s ->
  w_dict_reset_needed s = is_dict (level_of s) /\ w_props_needed s = has_props (level_of s) /\
  w_state_reset_needed s = match level_of s with RNone _ _ => false | _ => true end /\
  (w_force_independent s = true -> level_of s = RDict) /\
  start_coder lc lp pb (level_of s) = es_coder (w_enc s) /\ start_probs (level_of s) = es_probs (w_enc s).
Proof.
  intros Hwb. destruct (wb_flags s Hwb) as (F1 & F2 & F3). pose proof (wb_fresh s Hwb) as Hf. unfold level_of.
  destruct (w_dict_reset_needed s), (w_props_needed s), (w_state_reset_needed s);
    try (discriminate (F1 eq_refl)); try (discriminate (F2 eq_refl));
    cbn [is_dict has_props start_coder start_probs]; try (destruct (Hf eq_refl) as [-> ->]);
    repeat split; auto; intros X; discriminate (F3 X).
Qed.

Lemma coder_params_new : coder_params (coder_new lc lp pb) lc lp pb.
Proof. unfold coder_params, coder_new. cbn [c_lc c_lp c_pb]. auto. Qed.

(* the state a chunk event leaves: a fresh range coder, the chunk starts at the position *)
Lemma wb_intro c h t d sr p f out :
  coder_params c lc lp pb -> h_dict h <= 2147483648 ->
  (d = true -> p = true) -> (p = true -> sr = true) -> (f = true -> d = true) ->
  (sr = true -> c = coder_new lc lp pb /\ t = PLeaf) ->
  wb (mkL2st (mkEncst c h renc_init t) (h_pos h) d sr p f out).
Proof.
  intros Hp Hd F1 F2 F3 Hf.
  constructor; cbn [w_enc w_chunk_start w_dict_reset_needed w_state_reset_needed w_props_needed
                    w_force_independent es_coder es_hist es_rc es_probs]; auto.
Qed.

(* the header write_lzma emits is the specification's *)
Lemma wb_lzma_header s usize csize : wb s ->
  (if w_props_needed s
   then [wrap8 (Z.lor (if w_props_needed s || w_force_independent s
                       then (if w_dict_reset_needed s || w_force_independent s then 224 else 192)
                       else if w_state_reset_needed s then 160 else 128) (Z.shiftr (usize - 1) 16));
         wrap8 (Z.shiftr (usize - 1) 8); wrap8 (usize - 1);
         wrap8 (Z.shiftr (csize - 1) 8); wrap8 (csize - 1)] ++ [props_byte lc lp pb]
   else [wrap8 (Z.lor (if w_props_needed s || w_force_independent s
                       then (if w_dict_reset_needed s || w_force_independent s then 224 else 192)
                       else if w_state_reset_needed s then 160 else 128) (Z.shiftr (usize - 1) 16));
         wrap8 (Z.shiftr (usize - 1) 8); wrap8 (usize - 1);
         wrap8 (Z.shiftr (csize - 1) 8); wrap8 (csize - 1)])
  = lzma_header lc lp pb (level_of s) usize csize.
Proof.
  intros Hwb. destruct (wb_level s Hwb) as (D & P & S & F & _). unfold lzma_header. rewrite D, P, S.
  destruct (w_force_independent s); [rewrite (F eq_refl)|]; destruct (level_of s);
    cbn [orb is_dict lzma_ctl0 has_props]; rewrite ?app_nil_r; reflexivity.
Qed.

(* write_uncompressed *)
Lemma unc_chunks_ok : forall fuel h start size d out,
  0 <= size -> size <= 65536 * Z.of_nat fuel -> start + size <= h_total h ->
  exists X, rev (l2_unc_chunks fuel h start size d out) = rev out ++ X /\
    forall r bytes, d = is_dict r ->
      chunks_ok lc lp pb (if 0 <? size then after_unc r else r) (h_at h (start + size)) bytes ->
      chunks_ok lc lp pb r (h_at h start) (X ++ bytes).
Proof.
  induction fuel as [|f IH]; intros h start size d out H0 Hf Ht; cbn [l2_unc_chunks];
    [|destruct (Z.leb_spec size 0) as [Hle|Hgt]].
  1,2: assert (size = 0) by lia; subst size; exists []; (split; [rewrite app_nil_r; reflexivity|]);
       intros r bytes _ Hc; change (0 <? 0) with false in Hc; cbv iota in Hc; rewrite Z.add_0_r in Hc; exact Hc.
  set (n := Z.min size 65536).
  assert (Hn : 1 <= n <= 65536 /\ n <= size) by (unfold n; lia).
  destruct (IH h (start + n) (size - n) false
              (l2_emit (l2_emit out [if d then 1 else 2; wrap8 (Z.shiftr (n - 1) 8); wrap8 (n - 1)])
                       (aget_list (h_data h) start (Z.to_nat n))))
    as (X' & Hrev & Hck); [lia | unfold n; lia | lia |].
  exists ([if d then 1 else 2; wrap8 (Z.shiftr (n - 1) 8); wrap8 (n - 1)]
            ++ aget_list (h_data h) start (Z.to_nat n) ++ X').
  split; [rewrite Hrev, !rev_l2_emit, <- !app_assoc; reflexivity|].
  intros r bytes -> Hc. destruct (Z.ltb_spec 0 size) as [_|Hbad]; [|lia].
  replace (if is_dict r then 1 else 2) with (unc_ctl r) by (destruct r; reflexivity).
  rewrite <- !app_assoc.
  change (chunks_ok lc lp pb r (h_at h start)
            (unc_header r n ++ aget_list (h_data (h_at h start)) (h_pos (h_at h start)) (Z.to_nat n)
               ++ (X' ++ bytes))).
  apply ck_unc; [lia | cbn [h_at h_pos h_total]; lia |].
  change (h_at (h_at h start) (h_pos (h_at h start) + n)) with (h_at h (start + n)).
  apply Hck; [destruct r; reflexivity|].
  replace (start + n + (size - n)) with (start + size) by lia.
  destruct (0 <? size - n); [rewrite after_unc_idem|]; exact Hc.
Qed.

(* one round: the symbols of a chunk, then the chunk event *)
Definition round_ok (s s2 : l2st) : Prop :=
  wb s2 /\
  exists Xc, rev (w_out s2) = rev (w_out s) ++ Xc /\
    forall bytes, chunks_ok lc lp pb (level_of s2) (es_hist (w_enc s2)) bytes ->
                  chunks_ok lc lp pb (level_of s) (es_hist (w_enc s)) (Xc ++ bytes).

(* no symbol was coded if the position did not move *)
Lemma syms_nil_of_pos syms c h E c' h' : no_end syms -> enc_syms c h syms = Ok (E, c', h') ->
  h_pos h' = h_pos h -> E = [] /\ c' = c /\ h' = h.
Proof.
  intros Hne Hsyms Hpos. destruct syms as [|x r]; [exact (enc_syms_nil _ _ _ _ _ Hsyms)|]. exfalso.
  pose proof (enc_syms_advance (x :: r) _ _ _ _ _ Hne ltac:(discriminate) Hsyms). lia.
Qed.

Lemma round_new s syms s1 s2 : wb s -> no_end syms ->
  l2_steps lc lp pb s (map L2Sym syms) = Ok s1 -> l2_step lc lp pb s1 L2New = Ok s2 -> round_ok s s2.
Proof.
  intros Hwb Hne Hrun Hstep.
  apply run_syms in Hrun as (E & c' & h' & Hsyms & Hs1). subst s1.
  cbn [l2_step with_enc w_enc w_chunk_start w_dict_reset_needed w_state_reset_needed w_props_needed
       w_force_independent w_out es_coder es_hist es_rc es_probs] in Hstep.
  destruct (Z.eqb_spec (h_pos h') (w_chunk_start s)) as [Hpos|Hpos]; cbn [negb] in Hstep; [|discriminate].
  apply Ok_inj in Hstep. subst s2. rewrite (wb_start s Hwb) in Hpos.
  destruct (syms_nil_of_pos _ _ _ _ _ _ Hne Hsyms Hpos) as (-> & -> & ->).
  split.
  - apply (wb_intro _ (mkEhist _ _ _ _ _)); auto; [apply coder_params_new | apply (wb_dict s Hwb)].
  - exists []. cbn [w_out]. split; [rewrite app_nil_r; reflexivity|].
    intros bytes Hc. cbn [app]. apply ck_new. exact Hc.
Qed.

Lemma round_lzma s syms s1 usize csize s2 : wb s -> no_end syms ->
  l2_steps lc lp pb s (map L2Sym syms) = Ok s1 -> l2_step lc lp pb s1 (L2Lzma usize csize) = Ok s2 ->
  round_ok s s2.
Proof.
  intros Hwb Hne Hrun Hstep.
  apply run_syms in Hrun as (E & c' & h' & Hsyms & Hs1). subst s1.
  rewrite (wb_rc s Hwb) in Hstep.
  cbn [l2_step with_enc w_enc w_chunk_start w_dict_reset_needed w_state_reset_needed w_props_needed
       w_force_independent w_out es_coder es_hist es_rc es_probs] in Hstep.
  match type of Hstep with (if negb ?b then _ else _) = _ => destruct b eqn:Echk end;
    cbn [negb] in Hstep; [|discriminate].
  match type of Hstep with (if ?b then _ else _) = _ => destruct b eqn:Erng end; [discriminate|].
  apply Ok_inj in Hstep. subst s2.
  apply andb_true_iff in Echk as [Eu Ec]. apply Z.eqb_eq in Eu, Ec.
  apply orb_false_iff in Erng as [Erng R4]. apply orb_false_iff in Erng as [Erng R3].
  apply orb_false_iff in Erng as [R1 R2]. apply Z.ltb_ge in R1, R2, R3, R4.
  rewrite (wb_start s Hwb) in Eu.
  destruct (wb_level s Hwb) as (_ & _ & _ & _ & Hsc & Hsp).
  assert (Hpar : coder_params c' lc lp pb).
  { destruct (enc_syms_params _ _ _ _ _ _ Hsyms) as (P1 & P2 & P3). destruct (wb_params s Hwb) as (Q1 & Q2 & Q3).
    unfold coder_params. rewrite P1, P2, P3. auto. }
  destruct (enc_syms_fields _ _ _ _ _ _ Hsyms) as (_ & _ & _ & F4).
  pose proof (wb_dict s Hwb) as Hdict.
  pose proof (enc_syms_bits _ _ _ _ _ _ Hne Hdict Hsyms) as Hbits. unfold SYM_MAX_BITS in Hbits.
  rewrite (wb_lzma_header s usize csize Hwb).
  rewrite <- Hsp in Ec |- *. rewrite <- Hsc in Hsyms.
  (* unfold before comparing: [fold], or [reflexivity] on the two sides as they stand, takes minutes *)
  assert (Hbody : renc_bytes (renc_finish (fst (renc_events renc_init (start_probs (level_of s)) E)))
                  = chunk_body (start_probs (level_of s)) E) by (unfold chunk_body; reflexivity).
  rewrite Hbody in Ec |- *. clear Hbody.
  split.
  - apply wb_intro; auto; try discriminate. lia.
  - exists (lzma_header lc lp pb (level_of s) usize csize ++ chunk_body (start_probs (level_of s)) E).
    cbn [w_out]. split; [rewrite !rev_l2_emit, <- app_assoc; reflexivity|].
    intros bytes Hc. rewrite <- app_assoc.
    apply (ck_lzma lc lp pb (level_of s) (es_hist (w_enc s)) syms E c' h' usize csize bytes);
      try assumption; try lia. unfold RC_MAX_BITS. lia.
Qed.

Lemma round_unc s syms s1 usize s2 : wb s -> no_end syms ->
  l2_steps lc lp pb s (map L2Sym syms) = Ok s1 -> l2_step lc lp pb s1 (L2Unc usize) = Ok s2 ->
  round_ok s s2.
Proof.
  intros Hwb Hne Hrun Hstep.
  apply run_syms in Hrun as (E & c' & h' & Hsyms & Hs1). subst s1.
  cbn [l2_step with_enc w_enc w_chunk_start w_dict_reset_needed w_state_reset_needed w_props_needed
       w_force_independent w_out es_coder es_hist es_rc es_probs] in Hstep.
  match type of Hstep with (if ?b then _ else _) = _ => destruct b eqn:Erng end; [discriminate|].
  apply Ok_inj in Hstep. subst s2.
  apply orb_false_iff in Erng as [Erng R3]. apply orb_false_iff in Erng as [R1 R2].
  apply Z.ltb_ge in R1, R2, R3.
  pose proof (wb_start s Hwb) as Hstart.
  destruct (wb_level s Hwb) as (D & P & _).
  destruct (enc_syms_params _ _ _ _ _ _ Hsyms) as (P1 & P2 & P3).
  destruct (enc_syms_fields _ _ _ _ _ _ Hsyms) as (F1 & F2 & F3 & F4).
  destruct (wb_params s Hwb) as (Q1 & Q2 & Q3).
  pose proof (wb_dict s Hwb) as Hdict.
  assert (Hreset : coder_reset c' = coder_new lc lp pb).
  { unfold coder_reset. rewrite P1, P2, P3, Q1, Q2, Q3. reflexivity. }
  rewrite Hreset.
  destruct (unc_chunks_ok (Z.to_nat (usize / 65536 + 2)) h' (w_chunk_start s) usize
              (w_dict_reset_needed s) (w_out s)) as (X & Hrev & Hck); [lia | (Z.div_mod_to_equations; lia) | lia |].
  split.
  - apply (wb_intro _ (mkEhist _ _ _ _ _)); auto; try discriminate; [apply coder_params_new | cbn [h_dict]; lia].
  - exists X. cbn [w_out]. split; [exact Hrev|].
    intros bytes Hc.
    unfold level_of in Hc at 1.
    cbn [w_enc w_dict_reset_needed w_state_reset_needed w_props_needed es_coder es_hist es_probs] in Hc.
    replace (if w_props_needed s then RProps else RState) with (after_unc (level_of s)) in Hc
      by (rewrite P; destruct (level_of s); reflexivity).
    specialize (Hck (level_of s) bytes D).
    destruct (Z.ltb_spec 0 usize) as [_|Hbad]; [|lia].
    rewrite (h_at_same (es_hist (w_enc s)) h' (w_chunk_start s) F1 F2 F3 F4) in Hck.
    rewrite Hstart, h_at_pos in Hck. apply Hck.
    rewrite <- Hstart. exact Hc.
Qed.

Lemma round_any s syms s1 cev s2 : wb s -> no_end syms -> not_sym cev ->
  l2_steps lc lp pb s (map L2Sym syms) = Ok s1 -> l2_step lc lp pb s1 cev = Ok s2 -> round_ok s s2.
Proof.
  intros Hwb Hne Hns Hrun Hstep. destruct cev as [x|u c|u|].
  - exfalso. exact (Hns x eq_refl).
  - eapply round_lzma; eassumption.
  - eapply round_unc; eassumption.
  - eapply round_new; eassumption.
Qed.

(* the trailing symbols after the last chunk event: there are none *)
Lemma round_last s syms sf : wb s -> no_end syms ->
  l2_steps lc lp pb s (map L2Sym syms) = Ok sf ->
  w_chunk_start sf = h_pos (es_hist (w_enc sf)) -> sf = s.
Proof.
  intros Hwb Hne Hrun Hfin.
  apply run_syms in Hrun as (E & c' & h' & Hsyms & Hs1). subst sf.
  cbn [with_enc w_enc w_chunk_start es_hist] in Hfin. rewrite (wb_start s Hwb) in Hfin.
  destruct (syms_nil_of_pos _ _ _ _ _ _ Hne Hsyms (eq_sym Hfin)) as (-> & -> & ->).
  cbn [renc_events fst snd]. destruct s as [[c h e t] a b0 b1 b2 b3 o]. reflexivity.
Qed.

(* [syms]: the symbols run since the last chunk event, from the boundary state [s0] *)
Lemma frame_sync_gen : forall evs syms s0 s sf, wb s0 -> no_end syms ->
  l2_steps lc lp pb s0 (map L2Sym syms) = Ok s -> l2_no_end evs -> l2_steps lc lp pb s evs = Ok sf ->
  h_pos (es_hist (w_enc sf)) = h_total (es_hist (w_enc sf)) ->
  w_chunk_start sf = h_pos (es_hist (w_enc sf)) ->
  exists X, rev (w_out sf) = rev (w_out s0) ++ X /\
            chunks_ok lc lp pb (level_of s0) (es_hist (w_enc s0)) (X ++ [0]).
Proof.
  induction evs as [|ev r IH]; intros syms s0 s sf Hwb Hns Hrun Hne Hrest Hfin1 Hfin2; cbn [l2_steps] in Hrest.
  - apply Ok_inj in Hrest. subst sf. pose proof (round_last s0 syms s Hwb Hns Hrun Hfin2). subst s.
    exists []. split; [rewrite app_nil_r; reflexivity|]. apply ck_end. exact Hfin1.
  - apply obind_ok in Hrest as (s2 & Hstep & Hrest). pose proof (l2_no_end_tail _ _ Hne) as Hne'.
    assert (Hchunk : not_sym ev -> exists X, rev (w_out sf) = rev (w_out s0) ++ X /\
              chunks_ok lc lp pb (level_of s0) (es_hist (w_enc s0)) (X ++ [0])).
    { intros Hns'. destruct (round_any s0 syms s ev s2 Hwb Hns Hns' Hrun Hstep) as (Hwb2 & Xc & Hout & Hck).
      destruct (IH [] s2 s2 sf Hwb2 ltac:(intros y []) eq_refl Hne' Hrest Hfin1 Hfin2) as (X' & Hout' & Hck').
      exists (Xc ++ X'). split; [rewrite Hout', Hout, app_assoc; reflexivity | rewrite <- app_assoc; apply Hck; exact Hck']. }
    destruct ev as [x|u c|u|]; try (apply Hchunk; intros y; discriminate).
    apply (IH (syms ++ [x]) s0 s2 sf Hwb); try assumption.
    + intros y Hy. apply in_app_or in Hy as [Hy|[<-|[]]]; [apply Hns; exact Hy|].
      intros ->. exact (Hne (L2Sym SEnd) (or_introl eq_refl) eq_refl).
    + rewrite map_app, l2_steps_app, Hrun. cbn [obind map l2_steps]. rewrite Hstep. reflexivity.
Qed.

End Sync.

Theorem lzma2_frame_sync lc lp pb dict preset data evs stream :
  dict <= 2147483648 -> l2_no_end evs ->
  lzma2_write lc lp pb dict preset data evs = Ok stream ->
  chunks_ok lc lp pb (start_level preset) (ehist_new dict (preset_list preset) data) stream.
Proof.
  intros Hd Hne H. unfold lzma2_write in H. cbv zeta in H.
  apply obind_ok in H as (s1 & Hrun & H).
  match type of H with (if negb ?b then _ else _) = _ => destruct b eqn:Echk end;
    cbn [negb] in H; [|discriminate].
  apply Ok_inj in H. subst stream.
  apply andb_true_iff in Echk as [E1 E2]. apply Z.eqb_eq in E1, E2.
  fold (preset_list preset) in Hrun.
  match type of Hrun with l2_steps _ _ _ ?s0 _ = _ =>
    destruct (frame_sync_gen lc lp pb evs [] s0 s0 s1) as (X & Hout & Hck) end;
    try assumption; try reflexivity.
  - refine (wb_intro lc lp pb _ (ehist_new dict (preset_list preset) data) _ _ _ _ _ _ _ Hd _ _ _ _); auto;
      [apply coder_params_new | intros X; discriminate X].
  - intros y [].
  - rewrite frev_rev. cbn [rev]. rewrite Hout. cbn [w_out rev app].
    cbn [w_enc es_hist] in Hck.
    replace (start_level preset) with
      (level_of (mkL2st (mkEncst (coder_new lc lp pb) (ehist_new dict (preset_list preset) data) renc_init PLeaf)
                        (zlen (preset_kept dict (preset_list preset)))
                        (negb match preset with Some (_ :: _) => true | _ => false end) true true false []))
      by (destruct preset as [[|x q]|]; reflexivity).
    exact Hck.
Qed.
