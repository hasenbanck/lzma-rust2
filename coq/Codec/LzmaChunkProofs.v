(* Codec/LzmaChunkProofs.v — composition: what the symbol encoder + range encoder wrote for a run
   of symbols is decoded by LZMADecoder::decode over the cyclic window into exactly the bytes the
   symbols describe; the range decoder ends on the last byte with code = 0.
   (range coder: RangeProofs.v; symbol level: LzmaSymProofs.v, LzmaRoundtrip.v; window:
   LzWindowProofs.v, LzmaAbsProofs.v)
   Also the initial window and encoder array (lzwin_new_rel, data_ok_new). *)
From LzVerif Require Import Base.Bytes Codec.Store Codec.Range Codec.ProbProofs Codec.LzWindow Codec.LzmaDec
  Codec.LzmaEnc Codec.LzmaAbs Codec.LzWindowProofs Codec.ProgProofs Codec.LzmaAbsProofs
  Codec.RangeEncProofs Codec.RangeProofs Codec.LzmaSymProofs Codec.LzmaRoundtrip Codec.LzmaWriters.

Lemma ev_ok_same ev : RangeEncProofs.ev_ok ev = LzmaSymProofs.ev_ok ev.
Proof. reflexivity. Qed.

Lemma forallb_ev_ok_same l : forallb RangeEncProofs.ev_ok l = forallb LzmaSymProofs.ev_ok l.
Proof. induction l as [|x t IH]; cbn [forallb]; [reflexivity|]. rewrite IH, ev_ok_same. reflexivity. Qed.

(* every decision the symbol encoder emits is well formed *)
Lemma enc_symbol_events_ok c h s evs c' h' :
  h_dict h <= 2147483648 -> enc_symbol c h s = Ok (evs, c', h') -> forallb LzmaSymProofs.ev_ok evs = true.
Proof.
  intros Hd He. destruct (enc_symbol_inv _ _ _ _ _ _ He) as (km & _ & Hs).
  destruct s as [b|dist len|idx len|].
  - destruct Hs as (lbase & mb & _ & _ & _ & _ & -> & _). apply lit_events_ok.
  - destruct Hs as (kr & ev1 & _ & Hcv & _ & Hec & -> & _). apply copy_valid_inv in Hcv as (Hd0 & Hdd & _).
    refine (proj1 (match_reads _ _ _ _ _ _ _ Hec)). change (2 ^ 32) with 4294967296. lia.
  - destruct Hs as (kr & ev1 & _ & _ & _ & Hec & -> & _). exact (proj1 (rep_reads _ _ _ _ _ _ Hec)).
  - destruct Hs as (kr & ev1 & _ & Hec & -> & _). refine (proj1 (match_reads _ _ _ _ _ _ _ Hec)).
    change (2 ^ 32) with 4294967296. lia.
Qed.

Lemma enc_syms_events_ok syms : forall c h evs c' h',
  h_dict h <= 2147483648 -> enc_syms c h syms = Ok (evs, c', h') -> forallb LzmaSymProofs.ev_ok evs = true.
Proof.
  induction syms as [|s r IH]; intros c h evs c' h' Hd He; cbn [enc_syms] in He.
  - apply Ok_inj in He. apply pair_inj in He as [He _]. apply pair_inj in He as [<- _]. reflexivity.
  - apply obind_ok in He as ([[e1 c1] h1] & Hs & He). cbn [fst snd] in He.
    apply obind_ok in He as ([[e2 c2] h2] & Hrs & He). cbn [fst snd] in He.
    apply Ok_inj in He. apply pair_inj in He as [He _]. apply pair_inj in He as [<- _].
    apply forallb_app_true; [eapply enc_symbol_events_ok; eassumption|].
    eapply IH; [|exact Hrs]. destruct (enc_symbol_frame _ _ _ _ _ _ Hs) as (_ & -> & _). exact Hd.
Qed.

Theorem chunk_roundtrip :
  forall c h hist w syms evs c' h' t0 tail n,
  (* the encoder side *)
  no_end syms -> hist_rel h hist -> data_ok h -> reps_nonneg c ->
  h_dict h <= 2147483648 -> (h_dict h <= w_size w \/ h_total h - h_base h <= w_size w) ->
  enc_syms c h syms = Ok (evs, c', h') ->
  probs_ok t0 -> events_bits evs <= RC_MAX_BITS ->
  (* the decoder side: a window holding the same history, room for the whole run *)
  Rel w hist -> coder_ok c (w_full w) -> w_pending_len w = 0 ->
  Z.of_nat n = h_pos h' - h_pos h -> w_limit w = w_pos w + Z.of_nat n ->
  let bytes := renc_bytes (renc_finish (fst (renc_events renc_init t0 evs))) in
  exists d0 w1 d1 hist',
    rdec_init (bytes ++ tail) = Ok d0 /\
    lzma_decode c w d0 t0 = Ok (c', w1, Ok tt, d1, snd (renc_events renc_init t0 evs)) /\
    Rel w1 hist' /\ hist_rel h' hist' /\ zlen hist' = zlen hist + Z.of_nat n /\
    w_pending_len w1 = 0 /\ w_start w1 = w_start w /\ w_pos w1 = w_pos w + Z.of_nat n /\
    rd_in d1 = tail /\ rd_code d1 = 0 /\ rd_over d1 = 0.
Proof.
  intros c h hist w syms evs c' h' t0 tail n Hne Hhr Hdata Hreps Hd1 Hd2 He Ht Hbits R Hc Hp0 Hn Hlim bytes.
  pose proof (enc_syms_events_ok syms c h evs c' h' Hd1 He) as Hok.
  rewrite <- forallb_ev_ok_same in Hok.
  destruct (rc_sim_init evs t0 tail Ht Hok Hbits) as (d0 & Hinit & Hsim).
  destruct (aproduce_syms syms c h hist (w_size w) (w_pending_dist w) n evs c' h' [] Hne Hhr Hd1 Hd2 Hdata Hreps He Hn)
    as (hist' & pd' & Hrun & Hhr' & Hreps' & Hbase & _).
  destruct (rc_sim_run evs t0 tail [] d0 t0 _ _ evs [] _ Hsim ltac:(rewrite app_nil_r; reflexivity) Hrun)
    as (d' & t' & Hrc & Hsim').
  cbn [app] in Hsim'.
  destruct (rc_sim_end evs t0 tail d' t' Hsim') as (Ht' & Hin & Hcode & Hover).
  pose proof (lzma_decode_abs c w hist d0 t0 n R Hc ltac:(lia) ltac:(lia) ltac:(intros; lia)) as HA.
  rewrite Hp0 in HA. rewrite Hrc in HA.
  destruct HA as (w1 & Hdec & Hrel).
  unfold loop_rel in Hrel. cbn [a_coder a_hist a_dict a_pend_len a_pend_dist] in Hrel.
  destruct Hrel as (_ & _ & R1 & _ & Hsz & Hli & Hst & Hpos & Hzl & Hpl & Hok1 & _).
  exists d0, w1, (rdec_normalize d'), hist'.
  split; [exact Hinit|]. split; [rewrite Hdec, Ht'; reflexivity|].
  split; [exact R1|]. split; [exact Hhr'|].
  assert (Hzl' : zlen hist' = zlen hist + Z.of_nat n).
  { destruct Hhr as (Hl0 & _). destruct Hhr' as (Hl1 & _). lia. }
  repeat split; auto; lia.
Qed.

(* the states both sides start from: Rel for lzwin_new without a preset, data_ok for ehist_new *)
Lemma lzwin_new_rel size : 0 < size -> size mod 16 = 0 -> Rel (lzwin_new size None) [].
Proof.
  intros Hs H16. unfold lzwin_new. constructor; cbn [w_buf w_size w_start w_pos w_full w_limit w_pending_len].
  - split; assumption.
  - lia.
  - unfold zlen; cbn [length]. split; [lia|]. split; [lia|]. intros _. reflexivity.
  - lia.
  - reflexivity.
  - intros d Hd. lia.
  - intros _. unfold bget, aget. cbn [w_buf]. rewrite pget_leaf. reflexivity.
  - lia.
Qed.

Lemma aget_aset_list_range l : forall t i j,
  (forall k, 0 <= aget 0 t k < 256) -> bytes_ok l = true -> 0 <= i -> 0 <= aget 0 (aset_list t i l) j < 256.
Proof.
  induction l as [|x r IH]; intros t i j Ht Hb Hi; cbn [aset_list]; [apply Ht|].
  cbn [bytes_ok forallb] in Hb. apply andb_true_iff in Hb as [Hx Hr].
  unfold is_byte in Hx. apply andb_true_iff in Hx as [Hx0 Hx1]. apply Z.leb_le in Hx0. apply Z.ltb_lt in Hx1.
  apply IH; [|exact Hr|lia].
  intros k. destruct (Z.eq_dec k i) as [->|Hne].
  - rewrite agss. lia.
  - destruct (Z.ltb_spec k 0) as [Hneg|Hpos].
    + (* negative keys share cell 0 of the trie; the value there is a byte either way *)
      unfold aget, aset, akey. replace (Z.to_pos (k + 1)) with 1%positive by (destruct (k + 1) eqn:E; try reflexivity; lia).
      destruct (Pos.eq_dec (Z.to_pos (i + 1)) 1) as [E|E].
      * rewrite E, pgss. lia.
      * rewrite pgso by assumption. specialize (Ht (-1)). unfold aget, akey in Ht. cbn in Ht. exact Ht.
    + rewrite agso by lia. apply Ht.
Qed.

Lemma data_ok_new dict preset data : bytes_ok preset = true -> bytes_ok data = true ->
  data_ok (LzmaWriters.ehist_new dict preset data).
Proof.
  intros Hp Hd i. unfold LzmaWriters.ehist_new, hget; cbn [h_data]. unfold LzmaWriters.array_of_list.
  apply aget_aset_list_range; [| |lia].
  - intros k. unfold aget. rewrite pget_leaf. lia.
  - unfold bytes_ok in *. rewrite forallb_app. rewrite Hd, andb_true_r.
    unfold LzmaWriters.preset_kept, lastn. rewrite forallb_forall in Hp |- *.
    intros x Hx. apply Hp. eapply In_skipn; exact Hx.
Qed.
