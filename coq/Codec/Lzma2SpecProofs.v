(* Codec/Lzma2SpecProofs.v — the LZMA2 container at specification level: a stream is a sequence
   of chunks, each described by what the READER must hold when it starts (reset level), by the
   position in the data, and by the bytes of the chunk.  [chunks_ok] is the meeting point of
     - Lzma2FrameSyncProofs.v: whatever the writer model accepts and writes is such a sequence;
     - Lzma2ReadProofs.v: the reader model decodes any such sequence for any buffer sizes.
   Definitions and small list facts only. *)
From LzVerif Require Import Base.Bytes Codec.Store Codec.Range Codec.ProbProofs Codec.LzWindow Codec.LzmaDec
  Codec.LzmaEnc Codec.LzmaAbs Codec.LzWindowProofs Codec.ProgProofs Codec.LzmaAbsProofs
  Codec.RangeEncProofs Codec.RangeProofs Codec.LzmaSymProofs Codec.LzmaRoundtrip Codec.LzmaWriters.

(* What has to be reset before the next LZMA chunk can be coded.  The four flags of the writer
   (dict_reset_needed <= props_needed <= state_reset_needed, force_independent) only occur in
   these combinations.  [RNone c t]: nothing; the coder state and the probabilities carry over. *)
Inductive rlevel : Type :=
| RNone (c : coder) (t : probs)
| RState          (* control 0xA0: state reset *)
| RProps          (* control 0xC0: state reset + new properties *)
| RDict.          (* control 0xE0 / 0x01: dictionary reset (+ state + properties) *)

Definition h_at (h : ehist) (p : Z) : ehist := mkEhist (h_data h) (h_total h) (h_base h) p (h_dict h).
Definition h_rebase (h : ehist) : ehist := mkEhist (h_data h) (h_total h) (h_pos h) (h_pos h) (h_dict h).

Definition after_unc (r : rlevel) : rlevel :=
  match r with RDict => RProps | RProps => RProps | _ => RState end.
Definition unc_ctl (r : rlevel) : Z := match r with RDict => 1 | _ => 2 end.
Definition lzma_ctl0 (r : rlevel) : Z :=
  match r with RNone _ _ => 128 | RState => 160 | RProps => 192 | RDict => 224 end.
Definition has_props (r : rlevel) : bool := match r with RProps | RDict => true | _ => false end.
Definition is_dict (r : rlevel) : bool := match r with RDict => true | _ => false end.
Definition start_coder (lc lp pb : Z) (r : rlevel) : coder :=
  match r with RNone c _ => c | _ => coder_new lc lp pb end.
Definition start_probs (r : rlevel) : probs := match r with RNone _ t => t | _ => PLeaf end.

Definition unc_header (r : rlevel) (n : Z) : list Z :=
  [unc_ctl r; wrap8 (Z.shiftr (n - 1) 8); wrap8 (n - 1)].
Definition lzma_header (lc lp pb : Z) (r : rlevel) (usize csize : Z) : list Z :=
  [wrap8 (Z.lor (lzma_ctl0 r) (Z.shiftr (usize - 1) 16));
   wrap8 (Z.shiftr (usize - 1) 8); wrap8 (usize - 1);
   wrap8 (Z.shiftr (csize - 1) 8); wrap8 (csize - 1)]
  ++ (if has_props r then [props_byte lc lp pb] else []).

(* the payload of an LZMA chunk: the range coder's complete output for the chunk's decisions *)
Definition chunk_body (t0 : probs) (E : list event) : list Z :=
  renc_bytes (renc_finish (fst (renc_events renc_init t0 E))).

Definition coder_params (c : coder) (lc lp pb : Z) : Prop := c_lc c = lc /\ c_lp c = lp /\ c_pb c = pb.

(* [chunks_ok r h bytes]: [bytes] is a complete LZMA2 stream tail (ending with the 0x00 control
   byte) for the data from position [h_pos h] to the end, for a reader at reset level [r]. *)
Inductive chunks_ok (lc lp pb : Z) : rlevel -> ehist -> list Z -> Prop :=
| ck_end r h :
    h_pos h = h_total h -> chunks_ok lc lp pb r h [0]
| ck_new r h bytes :                        (* start_independent_chunk: nothing is written *)
    chunks_ok lc lp pb RDict (h_rebase h) bytes -> chunks_ok lc lp pb r h bytes
| ck_unc r h n bytes :                      (* one stored chunk of n <= 64 KiB bytes *)
    1 <= n <= 65536 -> h_pos h + n <= h_total h ->
    chunks_ok lc lp pb (after_unc r) (h_at h (h_pos h + n)) bytes ->
    chunks_ok lc lp pb r h (unc_header r n ++ aget_list (h_data h) (h_pos h) (Z.to_nat n) ++ bytes)
| ck_lzma r h syms E c' h' usize csize bytes :
    no_end syms ->
    enc_syms (start_coder lc lp pb r) h syms = Ok (E, c', h') ->
    coder_params c' lc lp pb ->
    events_bits E <= RC_MAX_BITS ->
    usize = h_pos h' - h_pos h -> 1 <= usize <= 2097152 ->
    csize = zlen (chunk_body (start_probs r) E) -> 1 <= csize <= 65536 ->
    chunks_ok lc lp pb (RNone c' (snd (renc_events renc_init (start_probs r) E))) h' bytes ->
    chunks_ok lc lp pb r h
      (lzma_header lc lp pb r usize csize ++ chunk_body (start_probs r) E ++ bytes).

(* the data from the current position to the end *)
Definition data_from (h : ehist) : list Z := aget_list (h_data h) (h_pos h) (Z.to_nat (h_total h - h_pos h)).

Lemma h_at_pos h : h_at h (h_pos h) = h.
Proof. destruct h; reflexivity. Qed.

Lemma h_at_at h p q : h_at (h_at h p) q = h_at h q.
Proof. reflexivity. Qed.

Lemma aget_list_length t n : forall i, length (aget_list t i n) = n.
Proof. induction n as [|k IH]; intros i; cbn [aget_list length]; [reflexivity | rewrite IH; reflexivity]. Qed.

Lemma aget_list_app t a : forall b i,
  aget_list t i (a + b) = aget_list t i a ++ aget_list t (i + Z.of_nat a) b.
Proof.
  induction a as [|k IH]; intros b i.
  - cbn [Nat.add aget_list app]. f_equal. lia.
  - cbn [Nat.add aget_list app]. rewrite IH. do 3 f_equal. lia.
Qed.

Lemma aget_list_split t i n k : 0 <= k <= n ->
  aget_list t i (Z.to_nat n) = aget_list t i (Z.to_nat k) ++ aget_list t (i + k) (Z.to_nat (n - k)).
Proof.
  intros H. replace (Z.to_nat n) with (Z.to_nat k + Z.to_nat (n - k))%nat by lia.
  rewrite aget_list_app. do 2 f_equal. lia.
Qed.

Lemma zlen_aget_list t i n : zlen (aget_list t i n) = Z.of_nat n.
Proof. unfold zlen. rewrite aget_list_length. reflexivity. Qed.

