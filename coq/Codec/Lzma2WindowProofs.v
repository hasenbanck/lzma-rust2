(* Codec/Lzma2WindowProofs.v — the window operations only the LZMA2 reader uses (reset,
   copy_uncompressed) at the level of the history relation [Rel], and a few facts about flush. *)
From LzVerif Require Import Base.Bytes Codec.Store Codec.LzWindow Codec.LzWindowProofs.

(* reset(): an empty history; everything but the pending fields is re-initialised *)
Lemma reset_rel w :
  0 < w_size w -> w_size w mod 16 = 0 -> 0 <= w_pending_len w ->
  exists w', lzwin_reset w = Ok w' /\ Rel w' [] /\ w_size w' = w_size w /\ w_start w' = 0 /\ w_pos w' = 0 /\
             w_full w' = 0 /\ w_pending_len w' = w_pending_len w /\ w_pending_dist w' = w_pending_dist w.
Proof.
  intros Hs H16 Hp. unfold lzwin_reset. destruct (Z.leb_spec (w_size w) 0) as [Hle|Hgt]; [lia|].
  eexists. split; [reflexivity|]. split; [|cbn; repeat split; reflexivity].
  constructor; cbn [w_buf w_size w_start w_pos w_full w_limit w_pending_len].
  - split; assumption.
  - lia.
  - unfold zlen; cbn [length]. split; [lia|]. split; [lia|]. intros _. reflexivity.
  - lia.
  - reflexivity.
  - intros d Hd. lia.
  - intros _. unfold bget; cbn [w_buf]. apply agss.
  - exact Hp.
Qed.

(* writing a list at the write position = appending it to the history *)
Lemma put_list_rel l : forall w hist,
  Rel w hist -> w_pos w + zlen l <= w_size w ->
  Rel (mkLzwin (aset_list (w_buf w) (w_pos w) l) (w_size w) (w_start w) (w_pos w + zlen l)
               (Z.max (w_full w) (w_pos w + zlen l)) (w_limit w) (w_pending_len w) (w_pending_dist w))
      (rev l ++ hist).
Proof.
  induction l as [|x r IH]; intros w hist R Hroom.
  - cbn [aset_list rev app]. change (zlen (@nil Z)) with 0.
    destruct R as [A B [C1 [C2 C3]] D E F G H].
    replace (w_pos w + 0) with (w_pos w) by lia.
    replace (Z.max (w_full w) (w_pos w)) with (w_full w) by lia.
    destruct w; constructor; cbn in *; auto.
  - rewrite zlen_cons in Hroom |- *. pose proof (zlen_nonneg r) as Hr.
    assert (Hlt : w_pos w < w_size w) by lia.
    destruct (put_byte_rel w hist x R Hlt) as (w' & Hput & R' & Hst & Hli & Hpo & Hsz & Hpl & Hpd).
    unfold lzwin_put_byte in Hput.
    destruct (Z.ltb_spec (w_pos w) 0); [destruct R as [_ [? ?] _ _ _ _ _ _]; lia|].
    destruct (Z.leb_spec (w_size w) (w_pos w)); [lia|]. cbn [orb] in Hput. inversion Hput as [Hw']; clear Hput.
    specialize (IH w' (x :: hist) R' ltac:(rewrite Hpo, Hsz; lia)).
    rewrite <- Hw' in IH. cbn [w_buf w_size w_pos w_start w_full w_limit w_pending_len w_pending_dist] in IH.
    cbn [aset_list rev]. rewrite <- app_assoc. cbn [app].
    replace (w_pos w + (zlen r + 1)) with (w_pos w + 1 + zlen r) by lia.
    replace (Z.max (w_full w) (w_pos w + 1 + zlen r)) with (Z.max (Z.max (w_full w) (w_pos w + 1)) (w_pos w + 1 + zlen r)) by lia.
    exact IH.
Qed.

(* copy_uncompressed(in, len): min(buf_size - pos, len) bytes of the input go to the history *)
Lemma copy_uncompressed_rel w hist input len :
  Rel w hist -> 0 <= len ->
  let n := Z.min (w_size w - w_pos w) len in
  (Z.to_nat n <= length input)%nat ->
  exists w', lzwin_copy_uncompressed w input len = Ok (w', skipn (Z.to_nat n) input) /\
             Rel w' (rev (firstn (Z.to_nat n) input) ++ hist) /\
             w_size w' = w_size w /\ w_start w' = w_start w /\ w_pos w' = w_pos w + n /\
             w_pending_len w' = w_pending_len w /\ w_pending_dist w' = w_pending_dist w.
Proof.
  intros R Hlen n Hin. unfold lzwin_copy_uncompressed. fold n.
  pose proof R as [_ [_ Hp2] _ _ _ _ _ _].
  destruct (Z.ltb_spec n 0) as [Hneg|Hnn]; [unfold n in Hneg; lia|].
  destruct (Nat.ltb_spec (length input) (Z.to_nat n)) as [Hshort|Hok]; [lia|].
  eexists. split; [reflexivity|].
  assert (Hz : zlen (firstn (Z.to_nat n) input) = n).
  { unfold zlen. rewrite firstn_length_le by lia. lia. }
  split.
  - pose proof (put_list_rel (firstn (Z.to_nat n) input) w hist R) as HP. rewrite Hz in HP.
    apply HP. unfold n. lia.
  - cbn [w_size w_start w_pos w_pending_len w_pending_dist]. repeat split; reflexivity.
Qed.

(* flush(): the fields the reader's invariants talk about *)
Lemma flush_facts w :
  w_full (snd (lzwin_flush w)) = w_full w /\
  (0 < w_size w -> w_pos w <= w_size w -> w_pos (snd (lzwin_flush w)) < w_size w) /\
  zlen (fst (lzwin_flush w)) = Z.max 0 (w_pos w - w_start w).
Proof.
  unfold lzwin_flush. cbn [fst snd w_full w_pos].
  split; [reflexivity|]. split.
  - intros Hs Hp. destruct (Z.eqb_spec (w_pos w) (w_size w)); lia.
  - unfold zlen.
    assert (Hl : forall t n i, length (aget_list t i n) = n).
    { intros t n; induction n as [|k IH]; intros i; cbn [aget_list length]; [reflexivity | rewrite IH; reflexivity]. }
    rewrite Hl. lia.
Qed.
