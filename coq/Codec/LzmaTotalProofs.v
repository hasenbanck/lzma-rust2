(* Codec/LzmaTotalProofs.v — totality on untrusted input: LZMADecoder::decode over the window never
   panics and never runs out of its fuel (limit - pos iterations), whatever bytes the range decoder
   is fed, as long as the decoder state itself is consistent (which every constructor and every
   successful step establish).  The decision programs are walked once, with [pcost]: that they
   cannot fail, what they return, and how many bits they ask for (a symbol that produces len bytes
   costs at least len / 20 bits, 273 bytes at least 14).  Results: run_rc_safe, aproduce_cost,
   lzma_decode_total. *)
From LzVerif Require Import Base.Bytes Codec.Store Codec.Range Codec.ProbProofs Codec.LzWindow Codec.LzmaDec
  Codec.LzmaAbs Codec.LzWindowProofs Codec.ProgProofs Codec.LzmaAbsProofs Codec.RangeNoWrapProofs.

Inductive psafe {A : Type} : prog A -> Prop :=
| psafe_ret a : psafe (Ret a)
| psafe_bit key k : (forall b, bit_ok b -> psafe (k b)) -> psafe (Bit key k)
| psafe_direct n k : (forall v, direct_ok n v -> psafe (k v)) -> psafe (Direct n k).

Lemma psafe_bind {A B} (P : A -> Prop) (p : prog A) (f : A -> prog B) :
  pall P p -> psafe p -> (forall a, P a -> psafe (f a)) -> psafe (pbind p f).
Proof.
  intros HP Hs Hf. induction HP as [a Ha|e|key k Hk IH|n k Hk IH]; cbn [pbind].
  - apply Hf; assumption.
  - inversion Hs.
  - inversion Hs as [|key' k' Hk'|]; subst. constructor. intros b Hb. apply IH; auto.
  - inversion Hs as [| |n' k' Hk']; subst. constructor. intros v Hv. apply IH; auto.
Qed.

Lemma psafe_bind_true {A B} (p : prog A) (f : A -> prog B) :
  psafe p -> (forall a, psafe (f a)) -> psafe (pbind p f).
Proof. intros Hs Hf. eapply psafe_bind; [apply pall_true | exact Hs | auto]. Qed.

Lemma peq_psafe {A B} (R : A -> B -> Prop) p q : peq R p q -> psafe q -> psafe p.
Proof.
  induction 1 as [a b Hab|e|key k1 k2 Hk IH|n k1 k2 Hk IH]; intros Hs.
  - constructor.
  - inversion Hs.
  - inversion Hs; subst. constructor. auto.
  - inversion Hs; subst. constructor. auto.
Qed.

(* [pcost Q p k]: no Fail node is reachable, and a run that starts with the bit counter at k ends
   with a value a and a counter j such that Q a j.  One walk through a sub-decoder with this
   predicate gives its safety, the range of its result and its cost. *)
Inductive pcost {A : Type} (Q : A -> Z -> Prop) : prog A -> Z -> Prop :=
| pc_ret a k : Q a k -> pcost Q (Ret a) k
| pc_bit key f k : (forall b, bit_ok b -> pcost Q (f b) (k + 1)) -> pcost Q (Bit key f) k
| pc_direct n f k : (forall v, direct_ok n v -> pcost Q (f v) (k + Z.of_nat n)) -> pcost Q (Direct n f) k.

Lemma pcost_mono {A} (Q Q' : A -> Z -> Prop) p k : (forall a j, Q a j -> Q' a j) -> pcost Q p k -> pcost Q' p k.
Proof. intros HQ H. induction H; constructor; auto. Qed.

Lemma pcost_bind {A B} (Q : B -> Z -> Prop) (p : prog A) (f : A -> prog B) k :
  pcost (fun a j => pcost Q (f a) j) p k -> pcost Q (pbind p f) k.
Proof. intros H. induction H; cbn [pbind]; try constructor; auto. Qed.

Lemma pcost_pall {A} (P : A -> Prop) (Q : A -> Z -> Prop) p k :
  pall P p -> pcost Q p k -> pcost (fun a j => P a /\ Q a j) p k.
Proof.
  intros HP; revert k; induction HP as [a Ha|e|key f Hf IH|n f Hf IH]; intros k HQ; inversion HQ; subst; constructor; auto.
Qed.

Lemma pcost_psafe {A} (Q : A -> Z -> Prop) p k : pcost Q p k -> psafe p.
Proof. induction 1; constructor; auto. Qed.

Lemma pcost_post {A} (Q : A -> Z -> Prop) p k : pcost Q p k -> pall (fun a => exists j, Q a j) p.
Proof. induction 1; constructor; eauto. Qed.

(* the bit counter never falls *)
Lemma pcost_ge {A} (p : prog A) : psafe p -> forall k, pcost (fun _ j => k <= j) p k.
Proof.
  induction 1 as [a|key f Hf IH|n f Hf IH]; intros k; constructor; try lia.
  - intros b Hb. eapply pcost_mono; [|apply IH; exact Hb]. cbv beta. intros; lia.
  - intros v Hv. eapply pcost_mono; [|apply IH; exact Hv]. cbv beta. intros; lia.
Qed.

Definition rdec_wf (d : rdec) : Prop := rd_range d < 4294967296.

Lemma decode_bit_wf d t k b d' t' :
  probs_ok t -> rdec_wf d -> decode_bit d t k = Some (b, d', t') -> rdec_wf d' /\ probs_ok t'.
Proof.
  intros Ht Hd H. unfold decode_bit in H.
  destruct (P2_32 <=? Z.shiftr (rd_range (rdec_normalize d)) 11 * prob_get t k) eqn:E; [discriminate|].
  apply Z.leb_gt in E. unfold P2_32 in E.
  pose proof (probs_ok_get t k Ht) as Hp.
  destruct (rd_code (rdec_normalize d) <? _); inversion H; subst; clear H; unfold rdec_wf; cbn [rd_range].
  - split; [lia|]. apply probs_ok_set; [assumption|].
    destruct (prob_update_twins (prob_get t k) 0 Hp (or_introl eq_refl)) as (<- & Hok). exact Hok.
  - split; [pose proof (wrap32_range (rd_range (rdec_normalize d) - Z.shiftr (rd_range (rdec_normalize d)) 11 * prob_get t k)); lia|].
    apply probs_ok_set; [assumption|].
    destruct (prob_update_twins (prob_get t k) 1 Hp (or_intror eq_refl)) as (<- & Hok). exact Hok.
Qed.

Lemma decode_direct_bits_wf n : forall d acc v d', rdec_wf d -> decode_direct_bits d n acc = (v, d') -> rdec_wf d'.
Proof.
  induction n as [|m IH]; intros d acc v d' Hd H; cbn [decode_direct_bits] in H.
  - inversion H; subst. exact Hd.
  - eapply IH; [|exact H]. unfold rdec_wf in *. cbn [rd_range].
    pose proof (rdec_normalize_range d Hd) as Hn.
    rewrite Z.shiftr_div_pow2 by lia. change (2 ^ 1) with 2.
    destruct (Z.lt_ge_cases (rd_range (rdec_normalize d)) 0) as [Hneg|Hpos].
    + assert (rd_range (rdec_normalize d) / 2 < 0) by (apply Z.div_lt_upper_bound; lia). lia.
    + assert (rd_range (rdec_normalize d) / 2 <= rd_range (rdec_normalize d)) by (apply Z.div_le_upper_bound; lia). lia.
Qed.

(* a program without Fail nodes run against the range decoder always returns a value - never a
   panic, never fuel exhaustion - for every input *)
Theorem run_rc_safe {A} (p : prog A) :
  psafe p -> forall d t, probs_ok t -> rdec_wf d ->
  exists a d' t', run_rc p d t = Ok (a, d', t') /\ rdec_wf d' /\ probs_ok t'.
Proof.
  induction 1 as [a|key k Hk IH|n k Hk IH]; intros d t Ht Hd; cbn [run_rc].
  - exists a, d, t. auto.
  - destruct (decode_bit d t key) as [[[b d1] t1]|] eqn:E.
    + destruct (decode_bit_wf _ _ _ _ _ _ Ht Hd E) as (Hd1 & Ht1).
      apply IH; [eapply decode_bit_bit; eassumption | assumption | assumption].
    + exfalso. eapply decode_bit_never_none; eassumption.
  - destruct (decode_direct_bits d n 0) as [v d1] eqn:E.
    apply IH; [eapply decode_direct_bits_ok; eassumption | assumption | eapply decode_direct_bits_wf; eassumption].
Qed.

Lemma bittree_safe base levels : forall sym, psafe (bittree base levels sym).
Proof. induction levels as [|l IH]; intros sym; cbn [bittree]; constructor. intros b _. apply IH. Qed.

Lemma rev_bittree_safe base levels : forall sym i res, psafe (rev_bittree base levels sym i res).
Proof. induction levels as [|l IH]; intros sym i res; cbn [rev_bittree]; constructor. intros b _. apply IH. Qed.

Lemma lit_matched_safe lbase n : forall mb off sym, psafe (lit_matched lbase n mb off sym).
Proof. induction n as [|k IH]; intros mb off sym; cbn [lit_matched]; constructor. intros b _. apply IH. Qed.

Lemma lit_prog_safe lbase mb : psafe (lit_prog lbase mb).
Proof. destruct mb; cbn [lit_prog]; [apply lit_matched_safe | apply bittree_safe]. Qed.

Lemma bittree_cost base levels : forall sym k, pcost (fun _ j => j = k + Z.of_nat levels) (bittree base levels sym) k.
Proof.
  induction levels as [|l IH]; intros sym k; cbn [bittree].
  - constructor. lia.
  - constructor. intros b _. eapply pcost_mono; [|apply IH]. cbv beta. intros; lia.
Qed.

Lemma decode_bit_tree_cost base levels k :
  pcost (fun s j => 0 <= s < 2 ^ Z.of_nat levels /\ j = k + Z.of_nat levels) (decode_bit_tree base levels) k.
Proof.
  apply pcost_pall; [apply decode_bit_tree_post|].
  unfold decode_bit_tree. apply pcost_bind. eapply pcost_mono; [|apply bittree_cost].
  cbv beta. intros s j Hj. constructor. exact Hj.
Qed.

Lemma decode_len_cost base ps k : 0 <= ps < 16 ->
  pcost (fun l j => 2 <= l <= 273 /\ k + 4 <= j /\ (18 <= l -> k + 10 <= j)) (decode_len base ps) k.
Proof.
  intros Hps. unfold decode_len. constructor. intros c0 _. destruct (c0 =? 0).
  - rewrite key2_ok by lia. cbn [lift pbind]. apply pcost_bind.
    eapply pcost_mono; [|apply decode_bit_tree_cost]. cbv beta. intros s j (Hs & Hj). constructor.
    change (2 ^ Z.of_nat 3) with 8 in Hs. lia.
  - constructor. intros c1 _. destruct (c1 =? 0).
    + rewrite key2_ok by lia. cbn [lift pbind]. apply pcost_bind.
      eapply pcost_mono; [|apply decode_bit_tree_cost]. cbv beta. intros s j (Hs & Hj). constructor.
      change (2 ^ Z.of_nat 3) with 8 in Hs. lia.
    + apply pcost_bind.
      eapply pcost_mono; [|apply decode_bit_tree_cost]. cbv beta. intros s j (Hs & Hj). constructor.
      change (2 ^ Z.of_nat 8) with 256 in Hs. lia.
Qed.

(* a match of len bytes costs at least len / 20 bits *)
Lemma decode_match_cost c ps k : 0 <= ps < 16 ->
  pcost (fun r j => snd r <= 20 * (j - k)) (decode_match c ps) k.
Proof.
  intros Hps. unfold decode_match. apply pcost_bind.
  eapply pcost_mono; [|apply decode_len_cost; assumption]. cbv beta. intros len j1 (Hlen & Hj1 & Hj1b).
  assert (Hds : 0 <= dist_state_of_len len < 4) by (unfold dist_state_of_len; destruct (len <? 6) eqn:E; lia).
  rewrite key2_ok by lia. cbn [lift pbind]. apply pcost_bind.
  eapply pcost_mono; [|apply decode_bit_tree_cost]. cbv beta. intros slot j2 (_ & Hj2).
  apply pcost_bind. eapply pcost_mono; [|apply pcost_ge].
  - cbv beta. intros rep0 j3 Hj3. constructor. cbn [snd]. change (Z.of_nat 6) with 6 in Hj2. lia.
  - destruct (slot <? 4); [constructor|]. destruct (slot <? 14).
    + apply psafe_bind_true; [apply rev_bittree_safe | intros; constructor].
    + constructor. intros v _. apply psafe_bind_true; [apply rev_bittree_safe | intros; constructor].
Qed.

(* the longest rep match, 273 bytes, takes at least 12 bits here (2 or 3 selector bits, 10 in
   decode_len): 273 = 20 * 12 + 33; asym_cost absorbs the 33 with the two bits read before this
   program *)
Lemma decode_rep_match_cost c ps k : 0 <= c_state c < 12 -> 0 <= ps < 16 ->
  pcost (fun r j => snd r <= 20 * (j - k) + 33) (decode_rep_match c ps) k.
Proof.
  intros Hst Hps. unfold decode_rep_match.
  rewrite key1_ok by lia. cbn [lift pbind]. constructor. intros b0 _. destruct (b0 =? 0).
  - rewrite key2_ok by lia. cbn [lift pbind]. constructor. intros bl _. destruct (bl =? 0).
    + constructor. cbn [snd]. lia.
    + apply pcost_bind. eapply pcost_mono; [|apply decode_len_cost; assumption]. cbv beta.
      intros len j (Hlen & Hj & Hjb). constructor. cbn [snd]. lia.
  - rewrite key1_ok by lia. cbn [lift pbind]. constructor. intros b1 _.
    apply pcost_bind. eapply pcost_mono; [|apply pcost_ge].
    + cbv beta. intros c1 j1 Hj1.
      apply pcost_bind. eapply pcost_mono; [|apply decode_len_cost; assumption]. cbv beta.
      intros len j (Hlen & Hj & Hjb). constructor. cbn [snd]. lia.
    + destruct (b1 =? 0); [constructor|]. rewrite key1_ok by lia. cbn [lift pbind]. constructor. intros b2 _.
      destruct (b2 =? 0); constructor.
Qed.

(* lit_base returns Ok for every previous byte and position *)
Lemma lit_base_total c prev pos : params_ok c -> 0 <= prev < 256 -> 0 <= pos ->
  exists lb, lit_base c prev pos = Ok lb.
Proof.
  intros (Hlc & Hlp & _) Hprev Hpos. unfold lit_base.
  destruct (Z.ltb_spec 8 (c_lc c)); [lia|].
  rewrite land_mask_mod by assumption.
  set (m := pos mod 2 ^ c_lp c).
  assert (Hm : 0 <= m < 2 ^ c_lp c) by (apply Z.mod_pos_bound; apply Z.pow_pos_nonneg; lia).
  rewrite (Z.shiftl_mul_pow2 m) by lia. rewrite Z.shiftr_div_pow2 by lia.
  assert (Hlow : 0 <= prev / 2 ^ (8 - c_lc c) < 2 ^ c_lc c).
  { split; [apply Z.div_pos; [lia | apply Z.pow_pos_nonneg; lia]|].
    apply Z.div_lt_upper_bound; [apply Z.pow_pos_nonneg; lia|].
    rewrite <- Z.pow_add_r by lia. replace (8 - c_lc c + c_lc c) with 8 by lia. change (2 ^ 8) with 256. lia. }
  assert (Hpl : 0 < 2 ^ c_lc c) by (apply Z.pow_pos_nonneg; lia).
  assert (Hmul : 0 <= m * 2 ^ c_lc c <= (2 ^ c_lp c - 1) * 2 ^ c_lc c)
    by (split; [apply Z.mul_nonneg_nonneg; lia | apply Z.mul_le_mono_nonneg_r; lia]).
  assert (Hsum : 0 <= prev / 2 ^ (8 - c_lc c) + m * 2 ^ c_lc c < 2 ^ (c_lc c + c_lp c)).
  { rewrite Z.pow_add_r by lia. lia. }
  assert (Hle : 2 ^ (c_lc c + c_lp c) <= 2 ^ 12) by (apply Z.pow_le_mono_r; lia).
  change (2 ^ 12) with 4096 in Hle.
  assert (Hw1 : wrap32 (m * 2 ^ c_lc c) = m * 2 ^ c_lc c) by (unfold wrap32; apply Z.mod_small; lia).
  rewrite Hw1.
  assert (Hw2 : wrap32 (prev / 2 ^ (8 - c_lc c) + m * 2 ^ c_lc c) = prev / 2 ^ (8 - c_lc c) + m * 2 ^ c_lc c)
    by (unfold wrap32; apply Z.mod_small; lia).
  rewrite Hw2. rewrite Z.shiftl_1_l. rewrite key1_ok by lia. cbn [obind]. eauto.
Qed.

Definition hist_bytes (hist : list Z) : Prop := forall d, 0 <= hnth hist d < 256.

Lemma hist_bytes_cons b hist : 0 <= b < 256 -> hist_bytes hist -> hist_bytes (b :: hist).
Proof.
  intros Hb Hh d. destruct (Z.eq_dec d 0) as [->|Hne]; [rewrite hnth_cons_0; exact Hb|].
  destruct (Z.lt_ge_cases d 0) as [Hneg|Hpos].
  - unfold hnth, zth. destruct (Z.ltb_spec d 0); [lia | lia].
  - rewrite hnth_cons_S by lia. apply Hh.
Qed.

Lemma hist_bytes_in l : (forall x, In x l -> 0 <= x < 256) -> hist_bytes l.
Proof.
  induction l as [|a l IH]; intros H.
  - intros d. unfold hnth, zth. destruct (d <? 0); [lia|]. destruct (Z.to_nat d); cbn [nth_opt]; lia.
  - apply hist_bytes_cons; [apply H; left; reflexivity | apply IH; intros x Hx; apply H; right; exact Hx].
Qed.

Definition asafe (s : astate) : Prop :=
  params_ok (a_coder s) /\ 0 <= c_state (a_coder s) < 12 /\ hist_bytes (a_hist s).

Definition asym_post (c : coder) (r : coder * symres) : Prop :=
  params_ok (fst r) /\ 0 <= c_state (fst r) < 12 /\
  match snd r with RLit b => 0 <= b < 256 | RCopy _ len => 1 <= len end.

(* one symbol: a literal costs at least one bit, a copy of len bytes at least len / 20 bits *)
Lemma asym_cost c hist k : params_ok c -> 0 <= c_state c < 12 -> hist_bytes hist ->
  pcost (fun r j => asym_post c r /\ match snd r with RLit _ => k + 1 <= j | RCopy _ len => len <= 20 * (j - k) end)
        (asym c hist) k.
Proof.
  intros Hpar Hst Hh. pose proof (zlen_nonneg hist) as Hz.
  pose proof (pos_state_range c (zlen hist) Hpar Hz) as Hps.
  destruct (lit_base_total c (hnth hist 0) (zlen hist) Hpar (Hh 0) Hz) as (lb & Hlb).
  pose proof (state_update_range (c_state c) Hst) as (Hu1 & _).
  unfold asym. rewrite key2_ok by lia. cbn [lift pbind].
  constructor. intros bm _. destruct (bm =? 0).
  - rewrite Hlb. cbn [lift pbind]. apply pcost_bind. eapply pcost_mono; [|apply pcost_ge, lit_prog_safe].
    cbv beta. intros sym j Hj. constructor. split; [|cbn [snd]; lia].
    unfold asym_post; cbn [fst snd set_state c_state c_lc c_lp c_pb params_ok].
    split; [exact Hpar|]. split; [exact Hu1 | apply wrap8_range].
  - rewrite key1_ok by lia. cbn [lift pbind]. constructor. intros br _. apply pcost_bind.
    assert (HP : pcost (fun r j => match_post c r /\ snd r <= 20 * (j - (k + 1 + 1)) + 33)
                   (if br =? 0 then decode_match c (pos_state_of c (zlen hist)) else decode_rep_match c (pos_state_of c (zlen hist)))
                   (k + 1 + 1)).
    { destruct (br =? 0); apply pcost_pall.
      - apply decode_match_post; assumption.
      - eapply pcost_mono; [|apply decode_match_cost; assumption]. cbv beta. intros; lia.
      - apply decode_rep_match_post; assumption.
      - apply decode_rep_match_cost; assumption. }
    eapply pcost_mono; [|exact HP]. cbv beta. intros cl j (((S1 & S2 & S3) & Hst1 & _ & Hlen) & Hj).
    constructor. split; [|cbn [snd]; lia]. unfold asym_post, params_ok; cbn [fst snd]. rewrite S1, S2, S3.
    split; [exact Hpar|]. split; [exact Hst1 | lia].
Qed.

(* the specification decoder from state s with the counter at k: it cannot fail; it ends in a
   consistent state with status Ok or the distance error; bytes produced plus bytes still pending
   cost 1/20 bit each *)
Definition acost (s : astate) (k : Z) (r : astate * outcome unit) (j : Z) : Prop :=
  asafe (fst r) /\ (snd r = Ok tt \/ exists e, snd r = Err e) /\ 0 <= a_pend_len (fst r) /\
  a_pend_len (fst r) + zlen (a_hist (fst r)) - zlen (a_hist s) <= 20 * (j - k) + a_pend_len s.

(* one more byte in the history, paid for by the bits between k and k' or by the pending copy *)
Lemma acost_step s k c b pl pd k' r j : 0 <= a_pend_len s ->
  pl + 1 <= 20 * (k' - k) + a_pend_len s ->
  acost (mkAstate c (b :: a_hist s) (a_dict s) pl pd) k' r j -> acost s k r j.
Proof.
  intros Hp Hk (Hs & Hst & Hp1 & Hc). cbn [a_hist a_pend_len] in Hc. rewrite zlen_cons in Hc.
  split; [exact Hs|]. split; [exact Hst|]. split; lia.
Qed.

Theorem aproduce_cost n : forall s k, asafe s -> 0 <= a_pend_len s -> pcost (acost s k) (aproduce n s) k.
Proof.
  induction n as [|m IH]; intros s k Hs Hp; cbn [aproduce].
  - constructor. split; [exact Hs|]. split; [left; reflexivity|]. cbn [fst]. lia.
  - pose proof Hs as (Hpar & Hst & Hh).
    assert (Hpush : forall c b, params_ok c -> 0 <= c_state c < 12 -> 0 <= b < 256 ->
              forall pl pd, asafe (mkAstate c (b :: a_hist s) (a_dict s) pl pd)).
    { intros c b Hc1 Hc2 Hb pl pd. split; [exact Hc1|]. split; [exact Hc2|]. apply hist_bytes_cons; assumption. }
    destruct (Z.ltb_spec 0 (a_pend_len s)) as [Hpos|Hzero].
    + eapply pcost_mono; [|apply IH; [apply Hpush; [assumption | assumption | apply Hh] | cbn [a_pend_len]; lia]].
      intros r j. apply acost_step; lia.
    + apply pcost_bind. eapply pcost_mono; [|apply asym_cost; assumption].
      cbv beta. intros [c1 res] j ((Hp1 & Hs1 & Hres) & Hcost). cbn [fst snd] in *.
      destruct res as [b|dist len].
      * eapply pcost_mono; [|apply IH; [apply Hpush; assumption | cbn [a_pend_len]; lia]].
        intros r j2. apply acost_step; lia.
      * destruct (a_full s <=? dist).
        -- constructor. split; [split; [exact Hp1 | split; assumption]|]. split; [right; eexists; reflexivity|].
           cbn [fst a_pend_len a_hist]. lia.
        -- destruct (Z.leb_spec len 0); [lia|].
           eapply pcost_mono; [|apply IH; [apply Hpush; [assumption | assumption | apply Hh] | cbn [a_pend_len]; lia]].
           intros r j2. apply acost_step; lia.
Qed.

Theorem lzma_decode_total : forall c w hist d t,
  Rel w hist -> hist_bytes hist -> coder_ok c (w_full w) -> w_pos w <= w_limit w ->
  (0 < w_pending_len w -> 0 <= w_pending_dist w < w_full w) ->
  probs_ok t -> rdec_wf d ->
  exists c1 w1 st d1 t1,
    lzma_decode c w d t = Ok (c1, w1, st, d1, t1) /\ (st = Ok tt \/ exists e, st = Err e) /\
    probs_ok t1.
Proof.
  intros c w hist d t R Hh Hc Hpl Hpd Ht Hd.
  set (n := Z.to_nat (w_limit w - w_pos w)).
  pose proof (lzma_decode_abs c w hist d t n R Hc Hpl ltac:(unfold n; lia) Hpd) as HA.
  assert (Hcost : pcost (acost (mkAstate c hist (w_size w) (w_pending_len w) (w_pending_dist w)) 0)
                        (aproduce n (mkAstate c hist (w_size w) (w_pending_len w) (w_pending_dist w))) 0).
  { apply aproduce_cost; [|exact (r_pending _ _ R)]. destruct Hc as (Hpar & Hst & _). unfold asafe; cbn [a_coder a_hist]. auto. }
  destruct (run_rc_safe _ (pcost_psafe _ _ _ Hcost) d t Ht Hd) as ([s2 st2] & d2 & t2 & Hrun & Hd2 & Ht2).
  rewrite Hrun in HA. destruct HA as (w1 & Hdec & Hrel).
  exists (a_coder s2), w1, st2, (match st2 with Ok _ => rdec_normalize d2 | _ => d2 end), t2.
  split; [exact Hdec|]. split; [|exact Ht2].
  destruct (run_rc_pall _ _ (pcost_post _ _ _ Hcost) _ _ _ _ _ Hrun) as (j & _ & Hst & _). exact Hst.
Qed.
