(* Codec/LzmaAbsProofs.v — LZMADecoder::decode over the cyclic window (LzmaDec.v) computes the
   byte-granular specification decoder of LzmaAbs.v, for every limit. *)
From LzVerif Require Import Base.Bytes Codec.Store Codec.Range Codec.LzWindow Codec.LzmaDec
  Codec.LzmaAbs Codec.LzWindowProofs Codec.ProgProofs.

(* positions only matter modulo 16 *)
Lemma land_mask_mod k x : 0 <= k <= 4 -> 0 <= x ->
  Z.land (wrap32 x) (wrap32 (Z.shiftl 1 k - 1)) = x mod 2 ^ k.
Proof.
  intros Hk Hx.
  assert (Hc : k = 0 \/ k = 1 \/ k = 2 \/ k = 3 \/ k = 4) by lia.
  assert (Hw : forall j, 0 <= j <= 4 -> wrap32 (Z.shiftl 1 j - 1) = Z.ones j).
  { intros j Hj. assert (Hcj : j = 0 \/ j = 1 \/ j = 2 \/ j = 3 \/ j = 4) by lia.
    destruct Hcj as [->|[->|[->|[->| ->]]]]; reflexivity. }
  rewrite Hw by assumption. rewrite Z.land_ones by lia.
  unfold wrap32.
  destruct Hc as [->|[->|[->|[->| ->]]]];
    [change (2 ^ 0) with 1 | change (2 ^ 1) with 2 | change (2 ^ 2) with 4 | change (2 ^ 3) with 8 | change (2 ^ 4) with 16]; (Z.div_mod_to_equations; lia).
Qed.

Lemma mod16_mod_pow k a b : 0 <= k <= 4 -> a mod 16 = b mod 16 -> a mod 2 ^ k = b mod 2 ^ k.
Proof.
  intros Hk H. assert (Hc : k = 0 \/ k = 1 \/ k = 2 \/ k = 3 \/ k = 4) by lia.
  destruct Hc as [->|[->|[->|[->| ->]]]];
    [change (2 ^ 0) with 1 | change (2 ^ 1) with 2 | change (2 ^ 2) with 4 | change (2 ^ 3) with 8 | change (2 ^ 4) with 16]; (Z.div_mod_to_equations; lia).
Qed.

Definition params_ok (c : coder) : Prop := 0 <= c_lc c <= 8 /\ 0 <= c_lp c <= 4 /\ 0 <= c_pb c <= 4.

Lemma pos_state_cong c a b : params_ok c -> 0 <= a -> 0 <= b -> a mod 16 = b mod 16 ->
  pos_state_of c a = pos_state_of c b.
Proof.
  intros (_ & _ & Hpb) Ha Hb H. unfold pos_state_of.
  rewrite !land_mask_mod by assumption. apply mod16_mod_pow; assumption.
Qed.

Lemma pos_state_range c a : params_ok c -> 0 <= a -> 0 <= pos_state_of c a < 16.
Proof.
  intros (_ & _ & Hpb) Ha. unfold pos_state_of. rewrite land_mask_mod by assumption.
  pose proof (Z.mod_pos_bound a (2 ^ c_pb c) ltac:(apply Z.pow_pos_nonneg; lia)).
  assert (2 ^ c_pb c <= 2 ^ 4) by (apply Z.pow_le_mono_r; lia). change (2 ^ 4) with 16 in *. lia.
Qed.

Lemma lit_base_cong c prev a b : params_ok c -> 0 <= a -> 0 <= b -> a mod 16 = b mod 16 ->
  lit_base c prev a = lit_base c prev b.
Proof.
  intros (_ & Hlp & _) Ha Hb H. unfold lit_base.
  rewrite !land_mask_mod by assumption. rewrite (mod16_mod_pow (c_lp c) a b) by assumption. reflexivity.
Qed.

Lemma pall_true {A} (p : prog A) : pall (fun _ => True) p.
Proof. induction p; constructor; auto. Qed.

Lemma bittree_post base levels : forall sym j,
  2 ^ Z.of_nat j <= sym < 2 ^ Z.of_nat (S j) ->
  pall (fun s => 2 ^ Z.of_nat (j + levels) <= s < 2 ^ Z.of_nat (S (j + levels))) (bittree base levels sym).
Proof.
  induction levels as [|l IH]; intros sym j Hs; cbn [bittree].
  - constructor. rewrite Nat.add_0_r. exact Hs.
  - constructor. intros b Hb.
    replace (j + S l)%nat with (S j + l)%nat by lia. apply IH.
    rewrite !Nat2Z.inj_succ, !Z.pow_succ_r in * by lia. destruct Hb as [-> | ->]; lia.
Qed.

Lemma decode_bit_tree_post base levels :
  pall (fun s => 0 <= s < 2 ^ Z.of_nat levels) (decode_bit_tree base levels).
Proof.
  unfold decode_bit_tree. eapply pall_bind.
  - apply (bittree_post base levels 1 0%nat). cbn. lia.
  - intros s Hs. constructor. cbn [Nat.add] in Hs.
    rewrite Z.shiftl_1_l. rewrite Nat2Z.inj_succ, Z.pow_succ_r in Hs by lia. lia.
Qed.

Lemma decode_len_post base ps : 0 <= ps < 16 -> pall (fun l => 2 <= l <= 273) (decode_len base ps).
Proof.
  intros Hps. unfold decode_len. constructor. intros c0 Hc0.
  destruct (c0 =? 0).
  - rewrite key2_ok by lia. cbn [lift pbind].
    eapply pall_bind; [apply decode_bit_tree_post|]. intros s Hs. cbv beta in Hs. constructor. cbv beta. change (2 ^ Z.of_nat 3) with 8 in Hs. lia.
  - constructor. intros c1 Hc1. destruct (c1 =? 0).
    + rewrite key2_ok by lia. cbn [lift pbind].
      eapply pall_bind; [apply decode_bit_tree_post|]. intros s Hs. cbv beta in Hs. constructor. cbv beta. change (2 ^ Z.of_nat 3) with 8 in Hs. lia.
    + eapply pall_bind; [apply decode_bit_tree_post|]. intros s Hs. cbv beta in Hs. constructor. cbv beta. change (2 ^ Z.of_nat 8) with 256 in Hs. lia.
Qed.

Definition same_params (c c' : coder) : Prop := c_lc c' = c_lc c /\ c_lp c' = c_lp c /\ c_pb c' = c_pb c.

Definition reps_nonneg (c : coder) : Prop := 0 <= c_rep0 c /\ 0 <= c_rep1 c /\ 0 <= c_rep2 c /\ 0 <= c_rep3 c.

Lemma rep_as_usize_nonneg r : 0 <= r -> 0 <= rep_as_usize r.
Proof. intros H. unfold rep_as_usize, P2_31, P2_64, P2_32. destruct (r <? 2147483648); lia. Qed.

(* in a non-literal state rep0 is the distance of the match just copied: inside the dictionary *)
Definition coder_ok (c : coder) (full : Z) : Prop :=
  params_ok c /\ 0 <= c_state c < 12 /\ reps_nonneg c /\
  (state_is_literal (c_state c) = false -> rep_as_usize (c_rep0 c) < full).

Lemma rev_bittree_nonneg base levels : forall sym i res, 0 <= res -> 0 <= i ->
  pall (fun r => 0 <= r) (rev_bittree base levels sym i res).
Proof.
  induction levels as [|l IH]; intros sym i res Hres Hi; cbn [rev_bittree].
  - constructor. exact Hres.
  - constructor. intros b Hb. apply IH; [|lia].
    apply Z.lor_nonneg. split; [assumption|]. apply Z.shiftl_nonneg. destruct Hb as [-> | ->]; lia.
Qed.

(* what a match / rep decoding returns, whatever the bits *)
Definition match_post (c : coder) (r : coder * Z) : Prop :=
  same_params c (fst r) /\ 0 <= c_state (fst r) < 12 /\ state_is_literal (c_state (fst r)) = false /\ 1 <= snd r <= 273.

Definition match_full (c : coder) (r : coder * Z) : Prop :=
  match_post c r /\ (reps_nonneg c -> reps_nonneg (fst r)).

Lemma decode_match_full c ps : 0 <= c_state c < 12 -> 0 <= ps < 16 -> pall (match_full c) (decode_match c ps).
Proof.
  intros Hst Hps. unfold decode_match.
  eapply pall_bind; [apply decode_len_post; assumption|]. intros len Hlen. cbv beta in Hlen.
  assert (Hds : 0 <= dist_state_of_len len < 4) by (unfold dist_state_of_len; destruct (len <? 6) eqn:E; lia).
  rewrite key2_ok by lia. cbn [lift pbind].
  eapply pall_bind; [apply decode_bit_tree_post|]. intros slot Hslot. cbv beta in Hslot.
  eapply pall_bind with (P := fun r => 0 <= r).
  - destruct (slot <? 4); [constructor; lia|].
    assert (Hr : 0 <= wrap32 (Z.shiftl (Z.lor 2 (Z.land slot 1)) (Z.shiftr slot 1 - 1))) by apply wrap32_range.
    destruct (slot <? 14).
    + eapply pall_bind; [apply rev_bittree_nonneg; lia|]. intros x Hx. cbv beta in Hx. constructor.
      apply Z.lor_nonneg. split; assumption.
    + constructor. intros v Hv. eapply pall_bind; [apply rev_bittree_nonneg; lia|]. intros x Hx. cbv beta in Hx.
      constructor. apply Z.lor_nonneg. split; [|assumption]. apply Z.lor_nonneg. split; [assumption|]. apply wrap32_range.
  - intros rep0 Hrep0. constructor. pose proof (state_update_range (c_state c) Hst) as (_ & Hm & _).
    unfold match_full, match_post, same_params, reps_nonneg; cbn [fst snd c_lc c_lp c_pb c_state c_rep0 c_rep1 c_rep2 c_rep3].
    repeat split; try lia; try tauto.
    unfold state_update_match, state_is_literal, LIT_STATES. destruct (c_state c <? 7); reflexivity.
Qed.

Lemma decode_rep_match_full c ps : 0 <= c_state c < 12 -> 0 <= ps < 16 -> pall (match_full c) (decode_rep_match c ps).
Proof.
  intros Hst Hps. unfold decode_rep_match.
  pose proof (state_update_range (c_state c) Hst) as (_ & _ & Hlr & Hsr).
  assert (Hnl1 : state_is_literal (state_update_long_rep (c_state c)) = false).
  { unfold state_update_long_rep, state_is_literal, LIT_STATES. destruct (c_state c <? 7); reflexivity. }
  assert (Hnl2 : state_is_literal (state_update_short_rep (c_state c)) = false).
  { unfold state_update_short_rep, state_is_literal, LIT_STATES. destruct (c_state c <? 7); reflexivity. }
  assert (Hfin : forall c1 len, same_params c c1 /\ (reps_nonneg c -> reps_nonneg c1) -> 1 <= len <= 273 ->
            match_full c (set_state c1 (state_update_long_rep (c_state c)), len)).
  { intros c1 len ((S1 & S2 & S3) & Hn) Hlen. unfold match_full, match_post, same_params, set_state, reps_nonneg in *; cbn.
    repeat split; try lia; try assumption; intros H; apply Hn; exact H. }
  assert (Hc : same_params c c /\ (reps_nonneg c -> reps_nonneg c)) by (unfold same_params; tauto).
  rewrite key1_ok by lia. cbn [lift pbind]. constructor. intros b0 Hb0.
  destruct (b0 =? 0).
  - rewrite key2_ok by lia. cbn [lift pbind]. constructor. intros bl Hbl. destruct (bl =? 0).
    + constructor. unfold match_full, match_post, same_params, set_state, reps_nonneg; cbn. repeat split; try lia; try assumption; tauto.
    + eapply pall_bind; [apply decode_len_post; assumption|]. intros len Hlen. cbv beta in Hlen. constructor.
      apply Hfin; [exact Hc | lia].
  - rewrite key1_ok by lia. cbn [lift pbind]. constructor. intros b1 Hb1.
    eapply pall_bind with (P := fun c1 => same_params c c1 /\ (reps_nonneg c -> reps_nonneg c1)).
    + destruct (b1 =? 0).
      * constructor. unfold same_params, reps_nonneg, set_reps; cbn. tauto.
      * rewrite key1_ok by lia. cbn [lift pbind]. constructor. intros b2 Hb2.
        destruct (b2 =? 0); constructor; unfold same_params, reps_nonneg, set_reps; cbn; tauto.
    + intros c1 Hc1.
      eapply pall_bind; [apply decode_len_post; assumption|]. intros len Hlen. cbv beta in Hlen. constructor.
      apply Hfin; [exact Hc1 | lia].
Qed.

Lemma decode_match_post c ps : 0 <= c_state c < 12 -> 0 <= ps < 16 -> pall (match_post c) (decode_match c ps).
Proof. intros Hst Hps. eapply pall_mono; [|apply decode_match_full; assumption]. intros r [H _]. exact H. Qed.

Lemma decode_rep_match_post c ps : 0 <= c_state c < 12 -> 0 <= ps < 16 -> pall (match_post c) (decode_rep_match c ps).
Proof. intros Hst Hps. eapply pall_mono; [|apply decode_rep_match_full; assumption]. intros r [H _]. exact H. Qed.

Lemma pall_and {A} (P Q : A -> Prop) p : pall P p -> pall Q p -> pall (fun a => P a /\ Q a) p.
Proof. intros H; induction H; intros HQ; inversion HQ; subst; constructor; auto. Qed.

(* one symbol: concrete (window) vs specification (history list) *)
Definition sym_rel (c : coder) (w : lzwin) (r1 : coder * lzwin * outcome unit) (r2 : coder * symres) : Prop :=
  let '(c1, w1, st) := r1 in
  let '(c2, res) := r2 in
  c1 = c2 /\ same_params c c1 /\ 0 <= c_state c1 < 12 /\ reps_nonneg c1 /\
  match res with
  | RLit b => st = Ok tt /\ state_is_literal (c_state c1) = true /\ lzwin_put_byte w b = Ok w1
  | RCopy dist len =>
      state_is_literal (c_state c1) = false /\ dist = rep_as_usize (c_rep0 c1) /\ 0 <= dist /\ 1 <= len <= 273 /\
      match lzwin_repeat w dist len with
      | Ok w' => w1 = w' /\ st = Ok tt
      | Err e => w1 = w /\ st = Err e
      | _ => False
      end
  end.

Lemma state_literal_after_literal s : 0 <= s < 12 -> state_is_literal (state_update_literal s) = true.
Proof.
  intros H. unfold state_is_literal, state_update_literal, LIT_STATES.
  destruct (s <=? 3) eqn:E1; [reflexivity|]. destruct (s <=? 9) eqn:E2; apply Z.ltb_lt; lia.
Qed.

Lemma decode_symbol_abs c w hist :
  Rel w hist -> coder_ok c (w_full w) -> w_pos w < w_limit w ->
  peq (sym_rel c w) (decode_symbol c w) (asym c hist).
Proof.
  intros R (Hpar & Hst & Hreps & Hrep0) Hspace.
  pose proof (Rel_bounds w hist R) as (Hs & Hp & Hpf & Hf & Hl & Hpe). pose proof (r_mod w hist R) as Hm.
  pose proof (zlen_nonneg hist) as Hz.
  unfold decode_symbol, asym.
  assert (Hps : pos_state_of c (w_pos w) = pos_state_of c (zlen hist)) by (apply pos_state_cong; auto; lia).
  rewrite Hps.
  pose proof (pos_state_range c (zlen hist) Hpar Hz) as Hpsr.
  rewrite key2_ok by lia. cbn [lift pbind].
  constructor. intros bm Hbm. destruct (bm =? 0).
  - (* literal *)
    unfold decode_literal.
    rewrite (get_prev_rel w hist R). cbn [lift pbind]. unfold hprev.
    rewrite (lit_base_cong c (hnth hist 0) (w_pos w) (zlen hist)) by (auto; lia).
    destruct (lit_base c (hnth hist 0) (zlen hist)) as [lbase|e|e|]; cbn [lift pbind]; try constructor.
    assert (Hmb : (if state_is_literal (c_state c) then Ret None
                   else bind m <- lift (lzwin_get_byte w (rep_as_usize (c_rep0 c))); Ret (Some m))
                  = Ret (if state_is_literal (c_state c) then None
                         else Some (hnth hist (rep_as_usize (c_rep0 c))))).
    { destruct (state_is_literal (c_state c)); [reflexivity|].
      rewrite (get_byte_rel w hist (rep_as_usize (c_rep0 c)) R)
        by (split; [apply rep_as_usize_nonneg; apply Hreps | apply Hrep0; reflexivity]).
      reflexivity. }
    rewrite Hmb. cbn [pbind].
    eapply peq_bind2; [apply peq_refl|]. intros sym ? <-.
    destruct (put_byte_rel w hist (wrap8 sym) R ltac:(lia)) as (w' & Hput & _).
    rewrite Hput. cbn [lift pbind]. constructor.
    unfold sym_rel; cbn [fst snd]. pose proof (state_update_range (c_state c) Hst) as (Hl1 & _).
    repeat split; auto; cbn; try lia; try apply Hreps. apply state_literal_after_literal; assumption.
  - (* match or rep *)
    rewrite key1_ok by lia. cbn [lift pbind]. constructor. intros br Hbr.
    set (P := if br =? 0 then decode_match c (pos_state_of c (zlen hist)) else decode_rep_match c (pos_state_of c (zlen hist))).
    assert (HP : pall (fun r => match_post c r /\ reps_nonneg (fst r)) P).
    { apply pall_mono with (P := match_full c); [intros r [A B]; exact (conj A (B Hreps))|].
      unfold P. destruct (br =? 0); [apply decode_match_full | apply decode_rep_match_full]; assumption. }
    eapply peq_bind; [apply (peq_pall_refl _ P HP)|].
    intros cl ? (<- & (Hsame & Hst1 & Hnl & Hlen) & Hrn).
    set (dist := rep_as_usize (c_rep0 (fst cl))).
    assert (Hd0 : 0 <= dist) by (apply rep_as_usize_nonneg; apply Hrn).
    destruct cl as [c1 len]; cbn [fst snd] in *.
    destruct Hsame as (S1 & S2 & S3). destruct Hrn as (N0 & N1 & N2 & N3).
    (* repeat() either rejects the distance or succeeds; sym_rel records which *)
    assert (Hrp : (exists w', lzwin_repeat w dist len = Ok w') \/ lzwin_repeat w dist len = Err E_OTHER).
    { destruct (Z.le_gt_cases (w_full w) dist) as [Hfar|Hnear]; [right; exact (repeat_err w hist dist len R Hfar)|].
      destruct (repeat_rel w hist dist len R ltac:(lia) ltac:(lia) ltac:(lia)) as (w' & Hrp & _). eauto. }
    destruct Hrp as [[w' Hrp] | Hrp]; rewrite Hrp; constructor; unfold sym_rel;
      (repeat split; auto; try lia); rewrite Hrp; split; reflexivity.
Qed.

(* the pending part of a match is copied byte by byte *)
Lemma aproduce_pending m : forall n s,
  (m <= n)%nat -> Z.of_nat m <= a_pend_len s ->
  aproduce n s =
  aproduce (n - m) (mkAstate (a_coder s) (hcopy (a_hist s) (a_pend_dist s) m) (a_dict s)
                             (a_pend_len s - Z.of_nat m) (a_pend_dist s)).
Proof.
  induction m as [|m' IH]; intros n s Hmn Hpl.
  - rewrite Nat.sub_0_r. cbn [hcopy Z.of_nat]. rewrite Z.sub_0_r. destruct s; reflexivity.
  - destruct n as [|k]; [lia|]. cbn [aproduce].
    destruct (Z.ltb_spec 0 (a_pend_len s)); [|lia].
    rewrite (IH k) by (cbn [a_pend_len]; lia).
    cbn [a_coder a_hist a_dict a_pend_len a_pend_dist hcopy Nat.sub].
    do 2 f_equal. lia.
Qed.

(* a copy of length len: its first byte, then m - 1 of the pending ones *)
Lemma aproduce_copy k c hist dict len d m :
  1 <= m <= len -> (Z.to_nat m <= S k)%nat ->
  aproduce k (mkAstate c (hnth hist d :: hist) dict (len - 1) d)
  = aproduce (S k - Z.to_nat m) (mkAstate c (hcopy hist d (Z.to_nat m)) dict (len - m) d).
Proof.
  intros Hm Hk. rewrite (aproduce_pending (Z.to_nat (m - 1)) k) by (cbn [a_pend_len]; lia).
  cbn [a_coder a_hist a_dict a_pend_len a_pend_dist].
  replace (Z.to_nat m) with (S (Z.to_nat (m - 1))) by lia. cbn [hcopy Nat.sub].
  do 2 f_equal. lia.
Qed.

(* LZMADecoder::decode's loop = aproduce *)
Definition loop_rel (w : lzwin) (hist : list Z) (r1 : coder * lzwin * outcome unit) (r2 : astate * outcome unit) : Prop :=
  let '(c1, w1, st) := r1 in
  let '(s2, st2) := r2 in
  st = st2 /\ c1 = a_coder s2 /\ Rel w1 (a_hist s2) /\ a_dict s2 = w_size w /\
  w_size w1 = w_size w /\ w_limit w1 = w_limit w /\ w_start w1 = w_start w /\
  w_pos w <= w_pos w1 <= w_limit w /\
  zlen (a_hist s2) = zlen hist + (w_pos w1 - w_pos w) /\
  w_pending_len w1 = a_pend_len s2 /\
  (st = Ok tt -> coder_ok c1 (w_full w1) /\ (w_pos w1 = w_limit w \/ a_pend_len s2 = 0)) /\
  (0 < a_pend_len s2 -> w_pending_dist w1 = a_pend_dist s2 /\ 0 <= a_pend_dist s2 < w_full w1).

Lemma coder_ok_mono c f1 f2 : coder_ok c f1 -> f1 <= f2 -> coder_ok c f2.
Proof. intros (A & B & C & D) H. repeat split; try apply A; try apply B; try apply C. intros E. specialize (D E). lia. Qed.

Lemma loop_rel_step w hist w1 hist1 r1 r2 :
  loop_rel w1 hist1 r1 r2 ->
  w_size w1 = w_size w -> w_limit w1 = w_limit w -> w_start w1 = w_start w -> w_pos w <= w_pos w1 ->
  zlen hist1 = zlen hist + (w_pos w1 - w_pos w) ->
  loop_rel w hist r1 r2.
Proof.
  destruct r1 as [[c3 w3] st3]. destruct r2 as [s4 st4]. unfold loop_rel.
  intros (E1 & E2 & E3 & E4 & E5 & E6 & E7 & E8 & E9 & E10 & E11 & E12) Hsz Hli Hst Hpo Hzl.
  rewrite Hsz, Hli, Hst in *.
  split; [exact E1|]. split; [exact E2|]. split; [exact E3|]. split; [exact E4|]. split; [exact E5|].
  split; [exact E6|]. split; [exact E7|]. split; [lia|]. split; [lia|]. split; [exact E10|].
  split; [exact E11 | exact E12].
Qed.

Lemma loop_rel_here w hist c st pd :
  Rel w hist -> w_pos w <= w_limit w ->
  (st = Ok tt -> coder_ok c (w_full w) /\ (w_pos w = w_limit w \/ w_pending_len w = 0)) ->
  (0 < w_pending_len w -> w_pending_dist w = pd /\ 0 <= pd < w_full w) ->
  loop_rel w hist (c, w, st) (mkAstate c hist (w_size w) (w_pending_len w) pd, st).
Proof.
  intros R Hpl Hok Hpend. unfold loop_rel; cbn [a_coder a_hist a_dict a_pend_len a_pend_dist].
  split; [reflexivity|]. split; [reflexivity|]. split; [exact R|]. split; [reflexivity|].
  split; [reflexivity|]. split; [reflexivity|]. split; [reflexivity|]. split; [lia|]. split; [lia|].
  split; [reflexivity|]. split; assumption.
Qed.

Lemma decode_loop_abs : forall n fuel c w hist,
  Rel w hist -> coder_ok c (w_full w) -> w_pos w <= w_limit w ->
  Z.of_nat n = w_limit w - w_pos w -> (n <= fuel)%nat ->
  (0 < w_pending_len w -> n = 0%nat /\ 0 <= w_pending_dist w < w_full w) ->
  peq (loop_rel w hist) (decode_loop fuel c w)
      (aproduce n (mkAstate c hist (w_size w) (w_pending_len w) (w_pending_dist w))).
Proof.
  induction n as [n IHn] using lt_wf_ind. intros fuel c w hist R Hc Hpl Hn Hfuel Hpend.
  pose proof (Rel_bounds w hist R) as (Hs & Hp & Hpf & Hf & Hl & Hpe).
  destruct n as [|k].
  - (* no room: both return immediately *)
    assert (Hns : lzwin_has_space w = false) by (unfold lzwin_has_space; apply Z.ltb_ge; lia).
    destruct fuel; cbn [decode_loop aproduce]; rewrite Hns; apply peq_ret;
      (apply loop_rel_here; [exact R | exact Hpl | intros _; split; [exact Hc | left; lia] |]);
      intros Hpos; (split; [reflexivity | apply Hpend; assumption]).
  - assert (Hsp : lzwin_has_space w = true) by (unfold lzwin_has_space; apply Z.ltb_lt; lia).
    assert (Hp0' : w_pending_len w = 0).
    { destruct (Z.ltb_spec 0 (w_pending_len w)) as [Hlt|Hge]; [destruct (Hpend Hlt); discriminate | lia]. }
    destruct fuel as [|f]; [lia|]. cbn [decode_loop aproduce]. rewrite Hsp, Hp0'.
    change (0 <? 0) with false. cbv iota. cbn [a_coder a_hist a_dict a_pend_len a_pend_dist].
    eapply peq_bind; [apply (decode_symbol_abs c w hist R Hc); lia|].
    intros [[c1 w1] st] [c2 res] Hrel. unfold sym_rel in Hrel. cbn [snd fst].
    destruct Hrel as (<- & Hsame & Hst1 & Hrn & Hres).
    destruct Hc as (Hpar & Hst & Hreps & Hrep0).
    assert (Hpar1 : params_ok c1).
    { destruct Hsame as (S1 & S2 & S3). unfold params_ok. rewrite S1, S2, S3. exact Hpar. }
    destruct res as [b|dist len].
    + (* literal *)
      destruct Hres as (-> & Hlit & Hput).
      destruct (put_byte_rel w hist b R ltac:(lia)) as (w' & Hput' & R' & Hst' & Hli' & Hpo' & Hsz' & Hpl' & Hpd').
      rewrite Hput in Hput'. inversion Hput'; subst w'. clear Hput'.
      assert (IH := IHn k ltac:(lia) f c1 w1 (b :: hist) R').
      rewrite Hsz', Hpl', Hp0' in IH. rewrite Hpd' in IH.
      assert (Hc1 : coder_ok c1 (w_full w1)).
      { split; [exact Hpar1|]. split; [exact Hst1|]. split; [exact Hrn|]. intros E. rewrite Hlit in E. discriminate. }
      specialize (IH Hc1 ltac:(lia) ltac:(lia) ltac:(lia) ltac:(intros; lia)).
      eapply peq_mono; [|exact IH].
      intros r1 r2 Hr. eapply loop_rel_step; [exact Hr | lia | lia | lia | lia |]. rewrite zlen_cons. lia.
    + (* copy *)
      destruct Hres as (Hnl & -> & Hd0 & Hlen & Hrep).
      set (dist := rep_as_usize (c_rep0 c1)) in *.
      assert (Hafull : a_full (mkAstate c hist (w_size w) 0 (w_pending_dist w)) = w_full w).
      { unfold a_full; cbn [a_hist a_dict]. lia. }
      rewrite Hafull.
      destruct (Z.leb_spec (w_full w) dist) as [Hfar|Hnear].
      * rewrite (repeat_err w hist dist len R Hfar) in Hrep. destruct Hrep as (-> & ->).
        apply peq_ret. rewrite <- Hp0'.
        apply loop_rel_here; [exact R | lia | discriminate | lia].
      * destruct (Z.leb_spec len 0); [lia|].
        destruct (repeat_rel w hist dist len R ltac:(lia) ltac:(lia) ltac:(lia)) as (w' & Hrp & R' & Hpl' & Hpd' & Hst' & Hli' & Hsz' & Hpo').
        rewrite Hrp in Hrep. destruct Hrep as (-> & ->).
        set (m := Z.min (w_limit w - w_pos w) len) in *.
        assert (Hm1 : 1 <= m) by (unfold m; lia).
        rewrite (aproduce_copy k c1 hist (w_size w) len dist m) by (unfold m; lia).
        assert (Hfull1 : w_full w <= w_full w').
        { destruct R' as [_ _ [Hf' _] _ _ _ _ _]. rewrite Hf', Hf, hcopy_length. lia. }
        assert (IH := IHn (S k - Z.to_nat m)%nat ltac:(lia) f c1 w' (hcopy hist dist (Z.to_nat m)) R').
        rewrite Hsz', Hpl', Hpd' in IH.
        assert (Hc1 : coder_ok c1 (w_full w')).
        { split; [exact Hpar1|]. split; [exact Hst1|]. split; [exact Hrn|]. intros _. fold dist. lia. }
        specialize (IH Hc1 ltac:(lia) ltac:(lia) ltac:(lia)).
        assert (Hpend' : 0 < len - m -> (S k - Z.to_nat m)%nat = 0%nat /\ 0 <= dist < w_full w')
          by (intros; unfold m in *; split; lia).
        specialize (IH Hpend').
        eapply peq_mono; [|exact IH].
        intros r1 r2 Hr. eapply loop_rel_step; [exact Hr | lia | lia | lia | lia |]. rewrite hcopy_length. lia.
Qed.

(* producing a+b bytes = producing a, then b *)
Definition athen (b : nat) (r : astate * outcome unit) : prog (astate * outcome unit) :=
  match snd r with
  | Ok _ => aproduce b (fst r)
  | _ => Ret r
  end.

Lemma aproduce_split a : forall b s,
  peq eq (aproduce (a + b) s) (pbind (aproduce a s) (athen b)).
Proof.
  induction a as [|k IH]; intros b s.
  - cbn [Nat.add aproduce pbind athen snd fst]. apply peq_refl.
  - cbn [Nat.add aproduce].
    destruct (0 <? a_pend_len s); [apply IH|].
    cbn [pbind]. eapply peq_trans_eq; [|apply peq_sym_eq, pbind_assoc].
    eapply peq_bind; [apply peq_refl|]. intros r ? <-.
    destruct (snd r) as [byte|dist len].
    + apply IH.
    + destruct (a_full s <=? dist); [cbn [pbind athen snd]; apply peq_refl|].
      destruct (len <=? 0); [cbn [pbind]; apply peq_refl|]. apply IH.
Qed.

(* LZMADecoder::decode(lz, rc) as a whole: repeat_pending, the loop, the trailing normalize *)
Theorem lzma_decode_abs c w hist d t n :
  Rel w hist -> coder_ok c (w_full w) -> w_pos w <= w_limit w ->
  Z.of_nat n = w_limit w - w_pos w ->
  (0 < w_pending_len w -> 0 <= w_pending_dist w < w_full w) ->
  match run_rc (aproduce n (mkAstate c hist (w_size w) (w_pending_len w) (w_pending_dist w))) d t with
  | Ok (s2, st2, d2, t2) =>
      exists w1, lzma_decode c w d t =
                 Ok (a_coder s2, w1, st2, match st2 with Ok _ => rdec_normalize d2 | _ => d2 end, t2) /\
                 loop_rel w hist (a_coder s2, w1, st2) (s2, st2)
  | Err e => lzma_decode c w d t = Err e
  | Panic e => lzma_decode c w d t = Panic e
  | Fuel => lzma_decode c w d t = Fuel
  end.
Proof.
  intros R Hc Hpl Hn Hpd.
  pose proof (Rel_bounds w hist R) as (Hs & Hp & Hpf & Hf & Hl & Hpe).
  assert (HL : exists w0, lzwin_repeat_pending w = Ok w0 /\
            peq (loop_rel w hist) (decode_loop (Z.to_nat (w_limit w0 - w_pos w0)) c w0)
                (aproduce n (mkAstate c hist (w_size w) (w_pending_len w) (w_pending_dist w)))).
  { unfold lzwin_repeat_pending. destruct (Z.ltb_spec 0 (w_pending_len w)) as [Hpos|Hzero].
    - (* a pending copy is resumed first *)
      specialize (Hpd Hpos).
      destruct (repeat_rel w hist (w_pending_dist w) (w_pending_len w) R Hpl Hpd ltac:(lia))
        as (w0 & Hrp & R0 & Hpl0 & Hpd0 & Hst0 & Hli0 & Hsz0 & Hpo0).
      exists w0. split; [exact Hrp|].
      set (m := Z.min (w_limit w - w_pos w) (w_pending_len w)) in *.
      rewrite (aproduce_pending (Z.to_nat m) n) by (cbn [a_pend_len]; unfold m; lia).
      cbn [a_coder a_hist a_dict a_pend_len a_pend_dist].
      assert (Hfull0 : w_full w <= w_full w0).
      { destruct R0 as [_ _ [Hf0 _] _ _ _ _ _]. rewrite Hf0, Hf, hcopy_length. lia. }
      pose proof (decode_loop_abs (n - Z.to_nat m) (Z.to_nat (w_limit w0 - w_pos w0)) c w0
                    (hcopy hist (w_pending_dist w) (Z.to_nat m)) R0 (coder_ok_mono _ _ _ Hc Hfull0)) as HL.
      rewrite Hsz0, Hpl0, Hpd0 in HL.
      replace (w_pending_len w - Z.of_nat (Z.to_nat m)) with (w_pending_len w - m) by (unfold m; lia).
      specialize (HL ltac:(lia) ltac:(unfold m in *; lia) ltac:(unfold m in *; lia)).
      specialize (HL ltac:(intros; unfold m in *; split; lia)).
      eapply peq_mono; [|exact HL].
      intros r1 r2 Hr. eapply loop_rel_step; [exact Hr | lia | lia | lia | lia |]. rewrite hcopy_length. lia.
    - exists w. split; [reflexivity|]. apply decode_loop_abs; try assumption; intros; lia. }
  destruct HL as (w0 & Hrp & HL). unfold lzma_decode. rewrite Hrp.
  pose proof (run_rc_peq_match _ _ _ d t HL) as HR.
  destruct (run_rc (aproduce n _) d t) as [[[[s2 st2] d2] t2]|e|e|]; [|rewrite HR; reflexivity..].
  destruct HR as ([[c1 w1] st1] & -> & Hrel). pose proof Hrel as (E1 & E2 & _). subst st2 c1. cbn [snd fst].
  exists w1. split; [destruct st1; reflexivity | exact Hrel].
Qed.
