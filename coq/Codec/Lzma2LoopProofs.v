(* Codec/Lzma2LoopProofs.v — the two loops of the LZMA2 reader model (lzma2_read_loop inside
   lzma2_read, and the read history lzma2_read_all) as instances of ReadLoopProofs.v, from an
   abstract description of one iteration (lzma2_iter) by an invariant. *)
From LzVerif Require Import Base.Bytes Codec.Store Codec.Range Codec.LzWindow Codec.LzmaDec Codec.Lzma2Dec.
From LzVerif Require Export Codec.ReadLoopProofs.

Lemma l2_read_loop_done fuel s len acc :
  len <= 0 -> lzma2_read_loop fuel s len acc = Ok (frev acc, s).
Proof.
  intros Hlen. destruct fuel as [|f]; cbn [lzma2_read_loop];
    destruct (Z.leb_spec len 0) as [Hle|Hgt]; try lia; reflexivity.
Qed.

Lemma l2_read_loop_step f s len acc :
  0 < len ->
  lzma2_read_loop (S f) s len acc =
  obind (lzma2_iter s len) (fun r =>
    let '(out, s1) := r in
    if m_end_reached s1 then Ok (frev acc, s1)
    else lzma2_read_loop f s1 (len - zlen out) (rev_append out acc)).
Proof.
  intros Hlen. cbn [lzma2_read_loop].
  destruct (Z.leb_spec len 0) as [Hle|Hgt]; [lia|reflexivity].
Qed.

Lemma l2_read_live s sz :
  0 < sz -> m_error s = None -> m_end_reached s = false ->
  lzma2_read s sz = lzma2_read_loop (Z.to_nat (2 * sz + 4)) s sz [].
Proof.
  intros Hsz Herr Hend. unfold lzma2_read.
  destruct (Z.leb_spec sz 0) as [Hle|Hgt]; [lia|].
  rewrite Herr, Hend. reflexivity.
Qed.

Lemma l2_read_all_step f s sizes all acc :
  lzma2_read_all (S f) s sizes all acc =
  match lzma2_read s (fst (next_size sizes all)) with
  | Ok (out, s1) =>
      if (0 <? fst (next_size sizes all)) && (zlen out =? 0) then Ok (frev acc, 0, s1)
      else lzma2_read_all f s1
             (match snd (next_size sizes all) with [] => all | _ => snd (next_size sizes all) end)
             all (rev_append out acc)
  | Err e => Ok (frev acc, e, lzma2_set_error s e)
  | Panic e => Panic e
  | Fuel => Fuel
  end.
Proof.
  cbn [lzma2_read_all]. destruct sizes as [|x r]; reflexivity.
Qed.

(* once the end is reported nothing more is flushed *)
Lemma lzma2_iter_end_empty s len out s' :
  lzma2_iter s len = Ok (out, s') -> m_end_reached s' = true -> out = [].
Proof.
  unfold lzma2_iter.
  destruct (if m_uncompressed_size s =? 0 then lzma2_chunk_header s else Ok s) as [s1|e|e|]; cbn [obind];
    try discriminate.
  destruct (m_end_reached s1) eqn:He1; [intros H _; inversion H; reflexivity|].
  match goal with |- obind ?x _ = _ -> _ => assert (Hx : forall s2, x = Ok s2 -> m_end_reached s2 = false);
    [|destruct x as [s2|e|e|]; cbn [obind]; try discriminate] end.
  { intros s2. destruct (negb (m_is_lzma_chunk s1)).
    - destruct (lzwin_copy_uncompressed _ _ _) as [[w input]|e|e|]; cbn [obind]; try discriminate.
      intros H; inversion H; reflexivity.
    - destruct (m_coder s1) as [c|]; [|intros H; inversion H; reflexivity].
      destruct (lzma_decode _ _ _ _) as [[[[[c1 w1] [u|e|e|]] d1] t1]|e|e|]; cbn [obind]; try discriminate.
      intros H; inversion H; reflexivity. }
  destruct (lzwin_flush (m_win s2)) as [o w3]. destruct (_ <? 0); [discriminate|].
  destruct (_ && _); [discriminate|].
  intros H He. inversion H; subst s'. cbn [m_end_reached] in He. rewrite (Hx s2 eq_refl) in He. discriminate.
Qed.

Lemma l2_loop_step f s len acc out s1 : 0 < len -> lzma2_iter s len = Ok (out, s1) ->
  lzma2_read_loop (S f) s len acc =
  if m_end_reached s1 then Ok (frev (rev_append out acc), s1)
  else lzma2_read_loop f s1 (len - zlen out) (rev_append out acc).
Proof.
  intros Hlen Hit. rewrite l2_read_loop_step, Hit by exact Hlen. cbn [obind].
  destruct (m_end_reached s1) eqn:He; [|reflexivity].
  rewrite (lzma2_iter_end_empty _ _ _ _ Hit He). reflexivity.
Qed.

Definition Ended (tail : list Z) (s : lzma2) : Prop :=
  m_end_reached s = true /\ m_error s = None /\ m_in s = tail.

Lemma read_ended tail s sz : Ended tail s -> 0 < sz -> lzma2_read s sz = Ok ([], s).
Proof.
  intros (He1 & He2 & He3) Hsz. unfold lzma2_read.
  destruct (Z.leb_spec sz 0) as [Hle|Hgt]; [lia|].
  rewrite He2, He1. reflexivity.
Qed.

Lemma l2_read_all_next f s sizes all acc out s1 :
  lzma2_read s (fst (next_size sizes all)) = Ok (out, s1) ->
  lzma2_read_all (S f) s sizes all acc =
  if (0 <? fst (next_size sizes all)) && (zlen out =? 0) then Ok (frev acc, 0, s1)
  else lzma2_read_all f s1 (match snd (next_size sizes all) with [] => all | _ => snd (next_size sizes all) end)
         all (rev_append out acc).
Proof. intros H. rewrite l2_read_all_step, H. reflexivity. Qed.

Lemma read_all_ended tail f s sizes all acc :
  Ended tail s -> Forall (fun z => 0 < z) sizes -> Forall (fun z => 0 < z) all ->
  lzma2_read_all (S f) s sizes all acc = Ok (frev acc, 0, s).
Proof.
  exact (read_all_fin lzma2 _ lzma2_read lzma2_read_all (fun l s => (l, 0, s)) (Ended tail)
           l2_read_all_next (read_ended tail) f s sizes all acc).
Qed.

(* The loops from a description of one iteration.  [Inv0] describes a state in which one iteration
   may return no bytes without the stream being at its end (a preset dictionary that fills the
   window); after that iteration [Inv] holds. *)
Section Loops0.
  Variables Inv Inv0 : lzma2 -> list Z -> Prop.     (* reader state, data it still has to deliver *)
  Variable tail : list Z.

  Hypothesis Inv_live : forall s rem, Inv s rem -> m_end_reached s = false /\ m_error s = None.
  Hypothesis iter_step : forall s rem len, Inv s rem -> 0 < len ->
    exists out s', lzma2_iter s len = Ok (out, s') /\
      ((rem = [] /\ out = [] /\ Ended tail s') \/
       (out <> [] /\ zlen out <= len /\ exists rem', rem = out ++ rem' /\ Inv s' rem')).
  Hypothesis Inv0_live : forall s rem, Inv0 s rem -> m_end_reached s = false /\ m_error s = None.
  Hypothesis iter_step0 : forall s rem len, Inv0 s rem -> 0 < len ->
    exists out s', lzma2_iter s len = Ok (out, s') /\
      ((rem = [] /\ out = [] /\ Ended tail s') \/
       (zlen out <= len /\ exists rem', rem = out ++ rem' /\ Inv s' rem')).

  Definition InvB (st : bool) : lzma2 -> list Z -> Prop := if st then Inv else Inv0.

  Lemma InvB_live st s rem : InvB st s rem -> m_end_reached s = false /\ m_error s = None.
  Proof. destruct st; [apply Inv_live | apply Inv0_live]. Qed.

  Lemma iter_spec st s rem len : InvB st s rem -> 0 < len ->
    exists out s' rem', lzma2_iter s len = Ok (out, s') /\ rem = out ++ rem' /\ zlen out <= len /\
      ((m_end_reached s' = true /\ rem' = [] /\ Ended tail s') \/
       (m_end_reached s' = false /\ (st = true -> out <> []) /\ InvB true s' rem')).
  Proof.
    intros HI Hlen.
    assert (H : exists out s', lzma2_iter s len = Ok (out, s') /\
              ((rem = [] /\ out = [] /\ Ended tail s') \/
               ((st = true -> out <> []) /\ zlen out <= len /\ exists rem', rem = out ++ rem' /\ Inv s' rem'))).
    { destruct st; cbn [InvB] in HI.
      - destruct (iter_step s rem len HI Hlen) as (out & s' & Hit & [HE | (Hne & H)]); exists out, s'; auto.
      - destruct (iter_step0 s rem len HI Hlen) as (out & s' & Hit & [HE | H]); exists out, s';
          (split; [exact Hit|]); [left; exact HE | right; split; [discriminate | exact H]]. }
    destruct H as (out & s' & Hit & [(-> & -> & HE) | (Hne & Hle & rem' & Hrem & HI')]).
    - exists [], s', []. split; [exact Hit|]. split; [reflexivity|]. split; [unfold zlen; cbn [length]; lia|].
      left. split; [apply HE|]. split; [reflexivity | exact HE].
    - exists out, s', rem'. split; [exact Hit|]. split; [exact Hrem|]. split; [exact Hle|].
      right. split; [apply (Inv_live _ _ HI') | split; assumption].
  Qed.

  Lemma read_live st s rem sz : InvB st s rem -> 0 < sz ->
    exists fuel, lzma2_read s sz = lzma2_read_loop fuel s sz [] /\ (Z.to_nat sz + 2 <= fuel)%nat.
  Proof.
    intros HI Hsz. destruct (InvB_live _ _ _ HI) as (Hend & Herr).
    exists (Z.to_nat (2 * sz + 4)). split; [apply l2_read_live; assumption | lia].
  Qed.

  Lemma loop_ok0 fuel st s rem len acc : InvB st s rem -> 0 < len ->
    (Z.to_nat len + (if st then 1 else 2) <= fuel)%nat ->
    exists out s' rem', lzma2_read_loop fuel s len acc = Ok (rev acc ++ out, s') /\ rem = out ++ rem' /\
      ((zlen out = len /\ Inv s' rem') \/ (zlen out <= len /\ rem' = [] /\ Ended tail s')).
  Proof.
    exact (loop_ok lzma2 lzma2_iter m_end_reached lzma2_read_loop InvB (Ended tail)
             l2_read_loop_done l2_loop_step iter_spec fuel st s rem len acc).
  Qed.

  Lemma read_ok0 st s rem sz : InvB st s rem -> 0 < sz ->
    exists out s' rem', lzma2_read s sz = Ok (out, s') /\ rem = out ++ rem' /\
      ((zlen out = sz /\ Inv s' rem') \/ (zlen out <= sz /\ rem' = [] /\ Ended tail s')).
  Proof.
    exact (ReadLoopProofs.read_ok lzma2 lzma2_iter m_end_reached lzma2_read_loop lzma2_read InvB (Ended tail)
             l2_read_loop_done l2_loop_step read_live iter_spec st s rem sz).
  Qed.

  Theorem read_all_ok0 : forall fuel s rem sizes all acc,
    Inv0 s rem -> Forall (fun z => 0 < z) sizes -> Forall (fun z => 0 < z) all ->
    (length rem + 2 <= fuel)%nat ->
    exists s_end, lzma2_read_all fuel s sizes all acc = Ok (rev acc ++ rem, 0, s_end) /\ Ended tail s_end.
  Proof.
    intros fuel s rem sizes all acc HI.
    apply (read_all_ok lzma2 _ lzma2_read lzma2_read_all (fun l s => (l, 0, s))
             (fun s rem => exists st, InvB st s rem) (Ended tail) l2_read_all_next); [|apply read_ended|exists false; exact HI].
    intros s0 rem0 sz (st & HI0) Hsz.
    destruct (read_ok0 st s0 rem0 sz HI0 Hsz) as (out & s' & rem' & Hr & Hrem & Hcase).
    exists out, s', rem'. split; [exact Hr|]. split; [exact Hrem|].
    destruct Hcase as [(Hfull & HI') | (_ & H)]; [left | right; exact H].
    split; [intros ->; unfold zlen in Hfull; cbn [length] in Hfull; lia | exists true; exact HI'].
  Qed.
End Loops0.

Section Loops.
  Variable Inv : lzma2 -> list Z -> Prop.
  Variable tail : list Z.

  Hypothesis Inv_live : forall s rem, Inv s rem -> m_end_reached s = false /\ m_error s = None.
  Hypothesis iter_step : forall s rem len, Inv s rem -> 0 < len ->
    exists out s', lzma2_iter s len = Ok (out, s') /\
      ((rem = [] /\ out = [] /\ Ended tail s') \/
       (out <> [] /\ zlen out <= len /\ exists rem', rem = out ++ rem' /\ Inv s' rem')).

  Lemma iter_step_weak s rem len : Inv s rem -> 0 < len ->
    exists out s', lzma2_iter s len = Ok (out, s') /\
      ((rem = [] /\ out = [] /\ Ended tail s') \/
       (zlen out <= len /\ exists rem', rem = out ++ rem' /\ Inv s' rem')).
  Proof.
    intros HI Hlen. destruct (iter_step s rem len HI Hlen) as (out & s' & Hit & [HE | (_ & H)]);
      exists out, s'; auto.
  Qed.

  (* the while loop: with enough fuel it returns a prefix of the remaining data; it stops short
     of [len] bytes only at the end of the stream *)
  Lemma read_loop_ok : forall fuel s rem len acc,
    Inv s rem -> 0 <= len -> (Z.to_nat len + 1 <= fuel)%nat ->
    exists out s' rem',
      lzma2_read_loop fuel s len acc = Ok (rev acc ++ out, s') /\
      rem = out ++ rem' /\ zlen out <= len /\
      ((Inv s' rem' /\ zlen out = len) \/ (rem' = [] /\ Ended tail s')).
  Proof.
    intros fuel s rem len acc HI Hlen Hf. destruct (Z.eq_dec len 0) as [->|Hnz].
    - exists [], s, rem. rewrite l2_read_loop_done, frev_rev, app_nil_r by lia. change (zlen (@nil Z)) with 0.
      split; [reflexivity|]. split; [reflexivity|]. split; [lia|]. left. split; [exact HI | reflexivity].
    - destruct (loop_ok0 Inv Inv tail Inv_live iter_step iter_step_weak fuel true s rem len acc HI
                  ltac:(lia) Hf) as (out & s' & rem' & Hl & Hrem & Hcase).
      exists out, s', rem'. split; [exact Hl|]. split; [exact Hrem|].
      destruct Hcase as [(Hfull & HI') | (Hle & H)]; (split; [lia|]); [left; split; assumption | right; exact H].
  Qed.

  (* not ReadLoopProofs.read_ok: read_ok0, its LZMA2 instance, with Inv0 = Inv *)
  Lemma read_ok : forall s rem sz, Inv s rem -> 0 < sz ->
    exists out s' rem', lzma2_read s sz = Ok (out, s') /\ rem = out ++ rem' /\
      (Inv s' rem' \/ (rem' = [] /\ Ended tail s')) /\
      (out = [] -> rem = [] /\ Ended tail s') /\ (rem <> [] -> out <> []).
  Proof.
    intros s rem sz HI Hsz.
    destruct (read_ok0 Inv Inv tail Inv_live iter_step Inv_live iter_step_weak true s rem sz HI Hsz)
      as (out & s' & rem' & Hr & Hrem & Hcase).
    exists out, s', rem'. split; [exact Hr|]. split; [exact Hrem|].
    destruct Hcase as [(Hfull & HI') | (_ & Hnil & HE)].
    - assert (Hne : out <> []) by (intros ->; unfold zlen in Hfull; cbn [length] in Hfull; lia).
      split; [left; exact HI'|]. split; [intros X; congruence | intros _; exact Hne].
    - split; [right; split; assumption|]. subst rem rem'. rewrite app_nil_r.
      split; [intros ->; split; [reflexivity | exact HE] | auto].
  Qed.
End Loops.
