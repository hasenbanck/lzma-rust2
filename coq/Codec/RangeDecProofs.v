(* Codec/RangeDecProofs.v — the range decoder of Codec/Range.v, run over the encoder's final
   output, follows the encoder state by state (DESIGN.md 4.1, step 3): after its (lazy)
   normalisation the decoder has read exactly as many bytes as the encoder state has digits, its
   range is the encoder's range and its code is the distance of the bytes read from the
   encoder's lower end. *)
From LzVerif Require Import Base.Bytes Codec.Store Codec.Range Codec.ProbProofs Codec.RangeArithProofs.
From LzVerif Require Import Codec.LzmaDec Codec.LzmaEnc Codec.RangeEncProofs.

(* decoder state d corresponds to encoder state e, reading [out ++ tail] *)
Definition dec_match (out tail : list Z) (d : rdec) (e : renc) : Prop :=
  rd_range d = re_range e /\ rd_over d = 0 /\
  exists read unread, out = read ++ unread /\ zlen read = enc_digits e /\
    rd_in d = unread ++ tail /\ rd_code d = be_val read - enc_V e.

Lemma dec_code_range out tail d e :
  dec_match out tail d e -> renc_fut out e -> bytes_ok out = true -> 0 <= rd_code d < re_range e.
Proof.
  intros (Hr & Ho & read & unread & Hout & Hlen & Hin & Hcode) [Hd Hf] Hb.
  subst out. apply bytes_ok_app in Hb as [_ Hbu].
  rewrite be_val_app, zlen_app in Hf. rewrite zlen_app in Hd.
  replace (zlen read + zlen unread - enc_digits e) with (zlen unread) in Hf by lia.
  pose proof (be_val_bound unread Hbu) as HT.
  assert (HM : 0 < 256 ^ zlen unread) by (apply Z.pow_pos_nonneg; [lia | apply zlen_nonneg]).
  rewrite Hcode.
  apply (code_in_interval (256 ^ zlen unread) (be_val unread)); [exact HM | exact HT | lia].
Qed.

(* rdec_init has read the five bytes the initial encoder state stands for *)
Lemma dec_match_init b1 b2 b3 b4 rest tail :
  dec_match (0 :: b1 :: b2 :: b3 :: b4 :: rest) tail
            (mkRdec 4294967295 (((b1 * 256 + b2) * 256 + b3) * 256 + b4) (rest ++ tail) 0) renc_init.
Proof.
  split; [reflexivity|]. split; [reflexivity|].
  exists [0; b1; b2; b3; b4], rest. cbn [rd_in rd_code].
  split; [reflexivity|]. split; [reflexivity|]. split; [reflexivity|].
  rewrite enc_V_init. unfold be_val. cbn [rev app le_value]. lia.
Qed.

(* a decoder that matches the state the output was finished from has consumed exactly the output *)
Lemma dec_match_final out tail d e :
  dec_match out tail d e -> renc_invR e (re_range e) -> re_cache_size e + 5 < 4294967296 ->
  out = renc_bytes (renc_finish e) -> rd_in d = tail /\ rd_code d = 0 /\ rd_over d = 0.
Proof.
  intros (_ & Hover & read & unread & Hout & Hrl & Hin & Hcode) HI Hs Heq.
  destruct (renc_finish_ok e _ HI Hs) as (_ & Hlen & Hval & _). rewrite <- Heq in Hlen, Hval.
  assert (unread = []).
  { rewrite Hout, zlen_app in Hlen. destruct unread as [|x u]; [reflexivity|].
    rewrite zlen_cons in Hlen. pose proof (zlen_nonneg u). lia. }
  subst unread. rewrite app_nil_r in Hout. subst read.
  split; [exact Hin|]. split; [lia | exact Hover].
Qed.

(* the decoder's lazy normalisation catches up with the encoder's eager one *)
Lemma dec_norm_match out tail d e :
  dec_match out tail d e -> renc_inv1 e -> re_cache_size e + 1 < 4294967296 ->
  renc_fut out (renc_normalize e) -> bytes_ok out = true ->
  dec_match out tail (rdec_normalize d) (renc_normalize e).
Proof.
  intros Hm HI Hs Hf Hb.
  pose proof (renc_fut_norm_back out e Hf HI Hs) as Hf0.
  pose proof (dec_code_range out tail d e Hm Hf0 Hb) as Hc.
  destruct Hm as (Hr & Ho & read & unread & Hout & Hlen & Hin & Hcode).
  destruct (renc_normalize_ok e HI Hs) as (_ & _ & [(Hlt & HV & HR & HD) | (Hge & Heq)]).
  - destruct Hf as [Hd _]. rewrite HD in Hd.
    destruct unread as [|b u].
    { subst out. rewrite app_nil_r in Hd. lia. }
    assert (Hbb : 0 <= b < 256).
    { subst out. apply bytes_ok_app in Hb as [_ Hb]. apply bytes_ok_cons in Hb. tauto. }
    destruct HI as [_ HR16].
    unfold rdec_normalize, rdec_read. rewrite Hr, Hin. cbn [app].
    replace (re_range e <? P2_24) with true by (symmetry; apply Z.ltb_lt; unfold P2_24; lia).
    cbn [rd_in rd_over rd_range rd_code].
    unfold wrap32. rewrite !Z.mod_small by lia. rewrite lor_shift8 by lia.
    split; [cbn [rd_range]; lia|]. split; [exact Ho|].
    exists (read ++ [b]), u. cbn [rd_in rd_code].
    split; [subst out; rewrite <- app_assoc; reflexivity|].
    split; [rewrite zlen_app, zlen_cons, zlen_nil; lia|].
    split; [reflexivity|]. rewrite be_val_snoc. lia.
  - rewrite Heq. unfold rdec_normalize. rewrite Hr.
    replace (re_range e <? P2_24) with false by (symmetry; apply Z.ltb_ge; unfold P2_24; lia).
    split; [exact Hr|]. split; [exact Ho|]. exists read, unread. tauto.
Qed.

Lemma dec_match_normalized out tail d e :
  dec_match out tail d e -> renc_inv e -> rdec_normalize d = d.
Proof.
  intros (Hr & _) [_ HR]. unfold rdec_normalize. rewrite Hr.
  replace (re_range e <? P2_24) with false by (symmetry; apply Z.ltb_ge; unfold P2_24; lia). reflexivity.
Qed.

(* a narrowing step of the encoder, seen from the decoder: the code after subtracting the
   offset is again inside the new interval *)
Lemma dec_step_match out tail d e off R1 :
  dec_match out tail d e ->
  dec_match out tail (mkRdec R1 (rd_code d - off) (rd_in d) (rd_over d)) (enc_step e off R1).
Proof.
  intros (Hr & Ho & read & unread & Hout & Hlen & Hin & Hcode).
  split; [reflexivity|]. split; [exact Ho|]. exists read, unread. cbn [rd_in rd_code].
  split; [exact Hout|]. split; [exact Hlen|]. split; [exact Hin|].
  unfold enc_V, enc_step, enc_O, Vof in *. cbn [re_low re_cache re_cache_size re_out]. lia.
Qed.

Lemma dec_rstep out tail d e off R1 :
  dec_match out tail d e -> renc_inv e -> 0 <= off -> 65536 <= R1 < 4294967296 ->
  off + R1 <= re_range e -> re_cache_size e + 1 < 4294967296 -> bytes_ok out = true ->
  renc_fut out (rstep e off R1) ->
  0 <= rd_code d - off < R1 /\
  dec_match out tail (rdec_normalize (mkRdec R1 (rd_code d - off) (rd_in d) (rd_over d))) (rstep e off R1).
Proof.
  intros Hm [HI Hr] Hoff HR1 Hsum Hs Hb Hf. unfold rstep in *.
  destruct (enc_step_ok e off R1 HI Hoff ltac:(lia) Hsum) as (I1 & _ & _ & S1).
  assert (HI1 : renc_inv1 (enc_step e off R1)) by (split; [exact I1 | exact HR1]).
  pose proof (dec_step_match out tail d e off R1 Hm) as Hm1.
  split.
  - apply (dec_code_range out tail _ _ Hm1); [|exact Hb].
    apply renc_fut_norm_back; [exact Hf | exact HI1 | lia].
  - apply dec_norm_match; [exact Hm1 | exact HI1 | lia | exact Hf | exact Hb].
Qed.

Lemma decode_bit_step out tail d e t k bit :
  renc_inv e -> probs_ok t -> bit = 0 \/ bit = 1 -> re_cache_size e + 1 < 4294967296 ->
  bytes_ok out = true ->
  dec_match out tail (rdec_normalize d) e ->
  renc_fut out (fst (encode_bit e t k bit)) ->
  let dn := rdec_normalize d in
  let off := bit_off (re_range e) (prob_get t k) bit in
  let R1 := bit_width (re_range e) (prob_get t k) bit in
  let d1 := mkRdec R1 (rd_code dn - off) (rd_in dn) (rd_over dn) in
  0 <= rd_code dn - off < R1 /\
  decode_bit d t k = Some (bit, d1, snd (encode_bit e t k bit)) /\
  dec_match out tail (rdec_normalize d1) (fst (encode_bit e t k bit)).
Proof.
  intros HI Ht Hbit Hs Hb Hm Hf. rewrite encode_bit_eq in * by assumption. cbn [fst snd] in *.
  pose proof (probs_ok_get t k Ht) as Hp.
  destruct (prob_update_twins _ 0 Hp (or_introl eq_refl)) as [Htw0 _].
  destruct (prob_update_twins _ 1 Hp (or_intror eq_refl)) as [Htw1 _].
  apply prob_ok_iff in Hp.
  pose proof (bit_step_bounds (re_range e) (prob_get t k) bit (proj2 HI) Hp) as (Ho & Hw & Hsum).
  destruct (dec_rstep out tail _ e _ _ Hm HI Ho Hw Hsum Hs Hb Hf) as [Hc Hm2].
  cbv zeta. split; [exact Hc|]. split; [|exact Hm2].
  pose proof (bound_facts (re_range e) (prob_get t k) (proj2 HI) Hp) as Hbf. cbv zeta in Hbf.
  pose proof Hm as (Hrr & _).
  unfold decode_bit. rewrite Hrr, shiftr_div by lia. change (2 ^ 11) with 2048.
  replace (P2_32 <=? re_range e / 2048 * prob_get t k) with false
    by (symmetry; apply Z.leb_gt; unfold P2_32; lia).
  rewrite <- Htw0, <- Htw1.
  destruct Hbit as [-> | ->]; unfold bit_off, bit_width in *; cbn [Z.eqb] in *.
  - replace (rd_code (rdec_normalize d) <? re_range e / 2048 * prob_get t k) with true
      by (symmetry; apply Z.ltb_lt; lia).
    rewrite Z.sub_0_r. reflexivity.
  - replace (rd_code (rdec_normalize d) <? re_range e / 2048 * prob_get t k) with false
      by (symmetry; apply Z.ltb_ge; lia).
    unfold wrap32. rewrite !Z.mod_small by lia. reflexivity.
Qed.

Lemma decode_bit_ok out tail d e t k bit :
  renc_inv e -> probs_ok t -> bit = 0 \/ bit = 1 -> re_cache_size e + 1 < 4294967296 ->
  bytes_ok out = true ->
  dec_match out tail (rdec_normalize d) e ->
  renc_fut out (fst (encode_bit e t k bit)) ->
  exists d1, decode_bit d t k = Some (bit, d1, snd (encode_bit e t k bit)) /\
             dec_match out tail (rdec_normalize d1) (fst (encode_bit e t k bit)).
Proof.
  intros HI Ht Hbit Hs Hb Hm Hf.
  destruct (decode_bit_step out tail d e t k bit HI Ht Hbit Hs Hb Hm Hf) as (_ & Hdec & Hm1). eauto.
Qed.

Lemma direct_bit_arith v c : 0 <= c ->
  (Z.land (Z.shiftr v c) 1 = 0 \/ Z.land (Z.shiftr v c) 1 = 1) /\
  v mod 2 ^ (c + 1) = v mod 2 ^ c + 2 ^ c * Z.land (Z.shiftr v c) 1.
Proof.
  intros Hc. rewrite land_one, shiftr_div by exact Hc.
  assert (HP : 0 < 2 ^ c) by (apply Z.pow_pos_nonneg; lia).
  split; [(Z.div_mod_to_equations; lia)|].
  rewrite Z.pow_add_r by lia. change (2 ^ 1) with 2. apply Z.rem_mul_r; lia.
Qed.

(* the sign of code - range/2, as a u32, is the complement of the coded bit *)
Lemma direct_cmp code r b :
  0 < r / 2 < 2147483648 -> 0 <= code - dir_off r b < r / 2 -> b = 0 \/ b = 1 ->
  Z.shiftr (wrap32 (code - r / 2)) 31 = 1 - b /\
  (if 1 - b =? 0 then wrap32 (code - r / 2) else code) = code - dir_off r b.
Proof.
  intros HR Hc Hb. rewrite shiftr_div by lia. change (2 ^ 31) with 2147483648. unfold wrap32, dir_off in *.
  destruct Hb as [-> | ->]; cbn [Z.eqb Pos.eqb Z.sub Z.opp Z.add Z.pos_sub] in *; split; (Z.div_mod_to_equations; lia).
Qed.

Lemma direct_acc acc b P :
  0 <= acc -> b = 0 \/ b = 1 -> 0 < P -> (acc + 1) * (P * 2) <= 4294967296 ->
  wrap32 (acc * 2 + (1 - (1 - b))) = acc * 2 + b /\ (acc * 2 + b + 1) * P <= 4294967296.
Proof.
  intros Ha Hb HP Hacc. unfold wrap32.
  assert (H1 : (acc + 1) * 2 <= (acc + 1) * (P * 2)) by nia.
  assert (H2 : 0 <= (1 - b) * P) by nia.
  split; [rewrite Z.mod_small; lia | lia].
Qed.

Lemma decode_direct_ok out tail n : forall e v d acc,
  renc_inv e -> re_cache_size e + Z.of_nat n < 4294967296 -> bytes_ok out = true ->
  dec_match out tail (rdec_normalize d) e ->
  renc_fut out (encode_direct_bits e v n) ->
  0 <= acc -> (acc + 1) * 2 ^ Z.of_nat n <= 4294967296 ->
  exists d1, decode_direct_bits d n acc = (acc * 2 ^ Z.of_nat n + v mod 2 ^ Z.of_nat n, d1) /\
             dec_match out tail (rdec_normalize d1) (encode_direct_bits e v n).
Proof.
  induction n as [|c IH]; intros e v d acc HI Hs Hb Hm Hf Hacc Hacc2.
  - cbn [decode_direct_bits encode_direct_bits]. exists d. split; [|exact Hm].
    change (Z.of_nat 0) with 0. change (2 ^ 0) with 1. rewrite Z.mod_1_r. f_equal. lia.
  - rewrite encode_direct_bits_S in * by exact HI.
    destruct (direct_bit_arith v (Z.of_nat c) ltac:(lia)) as [Hb01 Hmod].
    set (b := Z.land (Z.shiftr v (Z.of_nat c)) 1) in *.
    pose proof (proj2 HI) as Hr.
    pose proof (dir_step_bounds (re_range e) b Hr) as (Ho & Hw & Hsum).
    destruct (rstep_ok e _ _ HI Ho Hw Hsum ltac:(lia)) as (I2 & S2 & _).
    destruct (encode_direct_bits_ok c _ v I2 ltac:(lia)) as (_ & _ & F3).
    destruct (dec_rstep out tail _ e _ _ Hm HI Ho Hw Hsum ltac:(lia) Hb (F3 out Hf)) as [Hc1 Hm2].
    destruct (direct_cmp _ (re_range e) b ltac:((Z.div_mod_to_equations; lia)) Hc1 Hb01) as [Ht Hcode].
    assert (HP : 0 < 2 ^ Z.of_nat c) by (apply Z.pow_pos_nonneg; lia).
    rewrite Nat2Z.inj_succ, <- Z.add_1_r in *. rewrite Z.pow_add_r in Hacc2, Hmod |- * by lia.
    change (2 ^ 1) with 2 in *.
    destruct (direct_acc acc b _ Hacc Hb01 HP Hacc2) as [Hwa Hacc3].
    pose proof Hm as (Hrr & _).
    cbn [decode_direct_bits]. rewrite Hrr, (shiftr_div (re_range e) 1) by lia.
    change (2 ^ 1) with 2. rewrite Ht, Hwa, Hcode.
    destruct (IH _ v _ (acc * 2 + b) I2 ltac:(lia) Hb Hm2 Hf ltac:(lia) Hacc3) as (d1 & Hdec & Hm3).
    exists d1. split; [|exact Hm3]. rewrite Hdec. f_equal. rewrite Hmod. lia.
Qed.
