(* Codec/Lzma2ReadAuxProofs.v — auxiliary facts for the LZMA2 reader proof: the header bytes decode
   to the sizes the writer meant, rc.prepare = RangeDecoder initialisation on the chunk payload,
   and how the encoder's view of the data relates to histories; the window LZDecoder::new builds
   from a preset and the encoder's first view of the data (lzwin_new_preset_rel, ehist_new_rel);
   chunks_ok_pos. *)
From LzVerif Require Import Base.Bytes Codec.Store Codec.Range Codec.ProbProofs Codec.LzWindow Codec.LzmaDec
  Codec.LzmaEnc Codec.LzmaAbs Codec.LzWindowProofs Codec.ProgProofs Codec.LzmaAbsProofs
  Codec.RangeEncProofs Codec.RangeDecProofs Codec.RangeProofs Codec.LzmaSymProofs Codec.LzmaRoundtrip
  Codec.LzmaWriters Codec.LzmaChunkProofs Codec.LzmaReadProofs Codec.Lzma2Dec Codec.Lzma2FrameProofs
  Codec.Lzma2SpecProofs Codec.Lzma2WindowProofs.

Lemma u16_bytes v : 0 <= v < 65536 -> wrap8 (Z.shiftr v 8) * 256 + wrap8 v = v.
Proof. intros H. unfold wrap8. rewrite Z.shiftr_div_pow2 by lia. change (2 ^ 8) with 256. (Z.div_mod_to_equations; lia). Qed.

Lemma wrap8_range x : 0 <= wrap8 x < 256.
Proof. exact (Bytes.wrap8_range x). Qed.

Definition ctl_chk (x : Z) : bool :=
  forallb (fun c0 => (Z.lor c0 x =? c0 + x) && (Z.land (c0 + x) 31 =? x)) [128; 160; 192; 224].

Lemma ctl_sweep : forallb ctl_chk (zrange 0 32) = true.
Proof. vm_compute. reflexivity. Qed.

Lemma ctl_facts c0 x : In c0 [128; 160; 192; 224] -> 0 <= x < 32 ->
  Z.lor c0 x = c0 + x /\ Z.land (c0 + x) 31 = x.
Proof.
  intros Hc Hx. pose proof ctl_sweep as HS. rewrite forallb_forall in HS.
  specialize (HS x (in_zrange 0 32 x ltac:(lia))). unfold ctl_chk in HS. rewrite forallb_forall in HS.
  specialize (HS c0 Hc). apply andb_true_iff in HS as [H1 H2]. apply Z.eqb_eq in H1, H2. split; assumption.
Qed.

Lemma lzma_ctl_decode r usize : 1 <= usize <= 2097152 ->
  wrap8 (Z.lor (lzma_ctl0 r) (Z.shiftr (usize - 1) 16)) = lzma_ctl0 r + (usize - 1) / 65536 /\
  0 <= (usize - 1) / 65536 < 32 /\
  Z.shiftl (Z.land (lzma_ctl0 r + (usize - 1) / 65536) 31) 16
    + (wrap8 (Z.shiftr (usize - 1) 8) * 256 + wrap8 (usize - 1)) + 1 = usize.
Proof.
  intros Hu. rewrite Z.shiftr_div_pow2 by lia. change (2 ^ 16) with 65536.
  assert (Hx : 0 <= (usize - 1) / 65536 < 32) by (Z.div_mod_to_equations; lia).
  assert (Hc : In (lzma_ctl0 r) [128; 160; 192; 224]) by (destruct r; cbn; tauto).
  destruct (ctl_facts _ _ Hc Hx) as [H1 H2]. rewrite H1, H2.
  assert (Hc0 : 128 <= lzma_ctl0 r <= 224) by (cbn [In] in Hc; lia).
  split; [unfold wrap8; (Z.div_mod_to_equations; lia)|]. split; [exact Hx|].
  rewrite Z.shiftl_mul_pow2 by lia. change (2 ^ 16) with 65536.
  rewrite Z.shiftr_div_pow2 by lia. change (2 ^ 8) with 256. unfold wrap8. (Z.div_mod_to_equations; lia).
Qed.

(* the tests decode_chunk_header makes on the control byte, as functions of the reset level *)
Lemma lzma_ctl_tests r x : 0 <= x < 32 -> let ctl := lzma_ctl0 r + x in
  (ctl =? 0) = false /\ (ctl =? 1) = false /\ (224 <=? ctl) = is_dict r /\ (128 <=? ctl) = true /\
  (192 <=? ctl) = has_props r /\ (160 <=? ctl) = match r with RNone _ _ => false | _ => true end.
Proof.
  intros Hx ctl. unfold ctl. destruct r; cbn [lzma_ctl0 is_dict has_props]; repeat split;
    first [apply Z.eqb_neq; lia | apply Z.leb_le; lia | apply Z.leb_gt; lia].
Qed.

Lemma unc_ctl_tests r : let ctl := unc_ctl r in
  (ctl =? 0) = false /\ (224 <=? ctl) = false /\ (ctl =? 1) = is_dict r /\ (128 <=? ctl) = false /\ (2 <? ctl) = false.
Proof. destruct r; repeat split; reflexivity. Qed.

Lemma decode_props_ok lc lp pb rest : 0 <= lc -> 0 <= lp -> lc + lp <= 4 -> 0 <= pb <= 4 ->
  lzma2_decode_props (props_byte lc lp pb :: rest) = Ok (coder_new lc lp pb, rest).
Proof.
  intros Hlc Hlp Hs Hpb.
  assert (Hv : props_byte lc lp pb = 45 * pb + 9 * lp + lc) by (unfold props_byte, wrap8; (Z.div_mod_to_equations; lia)).
  unfold lzma2_decode_props, read_u8. cbn [obind]. rewrite Hv.
  destruct (Z.ltb_spec 224 (45 * pb + 9 * lp + lc)) as [Hbad|_]; [lia|].
  assert (E1 : (45 * pb + 9 * lp + lc) / 45 = pb) by (Z.div_mod_to_equations; lia). rewrite E1.
  assert (E2 : (45 * pb + 9 * lp + lc - pb * 45) / 9 = lp) by (Z.div_mod_to_equations; lia). rewrite E2.
  replace (45 * pb + 9 * lp + lc - pb * 45 - lp * 9) with lc by lia.
  destruct (Z.ltb_spec 4 (lc + lp)) as [Hbad|_]; [lia|]. reflexivity.
Qed.

(* rc.prepare on the chunk payload = RangeDecoder::new on it *)
Lemma rdec_prepare_of_init body rest d0 :
  rdec_init body = Ok d0 -> rdec_prepare (body ++ rest) (zlen body) = Ok (d0, rest).
Proof.
  unfold rdec_init. destruct body as [|b0 r0]; [discriminate|].
  destruct (Z.eqb_spec b0 0) as [->|Hne]; cbn [negb]; [|discriminate].
  destruct r0 as [|b1 [|b2 [|b3 [|b4 payload]]]]; try discriminate.
  intros H. apply Ok_inj in H. subst d0.
  unfold rdec_prepare. rewrite !zlen_cons. pose proof (zlen_nonneg payload) as Hp.
  destruct (Z.ltb_spec (zlen payload + 1 + 1 + 1 + 1 + 1) 5) as [Hbad|_]; [lia|].
  cbn [app]. change (0 =? 0) with true. cbn [negb].
  replace (Z.to_nat (zlen payload + 1 + 1 + 1 + 1 + 1 - 5)) with (length payload) by (unfold zlen; lia).
  destruct (Nat.ltb_spec (length (payload ++ rest)) (length payload)) as [Hbad|_];
    [rewrite app_length in Hbad; lia|].
  rewrite firstn_app_exact, skipn_app_exact by reflexivity. reflexivity.
Qed.

Lemma chunk_body_init t0 E :
  probs_ok t0 -> forallb RangeEncProofs.ev_ok E = true -> events_bits E <= RC_MAX_BITS ->
  exists d0, rdec_init (chunk_body t0 E) = Ok d0 /\ rc_sim E t0 [] [] d0 t0.
Proof.
  intros Ht Hok Hbits. destruct (rc_sim_init E t0 [] Ht Hok Hbits) as (d0 & Hinit & Hsim).
  rewrite app_nil_r in Hinit. exists d0. split; [exact Hinit | exact Hsim].
Qed.

Lemma rdec_is_finished_intro d : rd_in d = [] -> rd_code d = 0 -> rd_over d = 0 -> rdec_is_finished d = true.
Proof. intros H1 H2 H3. unfold rdec_is_finished. rewrite H1, H2, H3. reflexivity. Qed.

(* stored bytes extend the history *)
Lemma hist_rel_stored n : forall h hist,
  hist_rel h hist ->
  hist_rel (h_at h (h_pos h + Z.of_nat n)) (rev (aget_list (h_data h) (h_pos h) n) ++ hist).
Proof.
  induction n as [|k IH]; intros h hist Hr.
  - cbn [aget_list rev app Z.of_nat]. replace (h_pos h + 0) with (h_pos h) by lia. rewrite h_at_pos. exact Hr.
  - cbn [aget_list rev]. rewrite <- app_assoc. cbn [app].
    pose proof (hist_rel_lit h hist (aget 0 (h_data h) (h_pos h)) Hr eq_refl) as H1.
    specialize (IH (h_advance h 1) _ H1).
    unfold h_advance in IH; cbn [h_data h_pos] in IH. unfold h_at in *; cbn [h_data h_total h_base h_pos h_dict] in *.
    replace (h_pos h + Z.of_nat (S k)) with (h_pos h + 1 + Z.of_nat k) by lia. exact IH.
Qed.

(* the newest n bytes of a history are the n data bytes before the position *)
Lemma hist_rel_newest n : forall h hist,
  hist_rel h hist -> Z.of_nat n <= zlen hist ->
  rev (firstn n hist) = aget_list (h_data h) (h_pos h - Z.of_nat n) n.
Proof.
  induction n as [|k IH]; intros h hist Hr Hn; [reflexivity|].
  rewrite rev_firstn_S by (unfold zlen in Hn; lia).
  cbn [aget_list]. pose proof Hr as (Hl & Hb & Hc).
  rewrite Hc by lia. unfold hget. f_equal; [f_equal; lia|].
  rewrite (IH h hist Hr) by lia. f_equal. lia.
Qed.

Lemma data_from_split h n : 0 <= n <= h_total h - h_pos h ->
  data_from h = aget_list (h_data h) (h_pos h) (Z.to_nat n) ++ data_from (h_at h (h_pos h + n)).
Proof.
  intros Hn. unfold data_from. cbn [h_at h_data h_total h_pos].
  rewrite (aget_list_split (h_data h) (h_pos h) (h_total h - h_pos h) n) by lia.
  do 3 f_equal. lia.
Qed.

Lemma data_from_end h : h_pos h = h_total h -> data_from h = [].
Proof. intros H. unfold data_from. rewrite H, Z.sub_diag. reflexivity. Qed.

Lemma data_from_rebase h : data_from (h_rebase h) = data_from h.
Proof. reflexivity. Qed.

(* the encoder's array, the window LZDecoder::new builds, the encoder's first view *)
Lemma aset_list_other l : forall t i j, 0 <= j < i -> aget 0 (aset_list t i l) j = aget 0 t j.
Proof.
  induction l as [|x r IH]; intros t i j Hj; cbn [aset_list]; [reflexivity|].
  rewrite IH by lia. apply agso; lia.
Qed.

Lemma preset_kept_nil dict : preset_kept dict [] = [].
Proof. unfold preset_kept, lastn. apply skipn_nil. Qed.

Lemma aset_list_app a : forall b t i, aset_list t i (a ++ b) = aset_list (aset_list t i a) (i + zlen a) b.
Proof.
  induction a as [|x r IH]; intros b t i; cbn [app aset_list].
  - change (zlen (@nil Z)) with 0. f_equal. lia.
  - rewrite IH, zlen_cons. f_equal. lia.
Qed.

Lemma aget_list_aset_list_prefix a : forall b t i, 0 <= i ->
  aget_list (aset_list t i (a ++ b)) i (length a) = a.
Proof.
  induction a as [|x r IH]; intros b t i Hi; cbn [app aset_list aget_list length]; [reflexivity|].
  rewrite aset_list_other by lia. rewrite agss. f_equal. apply IH. lia.
Qed.

Lemma Rel_same_cells w w' hist : Rel w hist ->
  w_buf w' = w_buf w -> w_size w' = w_size w -> w_pos w' = w_pos w -> w_full w' = w_full w ->
  w_limit w' = w_limit w -> w_pending_len w' = w_pending_len w -> 0 <= w_start w' <= w_pos w' ->
  Rel w' hist.
Proof.
  intros [A B C D E F G H] Hb Hs Hp Hf Hl Hpl Hst.
  constructor; unfold bget, widx in *; rewrite ?Hb, ?Hs, ?Hp, ?Hf, ?Hl, ?Hpl; auto.
  rewrite Hp in Hst. lia.
Qed.

Lemma zlen_lastn {A} (l : list A) n : 0 <= n <= zlen l -> zlen (lastn (Z.to_nat n) l) = n.
Proof. intros H. unfold lastn, zlen in *. rewrite skipn_length. lia. Qed.

Lemma lzwin_new_preset_rel ds p : 0 < ds -> ds mod 16 = 0 ->
  Rel (lzwin_new ds (Some p)) (rev (lastn (Z.to_nat (Z.min (zlen p) ds)) p)).
Proof.
  intros Hs H16. set (n := Z.min (zlen p) ds). set (kept := lastn (Z.to_nat n) p).
  pose proof (zlen_nonneg p) as Hp.
  assert (Hk : zlen kept = n) by (apply zlen_lastn; unfold n; lia).
  pose proof (put_list_rel kept (lzwin_new ds None) [] (lzwin_new_rel ds Hs H16)) as HR.
  cbn [lzwin_new w_buf w_size w_start w_pos w_full w_limit w_pending_len w_pending_dist] in HR.
  rewrite Hk, app_nil_r in HR. specialize (HR ltac:(unfold n; lia)).
  eapply Rel_same_cells; [exact HR|..]; unfold lzwin_new; fold n; fold kept;
    cbn [w_buf w_size w_start w_pos w_full w_limit w_pending_len]; try reflexivity; unfold n; lia.
Qed.

Lemma ehist_new_rel dict p data :
  hist_rel (ehist_new dict p data) (rev (preset_kept dict p)) /\ data_from (ehist_new dict p data) = data.
Proof.
  unfold ehist_new. set (kept := preset_kept dict p).
  set (h0 := mkEhist (array_of_list (kept ++ data)) (zlen kept + zlen data) 0 (zlen kept) dict).
  split.
  - assert (H0 : hist_rel (h_at h0 0) []).
    { unfold hist_rel, h_at, h0. cbn [h_pos h_base]. change (zlen (@nil Z)) with 0.
      split; [lia|]. split; [lia|]. intros d Hd. lia. }
    pose proof (hist_rel_stored (length kept) _ _ H0) as H1.
    rewrite h_at_at, app_nil_r in H1. cbn [h_at h_pos h_data] in H1.
    unfold h0 in H1 at 2. cbn [h_data] in H1. unfold array_of_list in H1.
    rewrite aget_list_aset_list_prefix in H1 by lia.
    replace (0 + Z.of_nat (length kept)) with (h_pos h0) in H1 by (unfold h0, zlen; cbn [h_pos]; lia).
    rewrite h_at_pos in H1. exact H1.
  - unfold data_from, h0. cbn [h_data h_pos h_total]. unfold array_of_list.
    rewrite aset_list_app. replace (Z.to_nat (zlen kept + zlen data - zlen kept)) with (length data) by (unfold zlen; lia).
    rewrite <- (app_nil_r data) at 1. apply aget_list_aset_list_prefix. pose proof (zlen_nonneg kept). lia.
Qed.

Lemma data_from_new dict data : data_from (ehist_new dict [] data) = data.
Proof. apply ehist_new_rel. Qed.

From LzVerif Require Import Codec.Lzma2BitsProofs.

Lemma chunks_ok_pos lc lp pb r h bytes : chunks_ok lc lp pb r h bytes -> h_pos h <= h_total h.
Proof.
  induction 1 as [r h He | r h bytes _ IH | r h n bytes Hn Hle _ _ | r h syms E c' h' usize csize bytes
                  Hne Hs Hp Hb Hu Hur Hc Hcr _ IH].
  - lia.
  - exact IH.
  - lia.
  - destruct (enc_syms_fields _ _ _ _ _ _ Hs) as (_ & Ht & _). lia.
Qed.
