(* Codec/ReadLoopProofs.v — what the reader models have in common, over an abstract reader state:
   the while loop of read_decode, read(buf), and a whole history of reads with arbitrary destination
   sizes.  From a description of ONE loop iteration by an invariant [Inv st s rem] ([rem]: the data
   the reader still has to deliver) follows that every read history delivers exactly [rem].
   [st = false] allows one iteration that neither delivers a byte nor ends the stream (a preset
   dictionary that fills the window: the first flush only wraps the write position). *)
From LzVerif Require Import Base.Bytes.

(* the destination size of the next call of a read history, and the sizes after it *)
Definition next_size (sizes all : list Z) : Z * list Z :=
  match sizes with [] => (4096, all) | x :: r => (x, r) end.

Lemma next_size_pos sizes all :
  Forall (fun z => 0 < z) sizes -> Forall (fun z => 0 < z) all ->
  0 < fst (next_size sizes all) /\
  Forall (fun z => 0 < z)
    (match snd (next_size sizes all) with [] => all | _ => snd (next_size sizes all) end).
Proof.
  intros Hs Ha. destruct sizes as [|x r]; cbn [next_size fst snd].
  - split; [lia|]. destruct all as [|y t]; assumption.
  - inversion Hs as [|x0 r0 Hx Hr]; subst. split; [assumption|].
    destruct r as [|y t]; assumption.
Qed.

Section ReadLoop.
  Variable St : Type.
  Variable iter : St -> Z -> outcome (list Z * St).
  Variable ended : St -> bool.
  Variable loop : nat -> St -> Z -> list Z -> outcome (list Z * St).
  Variable read : St -> Z -> outcome (list Z * St).
  Variable Inv : bool -> St -> list Z -> Prop.
  Variable Fin : St -> Prop.

  Hypothesis loop_done : forall fuel s len acc, len <= 0 -> loop fuel s len acc = Ok (frev acc, s).
  Hypothesis loop_step : forall f s len acc out s1, 0 < len -> iter s len = Ok (out, s1) ->
    loop (S f) s len acc =
    if ended s1 then Ok (frev (rev_append out acc), s1)
    else loop f s1 (len - zlen out) (rev_append out acc).
  Hypothesis read_live : forall st s rem sz, Inv st s rem -> 0 < sz ->
    exists fuel, read s sz = loop fuel s sz [] /\ (Z.to_nat sz + 2 <= fuel)%nat.
  Hypothesis iter_spec : forall st s rem len, Inv st s rem -> 0 < len ->
    exists out s' rem', iter s len = Ok (out, s') /\ rem = out ++ rem' /\ zlen out <= len /\
      ((ended s' = true /\ rem' = [] /\ Fin s') \/
       (ended s' = false /\ (st = true -> out <> []) /\ Inv true s' rem')).

  (* the loop fills the destination unless the stream ends; an iteration without progress costs
     one unit of fuel more *)
  Lemma loop_ok : forall fuel st s rem len acc, Inv st s rem -> 0 < len ->
    (Z.to_nat len + (if st then 1 else 2) <= fuel)%nat ->
    exists out s' rem', loop fuel s len acc = Ok (rev acc ++ out, s') /\ rem = out ++ rem' /\
      ((zlen out = len /\ Inv true s' rem') \/ (zlen out <= len /\ rem' = [] /\ Fin s')).
  Proof.
    induction fuel as [|f IH]; intros st s rem len acc HI Hlen Hf; [destruct st; lia|].
    destruct (iter_spec st s rem len HI Hlen) as (out & s1 & rem1 & Hit & Hrem & Hle & Hcase).
    rewrite (loop_step f s len acc out s1 Hlen Hit).
    destruct Hcase as [(He & Hnil & HF) | (He & Hprog & HI1)]; rewrite He.
    - exists out, s1, rem1. rewrite frev_rev, rev_rev_append.
      split; [reflexivity|]. split; [exact Hrem|]. right. split; [exact Hle|]. split; assumption.
    - destruct (Z.eq_dec (len - zlen out) 0) as [Hz|Hnz].
      + exists out, s1, rem1. rewrite loop_done, frev_rev, rev_rev_append by lia.
        split; [reflexivity|]. split; [exact Hrem|]. left. split; [lia | exact HI1].
      + assert (Hout : st = true -> 0 < zlen out).
        { intros X. specialize (Hprog X). destruct out; [congruence|]. unfold zlen. cbn [length]. lia. }
        destruct (IH true s1 rem1 (len - zlen out) (rev_append out acc) HI1 ltac:(lia)
                    ltac:(destruct st; [specialize (Hout eq_refl)|]; unfold zlen in *; lia))
          as (out2 & s2 & rem2 & Hloop & Hrem2 & Hcase2).
        exists (out ++ out2), s2, rem2. rewrite Hloop, rev_rev_append, <- app_assoc.
        split; [reflexivity|]. split; [rewrite Hrem, Hrem2; apply app_assoc|].
        unfold zlen in *. rewrite app_length.
        destruct Hcase2 as [(Hfull & HI2) | (Hle2 & Hnil & HF)]; [left | right]; split; auto; lia.
  Qed.

  Lemma read_ok st s rem sz : Inv st s rem -> 0 < sz ->
    exists out s' rem', read s sz = Ok (out, s') /\ rem = out ++ rem' /\
      ((zlen out = sz /\ Inv true s' rem') \/ (zlen out <= sz /\ rem' = [] /\ Fin s')).
  Proof.
    intros HI Hsz. destruct (read_live st s rem sz HI Hsz) as (fuel & -> & Hf).
    apply (loop_ok fuel st s rem sz [] HI Hsz). destruct st; lia.
  Qed.
End ReadLoop.

Section ReadAll.
  Variables St R : Type.
  Variable read : St -> Z -> outcome (list Z * St).
  Variable read_all : nat -> St -> list Z -> list Z -> list Z -> outcome R.
  Variable result : list Z -> St -> R.      (* how read_all packs the bytes and the final state *)
  Variable Inv : St -> list Z -> Prop.
  Variable Fin : St -> Prop.

  Hypothesis read_all_step : forall f s sizes all acc out s1,
    read s (fst (next_size sizes all)) = Ok (out, s1) ->
    read_all (S f) s sizes all acc =
    if (0 <? fst (next_size sizes all)) && (zlen out =? 0) then Ok (result (frev acc) s1)
    else read_all f s1 (match snd (next_size sizes all) with [] => all | _ => snd (next_size sizes all) end)
           all (rev_append out acc).
  Hypothesis read_spec : forall s rem sz, Inv s rem -> 0 < sz ->
    exists out s' rem', read s sz = Ok (out, s') /\ rem = out ++ rem' /\
      ((out <> [] /\ Inv s' rem') \/ (rem' = [] /\ Fin s')).
  Hypothesis read_fin : forall s sz, Fin s -> 0 < sz -> read s sz = Ok ([], s).

  Lemma read_all_fin f s sizes all acc :
    Fin s -> Forall (fun z => 0 < z) sizes -> Forall (fun z => 0 < z) all ->
    read_all (S f) s sizes all acc = Ok (result (frev acc) s).
  Proof.
    intros HF Hs Ha. destruct (next_size_pos sizes all Hs Ha) as (Hsz & _).
    rewrite (read_all_step f s sizes all acc [] s (read_fin s _ HF Hsz)).
    destruct (Z.ltb_spec 0 (fst (next_size sizes all))); [reflexivity | lia].
  Qed.

  (* every call delivers a non-empty prefix of [rem] until nothing is left; the call after that
     returns no bytes, which ends the history *)
  Theorem read_all_ok : forall fuel s rem sizes all acc,
    Inv s rem -> Forall (fun z => 0 < z) sizes -> Forall (fun z => 0 < z) all ->
    (length rem + 2 <= fuel)%nat ->
    exists s_end, read_all fuel s sizes all acc = Ok (result (rev acc ++ rem) s_end) /\ Fin s_end.
  Proof.
    induction fuel as [|f IH]; intros s rem sizes all acc HI Hs Ha Hf; [lia|].
    destruct (next_size_pos sizes all Hs Ha) as (Hsz & Hnext).
    destruct (read_spec s rem _ HI Hsz) as (out & s1 & rem1 & Hread & Hrem & Hcase).
    rewrite (read_all_step f s sizes all acc out s1 Hread).
    destruct (Z.ltb_spec 0 (fst (next_size sizes all))); [|lia]. cbn [andb].
    assert (Hlen : length rem = (length out + length rem1)%nat) by (rewrite Hrem; apply app_length).
    destruct (Z.eqb_spec (zlen out) 0) as [Hz|Hnz].
    - apply zlen_zero_nil in Hz. subst out.
      destruct Hcase as [(Hne & _) | (Hnil & HF)]; [congruence|].
      exists s1. rewrite Hrem, Hnil, frev_rev, app_nil_r. split; [reflexivity | exact HF].
    - assert (Hpos : (1 <= length out)%nat) by (unfold zlen in Hnz; lia).
      destruct Hcase as [(_ & HI1) | (Hnil & HF)].
      + destruct (IH s1 rem1 _ all (rev_append out acc) HI1 Hnext Ha ltac:(lia)) as (s_end & Hall & HF).
        exists s_end. rewrite Hall, rev_rev_append, <- app_assoc, Hrem. split; [reflexivity | exact HF].
      + destruct f as [|f']; [lia|].
        rewrite (read_all_fin f' s1 _ all _ HF Hnext Ha).
        exists s1. rewrite frev_rev, rev_rev_append, Hrem, Hnil, app_nil_r.
        split; [reflexivity | exact HF].
  Qed.
End ReadAll.
