(* Codec/ProbProofs.v — the two probability-update formulas of the Rust code (encoder:
   `+= (2048 - p) >> 5` / `-= p >> 5`; decoder: `p - ((p + offset) >> 5)` with a wrapped offset)
   are the same function, and they keep every probability inside [31, 2017], which is what makes
   `bound = (range >> 11) * p` satisfy 0 < bound < range and never overflow u32. *)
From LzVerif Require Import Base.Bytes Codec.Store Codec.Range.

(* [lo; lo+1; …], n items: for finite case splits by evaluation *)
Fixpoint zrange (lo : Z) (n : nat) : list Z :=
  match n with O => [] | S k => lo :: zrange (lo + 1) k end.

Lemma in_zrange lo n x : lo <= x < lo + Z.of_nat n -> In x (zrange lo n).
Proof.
  revert lo; induction n as [|k IH]; intros lo H; [lia|].
  cbn [zrange In]. destruct (Z.eq_dec lo x); [left; assumption | right; apply IH; lia].
Qed.

Definition PROB_MIN : Z := 31.
Definition PROB_MAX : Z := 2017.
Definition prob_ok (p : Z) : bool := (PROB_MIN <=? p) && (p <=? PROB_MAX).

Lemma prob_ok_iff p : prob_ok p = true <-> 31 <= p <= 2017.
Proof. unfold prob_ok, PROB_MIN, PROB_MAX. rewrite andb_true_iff, !Z.leb_le. tauto. Qed.

(* Both sides compute p + (2048 - p) / 32 for bit 0 and p - p / 32 for bit 1.  The decoder's
   offset is 2^32 - 2017, so its bit-0 quotient is 2^27 - (2048 - p) / 32, and 2^27 vanishes
   in the final truncation to 16 bits. *)
Theorem prob_update_twins : forall p bit,
  prob_ok p = true -> (bit = 0 \/ bit = 1) ->
  prob_update_enc p bit = prob_update_dec p bit /\ prob_ok (prob_update_enc p bit) = true.
Proof.
  intros p bit Hp Hb. rewrite prob_ok_iff in *.
  unfold prob_update_enc, prob_update_dec, RC_BIT_MODEL_OFFSET, wrap16, wrap32, P2_11.
  rewrite !Z.shiftr_div_pow2 by lia. change (2 ^ 5) with 32.
  destruct Hb as [-> | ->]; cbn [Z.eqb]; Z.div_mod_to_equations; lia.
Qed.

(* every cell of a table is a valid probability *)
Definition probs_ok (t : probs) : Prop := forall q v, pget t q = Some v -> prob_ok v = true.

Lemma probs_ok_empty : probs_ok PLeaf.
Proof. intros q v H. rewrite pget_leaf in H. discriminate. Qed.

Lemma probs_ok_get t k : probs_ok t -> prob_ok (prob_get t k) = true.
Proof.
  intros H. unfold prob_get, aget. destruct (pget t (akey k)) as [v|] eqn:E; [eapply H; eassumption | reflexivity].
Qed.

Lemma probs_ok_set t k v : probs_ok t -> prob_ok v = true -> probs_ok (prob_set t k v).
Proof.
  intros H Hv q x Hq. unfold prob_set, aset in Hq.
  destruct (Pos.eq_dec (akey k) q) as [<-|Hne].
  - rewrite pgss in Hq. inversion Hq; subst; assumption.
  - rewrite pgso in Hq by assumption. eapply H; eassumption.
Qed.
