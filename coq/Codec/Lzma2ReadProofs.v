(* Codec/Lzma2ReadProofs.v — the LZMA2 reader model decodes every well-formed chunk sequence
   ([chunks_ok], Lzma2SpecProofs.v) into the data it describes, for every sequence of destination
   buffer sizes (read_chunks); the last part composes this with lzma2_frame_sync
   (Lzma2FrameSyncProofs.v: the writer model only writes such sequences) into the round trip of the
   two models: lzma2_roundtrip_opt, lzma2_roundtrip, lzma2_roundtrip_preset. *)
From LzVerif Require Import Base.Bytes Codec.Store Codec.Range Codec.ProbProofs Codec.LzWindow Codec.LzmaDec
  Codec.LzmaEnc Codec.LzmaAbs Codec.LzWindowProofs Codec.ProgProofs Codec.LzmaAbsProofs
  Codec.RangeEncProofs Codec.RangeDecProofs Codec.RangeProofs Codec.LzmaSymProofs Codec.LzmaRoundtrip
  Codec.LzmaWriters Codec.LzmaChunkProofs Codec.LzmaReadProofs Codec.Lzma2Dec Codec.Lzma2FrameProofs
  Codec.Lzma2SpecProofs Codec.Lzma2WindowProofs Codec.Lzma2BitsProofs Codec.Lzma2LoopProofs.
From LzVerif Require Export Codec.Lzma2ReadAuxProofs.

Ltac msimpl :=
  cbn [m_in m_win m_rc m_probs m_coder m_uncompressed_size m_is_lzma_chunk m_need_dict_reset m_need_props
       m_end_reached m_error].

(* the part of lzma2_iter after the chunk header *)
Definition iter_body (s1 : lzma2) (len : Z) : outcome (list Z * lzma2) :=
  let copy_size_max := Z.min (m_uncompressed_size s1) len in
  do s2 <-
    (if negb (m_is_lzma_chunk s1) then
       do wi <- lzwin_copy_uncompressed (m_win s1) (m_in s1) copy_size_max;
       let '(w, input) := wi in
       Ok (mkLzma2 input w (m_rc s1) (m_probs s1) (m_coder s1) (m_uncompressed_size s1) (m_is_lzma_chunk s1)
                   (m_need_dict_reset s1) (m_need_props s1) (m_end_reached s1) (m_error s1))
     else
       let w := lzwin_set_limit (m_win s1) copy_size_max in
       match m_coder s1 with
       | None => Ok (mkLzma2 (m_in s1) w (m_rc s1) (m_probs s1) None (m_uncompressed_size s1) true
                             (m_need_dict_reset s1) (m_need_props s1) (m_end_reached s1) (m_error s1))
       | Some c =>
           do r <- lzma_decode c w (m_rc s1) (m_probs s1);
           let '(c1, w1, status, d1, t1) := r in
           match status with
           | Ok _ => Ok (mkLzma2 (m_in s1) w1 d1 t1 (Some c1) (m_uncompressed_size s1) true
                                 (m_need_dict_reset s1) (m_need_props s1) (m_end_reached s1) (m_error s1))
           | Err e => Err e
           | Panic e => Panic e
           | Fuel => Fuel
           end
       end);
  let '(out, w3) := lzwin_flush (m_win s2) in
  let copied := zlen out in
  let usize := m_uncompressed_size s2 - copied in
  if usize <? 0 then Panic 51 else
  let s3 := mkLzma2 (m_in s2) w3 (m_rc s2) (m_probs s2) (m_coder s2) usize (m_is_lzma_chunk s2)
                    (m_need_dict_reset s2) (m_need_props s2) (m_end_reached s2) (m_error s2) in
  if (usize =? 0) && (negb (rdec_is_finished (m_rc s3)) || lzwin_has_pending w3) then Err E_INVALID_INPUT
  else Ok (out, s3).

Lemma lzma2_iter_eq s len :
  lzma2_iter s len =
  do s1 <- (if m_uncompressed_size s =? 0 then lzma2_chunk_header s else Ok s);
  if m_end_reached s1 then Ok ([], s1) else iter_body s1 len.
Proof. reflexivity. Qed.

Section Reader.
  Variables lc lp pb dict : Z.
  Variable wsize : Z.        (* the reader's buffer size: the dictionary size rounded up to 16 *)
  Variable tail : list Z.
  Variable D0 : ptree.       (* the data as an array, and its length: fixed along the stream *)
  Variable T0 : Z.
  Hypothesis Hlc : 0 <= lc.
  Hypothesis Hlp : 0 <= lp.
  Hypothesis Hlclp : lc + lp <= 4.
  Hypothesis Hpb : 0 <= pb <= 4.
  Hypothesis Hdict : dict <= 2147483648.
  Hypothesis Hdictw : dict <= wsize.
  Hypothesis Hws : 0 < wsize.
  Hypothesis Hws16 : wsize mod 16 = 0.
  Hypothesis Hdata : forall i, 0 <= aget 0 D0 i < 256.

  Definition hfix (h : ehist) : Prop := h_data h = D0 /\ h_total h = T0 /\ h_dict h = dict.

  (* what the reader's coder / tables / flags must be for a chunk sequence at level r *)
  Definition sync_coder (r : rlevel) (co : option coder) (t : probs) (np nd : bool) (full : Z) : Prop :=
    match r with
    | RNone c t' => co = Some c /\ t = t' /\ coder_params c lc lp pb /\ probs_ok t' /\ coder_ok c full
    | RState => exists c, co = Some c /\ coder_params c lc lp pb
    | _ => True
    end /\ (np = true -> has_props r = true) /\ (nd = true -> r = RDict).

  Definition sync_win (st : bool) (r : rlevel) (h : ehist) (w : lzwin) : Prop :=
    w_size w = wsize /\ w_pending_len w = 0 /\
    match r with
    | RDict => h_base h = h_pos h /\ 0 <= h_base h
    | _ => exists hist, win_ok wsize st w hist /\ hist_rel h hist
    end.

  Definition at_boundary (st : bool) (r : rlevel) (h : ehist) (s : lzma2) : Prop :=
    m_uncompressed_size s = 0 /\ m_end_reached s = false /\ m_error s = None /\
    rdec_is_finished (m_rc s) = true /\
    sync_coder r (m_coder s) (m_probs s) (m_need_props s) (m_need_dict_reset s) (w_full (m_win s)) /\
    sync_win st r h (m_win s) /\ hfix h.

  (* inside a stored chunk: u bytes still to copy *)
  Definition in_unc (st : bool) (s : lzma2) (rem : list Z) : Prop :=
    exists r h u bytes hist,
      0 < u /\ h_pos h + u <= T0 /\ m_uncompressed_size s = u /\ m_is_lzma_chunk s = false /\
      m_end_reached s = false /\ m_error s = None /\ rdec_is_finished (m_rc s) = true /\
      (r = RState \/ r = RProps) /\
      sync_coder r (m_coder s) (m_probs s) (m_need_props s) (m_need_dict_reset s) 0 /\
      win_ok wsize st (m_win s) hist /\ w_pending_len (m_win s) = 0 /\ hist_rel h hist /\ hfix h /\
      chunks_ok lc lp pb r (h_at h (h_pos h + u)) bytes /\
      m_in s = aget_list D0 (h_pos h) (Z.to_nat u) ++ bytes ++ tail /\ rem = data_from h.

  (* inside an LZMA chunk: u bytes still to decode from the decisions [rest] *)
  Definition in_lzma (st : bool) (s : lzma2) (rem : list Z) : Prop :=
    exists E t0 done rest c hist s_end h' bytes u,
      0 < u /\ m_uncompressed_size s = u /\ m_is_lzma_chunk s = true /\
      m_end_reached s = false /\ m_error s = None /\
      m_need_props s = false /\ m_need_dict_reset s = false /\
      m_coder s = Some c /\ win_ok wsize st (m_win s) hist /\ coder_ok c (w_full (m_win s)) /\
      pending_ok (m_win s) /\
      E = done ++ rest /\ rc_sim E t0 [] done (m_rc s) (m_probs s) /\
      run_trace (aproduce (Z.to_nat u)
                   (mkAstate c hist wsize (w_pending_len (m_win s)) (w_pending_dist (m_win s)))) rest
        = Some (Ok (s_end, Ok tt), []) /\
      a_pend_len s_end = 0 /\ hist_rel h' (a_hist s_end) /\ hfix h' /\ coder_params (a_coder s_end) lc lp pb /\
      chunks_ok lc lp pb (RNone (a_coder s_end) (snd (renc_events renc_init t0 E))) h' bytes /\
      m_in s = bytes ++ tail /\
      rem = rev (firstn (Z.to_nat u) (a_hist s_end)) ++ data_from h'.

  Definition Inv (st : bool) (s : lzma2) (rem : list Z) : Prop :=
    (exists r h bytes, chunks_ok lc lp pb r h bytes /\ at_boundary st r h s /\ m_in s = bytes ++ tail /\
                       rem = data_from h) \/
    in_unc st s rem \/ in_lzma st s rem.

  Lemma Inv_live st s rem : Inv st s rem -> m_end_reached s = false /\ m_error s = None.
  Proof.
    intros [(r & h & bytes & _ & (_ & He & Hr & _) & _) | [H | H]].
    - split; assumption.
    - destruct H as (r & h & u & bytes & hist & _ & _ & _ & _ & He & Hr & _). split; assumption.
    - destruct H as (E & t0 & done & rest & c & hist & se & h' & bytes & u & _ & _ & _ & He & Hr & _).
      split; assumption.
  Qed.

  Lemma sync_coder_full r co t np nd f1 f2 : (r = RState \/ r = RProps) ->
    sync_coder r co t np nd f1 -> sync_coder r co t np nd f2.
  Proof. intros [-> | ->] H; exact H. Qed.

  (* a stored chunk: one copy step *)
  Lemma body_unc st s rem len : in_unc st s rem -> 0 < len ->
    exists out s', iter_body s len = Ok (out, s') /\ (st = true -> out <> []) /\ zlen out <= len /\
      exists rem', rem = out ++ rem' /\ Inv true s' rem'.
  Proof.
    intros (r & h & u & bytes & hist & Hu & Hut & Hus & Hlz & Hend & Herr & Hfin & Hr & Hsc & Hw & Hpl & Hhr &
            Hfx & Hck & Hin & Hrem) Hlen.
    destruct Hw as (R & Hsz & Hst & Hps). destruct Hfx as (Hd & Ht & Hdi).
    pose proof R as [_ [_ Hp2] _ _ _ _ _ _].
    unfold iter_body. rewrite Hlz, Hus. cbn [negb].
    set (m := Z.min u len).
    set (n := Z.min (w_size (m_win s) - w_pos (m_win s)) m).
    assert (Hn : 0 <= n <= u) by (unfold n, m; lia).
    assert (Hn1 : st = true -> 1 <= n) by (intros X; specialize (Hps X); unfold n, m; lia).
    assert (Hlin : (Z.to_nat n <= length (m_in s))%nat).
    { rewrite Hin, app_length, aget_list_length. lia. }
    destruct (copy_uncompressed_rel (m_win s) hist (m_in s) m R ltac:(unfold m; lia) Hlin)
      as (w' & Hcp & R' & Hsz' & Hst' & Hps' & Hpl' & Hpd').
    fold n in Hcp, R', Hps'. rewrite Hcp. cbn [obind]. msimpl.
    (* what was copied *)
    assert (Hfirst : firstn (Z.to_nat n) (m_in s) = aget_list D0 (h_pos h) (Z.to_nat n)).
    { rewrite Hin, (aget_list_split D0 (h_pos h) u n) by lia. rewrite <- app_assoc.
      apply firstn_app_exact. rewrite aget_list_length. reflexivity. }
    assert (Hskip : skipn (Z.to_nat n) (m_in s) = aget_list D0 (h_pos h + n) (Z.to_nat (u - n)) ++ bytes ++ tail).
    { rewrite Hin, (aget_list_split D0 (h_pos h) u n) by lia. rewrite <- app_assoc.
      apply skipn_app_exact. rewrite aget_list_length. reflexivity. }
    rewrite Hfirst in R'. set (l := aget_list D0 (h_pos h) (Z.to_nat n)) in *.
    pose proof (flush_rel w' _ R') as HF. pose proof (flush_facts w') as (Hff & Hfp & _).
    destruct (lzwin_flush w') as [out w3]. cbn [fst snd] in Hff, Hfp.
    destruct HF as (Hout & R3 & Hst3 & Hsz3 & _ & Hpl3 & _).
    assert (Hout' : out = l).
    { rewrite Hout. replace (Z.to_nat (w_pos w' - w_start w')) with (length (rev l)).
      - rewrite firstn_app_exact by reflexivity. apply rev_involutive.
      - rewrite rev_length. unfold l. rewrite aget_list_length. lia. }
    assert (Hzo : zlen out = n) by (rewrite Hout'; unfold l; rewrite zlen_aget_list; lia).
    rewrite Hzo.
    destruct (Z.ltb_spec (u - n) 0) as [Hbad|_]; [lia|].
    msimpl. rewrite Hfin. cbn [negb orb].
    unfold lzwin_has_pending. rewrite Hpl3, Hpl', Hpl. change (0 <? 0) with false. rewrite andb_false_r.
    eexists out, _. split; [reflexivity|].
    split; [intros Y X; specialize (Hn1 Y); rewrite X in Hzo; unfold zlen in Hzo; cbn [length] in Hzo; lia|].
    split; [unfold n, m in Hzo |- *; lia|].
    exists (data_from (h_at h (h_pos h + n))).
    split.
    { rewrite Hrem, Hout'. unfold l. rewrite <- Hd. apply data_from_split. lia. }
    (* the new state *)
    assert (Hw3 : win_ok wsize true w3 (rev l ++ hist)).
    { split; [exact R3|]. split; [lia|]. split; [exact Hst3|]. intros _. rewrite Hsz3. apply Hfp; lia. }
    assert (Hhr3 : hist_rel (h_at h (h_pos h + n)) (rev l ++ hist)).
    { unfold l. rewrite <- Hd. replace n with (Z.of_nat (Z.to_nat n)) at 1 by lia. apply hist_rel_stored. exact Hhr. }
    assert (Hfx3 : hfix (h_at h (h_pos h + n))) by (unfold hfix, h_at; cbn; auto).
    destruct (Z.eq_dec (u - n) 0) as [Hz|Hnz].
    - (* the chunk is complete: back at a boundary *)
      left. exists r, (h_at h (h_pos h + n)), bytes.
      replace (h_pos h + u) with (h_pos h + n) in Hck by lia.
      split; [exact Hck|]. split.
      + unfold at_boundary. msimpl.
        split; [exact Hz|]. split; [exact Hend|]. split; [exact Herr|]. split; [exact Hfin|].
        split; [eapply sync_coder_full; eassumption|].
        split; [|exact Hfx3].
        unfold sync_win. split; [lia|]. split; [lia|].
        destruct Hr as [-> | ->]; exists (rev l ++ hist); split; assumption.
      + split; [|reflexivity]. rewrite Hskip, Hz. reflexivity.
    - right. left. exists r, (h_at h (h_pos h + n)), (u - n), bytes, (rev l ++ hist). msimpl.
      cbn [h_at h_pos].
      split; [lia|]. split; [lia|]. split; [reflexivity|]. split; [reflexivity|]. split; [exact Hend|].
      split; [exact Herr|]. split; [exact Hfin|]. split; [exact Hr|]. split; [exact Hsc|].
      split; [exact Hw3|]. split; [lia|]. split; [exact Hhr3|]. split; [exact Hfx3|].
      split; [|split; [exact Hskip | reflexivity]].
      rewrite h_at_at. replace (h_pos h + n + (u - n)) with (h_pos h + u) by lia. exact Hck.
  Qed.

  (* an LZMA chunk: one decode call with whatever budget the buffers allow *)
  Lemma body_lzma st s rem len : in_lzma st s rem -> 0 < len ->
    exists out s', iter_body s len = Ok (out, s') /\ (st = true -> out <> []) /\ zlen out <= len /\
      exists rem', rem = out ++ rem' /\ Inv true s' rem'.
  Proof.
    intros (E & t0 & done & rest & c & hist & se & h' & bytes & u & Hu & Hus & Hlz & Hend & Herr & Hnp & Hnd &
            Hco & Hw & Hcok & Hpd & HE & Hsim & Hrun & Hpe & Hhr & Hfx & Hcp & Hck & Hin & Hrem) Hlen.
    set (m := Z.min u len). set (b := Z.min m (wsize - w_pos (m_win s))).
    assert (Hb : 0 <= b <= m /\ (st = true -> 0 < b)).
    { destruct Hw as ([_ [_ Hp2] _ _ _ _ _ _] & Hsz & _ & Hps). unfold b, m. split; [lia|].
      intros X. specialize (Hps X). lia. }
    destruct (decode_flush_step E t0 [] done rest c (m_win s) hist wsize st (m_rc s) (m_probs s) m (Z.to_nat u) se []
                Hw Hcok Hpd Hsim HE ltac:(lia) Hrun ltac:(lia))
      as (s1 & r1 & w1 & d1 & t1 & evs1 & out & w3 & se' & new2 & Hdec & Hfl & Hzo & Hrest & Hsim1 & Hnorm & Hh1 &
          Hw3 & Hc3 & Hpd3 & Hrun' & (Q1 & Q2 & _ & Q4 & _) & HhN & Hl2).
    fold b in Hzo, Hrun', Hl2.
    unfold iter_body. rewrite Hlz, Hus, Hco. cbn [negb]. fold m. rewrite Hdec. cbn [obind]. msimpl.
    rewrite Hfl, Hzo. destruct (Z.ltb_spec (u - b) 0) as [Hbad|_]; [lia|]. msimpl.
    assert (Hrem1 : rem = out ++ rev new2 ++ data_from h').
    { rewrite Hrem, HhN, Hh1, app_assoc, firstn_app_exact.
      - rewrite rev_app_distr, rev_involutive, <- app_assoc. reflexivity.
      - rewrite app_length, rev_length. unfold zlen in Hzo. lia. }
    assert (Hne : st = true -> out <> []).
    { intros Y X. rewrite X in Hzo. change (zlen (@nil Z)) with 0 in Hzo. destruct Hb as (_ & Hb). specialize (Hb Y). lia. }
    pose proof Hw3 as (_ & Hsz3 & _).
    destruct (Z.eqb_spec (u - b) 0) as [Hz|Hnz].
    - (* the chunk is complete *)
      replace (Z.to_nat u - Z.to_nat b)%nat with 0%nat in Hrun' by lia. cbn [aproduce run_trace] in Hrun'.
      inversion Hrun'; subst se' r1. clear Hrun'. cbn [a_coder a_hist a_pend_len] in Q1, Q2, Q4.
      rewrite app_nil_r in Hrest. subst rest. rewrite <- HE in Hsim1.
      destruct (rc_sim_end _ _ _ _ _ Hsim1) as (Ht1 & Hin1 & Hcode1 & Hover1). rewrite Hnorm in Hin1, Hcode1, Hover1.
      rewrite (rdec_is_finished_intro d1 Hin1 Hcode1 Hover1). cbn [negb orb].
      unfold lzwin_has_pending. rewrite <- Q4, Hpe. change (0 <? 0) with false. cbn [andb].
      eexists out, _. split; [reflexivity|]. split; [exact Hne|]. split; [lia|].
      exists (data_from h'). split.
      { rewrite Hrem1. destruct new2 as [|x t]; [reflexivity | cbn [length] in Hl2; lia]. }
      left. exists (RNone (a_coder s1) (snd (renc_events renc_init t0 E))), h', bytes. rewrite <- Q1.
      split; [exact Hck|]. split; [|split; [exact Hin | reflexivity]].
      unfold at_boundary. msimpl.
      split; [exact Hz|]. split; [exact Hend|]. split; [exact Herr|].
      split; [apply rdec_is_finished_intro; assumption|].
      split.
      + unfold sync_coder. rewrite Hnp, Hnd.
        split; [|split; intros X; discriminate X].
        split; [rewrite Q1; reflexivity|]. split; [exact Ht1|]. split; [exact Hcp|].
        split; [rewrite <- Ht1; eapply rc_sim_probs_ok; exact Hsim1|].
        rewrite Q1. exact Hc3.
      + split; [|exact Hfx]. unfold sync_win. split; [exact Hsz3|]. split; [congruence|].
        exists (a_hist s1). split; [exact Hw3 | rewrite <- Q2; exact Hhr].
    - (* more of the chunk to come *)
      cbn [andb].
      eexists out, _. split; [reflexivity|]. split; [exact Hne|]. split; [lia|].
      exists (rev new2 ++ data_from h'). split; [exact Hrem1|].
      right. right.
      exists E, t0, (done ++ evs1), r1, (a_coder s1), (a_hist s1), se', h', bytes, (u - b). msimpl.
      split; [lia|]. split; [reflexivity|]. split; [reflexivity|]. split; [exact Hend|]. split; [exact Herr|].
      split; [exact Hnp|]. split; [exact Hnd|]. split; [reflexivity|]. split; [exact Hw3|].
      split; [exact Hc3|]. split; [exact Hpd3|].
      split; [rewrite HE, Hrest, app_assoc; reflexivity|]. split; [exact Hsim1|].
      split; [replace (Z.to_nat (u - b)) with (Z.to_nat u - Z.to_nat b)%nat by lia; exact Hrun'|].
      split; [congruence|]. split; [rewrite <- Q2; exact Hhr|]. split; [exact Hfx|].
      split; [rewrite <- Q1; exact Hcp|]. split; [rewrite <- Q1; exact Hck|]. split; [exact Hin|].
      rewrite <- Q2, HhN. rewrite firstn_app_exact by lia. reflexivity.
  Qed.

  Lemma at_boundary_reset st r h s : at_boundary st r h s ->
    exists w1, lzwin_reset (m_win s) = Ok w1 /\ Rel w1 [] /\ w_size w1 = wsize /\ w_start w1 = 0 /\ w_pos w1 = 0 /\
               w_full w1 = 0 /\ w_pending_len w1 = 0.
  Proof.
    intros (_ & _ & _ & _ & _ & (Hsz & Hpl & _) & _).
    destruct (reset_rel (m_win s)) as (w1 & H1 & H2 & H3 & H4 & H5 & H6 & H7 & _); try (Z.div_mod_to_equations; lia).
    exists w1. split; [exact H1|]. split; [exact H2|]. repeat split; lia.
  Qed.

  (* the window and the two flags after the control byte *)
  Lemma header_reset st r h s : at_boundary st r h s ->
    exists w1,
      (if is_dict r then do w <- lzwin_reset (m_win s); Ok (w, true, false)
       else if m_need_dict_reset s then Err E_INVALID_INPUT
       else Ok (m_win s, m_need_props s, m_need_dict_reset s))
      = Ok (w1, if is_dict r then true else m_need_props s, false) /\
      match r with RDict => lzwin_reset (m_win s) = Ok w1 | _ => w1 = m_win s end.
  Proof.
    intros Hb. pose proof (at_boundary_reset _ _ _ _ Hb) as (wr & Hreset & _).
    destruct Hb as (_ & _ & _ & _ & (_ & _ & Hnd) & _).
    destruct r as [c t| | |]; cbn [is_dict];
      try (exists (m_win s); destruct (m_need_dict_reset s); [discriminate (Hnd eq_refl) | split; reflexivity]).
    exists wr. split; [rewrite Hreset; reflexivity | exact Hreset].
  Qed.

  Lemma header_unc st r h s n rest :
    at_boundary st r h s -> 1 <= n <= 65536 -> m_in s = unc_header r n ++ rest ->
    exists w1,
      lzma2_chunk_header s =
        Ok (mkLzma2 rest w1 (m_rc s) (m_probs s) (m_coder s) n false false
                    (match r with RDict => true | _ => m_need_props s end) false (m_error s)) /\
      match r with RDict => lzwin_reset (m_win s) = Ok w1 | _ => w1 = m_win s end.
  Proof.
    intros Hb Hn Hin. destruct (header_reset _ _ _ _ Hb) as (w1 & Hst1 & Hw1).
    pose proof (u16_bytes (n - 1) ltac:(lia)) as H16.
    destruct (unc_ctl_tests r) as (C0 & C1 & C2 & C3 & C4).
    unfold lzma2_chunk_header. rewrite Hin. unfold unc_header. cbn [app read_u8 obind].
    rewrite C0, C1, C2. cbn [orb]. rewrite Hst1. cbn [obind]. rewrite C3, C4. cbn [read_u16_be obind].
    rewrite H16. replace (n - 1 + 1) with n by lia.
    exists w1. split; [destruct r; reflexivity | exact Hw1].
  Qed.

  Lemma header_lzma st r h s usize body bytes d0 :
    at_boundary st r h s -> 1 <= usize <= 2097152 -> 1 <= zlen body <= 65536 ->
    rdec_init body = Ok d0 ->
    m_in s = lzma_header lc lp pb r usize (zlen body) ++ body ++ bytes ++ tail ->
    exists w1,
      lzma2_chunk_header s =
        Ok (mkLzma2 (bytes ++ tail) w1 d0 (start_probs r) (Some (start_coder lc lp pb r)) usize true
                    false false false (m_error s)) /\
      match r with RDict => lzwin_reset (m_win s) = Ok w1 | _ => w1 = m_win s end.
  Proof.
    intros Hb Hu Hc Hd0 Hin. destruct (header_reset _ _ _ _ Hb) as (w1 & Hst1 & Hw1).
    destruct Hb as (_ & _ & _ & _ & (Hco & Hnp & _) & _).
    pose proof (u16_bytes (zlen body - 1) ltac:(lia)) as H16.
    pose proof (rdec_prepare_of_init body (bytes ++ tail) d0 Hd0) as Hprep.
    destruct (lzma_ctl_decode r usize Hu) as (Hctl & Hx & Hus).
    destruct (lzma_ctl_tests r _ Hx) as (C0 & C1 & C2 & C3 & C4 & C5).
    unfold lzma2_chunk_header. rewrite Hin. unfold lzma_header. cbn [app read_u8 obind].
    rewrite Hctl, C0, C1, C2, orb_false_r, Hst1. cbn [obind]. rewrite C3. cbn [read_u16_be obind].
    rewrite Hus, H16, C4, C5. replace (zlen body - 1 + 1) with (zlen body) by lia.
    exists w1. split; [|exact Hw1].
    (* the coder and the probabilities: carried over, reset, or taken from the properties byte *)
    destruct r as [c t| | |]; cbn [has_props is_dict app start_probs start_coder] in *.
    - destruct Hco as (Hco & Hpr & _). destruct (m_need_props s); [discriminate (Hnp eq_refl)|].
      cbn [obind]. rewrite Hprep. cbn [obind]. rewrite Hco, Hpr. reflexivity.
    - destruct Hco as (cr & Hco & Hp1 & Hp2 & Hp3). destruct (m_need_props s); [discriminate (Hnp eq_refl)|].
      cbn [obind]. rewrite Hprep. cbn [obind]. rewrite Hco. unfold coder_reset. rewrite Hp1, Hp2, Hp3. reflexivity.
    - rewrite decode_props_ok by assumption. cbn [obind]. rewrite Hprep. reflexivity.
    - rewrite decode_props_ok by assumption. cbn [obind]. rewrite Hprep. reflexivity.
  Qed.

  (* the state right after the header of an LZMA chunk *)
  Lemma lzma_chunk_start st c0 t0 h syms E c' h' usize bytes s1 hist :
    no_end syms -> enc_syms c0 h syms = Ok (E, c', h') ->
    coder_params c' lc lp pb ->
    usize = h_pos h' - h_pos h -> 1 <= usize ->
    chunks_ok lc lp pb (RNone c' (snd (renc_events renc_init t0 E))) h' bytes ->
    hfix h -> hist_rel h hist -> win_ok wsize st (m_win s1) hist -> w_pending_len (m_win s1) = 0 ->
    coder_ok c0 (w_full (m_win s1)) ->
    rc_sim E t0 [] [] (m_rc s1) t0 ->
    m_probs s1 = t0 -> m_coder s1 = Some c0 ->
    m_uncompressed_size s1 = usize -> m_is_lzma_chunk s1 = true -> m_end_reached s1 = false ->
    m_error s1 = None -> m_need_props s1 = false -> m_need_dict_reset s1 = false -> m_in s1 = bytes ++ tail ->
    in_lzma st s1 (data_from h).
  Proof.
    intros Hne He Hcp Hus Hu1 Hck (Hd & Ht & Hdi) Hhr Hw Hpl Hcok Hsim Hpr Hco Hsz Hlz Hend Herr Hnp Hnd Hin.
    assert (Hdok : data_ok h) by (intros i; unfold hget; rewrite Hd; apply Hdata).
    pose proof Hcok as (_ & _ & Hreps & _).
    destruct (aproduce_syms syms c0 h hist wsize (w_pending_dist (m_win s1)) (Z.to_nat usize) E c' h' []
                Hne Hhr ltac:(lia) ltac:(left; lia) Hdok Hreps He ltac:(lia))
      as (hist' & pd' & Hrun & Hhr' & Hreps' & Hb & Hdd & Htt & Hda).
    rewrite app_nil_r in Hrun.
    pose proof (chunks_ok_pos _ _ _ _ _ _ Hck) as Hpos'.
    exists E, t0, [], E, c0, hist, (mkAstate c' hist' wsize 0 pd'), h', bytes, usize.
    cbn [a_coder a_hist a_pend_len].
    split; [lia|]. split; [exact Hsz|]. split; [exact Hlz|]. split; [exact Hend|]. split; [exact Herr|].
    split; [exact Hnp|]. split; [exact Hnd|]. split; [exact Hco|]. split; [exact Hw|].
    split; [exact Hcok|].
    split; [unfold pending_ok; rewrite Hpl; intros X; lia|].
    split; [reflexivity|]. split; [rewrite Hpr; exact Hsim|].
    split; [rewrite Hpl; exact Hrun|].
    split; [reflexivity|]. split; [exact Hhr'|].
    split; [unfold hfix; repeat split; congruence|].
    split; [exact Hcp|]. split; [exact Hck|]. split; [exact Hin|].
    (* the data of the chunk *)
    destruct Hhr as (Hl & Hb0 & _). pose proof Hhr' as (Hl' & _ & _). pose proof (zlen_nonneg hist) as Hzn.
    rewrite (hist_rel_newest (Z.to_nat usize) h' hist' Hhr') by lia.
    rewrite (data_from_split h usize) by lia.
    rewrite Hda. replace (h_pos h' - Z.of_nat (Z.to_nat usize)) with (h_pos h) by lia.
    f_equal. unfold data_from, h_at. cbn [h_data h_total h_pos]. rewrite Hda, Htt.
    replace (h_pos h + usize) with (h_pos h') by lia. reflexivity.
  Qed.

  (* the window after the header: reset for a dictionary reset, untouched otherwise *)
  Lemma boundary_window st r h s w1 : at_boundary st r h s ->
    match r with RDict => lzwin_reset (m_win s) = Ok w1 | _ => w1 = m_win s end ->
    exists hist, win_ok wsize st w1 hist /\ hist_rel h hist /\ w_pending_len w1 = 0 /\
                 match r with RNone c _ => coder_ok c (w_full w1) | _ => True end.
  Proof.
    intros Hb Hw1. pose proof (at_boundary_reset _ _ _ _ Hb) as (wr & Hreset & Rr & Hszr & Hstr & Hpor & Hfur & Hplr).
    destruct Hb as (_ & _ & _ & _ & (Hco & _) & (Hsz & Hpl & Hwin) & _).
    destruct r as [c t| | |].
    - subst w1. destruct Hwin as (hist & Hw & Hhr). exists hist.
      split; [exact Hw|]. split; [exact Hhr|]. split; [exact Hpl|].
      destruct Hco as (_ & _ & _ & _ & X). exact X.
    - subst w1. destruct Hwin as (hist & Hw & Hhr). exists hist.
      split; [exact Hw|]. split; [exact Hhr|]. split; [exact Hpl | exact I].
    - subst w1. destruct Hwin as (hist & Hw & Hhr). exists hist.
      split; [exact Hw|]. split; [exact Hhr|]. split; [exact Hpl | exact I].
    - rewrite Hreset in Hw1. apply Ok_inj in Hw1. subst w1. destruct Hwin as (Hbp & Hb0).
      exists []. split; [split; [exact Rr|]; split; [lia|]; split; [lia|]; intros _; lia|].
      split; [|split; [exact Hplr | exact I]].
      unfold hist_rel. change (zlen (@nil Z)) with 0. split; [lia|]. split; [exact Hb0|]. intros d Hd. lia.
  Qed.

  Lemma header_ok st r h bytes : chunks_ok lc lp pb r h bytes ->
    forall s, at_boundary st r h s -> m_in s = bytes ++ tail ->
    exists s1, lzma2_chunk_header s = Ok s1 /\
      ((m_end_reached s1 = true /\ m_error s1 = None /\ m_in s1 = tail /\ data_from h = []) \/
       (m_end_reached s1 = false /\ (in_unc st s1 (data_from h) \/ in_lzma st s1 (data_from h)))).
  Proof.
    induction 1 as [r h He | r h bytes _ IH | r h n bytes Hn Hle Hck _ | r h syms E c' h' usize csize bytes
                    Hne Hs Hp Hbits Hu Hur Hc Hcr Hck _]; intros s Hb Hin.
    - (* end of stream *)
      unfold lzma2_chunk_header. rewrite Hin. cbn [app read_u8 obind]. change (0 =? 0) with true. cbv iota.
      eexists. split; [reflexivity|]. left. msimpl.
      destruct Hb as (_ & _ & Herr & _).
      split; [reflexivity|]. split; [exact Herr|]. split; [reflexivity | apply data_from_end; exact He].
    - (* independent restart: nothing in the stream *)
      apply IH; [|exact Hin].
      destruct Hb as (H1 & H2 & H3 & H4 & (_ & Hnp & Hnd) & (Hsz & Hpl & Hwin) & Hfx).
      split; [exact H1|]. split; [exact H2|]. split; [exact H3|]. split; [exact H4|].
      split; [split; [exact I|]; split; intros _; reflexivity|].
      split; [|exact Hfx].
      split; [exact Hsz|]. split; [exact Hpl|]. cbn [h_rebase h_base h_pos]. split; [reflexivity|].
      destruct r as [c t| | |]; try (destruct Hwin as (hist & _ & (Hl & Hb0 & _)); pose proof (zlen_nonneg hist); lia).
      lia.
    - (* stored chunk *)
      rewrite <- !app_assoc in Hin.
      destruct (header_unc st r h s n _ Hb Hn Hin) as (w1 & Hhdr & Hw1).
      destruct (boundary_window st r h s w1 Hb Hw1) as (hist & Hwok & Hhr & Hpl1 & _).
      destruct Hb as (_ & Hend & Herr & Hfin & (Hco & Hnp & Hnd) & _ & Hfx).
      eexists. split; [exact Hhdr|]. right. msimpl. split; [reflexivity|]. left.
      pose proof Hfx as (Hd & Ht & _).
      exists (after_unc r), h, n, bytes, hist. msimpl.
      split; [lia|]. split; [lia|]. split; [reflexivity|]. split; [reflexivity|]. split; [reflexivity|].
      split; [exact Herr|]. split; [exact Hfin|].
      split; [destruct r; cbn [after_unc]; auto|].
      split.
      { unfold sync_coder. destruct r as [c t| | |]; cbn [after_unc has_props] in *.
        - destruct Hco as (Hc1 & _ & Hc3 & _). split; [exists c; split; assumption|].
          split; [exact Hnp | intros X; discriminate X].
        - split; [exact Hco|]. split; [exact Hnp | intros X; discriminate X].
        - split; [exact I|]. split; [intros _; reflexivity | intros X; discriminate X].
        - split; [exact I|]. split; [intros _; reflexivity | intros X; discriminate X]. }
      split; [exact Hwok|]. split; [exact Hpl1|]. split; [exact Hhr|]. split; [exact Hfx|].
      split; [exact Hck|]. split; [rewrite <- Hd; reflexivity | reflexivity].
    - (* LZMA chunk *)
      set (c0 := start_coder lc lp pb r) in *. set (t0 := start_probs r) in *.
      pose proof Hb as (_ & Hend & Herr & _ & (Hco & _) & _ & Hfx).
      pose proof Hfx as (Hd & Ht & Hdi).
      assert (Ht0 : probs_ok t0).
      { unfold t0. destruct r as [c t| | |]; cbn [start_probs]; try exact probs_ok_empty.
        destruct Hco as (_ & _ & _ & X & _). exact X. }
      assert (Hok : forallb RangeEncProofs.ev_ok E = true).
      { rewrite forallb_ev_ok_same. eapply enc_syms_events_ok; [|exact Hs]. lia. }
      destruct (chunk_body_init t0 E Ht0 Hok Hbits) as (d0 & Hinit & Hsim).
      rewrite <- !app_assoc in Hin. rewrite Hc in Hin, Hcr.
      destruct (header_lzma st r h s usize (chunk_body t0 E) bytes d0 Hb Hur Hcr Hinit Hin) as (w1 & Hhdr & Hw1).
      destruct (boundary_window st r h s w1 Hb Hw1) as (hist & Hwok & Hhr & Hpl1 & Hcok).
      eexists. split; [exact Hhdr|]. right. msimpl. split; [reflexivity|]. right.
      eapply (lzma_chunk_start st c0 t0 h syms E c' h' usize bytes _ hist Hne Hs Hp Hu ltac:(lia) Hck Hfx Hhr);
        msimpl; try reflexivity; try assumption.
      unfold c0. destruct r as [c t| | |]; cbn [start_coder]; try (apply coder_new_ok; lia). exact Hcok.
  Qed.

  (* one iteration of the read loop *)
  Lemma iter_step_gen st s rem len : Inv st s rem -> 0 < len ->
    exists out s', lzma2_iter s len = Ok (out, s') /\
      ((rem = [] /\ out = [] /\ Ended tail s') \/
       ((st = true -> out <> []) /\ zlen out <= len /\ exists rem', rem = out ++ rem' /\ Inv true s' rem')).
  Proof.
    intros [(r & h & bytes & Hck & Hb & Hin & Hrem) | [H | H]] Hlen; rewrite lzma2_iter_eq.
    - pose proof Hb as (Hus & _). rewrite Hus. change (0 =? 0) with true. cbv iota.
      destruct (header_ok st r h bytes Hck s Hb Hin) as (s1 & Hhdr & [(He1 & Her1 & Hin1 & Hd1) | (He1 & Hbody)]);
        rewrite Hhdr; cbn [obind]; rewrite He1.
      + exists [], s1. split; [reflexivity|]. left. split; [congruence|]. split; [reflexivity|].
        split; [exact He1|]. split; assumption.
      + subst rem. destruct Hbody as [Hbody | Hbody].
        * destruct (body_unc st s1 _ len Hbody Hlen) as (out & s' & H1 & H2 & H3 & H4).
          exists out, s'. split; [exact H1|]. right. auto.
        * destruct (body_lzma st s1 _ len Hbody Hlen) as (out & s' & H1 & H2 & H3 & H4).
          exists out, s'. split; [exact H1|]. right. auto.
    - pose proof H as (r & h & u & bytes & hist & Hu & _ & Hus & _ & Hend & _).
      rewrite Hus. destruct (Z.eqb_spec u 0) as [X|_]; [lia|]. cbn [obind]. rewrite Hend.
      destruct (body_unc st s rem len H Hlen) as (out & s' & H1 & H2 & H3 & H4).
      exists out, s'. split; [exact H1|]. right. auto.
    - pose proof H as (E & t0 & done & rest & c & hist & se & h' & bytes & u & Hu & Hus & _ & Hend & _).
      rewrite Hus. destruct (Z.eqb_spec u 0) as [X|_]; [lia|]. cbn [obind]. rewrite Hend.
      destruct (body_lzma st s rem len H Hlen) as (out & s' & H1 & H2 & H3 & H4).
      exists out, s'. split; [exact H1|]. right. auto.
  Qed.

  Lemma iter_step s rem len : Inv true s rem -> 0 < len ->
    exists out s', lzma2_iter s len = Ok (out, s') /\
      ((rem = [] /\ out = [] /\ Ended tail s') \/
       (out <> [] /\ zlen out <= len /\ exists rem', rem = out ++ rem' /\ Inv true s' rem')).
  Proof.
    intros HI Hlen. destruct (iter_step_gen true s rem len HI Hlen) as (out & s' & H1 & [H2 | (H2 & H3)]).
    - exists out, s'. split; [exact H1|]. left. exact H2.
    - exists out, s'. split; [exact H1|]. right. split; [apply H2; reflexivity | exact H3].
  Qed.

  Lemma iter_step0 st s rem len : Inv st s rem -> 0 < len ->
    exists out s', lzma2_iter s len = Ok (out, s') /\
      ((rem = [] /\ out = [] /\ Ended tail s') \/
       (zlen out <= len /\ exists rem', rem = out ++ rem' /\ Inv true s' rem')).
  Proof.
    intros HI Hlen. destruct (iter_step_gen st s rem len HI Hlen) as (out & s' & H1 & [H2 | (_ & H3)]).
    - exists out, s'. split; [exact H1|]. left. exact H2.
    - exists out, s'. split; [exact H1|]. right. exact H3.
  Qed.

  (* every read history of a well-formed chunk sequence *)
  Theorem read_chunks st r h bytes s sizes fuel :
    chunks_ok lc lp pb r h bytes -> at_boundary st r h s -> m_in s = bytes ++ tail ->
    Forall (fun z => 0 < z) sizes -> (length (data_from h) + 2 <= fuel)%nat ->
    exists s_end, lzma2_read_all fuel s sizes sizes [] = Ok (data_from h, 0, s_end) /\ m_in s_end = tail.
  Proof.
    intros Hck Hb Hin Hsz Hf.
    assert (HI : Inv st s (data_from h)) by (left; exists r, h, bytes; auto).
    destruct (read_all_ok0 (Inv true) (Inv st) tail (Inv_live true) iter_step (Inv_live st) (iter_step0 st)
                fuel s (data_from h) sizes sizes [] HI Hsz Hsz Hf) as (s_end & Hr & (_ & _ & Ht)).
    exists s_end. split; [exact Hr | exact Ht].
  Qed.

End Reader.

From LzVerif Require Import Codec.Lzma2FrameSyncProofs.

(* LZMA2Reader::new: the window size the reader allocates *)
Definition l2_window_size (dict : Z) : Z := (Z.min (Z.max dict 4096) 4294967280 + 15) / 16 * 16.

(* Without or with a (non-empty) preset dictionary of any length.  A preset that fills the window makes the
   first loop iteration of the reader return no bytes (the flush only wraps the write position):
   [st = false] in win_ok and Lzma2LoopProofs.read_all_ok0.  Not proved: a preset LONGER than a
   dictionary size that the reader rounds up (dict < 4096 or not a multiple of 16): the reader then
   keeps more of the preset than the writer model's view has, the positions differ by a constant,
   and the two runs are isomorphic (position-dependent contexts are renamed consistently) but not
   equal. *)
Theorem lzma2_roundtrip_opt lc lp pb dict popt data evs stream tail sizes :
  0 <= lc -> 0 <= lp -> lc + lp <= 4 -> 0 <= pb <= 4 -> dict <= 2147483648 ->
  match popt with
  | Some p => p <> [] /\ (zlen p <= dict \/ l2_window_size dict = dict) /\ bytes_ok p = true
  | None => True
  end ->
  bytes_ok data = true ->
  l2_no_end evs ->
  lzma2_write lc lp pb dict popt data evs = Ok stream ->
  Forall (fun z => 0 < z) sizes ->
  exists s0, lzma2_new (stream ++ tail) dict popt = Ok s0 /\
    forall fuel, (length data + 2 <= fuel)%nat ->
    exists s_end, lzma2_read_all fuel s0 sizes sizes [] = Ok (data, 0, s_end) /\ m_in s_end = tail.
Proof.
  intros Hlc Hlp Hs Hpb Hdict Hp Hbytes Hne Hw Hsizes.
  pose proof (lzma2_frame_sync lc lp pb dict popt data evs stream Hdict Hne Hw) as Hck.
  unfold lzma2_new, lzma2_get_dict_size. cbn [obind]. fold (l2_window_size dict).
  eexists. split; [reflexivity|]. intros fuel Hf.
  set (p := preset_list popt) in *. set (h0 := ehist_new dict p data) in *.
  destruct (ehist_new_rel dict p data) as (Hhr & Hdf). fold h0 in Hhr, Hdf.
  assert (Hws : 0 < l2_window_size dict /\ l2_window_size dict mod 16 = 0 /\ dict <= l2_window_size dict)
    by (unfold l2_window_size; (Z.div_mod_to_equations; lia)).
  destruct Hws as (Hws1 & Hws2 & Hws3).
  assert (Hbp : bytes_ok p = true) by (destruct popt as [q|]; [apply Hp | reflexivity]).
  assert (Hdata : forall i, 0 <= aget 0 (h_data h0) i < 256).
  { intros i. apply (data_ok_new dict p data Hbp Hbytes i). }
  match goal with |- exists s_end, lzma2_read_all _ ?s0 _ _ _ = _ /\ _ =>
    destruct (read_chunks lc lp pb dict (l2_window_size dict) tail (h_data h0) (h_total h0) Hlc Hlp Hs Hpb Hdict
                Hws3 Hws1 Hws2 Hdata false (start_level popt) h0 stream s0 sizes fuel Hck) as (s_end & Hr & Ht)
  end.
  - (* the initial reader state is at a chunk boundary: a dictionary reset is due unless there is a preset *)
    unfold at_boundary. msimpl.
    split; [reflexivity|]. split; [reflexivity|]. split; [reflexivity|]. split; [reflexivity|].
    split; [|split; [|unfold hfix; repeat split; reflexivity]].
    + destruct popt as [[|x q]|]; (split; [exact I|]); split; intros X; try reflexivity; discriminate X.
    + unfold sync_win. split; [destruct popt; reflexivity|]. split; [destruct popt; reflexivity|].
      destruct popt as [[|x q]|]; cbn [start_level].
      * destruct Hp as (Hp & _). congruence.
      * exists (rev (preset_kept dict p)). split; [|exact Hhr]. destruct Hp as (_ & Hplen & _).
        change (x :: q) with p in Hplen. pose proof (zlen_nonneg p). split.
        -- unfold preset_kept. replace (Z.min (zlen p) dict) with (Z.min (zlen p) (l2_window_size dict)) by lia.
           apply lzwin_new_preset_rel; assumption.
        -- split; [reflexivity|]. split; [reflexivity | intros X; discriminate X].
      * unfold h0, p, ehist_new. cbn [preset_list]. rewrite preset_kept_nil. cbn [h_base h_pos]. split; [reflexivity | lia].
  - reflexivity.
  - exact Hsizes.
  - rewrite Hdf. exact Hf.
  - exists s_end. rewrite Hdf in Hr. split; assumption.
Qed.

Theorem lzma2_roundtrip : forall lc lp pb dict data evs stream tail sizes,
  0 <= lc -> 0 <= lp -> lc + lp <= 4 -> 0 <= pb <= 4 -> dict <= 2147483648 ->
  bytes_ok data = true ->
  l2_no_end evs ->
  lzma2_write lc lp pb dict None data evs = Ok stream ->
  Forall (fun z => 0 < z) sizes ->
  exists s0, lzma2_new (stream ++ tail) dict None = Ok s0 /\
    forall fuel, (length data + 2 <= fuel)%nat ->
    exists s_end, lzma2_read_all fuel s0 sizes sizes [] = Ok (data, 0, s_end) /\ m_in s_end = tail.
Proof.
  intros lc lp pb dict data evs stream tail sizes Hlc Hlp Hs Hpb Hdict.
  exact (lzma2_roundtrip_opt lc lp pb dict None data evs stream tail sizes Hlc Hlp Hs Hpb Hdict I).
Qed.

Print Assumptions lzma2_roundtrip.

Theorem lzma2_roundtrip_preset : forall lc lp pb dict p data evs stream tail sizes,
  0 <= lc -> 0 <= lp -> lc + lp <= 4 -> 0 <= pb <= 4 -> dict <= 2147483648 ->
  p <> [] -> (zlen p <= dict \/ l2_window_size dict = dict) ->
  bytes_ok p = true -> bytes_ok data = true ->
  l2_no_end evs ->
  lzma2_write lc lp pb dict (Some p) data evs = Ok stream ->
  Forall (fun z => 0 < z) sizes ->
  exists s0, lzma2_new (stream ++ tail) dict (Some p) = Ok s0 /\
    forall fuel, (length data + 2 <= fuel)%nat ->
    exists s_end, lzma2_read_all fuel s0 sizes sizes [] = Ok (data, 0, s_end) /\ m_in s_end = tail.
Proof.
  intros lc lp pb dict p data evs stream tail sizes Hlc Hlp Hs Hpb Hdict Hpne Hplen Hbp.
  exact (lzma2_roundtrip_opt lc lp pb dict (Some p) data evs stream tail sizes Hlc Hlp Hs Hpb Hdict
           (conj Hpne (conj Hplen Hbp))).
Qed.

Print Assumptions lzma2_roundtrip_preset.
