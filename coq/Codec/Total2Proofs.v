(* Codec/Total2Proofs.v — C06 for the LZMA2Reader model (Codec/Lzma2Dec.v): TOTAL on arbitrary input.
   For every byte string as source, every dict_size (any integer: the repaired code clamps it),
   every preset dictionary and every history of destination sizes: construction succeeds, every
   read() returns Ok or Err within the iteration budget the model gives it (2 * buflen + 4), a
   whole read history ends within a number of calls that is a stated function of the source length
   and the sizes, and the bytes returned are at most 2^21 / 3 per source byte (a chunk header of at
   least 3 bytes announces at most 2 MiB).
   Covered: chunk headers with any control byte (end marker, stored chunks with or without
   dictionary reset, LZMA chunks with every reset level, the reserved values 3..127), the size
   fields, the properties byte (invalid ones are errors), need_props / need_dict_reset, a window
   that starts full (preset dictionary), the end-of-chunk checks. *)
From LzVerif Require Import Base.Bytes Codec.Store Codec.Range Codec.ProbProofs Codec.RangeArithProofs
  Codec.LzWindow Codec.LzmaDec Codec.LzmaAbs Codec.LzWindowProofs Codec.ProgProofs Codec.LzmaAbsProofs
  Codec.RangeNoWrapProofs Codec.LzmaSymProofs Codec.LzmaReadProofs Codec.LzmaChunkProofs Codec.LzmaTotalProofs Codec.TruncProofs
  Codec.Lzma2WindowProofs Codec.Lzma1 Codec.Lzma1ReadProofs Codec.Lzma2Dec
  Codec.TotalCoreProofs Codec.Total1Proofs.

Ltac msimpl :=
  cbn [with_in m_in m_win m_rc m_probs m_coder m_uncompressed_size m_is_lzma_chunk m_need_dict_reset m_need_props
       m_end_reached m_error].

Lemma hist_bytes_rev_app l : forall hist, bytes_ok l = true -> hist_bytes hist -> hist_bytes (rev l ++ hist).
Proof.
  induction l as [|x t IH]; intros hist Hb Hh; [exact Hh|].
  apply bytes_ok_cons in Hb as (Hx & Hb). cbn [rev]. rewrite <- app_assoc. cbn [app].
  apply IH; [exact Hb|]. apply hist_bytes_cons; assumption.
Qed.

Definition inv2 (s : lzma2) : Prop :=
  exists hist, Rel (m_win s) hist /\ hist_bytes hist /\
    probs_ok (m_probs s) /\ rdec_wf (m_rc s) /\
    w_start (m_win s) = w_pos (m_win s) /\
    bytes_ok (m_in s) = true /\
    0 <= m_uncompressed_size s /\
    (m_uncompressed_size s = 0 -> w_pending_len (m_win s) = 0) /\
    (0 < w_pending_len (m_win s) -> 0 <= w_pending_dist (m_win s) < w_full (m_win s)) /\
    (m_need_props s = false -> exists c, m_coder s = Some c /\ coder_ok c (w_full (m_win s))) /\
    (0 < m_uncompressed_size s -> m_is_lzma_chunk s = true -> m_need_props s = false).

Definition rinv2 (s : lzma2) : Prop :=
  m_error s = None /\ bytes_ok (m_in s) = true /\ (m_end_reached s = true \/ inv2 s).

Lemma inv2_bytes s : inv2 s -> bytes_ok (m_in s) = true.
Proof. intros (hist & _ & _ & _ & _ & _ & Hb & _). exact Hb. Qed.

(* three times the bytes the reader can still return: 2 MiB per three source bytes left, plus the
   rest of the current chunk *)
Definition P2 (s : lzma2) : Z := 2097152 * zlen (m_in s) + 3 * m_uncompressed_size s.
Definition pot2 (s : lzma2) : Z := if m_end_reached s then 0 else P2 s / 3.

Lemma P2_nonneg s : inv2 s -> 0 <= P2 s.
Proof. intros (hist & _ & _ & _ & _ & _ & _ & Hu & _). unfold P2. pose proof (zlen_nonneg (m_in s)). lia. Qed.

Lemma pot2_nonneg s : rinv2 s -> 0 <= pot2 s.
Proof.
  intros (_ & _ & [He|Hi]); unfold pot2.
  - rewrite He. lia.
  - destruct (m_end_reached s); [lia|]. pose proof (P2_nonneg s Hi). (Z.div_mod_to_equations; lia).
Qed.

Lemma read_u16_spec input : bytes_ok input = true ->
  match read_u16_be input with
  | Ok (v, r) => 0 <= v < 65536 /\ bytes_ok r = true /\ zlen input = zlen r + 2
  | Err _ => True
  | _ => False
  end.
Proof.
  intros Hb. destruct input as [|a [|b r]]; cbn [read_u16_be]; try exact I.
  apply bytes_ok_cons in Hb as (Ha & Hb). apply bytes_ok_cons in Hb as (Hb1 & Hb).
  rewrite !zlen_cons. split; [lia|]. split; [exact Hb | lia].
Qed.

Lemma decode_props_spec input : bytes_ok input = true ->
  match lzma2_decode_props input with
  | Ok (c, r) => (forall full, coder_ok c full) /\ bytes_ok r = true /\ zlen input = zlen r + 1
  | Err _ => True
  | _ => False
  end.
Proof.
  intros Hb. unfold lzma2_decode_props. destruct input as [|props rest]; cbn [read_u8 obind]; [exact I|].
  apply bytes_ok_cons in Hb as (Hp & Hb).
  destruct (Z.ltb_spec 224 props); [exact I|]. cbv zeta.
  set (pb := props / 45). set (r := props - pb * 45). set (lp := r / 9). set (lc := r - lp * 9).
  destruct (Z.ltb_spec 4 (lc + lp)); [exact I|].
  split; [|split; [exact Hb | rewrite zlen_cons; lia]].
  intros full. apply coder_new_ok; unfold lc, lp, r, pb in *; (Z.div_mod_to_equations; lia).
Qed.

Lemma rdec_prepare_spec input len : bytes_ok input = true ->
  match rdec_prepare input len with
  | Ok (rc, r) => rdec_wf rc /\ bytes_ok r = true /\ zlen r + 5 <= zlen input
  | Err _ => True
  | _ => False
  end.
Proof.
  intros Hb. unfold rdec_prepare. destruct (len <? 5); [exact I|].
  destruct input as [|b0 rest0]; [exact I|]. destruct (negb (b0 =? 0)); [exact I|].
  destruct rest0 as [|b1 [|b2 [|b3 [|b4 rest]]]]; try exact I.
  destruct (Nat.ltb_spec (length rest) (Z.to_nat (len - 5))); [exact I|].
  split; [unfold rdec_wf; cbn [rd_range]; lia|].
  do 5 (apply bytes_ok_cons in Hb as (_ & Hb)).
  split; [apply bytes_ok_skipn; exact Hb|]. rewrite !zlen_cons. unfold zlen. rewrite skipn_length. lia.
Qed.

(* the dictionary-reset part of the header *)
Lemma header_win s control : inv2 s -> m_uncompressed_size s = 0 ->
  match (if (224 <=? control) || (control =? 1) then do w <- lzwin_reset (m_win s); Ok (w, true, false)
         else if m_need_dict_reset s then Err E_INVALID_INPUT
         else Ok (m_win s, m_need_props s, m_need_dict_reset s)) with
  | Ok (w1, np1, ndr1) =>
      exists hist1, Rel w1 hist1 /\ hist_bytes hist1 /\ w_start w1 = w_pos w1 /\ w_pending_len w1 = 0 /\
        w_size w1 = w_size (m_win s) /\ (w_pos w1 = w_size w1 -> w_pos (m_win s) = w_size (m_win s)) /\
        (np1 = false -> exists c, m_coder s = Some c /\ coder_ok c (w_full w1))
  | Err _ => True
  | _ => False
  end.
Proof.
  intros (hist & R & Hhb & Hpr & Hwf & Hsp & Hbi & Hu & Hpz & Hpd & Hco & Hlz) Hz.
  pose proof R as [[Hs0 Hs16] _ _ _ _ _ _ Hpe].
  destruct ((224 <=? control) || (control =? 1)).
  - destruct (reset_rel (m_win s) Hs0 Hs16 Hpe) as (w' & Hr & R' & Hsz & Hst & Hpo & Hfu & Hpl & Hpdd).
    rewrite Hr. cbn [obind]. exists []. split; [exact R'|]. split; [apply hist_bytes_in; intros x []|].
    split; [lia|]. split; [rewrite Hpl; apply Hpz; exact Hz|]. split; [exact Hsz|].
    split; [intros Hx; lia | intros Hx; discriminate].
  - destruct (m_need_dict_reset s); [exact I|].
    exists hist. split; [exact R|]. split; [exact Hhb|]. split; [exact Hsp|]. split; [apply Hpz; exact Hz|].
    split; [reflexivity|]. split; [intros Hx; exact Hx | exact Hco].
Qed.

(* decode_chunk_header() on any input *)
Lemma header2_total s : inv2 s -> m_uncompressed_size s = 0 ->
  (exists e, lzma2_chunk_header s = Err e) \/
  exists s1, lzma2_chunk_header s = Ok s1 /\ m_error s1 = m_error s /\
    (length (m_in s1) <= length (m_in s))%nat /\
    ((m_end_reached s1 = true /\ P2 s1 <= P2 s /\ 0 <= P2 s1 /\ bytes_ok (m_in s1) = true) \/
     (m_end_reached s1 = false /\ inv2 s1 /\ 0 < m_uncompressed_size s1 /\ P2 s1 <= P2 s /\
      w_size (m_win s1) = w_size (m_win s) /\
      (w_pos (m_win s1) = w_size (m_win s1) -> w_pos (m_win s) = w_size (m_win s)))).
Proof.
  intros Hi Hz. pose proof Hi as (hist & R & Hhb & Hpr & Hwf & Hsp & Hbi & Hu & Hpz & Hpd & Hco & Hlz).
  unfold lzma2_chunk_header.
  destruct (m_in s) as [|control in1] eqn:Ein; cbn [read_u8 obind]; [left; eexists; reflexivity|].
  apply bytes_ok_cons in Hbi as (Hc & Hb1).
  destruct (Z.eqb_spec control 0) as [Hc0|Hc0].
  { right. eexists. split; [reflexivity|]. msimpl. split; [reflexivity|]. split; [try rewrite Ein; cbn [length]; lia|].
    left. split; [reflexivity|]. unfold P2. msimpl. rewrite Ein, zlen_cons. pose proof (zlen_nonneg in1). split; [lia|]. split; [lia | exact Hb1]. }
  pose proof (header_win s control Hi Hz) as HW.
  match goal with |- context [obind ?st1 _] => destruct st1 as [[[w1 np1] ndr1]|e|e|] eqn:Est1 end;
    cbn [obind]; try contradiction; [|left; eexists; reflexivity].
  destruct HW as (hist1 & R1 & Hhb1 & Hsp1 & Hpl1 & Hsz1 & Hfull1 & Hco1).
  destruct (Z.leb_spec 128 control) as [Hlz8|Hst8].
  - (* an LZMA chunk *)
    pose proof (read_u16_spec in1 Hb1) as H1.
    destruct (read_u16_be in1) as [[ulow in2]|e|e|]; cbn [obind]; try contradiction; [|left; eexists; reflexivity].
    destruct H1 as (Hul & Hb2 & Hl2). cbv zeta.
    pose proof (read_u16_spec in2 Hb2) as H2.
    destruct (read_u16_be in2) as [[clow in3]|e|e|]; cbn [obind]; try contradiction; [|left; eexists; reflexivity].
    destruct H2 as (Hcl & Hb3 & Hl3). cbv zeta.
    set (usize := Z.shiftl (Z.land control 31) 16 + ulow + 1).
    assert (Husz : 1 <= usize <= 2097152).
    { unfold usize. change 31 with (Z.ones 5). rewrite Z.land_ones by lia. rewrite Z.shiftl_mul_pow2 by lia.
      change (2 ^ 5) with 32. change (2 ^ 16) with 65536. (Z.div_mod_to_equations; lia). }
    (* properties / state reset *)
    assert (HPC : match (if 192 <=? control then
                           do cp <- lzma2_decode_props in3; let '(c, in4) := cp in Ok (Some c, PLeaf, false, in4)
                         else if np1 then Err E_INVALID_INPUT
                         else if 160 <=? control then
                           Ok (match m_coder s with Some c => Some (coder_reset c) | None => None end,
                               match m_coder s with Some _ => PLeaf | None => m_probs s end, np1, in3)
                         else Ok (m_coder s, m_probs s, np1, in3)) with
                  | Ok (coder1, probs1, np2, in4) =>
                      np2 = false /\ (exists c, coder1 = Some c /\ coder_ok c (w_full w1)) /\ probs_ok probs1 /\
                      bytes_ok in4 = true /\ zlen in4 <= zlen in3
                  | Err _ => True
                  | _ => False
                  end).
    { destruct (192 <=? control).
      - pose proof (decode_props_spec in3 Hb3) as HD.
        destruct (lzma2_decode_props in3) as [[c in4]|e|e|]; cbn [obind]; try contradiction; [|exact I].
        destruct HD as (Hcok & Hb4 & Hl4). split; [reflexivity|]. split; [exists c; split; [reflexivity | apply Hcok]|].
        split; [apply probs_ok_empty|]. split; [exact Hb4 | lia].
      - destruct np1 eqn:Enp; [exact I|]. destruct (Hco1 eq_refl) as (c & Hsc & Hcok).
        destruct (160 <=? control).
        + rewrite Hsc. split; [reflexivity|]. split.
          * exists (coder_reset c). split; [reflexivity|]. unfold coder_reset.
            destruct Hcok as ((A1 & A2 & A3) & _). apply coder_new_ok; assumption.
          * split; [apply probs_ok_empty|]. split; [exact Hb3 | lia].
        + split; [reflexivity|]. split; [exists c; split; assumption|]. split; [exact Hpr|]. split; [exact Hb3 | lia]. }
    match goal with |- context [obind ?pc _] => destruct pc as [[[[coder1 probs1] np2] in4]|e|e|] end;
      cbn [obind]; try contradiction; [|left; eexists; reflexivity].
    destruct HPC as (-> & (c1 & -> & Hc1ok) & Hpr1 & Hb4 & Hl4).
    pose proof (rdec_prepare_spec in4 (clow + 1) Hb4) as HR.
    destruct (rdec_prepare in4 (clow + 1)) as [[rc1 in5]|e|e|]; cbn [obind]; try contradiction; [|left; eexists; reflexivity].
    destruct HR as (Hwf1 & Hb5 & Hl5).
    right. eexists. split; [reflexivity|]. msimpl. split; [reflexivity|].
    unfold zlen in Hl2, Hl3, Hl4, Hl5 |- *.
    split; [cbn [length]; lia|]. right. split; [reflexivity|].
    split.
    { exists hist1. msimpl. split; [exact R1|]. split; [exact Hhb1|]. split; [exact Hpr1|]. split; [exact Hwf1|].
      split; [exact Hsp1|]. split; [exact Hb5|]. split; [lia|]. split; [intros Hx; lia|].
      split; [rewrite Hpl1; lia|]. split; [intros _; exists c1; split; [reflexivity | exact Hc1ok]|]. intros _ _. reflexivity. }
    split; [lia|]. split; [unfold P2; msimpl; rewrite Ein; unfold zlen; cbn [length]; lia|].
    split; [exact Hsz1 | exact Hfull1].
  - destruct (Z.ltb_spec 2 control); [left; eexists; reflexivity|].
    (* a stored chunk *)
    pose proof (read_u16_spec in1 Hb1) as H1.
    destruct (read_u16_be in1) as [[ulow in2]|e|e|]; cbn [obind]; try contradiction; [|left; eexists; reflexivity].
    destruct H1 as (Hul & Hb2 & Hl2).
    right. eexists. split; [reflexivity|]. msimpl. split; [reflexivity|].
    unfold zlen in Hl2. split; [try rewrite Ein; cbn [length]; lia|]. right. split; [reflexivity|].
    split.
    { exists hist1. msimpl. split; [exact R1|]. split; [exact Hhb1|]. split; [exact Hpr|]. split; [exact Hwf|].
      split; [exact Hsp1|]. split; [exact Hb2|]. split; [lia|]. split; [intros Hx; lia|].
      split; [rewrite Hpl1; lia|]. split; [exact Hco1|]. intros _ Hx. discriminate. }
    split; [lia|]. split; [unfold P2; msimpl; rewrite Ein; unfold zlen; cbn [length]; lia|].
    split; [exact Hsz1 | exact Hfull1].
Qed.

Lemma iter_after_header s s1 len : m_uncompressed_size s = 0 -> lzma2_chunk_header s = Ok s1 ->
  0 < m_uncompressed_size s1 -> lzma2_iter s len = lzma2_iter s1 len.
Proof.
  intros Hz Hh Hp. unfold lzma2_iter. rewrite Hz, Hh. change (0 =? 0) with true. cbv iota. cbn [obind].
  destruct (Z.eqb_spec (m_uncompressed_size s1) 0); [lia|]. cbn [obind]. reflexivity.
Qed.

Lemma rel_full_mono w hist w' hist' : Rel w hist -> Rel w' hist' -> w_size w' = w_size w -> zlen hist <= zlen hist' ->
  w_full w <= w_full w'.
Proof. intros [_ _ [F _] _ _ _ _ _] [_ _ [F' _] _ _ _ _ _] Hs Hl. lia. Qed.

Definition iter2_post (s : lzma2) (len : Z) (out : list Z) (s1 : lzma2) : Prop :=
  m_error s1 = m_error s /\
  ((m_end_reached s1 = true /\ out = []) \/ (m_end_reached s1 = false /\ inv2 s1)) /\
  zlen out <= len /\ 3 * zlen out + P2 s1 <= P2 s /\ 0 <= P2 s1 /\ bytes_ok (m_in s1) = true /\
  (length (m_in s1) <= length (m_in s))%nat /\
  (m_end_reached s1 = false ->
     w_pos (m_win s1) < w_size (m_win s1) /\ w_size (m_win s1) = w_size (m_win s) /\
     (1 <= zlen out \/ w_pos (m_win s) = w_size (m_win s))).

Lemma body2_total s len : inv2 s -> 0 < m_uncompressed_size s -> m_end_reached s = false -> 0 < len ->
  (exists e, lzma2_iter s len = Err e) \/
  exists out s1, lzma2_iter s len = Ok (out, s1) /\ iter2_post s len out s1.
Proof.
  intros (hist & R & Hhb & Hpr & Hwf & Hsp & Hbi & Hu & Hpz & Hpd & Hco & Hlz) Hup Hne Hlen.
  pose proof R as [[Hs0 Hs16] [[Hp0 Hp1] Hp2] _ _ _ _ _ Hpe].
  unfold lzma2_iter. destruct (Z.eqb_spec (m_uncompressed_size s) 0); [lia|]. cbn [obind]. rewrite Hne.
  cbv zeta.
  set (m := Z.min (m_uncompressed_size s) len). assert (Hm : 1 <= m <= len) by (unfold m; lia).
  destruct (m_is_lzma_chunk s) eqn:Elz; cbn [negb].
  - (* LZMA chunk *)
    destruct (Hco (Hlz Hup eq_refl)) as (c & Hsc & Hcok). rewrite Hsc.
    destruct (set_limit_rel (m_win s) hist m R ltac:(lia)) as (R' & Hpl').
    destruct (lzma_decode_post c (lzwin_set_limit (m_win s) m) hist (m_rc s) (m_probs s) R' Hhb Hcok Hpl' Hpd Hpr Hwf)
      as (c1 & w1 & st & d1 & t1 & hist1 & Hdec & R1 & Hhb1 & Hpr1 & Hwf1 & Esz & Eli & Est & Epos & Hpd1 & Hst & Hlen1 & Hov & _).
    cbn [lzwin_set_limit w_size w_limit w_start w_pos w_pending_len] in Esz, Eli, Est, Epos.
    rewrite Hdec. cbn [obind].
    destruct Hst as [(-> & Hco1 & Hlim)|(e & ->)]; [|left; eexists; reflexivity].
    cbn [lzwin_set_limit w_limit w_pos w_size] in Hlim. cbn [obind]. msimpl.
    pose proof (flush_rel w1 hist1 R1) as HF. pose proof (flush_facts w1) as (Ffull & Fpos & Flen).
    pose proof R1 as [[Hs1 _] [[Hq0 Hq1] Hq2] _ _ _ _ _ Hpe1].
    destruct (lzwin_flush w1) as [out w3]. cbn [fst snd] in *.
    destruct HF as (_ & R3 & Fst & Fsz & Fli & Fpl & Fpd).
    assert (Hzm : zlen out = Z.min m (w_size (m_win s) - w_pos (m_win s))) by lia.
    destruct (Z.ltb_spec (m_uncompressed_size s - zlen out) 0); [lia|]. msimpl.
    match goal with |- context [if ?c then Err _ else _] => destruct c eqn:Echk end; [left; eexists; reflexivity|].
    right. eexists. eexists. split; [reflexivity|]. unfold iter2_post. msimpl.
    split; [reflexivity|]. split.
    { right. split; [reflexivity|]. exists hist1. msimpl.
      split; [exact R3|]. split; [exact Hhb1|]. split; [exact Hpr1|]. split; [exact Hwf1|]. split; [exact Fst|].
      split; [exact Hbi|]. split; [lia|]. split.
      { intros Hx. rewrite Hx in Echk. change (0 =? 0) with true in Echk. cbn [andb] in Echk.
        apply orb_false_iff in Echk as (_ & Hnp). unfold lzwin_has_pending in Hnp. apply Z.ltb_ge in Hnp.
        destruct R3. lia. }
      split; [rewrite Fpl, Fpd, Ffull; exact Hpd1|].
      split; [intros _; exists c1; split; [reflexivity | rewrite Ffull; exact Hco1]|].
      intros _ _. apply Hlz; [exact Hup | reflexivity]. }
    split; [lia|]. split; [unfold P2; msimpl; lia|]. split; [unfold P2; msimpl; pose proof (zlen_nonneg (m_in s)); lia|]. split; [exact Hbi|]. split; [lia|].
    intros _. split; [rewrite Fsz; apply Fpos; lia|]. split; [lia|].
    destruct (Z.eq_dec (w_pos (m_win s)) (w_size (m_win s))); [right; assumption | left; lia].
  - (* stored chunk *)
    unfold lzwin_copy_uncompressed.
    set (cn := Z.min (w_size (m_win s) - w_pos (m_win s)) m).
    assert (Hn : 0 <= cn <= m) by (unfold cn; lia).
    destruct (Z.ltb_spec cn 0); [lia|].
    destruct (Nat.ltb_spec (length (m_in s)) (Z.to_nat cn)) as [Hshort|Hok]; [left; eexists; reflexivity|].
    destruct (copy_uncompressed_rel (m_win s) hist (m_in s) m R ltac:(lia) Hok)
      as (w' & Hcp & R1 & Esz & Est & Epos & Epl & Epd).
    fold cn in Hcp, R1, Epos.
    unfold lzwin_copy_uncompressed in Hcp. fold cn in Hcp.
    destruct (Z.ltb_spec cn 0); [lia|]. destruct (Nat.ltb_spec (length (m_in s)) (Z.to_nat cn)); [lia|].
    apply Ok_inj in Hcp. apply pair_inj in Hcp as (Hw' & _). rewrite Hw'. cbn [obind]. msimpl.
    set (hist1 := rev (firstn (Z.to_nat cn) (m_in s)) ++ hist) in *.
    assert (Hhb1 : hist_bytes hist1) by (apply hist_bytes_rev_app; [apply bytes_ok_firstn; exact Hbi | exact Hhb]).
    pose proof (flush_rel w' hist1 R1) as HF. pose proof (flush_facts w') as (Ffull & Fpos & Flen).
    pose proof R1 as [[Hs1 _] [[Hq0 Hq1] Hq2] _ _ _ _ _ Hpe1].
    destruct (lzwin_flush w') as [out w3]. cbn [fst snd] in *.
    destruct HF as (_ & R3 & Fst & Fsz & Fli & Fpl & Fpd).
    assert (Hzm : zlen out = cn) by lia.
    destruct (Z.ltb_spec (m_uncompressed_size s - zlen out) 0); [lia|]. msimpl.
    match goal with |- context [if ?c then Err _ else _] => destruct c eqn:Echk end; [left; eexists; reflexivity|].
    assert (Hfm : w_full (m_win s) <= w_full w').
    { apply (rel_full_mono _ hist _ hist1 R R1 Esz). unfold hist1. rewrite zlen_app. pose proof (zlen_nonneg (rev (firstn (Z.to_nat cn) (m_in s)))). lia. }
    right. eexists. eexists. split; [reflexivity|]. unfold iter2_post. msimpl.
    split; [reflexivity|]. split.
    { right. split; [reflexivity|]. exists hist1. msimpl.
      split; [exact R3|]. split; [exact Hhb1|]. split; [exact Hpr|]. split; [exact Hwf|]. split; [exact Fst|].
      split; [apply bytes_ok_skipn; exact Hbi|]. split; [lia|]. split.
      { intros Hx. rewrite Hx in Echk. change (0 =? 0) with true in Echk. cbn [andb] in Echk.
        apply orb_false_iff in Echk as (_ & Hnp). unfold lzwin_has_pending in Hnp. apply Z.ltb_ge in Hnp.
        destruct R3. lia. }
      split; [rewrite Fpl, Fpd, Ffull, Epl, Epd; intros Hx; specialize (Hpd Hx); lia|].
      split.
      { intros Hx. destruct (Hco Hx) as (c & Hsc & Hcok). exists c. split; [exact Hsc|].
        rewrite Ffull. eapply coder_ok_mono; [exact Hcok | exact Hfm]. }
      intros _ Hx. congruence. }
    split; [lia|]. split; [unfold P2; msimpl; pose proof (skipn_length (Z.to_nat cn) (m_in s)); unfold zlen in *; lia|].
    split; [unfold P2; msimpl; pose proof (zlen_nonneg (skipn (Z.to_nat cn) (m_in s))); lia|].
    split; [apply bytes_ok_skipn; exact Hbi|].
    split; [rewrite skipn_length; lia|].
    intros _. split; [rewrite Fsz; apply Fpos; lia|]. split; [lia|].
    destruct (Z.eq_dec (w_pos (m_win s)) (w_size (m_win s))); [right; assumption | left; unfold cn in *; lia].
Qed.

Lemma iter2_total s len : inv2 s -> m_end_reached s = false -> 0 < len ->
  (exists e, lzma2_iter s len = Err e) \/
  exists out s1, lzma2_iter s len = Ok (out, s1) /\ iter2_post s len out s1.
Proof.
  intros Hi Hne Hlen. pose proof Hi as (hist & _ & _ & _ & _ & _ & _ & Hu & _).
  destruct (Z.eq_dec (m_uncompressed_size s) 0) as [Hz|Hnz].
  - destruct (header2_total s Hi Hz) as [(e & He)|(s1 & Hh & Herr & Hlen1 & Hcase)].
    + left. exists e. unfold lzma2_iter. rewrite Hz, He. reflexivity.
    + destruct Hcase as [(Hend & HP & HPn & Hbe)|(Hend & Hi1 & Hup & HP & Hsz & Hfull)].
      * right. exists [], s1. split.
        { unfold lzma2_iter. rewrite Hz, Hh. change (0 =? 0) with true. cbv iota. cbn [obind]. rewrite Hend. reflexivity. }
        unfold iter2_post. split; [exact Herr|]. split; [left; split; [exact Hend | reflexivity]|].
        change (zlen (@nil Z)) with 0. split; [lia|]. split; [lia|]. split; [exact HPn|]. split; [exact Hbe|]. split; [exact Hlen1|]. intros Hx. congruence.
      * rewrite (iter_after_header s s1 len Hz Hh Hup).
        destruct (body2_total s1 len Hi1 Hup Hend Hlen) as [He|(out & s2 & Hit & Herr2 & Hst2 & Hol & HP2 & HPn2 & Hb2 & Hl2 & Hprog)];
          [left; exact He|].
        right. exists out, s2. split; [exact Hit|]. unfold iter2_post.
        split; [congruence|]. split; [exact Hst2|]. split; [exact Hol|]. split; [lia|]. split; [exact HPn2|]. split; [exact Hb2|]. split; [lia|].
        intros Hx. destruct (Hprog Hx) as (A & B & C). split; [exact A|]. split; [congruence|].
        destruct C as [C|C]; [left; exact C | right; apply Hfull; exact C].
  - apply body2_total; [exact Hi | lia | exact Hne | exact Hlen].
Qed.

Lemma loop2_total fuel : forall s len acc, inv2 s -> m_end_reached s = false -> 0 <= len ->
  len + 1 + (if w_pos (m_win s) =? w_size (m_win s) then 1 else 0) <= Z.of_nat fuel ->
  (exists e, lzma2_read_loop fuel s len acc = Err e) \/
  exists new s1, lzma2_read_loop fuel s len acc = Ok (rev acc ++ new, s1) /\ m_error s1 = m_error s /\
    (m_end_reached s1 = true \/ inv2 s1) /\
    zlen new <= len /\ 3 * zlen new + P2 s1 <= P2 s /\ 0 <= P2 s1 /\ bytes_ok (m_in s1) = true /\
    (length (m_in s1) <= length (m_in s))%nat /\
    (m_end_reached s1 = false -> zlen new = len).
Proof.
  induction fuel as [|f IH]; intros s len acc Hi Hne Hlen Hf.
  - exfalso. destruct (w_pos (m_win s) =? w_size (m_win s)); lia.
  - cbn [lzma2_read_loop]. destruct (Z.leb_spec len 0) as [Hz|Hpos].
    + right. exists [], s. rewrite frev_rev, app_nil_r. split; [reflexivity|]. split; [reflexivity|]. split; [right; exact Hi|].
      change (zlen (@nil Z)) with 0. split; [lia|]. split; [lia|]. split; [apply P2_nonneg; exact Hi|]. split; [apply inv2_bytes; exact Hi|]. split; [lia|]. intros _. lia.
    + destruct (iter2_total s len Hi Hne Hpos) as [(e & He)|(out & s2 & Hit & Herr & Hst & Hol & HP & HPn & Hbo & Hl & Hprog)].
      * left. rewrite He. cbn [obind]. eexists; reflexivity.
      * rewrite Hit. cbn [obind]. pose proof (zlen_nonneg out) as Ho0.
        destruct Hst as [(Hend & Hout)|(Hend & Hi2)]; rewrite Hend.
        -- right. exists [], s2. rewrite frev_rev, app_nil_r. subst out. change (zlen (@nil Z)) with 0 in *.
           split; [reflexivity|]. split; [exact Herr|]. split; [left; exact Hend|].
           split; [lia|]. split; [lia|]. split; [exact HPn|]. split; [exact Hbo|]. split; [exact Hl|]. intros Hx. congruence.
        -- destruct (Hprog Hend) as (Hroom & Hsz & Hadv).
           assert (Hf2 : len - zlen out + 1 + (if w_pos (m_win s2) =? w_size (m_win s2) then 1 else 0) <= Z.of_nat f).
           { destruct (Z.eqb_spec (w_pos (m_win s2)) (w_size (m_win s2))); [lia|].
             destruct (Z.eqb_spec (w_pos (m_win s)) (w_size (m_win s))); destruct Hadv as [Hadv|Hadv]; lia. }
           destruct (IH s2 (len - zlen out) (rev_append out acc) Hi2 Hend ltac:(lia) Hf2)
             as [(e & He)|(new & s1 & Hlp & Herr1 & Hi1 & Hnl & HP1 & HPn1 & Hb1 & Hl1 & Hfull)].
           ++ left. rewrite He. eexists; reflexivity.
           ++ right. exists (out ++ new), s1.
              rewrite Hlp, rev_append_rev, rev_app_distr, rev_involutive, <- app_assoc.
              split; [reflexivity|]. split; [congruence|]. split; [exact Hi1|]. rewrite zlen_app.
              split; [lia|]. split; [lia|]. split; [exact HPn1|]. split; [exact Hb1|]. split; [lia|]. intros Hx. specialize (Hfull Hx). lia.
Qed.

Theorem read2_total s n : rinv2 s ->
  (exists e, lzma2_read s n = Err e) \/
  exists out s1, lzma2_read s n = Ok (out, s1) /\ rinv2 s1 /\
    zlen out <= Z.max 0 n /\ zlen out + pot2 s1 <= pot2 s /\
    (length (m_in s1) <= length (m_in s))%nat /\
    (m_end_reached s1 = false -> 0 < n -> zlen out = n).
Proof.
  intros (Herr & Hbs & Hi). unfold lzma2_read.
  destruct (Z.leb_spec n 0) as [Hz|Hpos].
  { right. exists [], s. split; [reflexivity|]. split; [split; [assumption | split; assumption]|]. change (zlen (@nil Z)) with 0.
    split; [lia|]. split; [lia|]. split; [lia|]. intros _ Hx. lia. }
  rewrite Herr.
  destruct (m_end_reached s) eqn:Eend.
  { right. exists [], s. split; [reflexivity|]. split; [split; [exact Herr | split; [exact Hbs | left; exact Eend]]|]. change (zlen (@nil Z)) with 0.
    split; [lia|]. split; [lia|]. split; [lia|]. intros Hx _. congruence. }
  assert (Hi' : inv2 s) by (destruct Hi as [Hx|Hx]; [congruence | exact Hx]).
  destruct (loop2_total (Z.to_nat (2 * n + 4)) s n [] Hi' Eend ltac:(lia)
              ltac:(destruct (w_pos (m_win s) =? w_size (m_win s)); lia))
    as [(e & He)|(new & s1 & Hl & Herr1 & Hi1 & Hnl & HP & HPn & Hbn & Hin & Hfull)].
  - left. exists e. exact He.
  - right. exists new, s1. cbn [rev app] in Hl. split; [exact Hl|]. split; [split; [congruence | split; [exact Hbn | exact Hi1]]|].
    split; [lia|]. split.
    { unfold pot2. rewrite Eend. pose proof (zlen_nonneg new).
      destruct (m_end_reached s1) eqn:E1.
      - pose proof (P2_nonneg s Hi'). (Z.div_mod_to_equations; lia).
      - (Z.div_mod_to_equations; lia). }
    split; [exact Hin|]. intros Hx _. exact (Hfull Hx).
Qed.

Lemma read_all2_g fuel : forall s cur all acc,
  lzma2_read_all fuel s cur all acc =
  match g_obs lzma2 lzma2_read fuel s cur all acc with
  | (out, s1, GEnd) => Ok (out, 0, s1)
  | (out, s1, GErr e) => Ok (out, e, lzma2_set_error s1 e)
  | (_, _, GPanic e) => Panic e
  | (_, _, GFuel) => Fuel
  end.
Proof.
  induction fuel as [|f IH]; intros s cur all acc; cbn [lzma2_read_all g_obs]; [reflexivity|].
  destruct (match cur with [] => (4096, all) | x :: r => (x, r) end) as [sz rest].
  destruct (lzma2_read s sz) as [[out s1]|e|e|]; try reflexivity.
  destruct ((0 <? sz) && (zlen out =? 0)); [reflexivity | apply IH].
Qed.

Theorem lzma2_read_all_total : forall s0 sizes all fuel, rinv2 s0 -> sizes_ok all ->
  (ra_fuel sizes all (pot2 s0) <= fuel)%nat ->
  exists out st s1, lzma2_read_all fuel s0 sizes all [] = Ok (out, st, s1) /\ zlen out <= pot2 s0.
Proof.
  intros s0 sizes all fuel Hi Hall Hfuel.
  assert (Hstep : forall s n, rinv2 s -> 0 < n ->
            (exists e, lzma2_read s n = Err e) \/
            exists out s1, lzma2_read s n = Ok (out, s1) /\ rinv2 s1 /\ zlen out + pot2 s1 <= pot2 s).
  { intros s n Hs _. destruct (read2_total s n Hs) as [He|(out & s1 & Hr & Hi1 & _ & Hp & _)]; [left; exact He|].
    right. exists out, s1. auto. }
  destruct (g_obs_total lzma2 lzma2_read rinv2 pot2 pot2_nonneg lzma2_read_zero Hstep fuel s0 sizes all []
              Hi (sizes_ok_lead0 all Hall) Hfuel) as (new & s' & E1 & E2 & Hi' & Hpot & Hend).
  rewrite read_all2_g.
  destruct (g_obs lzma2 lzma2_read fuel s0 sizes all []) as [[out s1] en]. cbn [fst snd rev app] in *. subst out s1.
  pose proof (pot2_nonneg s' Hi').
  destruct Hend as [->|(e & ->)]; eexists; eexists; eexists; (split; [reflexivity | lia]).
Qed.

Theorem lzma2_new_inv input dict preset : bytes_ok input = true -> preset_bytes preset ->
  exists s0, lzma2_new input dict preset = Ok s0 /\ rinv2 s0 /\ inv2 s0 /\ m_end_reached s0 = false /\
             m_in s0 = input /\ P2 s0 = 2097152 * zlen input.
Proof.
  intros Hb Hpre. unfold lzma2_new, lzma2_get_dict_size. cbn [obind].
  set (ds := (Z.min (Z.max dict 4096) 4294967280 + 15) / 16 * 16).
  assert (Hds : 0 < ds /\ ds mod 16 = 0) by (unfold ds; (Z.div_mod_to_equations; lia)).
  destruct (lzwin_new_inv ds preset (proj1 Hds) (proj2 Hds) Hpre) as (hist & R & Hhb & Hst & Hpl).
  eexists. split; [reflexivity|].
  assert (Hi : inv2 (mkLzma2 input (lzwin_new ds preset) (mkRdec 0 0 [] 0) PLeaf None 0 false
                             (negb match preset with Some (_ :: _) => true | _ => false end) true false None)).
  { exists hist. msimpl. split; [exact R|]. split; [exact Hhb|]. split; [apply probs_ok_empty|].
    split; [unfold rdec_wf; cbn [rd_range]; lia|]. split; [exact Hst|]. split; [exact Hb|]. split; [lia|].
    split; [intros _; exact Hpl|]. split; [rewrite Hpl; lia|]. split; [intros Hx; discriminate | intros Hx; lia]. }
  split; [split; [reflexivity | split; [exact Hb | right; exact Hi]]|]. split; [exact Hi|]. split; [reflexivity|]. split; [reflexivity|].
  unfold P2. msimpl. lia.
Qed.

Theorem lzma2_total : forall input dict preset sizes all fuel,
  bytes_ok input = true -> preset_bytes preset -> sizes_ok all ->
  (ra_fuel sizes all (699051 * zlen input) <= fuel)%nat ->
  exists s0, lzma2_new input dict preset = Ok s0 /\
    exists out st s1, lzma2_read_all fuel s0 sizes all [] = Ok (out, st, s1) /\ zlen out <= 699051 * zlen input.
Proof.
  intros input dict preset sizes all fuel Hb Hpre Hall Hfuel.
  destruct (lzma2_new_inv input dict preset Hb Hpre) as (s0 & Hnew & Hri & Hi & He & Hin & HP).
  exists s0. split; [exact Hnew|].
  assert (Hpot : 0 <= pot2 s0 <= 699051 * zlen input).
  { unfold pot2. rewrite He, HP. pose proof (zlen_nonneg input). (Z.div_mod_to_equations; lia). }
  destruct (lzma2_read_all_total s0 sizes all fuel Hri Hall
              ltac:(pose proof (ra_fuel_mono sizes all (pot2 s0) (699051 * zlen input) Hpot); lia))
    as (out & st & s1 & Hr & Hz).
  exists out, st, s1. split; [exact Hr | lia].
Qed.

Print Assumptions read2_total.
Print Assumptions lzma2_total.
