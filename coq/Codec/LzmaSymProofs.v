(* Codec/LzmaSymProofs.v — the decisions produced by the LZMA symbol ENCODER model (LzmaEnc.v)
   are read back by the decision programs of the symbol DECODER model (LzmaDec.v).
   Stated with [reads p evs a] (evs well-formed, asked for in order, p returns a, the rest is
   left): len_reads, lit_reads, rep_reads, match_reads, from the inversions enc_len_inv and
   enc_rep_events_cases.  No range coder, no window. *)
From LzVerif Require Import Base.Bytes Codec.Store Codec.Range Codec.LzWindow Codec.LzmaDec Codec.LzmaEnc
  Codec.ProbProofs Codec.ProgProofs.

(* well-formed events; the same predicate as RangeEncProofs.ev_ok (LzmaChunkProofs.ev_ok_same) *)
Definition ev_ok (ev : event) : bool :=
  match ev with
  | EBit k b => (b =? 0) || (b =? 1)
  | EDirect n v => (Nat.leb 1 n) && (Nat.leb n 32) && (0 <=? v) && (v <? Z.shiftl 1 (Z.of_nat n))
  end.

Lemma ev_ok_bit k b : b = 0 \/ b = 1 -> ev_ok (EBit k b) = true.
Proof. intros [-> | ->]; reflexivity. Qed.

Lemma forallb_app_true {A} (f : A -> bool) l1 l2 :
  forallb f l1 = true -> forallb f l2 = true -> forallb f (l1 ++ l2) = true.
Proof. intros H1 H2. rewrite forallb_app, H1, H2. reflexivity. Qed.

Corollary run_trace_bind_ok {A B} (p : prog A) (f : A -> prog B) evs a rest :
  run_trace p evs = Some (Ok a, rest) ->
  run_trace (pbind p f) evs = run_trace (f a) rest.
Proof. intros H. rewrite run_trace_bind, H. reflexivity. Qed.

Corollary run_trace_bind_none {A B} (p : prog A) (f : A -> prog B) evs :
  run_trace p evs = None -> run_trace (pbind p f) evs = None.
Proof. intros H. rewrite run_trace_bind, H. reflexivity. Qed.

Lemma run_trace_ret {A} (a : A) evs : run_trace (Ret a) evs = Some (Ok a, evs).
Proof. reflexivity. Qed.

Lemma run_trace_lift_ok {A} (a : A) evs : run_trace (lift (Ok a)) evs = Some (Ok a, evs).
Proof. reflexivity. Qed.

Lemma run_trace_bit {A} key (k : Z -> prog A) b rest :
  b = 0 \/ b = 1 ->
  run_trace (Bit key k) (EBit key b :: rest) = run_trace (k b) rest.
Proof.
  intros Hb. cbn [run_trace]. rewrite Z.eqb_refl.
  destruct Hb as [-> | ->]; reflexivity.
Qed.

Lemma run_trace_direct {A} n (k : Z -> prog A) v rest :
  run_trace (Direct n k) (EDirect n v :: rest) = run_trace (k v) rest.
Proof. cbn [run_trace]. rewrite Nat.eqb_refl. reflexivity. Qed.

(* A run consumes a prefix of the trace and does not look at what follows. *)
Theorem run_trace_consumed {A} (p : prog A) evs r rest :
  run_trace p evs = Some (r, rest) ->
  exists used, evs = used ++ rest /\ forall more, run_trace p (used ++ more) = Some (r, more).
Proof.
  revert evs; induction p as [a | e | key k IH | n k IH]; intros evs H; cbn [run_trace] in H.
  - inversion H; subst. exists []. split; reflexivity.
  - exists []. destruct e; inversion H; subst; split; reflexivity.
  - destruct evs as [|[key' b | n' v] tl]; try discriminate.
    destruct ((key =? key') && ((b =? 0) || (b =? 1))) eqn:E; [|discriminate].
    destruct (IH _ _ H) as (used & -> & Hu).
    exists (EBit key' b :: used). split; [reflexivity|].
    intros more. cbn [app run_trace]. rewrite E. apply Hu.
  - destruct evs as [|[key' b | n' v] tl]; try discriminate.
    destruct (Nat.eqb n n') eqn:E; [|discriminate].
    destruct (IH _ _ H) as (used & -> & Hu).
    exists (EDirect n' v :: used). split; [reflexivity|].
    intros more. cbn [app run_trace]. rewrite E. apply Hu.
Qed.

Corollary run_trace_app {A} (p : prog A) evs r rest more :
  run_trace p evs = Some (r, rest) ->
  run_trace p (evs ++ more) = Some (r, rest ++ more).
Proof.
  intros H. destruct (run_trace_consumed p evs r rest H) as (used & -> & Hu).
  rewrite <- app_assoc. apply Hu.
Qed.

(* computing with [rest := []] is enough *)
Corollary run_trace_app_nil {A} (p : prog A) evs r rest :
  run_trace p evs = Some (r, []) ->
  run_trace p (evs ++ rest) = Some (r, rest).
Proof. intros H. apply (run_trace_app p evs r [] rest H). Qed.

(* [reads p evs a]: the well-formed events [evs] are what program [p] asks for, in order, and make
   it return [a]; whatever follows them is left.  Every round trip below has this shape, and
   it is closed under the constructors of programs. *)
Definition reads {A} (p : prog A) (evs : list event) (a : A) : Prop :=
  forallb ev_ok evs = true /\ forall rest, run_trace p (evs ++ rest) = Some (Ok a, rest).

Lemma reads_ret {A} (a a' : A) : a = a' -> reads (Ret a) [] a'.
Proof. intros <-. split; reflexivity. Qed.

Lemma reads_eq {A} (p : prog A) evs a a' : reads p evs a -> a = a' -> reads p evs a'.
Proof. intros H <-. exact H. Qed.

Lemma reads_bit {A} key (k : Z -> prog A) b evs a :
  b = 0 \/ b = 1 -> reads (k b) evs a -> reads (Bit key k) (EBit key b :: evs) a.
Proof.
  intros Hb [Hok Hrun]. split; [cbn [forallb]; rewrite ev_ok_bit, Hok by exact Hb; reflexivity|].
  intros rest. cbn [app]. rewrite run_trace_bit by exact Hb. apply Hrun.
Qed.

Lemma reads_direct {A} n (k : Z -> prog A) v evs a :
  ev_ok (EDirect n v) = true -> reads (k v) evs a -> reads (Direct n k) (EDirect n v :: evs) a.
Proof.
  intros Hv [Hok Hrun]. split; [cbn [forallb]; rewrite Hv, Hok; reflexivity|].
  intros rest. cbn [app]. rewrite run_trace_direct. apply Hrun.
Qed.

Lemma reads_bind {A B} (p : prog A) (f : A -> prog B) e1 e2 a b :
  reads p e1 a -> reads (f a) e2 b -> reads (pbind p f) (e1 ++ e2) b.
Proof.
  intros [Hok1 H1] [Hok2 H2]. split; [apply forallb_app_true; assumption|].
  intros rest. rewrite <- app_assoc, (run_trace_bind_ok _ _ _ _ _ (H1 _)). apply H2.
Qed.

Lemma reads_map {A B} (p : prog A) (g : A -> B) evs a b :
  reads p evs a -> g a = b -> reads (bind x <- p; Ret (g x)) evs b.
Proof.
  intros H E. rewrite <- (app_nil_r evs). exact (reads_bind p _ evs [] a b H (reads_ret _ _ E)).
Qed.

Theorem state_range s : 0 <= s < 12 ->
  0 <= state_update_literal s < 12 /\ 0 <= state_update_match s < 12 /\
  0 <= state_update_long_rep s < 12 /\ 0 <= state_update_short_rep s < 12.
Proof. exact (state_update_range s). Qed.

Lemma land_1_mod2 x : Z.land x 1 = x mod 2.
Proof. apply (Z.land_ones x 1). lia. Qed.

Lemma land_1_cases x : Z.land x 1 = 0 \/ Z.land x 1 = 1.
Proof. rewrite land_1_mod2. (Z.div_mod_to_equations; lia). Qed.

Lemma shiftr1_div2 x : Z.shiftr x 1 = x / 2.
Proof. apply (Z.shiftr_div_pow2 x 1). lia. Qed.

Lemma pow2_pos n : 0 <= n -> 0 < 2 ^ n.
Proof. intros; apply Z.pow_pos_nonneg; lia. Qed.

Lemma wrap32_small x : 0 <= x < 2 ^ 32 -> wrap32 x = x.
Proof. intros H. unfold wrap32. apply Z.mod_small. lia. Qed.

Lemma shiftl_1_pow2 n : 0 <= n -> Z.shiftl 1 n = 2 ^ n.
Proof. intros; rewrite Z.shiftl_mul_pow2 by lia. lia. Qed.

(* a + b*2^n has no carries when a < 2^n *)
Lemma land_low_high a b n : 0 <= n -> 0 <= a < 2 ^ n -> Z.land a (Z.shiftl b n) = 0.
Proof.
  intros Hn Ha. apply Z.bits_inj'. intros m Hm.
  rewrite Z.land_spec, Z.bits_0.
  destruct (Z.lt_ge_cases m n) as [Hlt | Hge].
  - rewrite Z.shiftl_spec_low by assumption. apply andb_false_r.
  - rewrite <- (Z.mod_small a (2 ^ n)) by assumption.
    rewrite Z.mod_pow2_bits_high by lia. reflexivity.
Qed.

Lemma lor_disjoint_add a b n : 0 <= n -> 0 <= a < 2 ^ n -> Z.lor a (Z.shiftl b n) = a + b * 2 ^ n.
Proof.
  intros Hn Ha. pose proof (land_low_high a b n Hn Ha) as H0.
  rewrite <- Z.lxor_lor by assumption. rewrite <- Z.add_nocarry_lxor by assumption.
  rewrite Z.shiftl_mul_pow2 by assumption. reflexivity.
Qed.

Lemma lor_disjoint_add' a b n : 0 <= n -> 0 <= a < 2 ^ n -> Z.lor (b * 2 ^ n) a = b * 2 ^ n + a.
Proof.
  intros Hn Ha. rewrite Z.lor_comm, <- (Z.shiftl_mul_pow2 b n) by assumption.
  rewrite lor_disjoint_add by assumption. rewrite Z.shiftl_mul_pow2 by assumption. lia.
Qed.

Lemma bittree_gen base levels : forall sym idx,
  reads (bittree base levels idx) (enc_bittree base levels sym idx)
        (idx * 2 ^ Z.of_nat levels + sym mod 2 ^ Z.of_nat levels).
Proof.
  induction levels as [|l IH]; intros sym idx; cbn [bittree enc_bittree].
  - apply reads_ret. change (2 ^ Z.of_nat 0) with 1. rewrite Z.mod_1_r. lia.
  - set (bit := Z.land (Z.shiftr sym (Z.of_nat l)) 1).
    assert (Hb : bit = (sym / 2 ^ Z.of_nat l) mod 2).
    { unfold bit. rewrite land_1_mod2, Z.shiftr_div_pow2 by lia. reflexivity. }
    apply reads_bit; [(Z.div_mod_to_equations; lia)|]. eapply reads_eq; [apply IH|].
    rewrite Nat2Z.inj_succ, Z.pow_succ_r by lia.
    pose proof (pow2_pos (Z.of_nat l) ltac:(lia)) as HP.
    rewrite (Z.mul_comm 2 (2 ^ Z.of_nat l)), Z.rem_mul_r by lia. rewrite <- Hb. ring.
Qed.

Theorem bittree_roundtrip base levels sym :
  0 <= sym < 2 ^ Z.of_nat levels ->
  reads (decode_bit_tree base levels) (enc_bittree base levels sym 1) sym.
Proof.
  intros Hs. unfold decode_bit_tree. apply (reads_map _ _ _ _ _ (bittree_gen base levels sym 1)).
  rewrite shiftl_1_pow2, Z.mod_small by lia. lia.
Qed.

Lemma rev_bittree_gen base levels : forall sym idx i res,
  0 <= i -> 0 <= res < 2 ^ i ->
  reads (rev_bittree base levels idx i res) (enc_rev_bittree base levels sym idx)
        (res + 2 ^ i * (sym mod 2 ^ Z.of_nat levels)).
Proof.
  induction levels as [|l IH]; intros sym idx i res Hi Hres; cbn [rev_bittree enc_rev_bittree].
  - apply reads_ret. change (2 ^ Z.of_nat 0) with 1. rewrite Z.mod_1_r. lia.
  - set (bit := Z.land sym 1).
    assert (Hb : bit = sym mod 2) by apply land_1_mod2.
    assert (Hc : bit = 0 \/ bit = 1) by (Z.div_mod_to_equations; lia).
    apply reads_bit; [exact Hc|].
    rewrite lor_disjoint_add by assumption.
    pose proof (pow2_pos i Hi) as HPi.
    assert (H2 : 2 ^ (i + 1) = 2 * 2 ^ i) by (rewrite Z.pow_add_r by lia; lia).
    eapply reads_eq; [apply IH; [lia | rewrite H2; destruct Hc as [-> | ->]; lia]|].
    rewrite shiftr1_div2, H2, Nat2Z.inj_succ, Z.pow_succ_r by lia.
    pose proof (pow2_pos (Z.of_nat l) ltac:(lia)) as HP.
    rewrite (Z.rem_mul_r sym 2 (2 ^ Z.of_nat l)) by lia. rewrite <- Hb. ring.
Qed.

Theorem rev_bittree_roundtrip base levels sym :
  0 <= sym < 2 ^ Z.of_nat levels ->
  reads (decode_reverse_bit_tree base levels) (enc_rev_bittree base levels sym 1) sym.
Proof.
  intros Hs. unfold decode_reverse_bit_tree. eapply reads_eq; [apply rev_bittree_gen; cbn; lia|].
  rewrite Z.mod_small by assumption. lia.
Qed.

Lemma enc_len_inv base len ps evs :
  enc_len base len ps = Ok evs ->
  (2 <= len < 10 /\ exists low, key2 (base + 2) 16 8 ps 0 = Ok low /\
     evs = EBit (base + 0) 0 :: enc_bittree low 3 (len - 2) 1) \/
  (10 <= len < 18 /\ exists mid, key2 (base + 130) 16 8 ps 0 = Ok mid /\
     evs = EBit (base + 0) 1 :: EBit (base + 1) 0 :: enc_bittree mid 3 (len - 2 - 8) 1) \/
  (18 <= len <= 273 /\
     evs = EBit (base + 0) 1 :: EBit (base + 1) 1 :: enc_bittree (base + 258) 8 (len - 2 - 16) 1).
Proof.
  unfold enc_len. intros H.
  destruct (Z.ltb_spec (len - 2) 0); [discriminate|].
  destruct (Z.ltb_spec (len - 2) 8).
  { apply obind_ok in H as (low & K & H). apply Ok_inj in H. left. split; [lia | eauto]. }
  destruct (Z.ltb_spec (len - 2) 16).
  { apply obind_ok in H as (mid & K & H). apply Ok_inj in H. right; left. split; [lia | eauto]. }
  destruct (Z.ltb_spec (len - 2) 272); [|discriminate].
  apply Ok_inj in H. right; right. split; [lia | auto].
Qed.

(* whatever enc_len accepts is read back; no side conditions *)
Lemma len_reads base len ps evs :
  enc_len base len ps = Ok evs -> 2 <= len <= 273 /\ reads (decode_len base ps) evs len.
Proof.
  intros H. unfold decode_len.
  destruct (enc_len_inv _ _ _ _ H) as [(Hl & low & K & ->) | [(Hl & mid & K & ->) | (Hl & ->)]];
    (split; [lia|]).
  - apply reads_bit; [left; reflexivity|]. cbn [Z.eqb]. rewrite K. cbn [lift pbind].
    apply (reads_map _ _ _ (len - 2)); [apply bittree_roundtrip; cbn; lia | lia].
  - apply reads_bit; [right; reflexivity|]. cbn [Z.eqb Pos.eqb].
    apply reads_bit; [left; reflexivity|]. cbn [Z.eqb]. rewrite K. cbn [lift pbind].
    apply (reads_map _ _ _ (len - 2 - 8)); [apply bittree_roundtrip; cbn; lia | lia].
  - do 2 (apply reads_bit; [right; reflexivity|]; cbn [Z.eqb Pos.eqb]).
    apply (reads_map _ _ _ (len - 2 - 16)); [apply bittree_roundtrip; cbn; lia | lia].
Qed.

Lemma enc_len_total base len ps :
  2 <= len <= 273 -> 0 <= ps < 16 -> exists evs, enc_len base len ps = Ok evs.
Proof.
  intros Hl Hp. unfold enc_len.
  destruct (Z.ltb_spec (len - 2) 0); [lia|].
  destruct (Z.ltb_spec (len - 2) 8).
  { rewrite key2_ok by lia. cbn [obind]. eauto. }
  destruct (Z.ltb_spec (len - 2) 16).
  { rewrite key2_ok by lia. cbn [obind]. eauto. }
  destruct (Z.ltb_spec (len - 2) 272); [eauto | lia].
Qed.

Theorem len_roundtrip base len ps rest :
  2 <= len <= 273 -> 0 <= ps < 16 ->
  exists evs, enc_len base len ps = Ok evs /\
    run_trace (decode_len base ps) (evs ++ rest) = Some (Ok len, rest).
Proof.
  intros Hl Hp. destruct (enc_len_total base len ps Hl Hp) as [evs He].
  exists evs. split; [assumption|]. apply (len_reads base len ps evs He).
Qed.

(* Literals.  The encoder shifts the 9-bit symbol (0x100 | byte) left through bit 8; the decoder
   builds the same symbol from the right: after k steps the decoder holds the encoder's value
   divided by 256.  In the matched walk both keep an offset that is 256 while every bit so far
   equalled the match byte's bit and 0 afterwards; each side updates it by its own bit formula. *)
Lemma lnot32_bit x i : 0 <= i < 32 -> Z.testbit (lnot32 x) i = negb (Z.testbit x i).
Proof.
  intros Hi. unfold lnot32.
  rewrite <- (Z.mod_pow2_bits_low (4294967295 - x) 32 i), <- Z.lnot_spec by lia.
  rewrite <- (Z.mod_pow2_bits_low (Z.lnot x) 32 i) by lia. f_equal.
  replace (4294967295 - x) with (Z.lnot x + 1 * 2 ^ 32) by (unfold Z.lnot; lia).
  apply Z.mod_add. lia.
Qed.

Lemma land_off off x : off = 0 \/ off = 256 -> Z.land off x = if Z.testbit x 8 then off else 0.
Proof.
  intros [-> | ->]; [destruct (Z.testbit x 8); reflexivity|].
  apply Z.bits_inj'. intros i _. rewrite Z.land_spec.
  destruct (Z.eq_dec i 8) as [-> | Hn].
  - destruct (Z.testbit x 8); reflexivity.
  - change 256 with (2 ^ 8). rewrite (Z.pow2_bits_false 8 i) by lia.
    destruct (Z.testbit x 8); [rewrite Z.pow2_bits_false by lia | rewrite Z.bits_0]; reflexivity.
Qed.

(* the encoder's update of the offset (left) and the decoder's (right), [s] being the encoder's
   symbol after its shift, whose bit 8 is the bit just coded *)
Lemma lit_offset_step off m s : off = 0 \/ off = 256 ->
  Z.land off (lnot32 (Z.lxor m s))
  = Z.land off (Z.lxor (wrap32 (0 - Z.b2z (Z.testbit s 8))) (lnot32 (Z.land m off))).
Proof.
  intros Ho. rewrite (Z.land_comm m), !(land_off off) by assumption.
  rewrite Z.lxor_spec, !lnot32_bit, Z.lxor_spec by lia.
  destruct Ho as [-> | ->], (Z.testbit m 8), (Z.testbit s 8); reflexivity.
Qed.

Lemma lit_bit s : Z.land (Z.shiftr s 7) 1 = Z.b2z (Z.testbit (2 * s) 8).
Proof.
  change 8 with (Z.succ 7).
  rewrite Z.double_bits_succ, land_1_mod2, Z.shiftr_div_pow2, Z.testbit_spec' by lia. reflexivity.
Qed.

Lemma lor_double a b : b = 0 \/ b = 1 -> Z.lor (2 * a) b = 2 * a + b.
Proof. intros Hb. rewrite (Z.mul_comm 2 a). apply (lor_disjoint_add' b a 1); lia. Qed.

Lemma lit_symbol_step s : 2 * (s / 256) + Z.land (Z.shiftr s 7) 1 = 2 * s / 256.
Proof. rewrite land_1_mod2, Z.shiftr_div_pow2 by lia. change (2 ^ 7) with 128. (Z.div_mod_to_equations; lia). Qed.

Lemma lit_normal_gen lbase n : forall s rest, 0 <= s -> s * 2 ^ Z.of_nat n < 2 ^ 32 ->
  run_trace (bittree lbase n (s / 256)) (enc_lit_normal lbase n s ++ rest)
  = Some (Ok (s * 2 ^ Z.of_nat n / 256), rest).
Proof.
  induction n as [|k IH]; intros s rest Hs Hn; cbn [bittree enc_lit_normal app].
  - cbn [run_trace]. do 3 f_equal. change (2 ^ Z.of_nat 0) with 1. (Z.div_mod_to_equations; lia).
  - rewrite Nat2Z.inj_succ, Z.pow_succ_r in * by lia.
    pose proof (pow2_pos (Z.of_nat k) ltac:(lia)) as HP.
    rewrite (Z.shiftr_div_pow2 s 8) by lia. change (2 ^ 8) with 256.
    rewrite run_trace_bit by apply land_1_cases.
    rewrite lit_symbol_step, wrap32_small, (Z.mul_comm s 2) by nia.
    rewrite IH by nia. do 4 f_equal. ring.
Qed.

Lemma lit_matched_gen lbase n : forall m off s rest,
  off = 0 \/ off = 256 -> 0 <= s -> s * 2 ^ Z.of_nat n < 2 ^ 32 ->
  run_trace (lit_matched lbase n m off (s / 256)) (enc_lit_matched lbase n m off s ++ rest)
  = Some (Ok (s * 2 ^ Z.of_nat n / 256), rest).
Proof.
  induction n as [|k IH]; intros m off s rest Ho Hs Hn; cbn [lit_matched enc_lit_matched app].
  - cbn [run_trace]. do 3 f_equal. change (2 ^ Z.of_nat 0) with 1. (Z.div_mod_to_equations; lia).
  - rewrite Nat2Z.inj_succ, Z.pow_succ_r in * by lia.
    pose proof (pow2_pos (Z.of_nat k) ltac:(lia)) as HP.
    rewrite (Z.shiftr_div_pow2 s 8) by lia. change (2 ^ 8) with 256.
    rewrite run_trace_bit by apply land_1_cases.
    rewrite lor_double, lit_symbol_step, (wrap32_small (s * 2)), (Z.mul_comm s 2)
      by (apply land_1_cases || nia).
    rewrite lit_bit, <- lit_offset_step by assumption.
    rewrite IH; [do 4 f_equal; ring | | nia | nia].
    rewrite land_off by assumption. destruct (Z.testbit _ 8); [assumption | left; reflexivity].
Qed.

Lemma enc_lit_matched_ok lbase n : forall m off s, forallb ev_ok (enc_lit_matched lbase n m off s) = true.
Proof.
  induction n as [|k IH]; intros m off s; cbn [enc_lit_matched forallb]; [reflexivity|].
  rewrite IH, ev_ok_bit by apply land_1_cases. reflexivity.
Qed.

Lemma enc_lit_normal_ok lbase n : forall s, forallb ev_ok (enc_lit_normal lbase n s) = true.
Proof.
  induction n as [|k IH]; intros s; cbn [enc_lit_normal forallb]; [reflexivity|].
  rewrite IH, ev_ok_bit by apply land_1_cases. reflexivity.
Qed.

Theorem lit_events_ok lbase mb b : forallb ev_ok (lit_events lbase mb b) = true.
Proof. destruct mb; [apply enc_lit_matched_ok | apply enc_lit_normal_ok]. Qed.

Theorem lit_reads lbase mb b :
  0 <= b < 256 -> reads (lit_prog lbase mb) (lit_events lbase mb b) (256 + b).
Proof.
  intros Hb. split; [apply lit_events_ok|]. intros rest. unfold lit_prog, lit_events.
  assert (E0 : Z.lor b 256 = 256 + b)
    by (rewrite Z.lor_comm; apply (lor_disjoint_add' b 1 8); change (2 ^ 8) with 256; lia).
  rewrite E0.
  assert (E1 : (256 + b) / 256 = 1) by (Z.div_mod_to_equations; lia).
  assert (E2 : (256 + b) * 2 ^ Z.of_nat 8 / 256 = 256 + b) by (apply Z.div_mul; lia).
  assert (Hn : (256 + b) * 2 ^ Z.of_nat 8 < 2 ^ 32) by (change (2 ^ Z.of_nat 8) with 256; lia).
  destruct mb as [m|].
  - pose proof (lit_matched_gen lbase 8 m 256 (256 + b) rest (or_intror eq_refl) ltac:(lia) Hn) as H.
    rewrite E1, E2 in H. exact H.
  - pose proof (lit_normal_gen lbase 8 (256 + b) rest ltac:(lia) Hn) as H.
    rewrite E1, E2 in H. exact H.
Qed.

Theorem lit_roundtrip_strong lbase mb b rest :
  0 <= b < 256 -> (mb = None \/ exists m, mb = Some m /\ 0 <= m < 256) ->
  run_trace (lit_prog lbase mb) (lit_events lbase mb b ++ rest) = Some (Ok (256 + b), rest).
Proof. intros Hb _. apply (lit_reads lbase mb b Hb). Qed.

Theorem lit_roundtrip lbase mb b rest :
  0 <= b < 256 -> (mb = None \/ exists m, mb = Some m /\ 0 <= m < 256) ->
  exists sym, run_trace (lit_prog lbase mb) (lit_events lbase mb b ++ rest) = Some (Ok sym, rest) /\
              wrap8 sym = b.
Proof.
  intros Hb Hm. exists (256 + b). split; [apply lit_roundtrip_strong; assumption|].
  unfold wrap8. (Z.div_mod_to_equations; lia).
Qed.

Lemma enc_rep_events_cases c ps idx len evs c' :
  enc_rep_events c ps idx len = Ok (evs, c') ->
  let s0 := c_state c in
  let k0 := K_IS_REP0 + s0 in
  let k0l := K_IS_REP0_LONG + s0 * 16 + ps in
  let k1 := K_IS_REP1 + s0 in
  let k2 := K_IS_REP2 + s0 in
  let long c1 := set_state c1 (state_update_long_rep s0) in
  0 <= s0 < 12 /\
  ((idx = 0 /\ len = 1 /\ 0 <= ps < 16 /\
    evs = [EBit k0 0; EBit k0l 0] /\ c' = set_state c (state_update_short_rep s0)) \/
   exists elen, enc_len K_REP_LEN len ps = Ok elen /\
     ((idx = 0 /\ 0 <= ps < 16 /\ evs = EBit k0 0 :: EBit k0l 1 :: elen /\ c' = long c) \/
      (idx = 1 /\ evs = EBit k0 1 :: EBit k1 0 :: elen /\
       c' = long (set_reps c (c_rep1 c) (c_rep0 c) (c_rep2 c) (c_rep3 c))) \/
      (idx = 2 /\ evs = EBit k0 1 :: EBit k1 1 :: EBit k2 0 :: elen /\
       c' = long (set_reps c (c_rep2 c) (c_rep0 c) (c_rep1 c) (c_rep3 c))) \/
      (idx = 3 /\ evs = EBit k0 1 :: EBit k1 1 :: EBit k2 1 :: elen /\
       c' = long (set_reps c (c_rep3 c) (c_rep0 c) (c_rep1 c) (c_rep2 c))))).
Proof.
  unfold enc_rep_events. cbv zeta. intros H.
  apply obind_ok in H as (k0 & K0 & H). apply key1_inv in K0 as (Hs & ->). split; [exact Hs|].
  destruct (Z.eqb_spec idx 0) as [-> | Hi0].
  - apply obind_ok in H as (k0l & K0L & H). apply key2_inv in K0L as (_ & Hps & ->).
    destruct (Z.eqb_spec len 1) as [-> | Hl1].
    + apply Ok_inj, pair_inj in H as [<- <-]. left. auto.
    + apply obind_ok in H as (elen & EL & H). apply Ok_inj, pair_inj in H as [<- <-].
      right. exists elen. split; [exact EL|]. left. auto.
  - destruct (Z.ltb_spec idx 0); [discriminate|]. destruct (Z.ltb_spec 3 idx); [discriminate|].
    destruct (len =? 1); [discriminate|]. cbn [orb] in H.
    apply obind_ok in H as (k1 & K1 & H). apply key1_inv in K1 as (_ & ->).
    apply obind_ok in H as (k2 & K2 & H). apply key1_inv in K2 as (_ & ->).
    destruct (Z.eqb_spec idx 1) as [-> |]; [|destruct (Z.eqb_spec idx 2) as [-> |]];
      apply obind_ok in H as (elen & EL & H); apply Ok_inj, pair_inj in H as [<- <-];
      right; exists elen; (split; [exact EL|]); right;
      [left | right; left | right; right]; (split; [lia|]); split; reflexivity.
Qed.

Theorem rep_reads c ps idx len evs c' :
  enc_rep_events c ps idx len = Ok (evs, c') -> reads (decode_rep_match c ps) evs (c', len).
Proof.
  intros H. destruct (enc_rep_events_cases _ _ _ _ _ _ H) as (Hs & Hc). cbv zeta in Hc.
  unfold decode_rep_match. cbv zeta. rewrite !key1_ok by exact Hs. cbn [lift pbind].
  assert (B0 : 0 = 0 \/ 0 = 1) by (left; reflexivity).
  assert (B1 : 1 = 0 \/ 1 = 1) by (right; reflexivity).
  destruct Hc as [(-> & -> & Hps & -> & ->) | (elen & EL & Hc)].
  - apply reads_bit; [exact B0|]. cbn [Z.eqb]. rewrite key2_ok by assumption. cbn [lift pbind].
    apply reads_bit; [exact B0|]. cbn [Z.eqb]. apply reads_ret. reflexivity.
  - pose proof (proj2 (len_reads _ _ _ _ EL)) as Hlen.
    destruct Hc as [(-> & Hps & -> & ->) | [(-> & -> & ->) | [(-> & -> & ->) | (-> & -> & ->)]]].
    + apply reads_bit; [exact B0|]. cbn [Z.eqb]. rewrite key2_ok by assumption. cbn [lift pbind].
      apply reads_bit; [exact B1|]. cbn [Z.eqb Pos.eqb]. apply (reads_map _ _ _ _ _ Hlen). reflexivity.
    + apply reads_bit; [exact B1|]. cbn [Z.eqb Pos.eqb].
      apply reads_bit; [exact B0|]. cbn [Z.eqb pbind]. apply (reads_map _ _ _ _ _ Hlen). reflexivity.
    + apply reads_bit; [exact B1|]. cbn [Z.eqb Pos.eqb].
      apply reads_bit; [exact B1|]. cbn [Z.eqb Pos.eqb pbind].
      apply reads_bit; [exact B0|]. cbn [Z.eqb pbind]. apply (reads_map _ _ _ _ _ Hlen). reflexivity.
    + apply reads_bit; [exact B1|]. cbn [Z.eqb Pos.eqb].
      apply reads_bit; [exact B1|]. cbn [Z.eqb Pos.eqb pbind].
      apply reads_bit; [exact B1|]. cbn [Z.eqb Pos.eqb pbind]. apply (reads_map _ _ _ _ _ Hlen). reflexivity.
Qed.

Theorem rep_roundtrip_of_ok c ps idx len evs c' rest :
  enc_rep_events c ps idx len = Ok (evs, c') ->
  run_trace (decode_rep_match c ps) (evs ++ rest) = Some (Ok (c', len), rest).
Proof. intros H. apply (rep_reads _ _ _ _ _ _ H). Qed.

(* the range hypotheses are not needed: enc_rep_events checks the keys *)
Theorem rep_roundtrip c ps idx len evs c' rest :
  0 <= c_state c < 12 -> 0 <= ps < 16 ->
  enc_rep_events c ps idx len = Ok (evs, c') ->
  run_trace (decode_rep_match c ps) (evs ++ rest) = Some (Ok (c', len), rest).
Proof. intros _ _. apply rep_roundtrip_of_ok. Qed.

(* what enc_rep_events accepts *)
Lemma enc_rep_events_inv c ps idx len evs c' :
  enc_rep_events c ps idx len = Ok (evs, c') ->
  0 <= c_state c < 12 /\ 0 <= idx <= 3 /\ ((idx = 0 /\ len = 1 /\ 0 <= ps < 16) \/ 2 <= len <= 273).
Proof.
  intros H. destruct (enc_rep_events_cases _ _ _ _ _ _ H) as (Hs & Hc). split; [exact Hs|].
  destruct Hc as [(-> & -> & Hps & _) | (elen & EL & Hc)]; [split; [lia | left; auto]|].
  pose proof (proj1 (len_reads _ _ _ _ EL)) as Hl.
  split; [|right; exact Hl]. destruct Hc as [(-> & _) | [(-> & _) | [(-> & _) | (-> & _)]]]; lia.
Qed.

Theorem dist_slot_spec dist : 0 <= dist < 2 ^ 32 ->
  0 <= get_dist_slot dist < 64 /\
  (dist < 4 -> get_dist_slot dist = dist) /\
  (4 <= dist ->
     1 <= get_dist_slot dist / 2 - 1 <= 30 /\
     (2 + get_dist_slot dist mod 2) * 2 ^ (get_dist_slot dist / 2 - 1) <= dist
       < (2 + get_dist_slot dist mod 2 + 1) * 2 ^ (get_dist_slot dist / 2 - 1)).
Proof.
  intros Hd. unfold get_dist_slot.
  destruct (Z.leb_spec dist 4) as [H4|H4].
  - split; [lia|]. split; [reflexivity|]. intros H. assert (dist = 4) as -> by lia.
    change (4 / 2 - 1) with 1. change (4 mod 2) with 0. change (2 ^ 1) with 2. lia.
  - cbv zeta. set (i := Z.log2 dist).
    pose proof (Z.log2_spec dist ltac:(lia)) as HL. fold i in HL.
    assert (Hi2 : 2 <= i). { apply (Z.log2_le_pow2 dist 2); [lia | change (2 ^ 2) with 4; lia]. }
    assert (Hi32 : i < 32). { apply (Z.log2_lt_pow2 dist 32); lia. }
    clearbody i.
    set (P := 2 ^ (i - 1)).
    assert (HPpos : 0 < P) by (apply pow2_pos; lia).
    assert (HPi : 2 ^ i = 2 * P). { unfold P. rewrite <- Z.pow_succ_r by lia. f_equal; lia. }
    assert (HPs : 2 ^ Z.succ i = 4 * P). { rewrite Z.pow_succ_r by lia. lia. }
    rewrite HPi, HPs in HL.
    rewrite land_1_mod2, Z.shiftr_div_pow2 by lia. fold P.
    assert (Hq : 2 <= dist / P < 4).
    { split; [apply Z.div_le_lower_bound; lia | apply Z.div_lt_upper_bound; lia]. }
    assert (Hqr : P * (dist / P) <= dist < P * (dist / P) + P).
    { pose proof (Z.div_mod dist P ltac:(lia)) as E.
      pose proof (Z.mod_pos_bound dist P HPpos) as B. lia. }
    set (q := dist / P) in *. clearbody q.
    assert (Hs2 : (2 * i + q mod 2) / 2 = i) by (Z.div_mod_to_equations; lia).
    assert (Hm2 : (2 * i + q mod 2) mod 2 = q - 2) by (Z.div_mod_to_equations; lia).
    rewrite Hs2, Hm2. fold P. clearbody P.
    split; [(Z.div_mod_to_equations; lia)|]. split; [lia|]. intros _. split; [lia|].
    assert (q = 2 \/ q = 3) as [-> | ->] by lia; lia.
Qed.

Lemma lor_2_bit b : b = 0 \/ b = 1 -> Z.lor 2 b = 2 + b.
Proof. intros [-> | ->]; reflexivity. Qed.

Lemma land_15_mod16 x : Z.land x 15 = x mod 16.
Proof. apply (Z.land_ones x 4). lia. Qed.

Lemma pow2_le_mono a b : 0 <= a <= b -> 2 ^ a <= 2 ^ b.
Proof. intros H. apply Z.pow_le_mono_r; lia. Qed.

(* footer of a distance with slot 4..13: reverse bit tree of all footer bits *)
Lemma footer_small B fb hi dr : 0 <= fb -> 0 <= dr < 2 ^ fb ->
  reads (bind x <- decode_reverse_bit_tree B (Z.to_nat fb); Ret (Z.lor (hi * 2 ^ fb) x))
        (enc_rev_bittree B (Z.to_nat fb) dr 1) (hi * 2 ^ fb + dr).
Proof.
  intros Hfb Hdr. apply (reads_map _ _ _ dr); [|apply lor_disjoint_add'; assumption].
  apply rev_bittree_roundtrip. rewrite Z2Nat.id by assumption. assumption.
Qed.

(* footer of a distance with slot >= 14: direct bits, then 4 aligned bits in a reverse bit tree *)
Lemma footer_large fb hi dr : 5 <= fb <= 30 -> 0 <= dr < 2 ^ fb ->
  reads (Direct (Z.to_nat (fb - 4)) (fun v =>
           bind x <- decode_reverse_bit_tree K_DIST_ALIGN 4;
           Ret (Z.lor (Z.lor (hi * 2 ^ fb) (wrap32 (Z.shiftl v 4))) x)))
        (EDirect (Z.to_nat (fb - 4)) (Z.shiftr dr 4) :: enc_rev_bittree K_DIST_ALIGN 4 (Z.land dr 15) 1)
        (hi * 2 ^ fb + dr).
Proof.
  intros Hfb Hdr.
  assert (E : 2 ^ fb = 2 ^ (fb - 4) * 2 ^ 4) by (rewrite <- Z.pow_add_r by lia; f_equal; lia).
  pose proof (pow2_pos (fb - 4) ltac:(lia)) as HP.
  pose proof (pow2_le_mono fb 30 ltac:(lia)) as H30. change (2 ^ 30) with 1073741824 in H30.
  rewrite land_15_mod16, (Z.shiftr_div_pow2 dr 4) by lia. change (2 ^ 4) with 16 in *.
  apply reads_direct.
  { unfold ev_ok. rewrite shiftl_1_pow2, Z2Nat.id by lia.
    repeat (apply andb_true_iff; split).
    - apply Nat.leb_le. lia.
    - apply Nat.leb_le. lia.
    - apply Z.leb_le. apply Z.div_pos; lia.
    - apply Z.ltb_lt. apply Z.div_lt_upper_bound; lia. }
  apply (reads_map _ _ _ (dr mod 16));
    [apply rev_bittree_roundtrip; change (2 ^ Z.of_nat 4) with 16; (Z.div_mod_to_equations; lia)|].
  rewrite Z.shiftl_mul_pow2 by lia. change (2 ^ 4) with 16.
  rewrite wrap32_small by (Z.div_mod_to_equations; lia).
  rewrite (lor_disjoint_add' (dr / 16 * 16) hi fb) by (Z.div_mod_to_equations; lia).
  replace (hi * 2 ^ fb + dr / 16 * 16) with ((hi * 2 ^ (fb - 4) + dr / 16) * 2 ^ 4)
    by (rewrite E; change (2 ^ 4) with 16; ring).
  rewrite lor_disjoint_add' by (change (2 ^ 4) with 16; (Z.div_mod_to_equations; lia)).
  rewrite E. change (2 ^ 4) with 16.
  pose proof (Z.div_mod dr 16 ltac:(lia)) as DM.
  transitivity (hi * (2 ^ (fb - 4) * 16) + (16 * (dr / 16) + dr mod 16)); [ring | rewrite <- DM; reflexivity].
Qed.

Lemma dist_footer_facts dist : 4 <= dist < 2 ^ 32 ->
  let slot := get_dist_slot dist in
  let fb := slot / 2 - 1 in
  let hi := 2 + slot mod 2 in
  4 <= slot < 64 /\ 1 <= fb <= 30 /\
  Z.shiftr slot 1 - 1 = fb /\
  wrap32 (Z.shiftl (Z.lor 2 (Z.land slot 1)) fb) = hi * 2 ^ fb /\
  wrap32 (dist - hi * 2 ^ fb) = dist - hi * 2 ^ fb /\
  0 <= dist - hi * 2 ^ fb < 2 ^ fb /\
  (slot < 14 -> fb <= 5) /\ (14 <= slot -> 6 <= fb).
Proof.
  intros Hd. cbv zeta.
  destruct (dist_slot_spec dist ltac:(lia)) as (Hs & _ & Hhi). specialize (Hhi ltac:(lia)).
  destruct Hhi as (Hfb & Hlo).
  set (slot := get_dist_slot dist) in *. clearbody slot.
  set (fb := slot / 2 - 1) in *.
  assert (Hm : slot mod 2 = 0 \/ slot mod 2 = 1) by (Z.div_mod_to_equations; lia).
  assert (Hfbd : fb = slot / 2 - 1) by reflexivity. clearbody fb.
  pose proof (pow2_pos fb ltac:(lia)) as HP.
  pose proof (pow2_le_mono fb 30 ltac:(lia)) as H30. change (2 ^ 30) with 1073741824 in H30.
  split; [(Z.div_mod_to_equations; lia)|]. split; [lia|].
  split; [rewrite shiftr1_div2; lia|].
  rewrite land_1_mod2, lor_2_bit by assumption.
  rewrite Z.shiftl_mul_pow2 by lia.
  split; [apply wrap32_small; destruct Hm as [Hm | Hm]; rewrite Hm in *; lia|].
  split; [apply wrap32_small; destruct Hm as [Hm | Hm]; rewrite Hm in *; lia|].
  split; [destruct Hm as [Hm | Hm]; rewrite Hm in *; lia|].
  split; (Z.div_mod_to_equations; lia).
Qed.

Theorem match_reads c ps dist len evs c' :
  0 <= dist < 2 ^ 32 -> enc_match_events c ps dist len = Ok (evs, c') ->
  reads (decode_match c ps) evs (c', len).
Proof.
  intros Hd H. unfold enc_match_events in H. unfold decode_match. cbv zeta in H |- *.
  apply obind_ok in H as (elen & EL & H). apply obind_ok in H as (dsk & KD & H).
  apply Ok_inj, pair_inj in H as [<- <-].
  apply (reads_bind _ _ _ _ len); [apply (len_reads _ _ _ _ EL)|]. cbv beta. rewrite KD. cbn [lift pbind].
  destruct (dist_slot_spec dist Hd) as (Hs & Hlow & _).
  apply (reads_bind _ _ _ _ (get_dist_slot dist));
    [apply bittree_roundtrip; change (2 ^ Z.of_nat 6) with 64; lia|]. cbv beta.
  apply (reads_map _ _ _ dist); [|reflexivity].
  destruct (Z.lt_ge_cases dist 4) as [Hd4|Hd4].
  - rewrite (Hlow Hd4). destruct (Z.ltb_spec dist 4); [|lia]. apply reads_ret. reflexivity.
  - destruct (dist_footer_facts dist ltac:(lia)) as (Hs4 & Hfb & Esh & Er & Edr & Hdr & Hsm & Hlg).
    set (slot := get_dist_slot dist) in *. clearbody slot.
    destruct (Z.ltb_spec slot 4); [lia|].
    rewrite Esh, Er, Edr.
    set (fb := slot / 2 - 1) in *. clearbody fb.
    set (hi := 2 + slot mod 2) in *. clearbody hi.
    destruct (Z.ltb_spec slot 14).
    + eapply reads_eq; [apply footer_small; lia | lia].
    + eapply reads_eq; [apply footer_large; lia | lia].
Qed.

Theorem match_roundtrip c ps dist len evs c' rest :
  0 <= dist < 2 ^ 32 -> 2 <= len <= 273 -> 0 <= ps < 16 ->
  enc_match_events c ps dist len = Ok (evs, c') ->
  run_trace (decode_match c ps) (evs ++ rest) = Some (Ok (c', len), rest).
Proof. intros Hd _ _ H. apply (match_reads _ _ _ _ _ _ Hd H). Qed.

(* Totality of the encoder functions on their intended domain (non-vacuity of the round trips) *)
Lemma enc_match_events_total c ps dist len :
  2 <= len <= 273 -> 0 <= ps < 16 -> exists evs c', enc_match_events c ps dist len = Ok (evs, c').
Proof.
  intros Hl Hp. unfold enc_match_events.
  destruct (enc_len_total K_MATCH_LEN len ps Hl Hp) as [elen ->]. cbn [obind].
  rewrite key2_ok; [cbn [obind]; eauto | | lia].
  unfold dist_state_of_len. destruct (Z.ltb_spec len 6); lia.
Qed.

Lemma enc_rep_events_total c ps idx len :
  0 <= c_state c < 12 -> 0 <= ps < 16 ->
  (idx = 0 /\ len = 1) \/ (0 <= idx <= 3 /\ 2 <= len <= 273) ->
  exists evs c', enc_rep_events c ps idx len = Ok (evs, c').
Proof.
  intros Hs Hp Hc. unfold enc_rep_events. cbv zeta.
  rewrite key1_ok by assumption. cbn [obind].
  destruct (Z.eqb_spec idx 0) as [Hi0|Hi0].
  - rewrite key2_ok by assumption. cbn [obind].
    destruct (Z.eqb_spec len 1) as [Hl1|Hl1]; [eauto|].
    destruct (enc_len_total K_REP_LEN len ps ltac:(lia) Hp) as [elen ->]. cbn [obind]. eauto.
  - destruct Hc as [Hc|[Hi Hl]]; [lia|].
    destruct (Z.ltb_spec idx 0); [lia|]. destruct (Z.ltb_spec 3 idx); [lia|].
    destruct (Z.eqb_spec len 1); [lia|]. cbn [orb].
    rewrite !key1_ok by assumption. cbn [obind].
    destruct (enc_len_total K_REP_LEN len ps Hl Hp) as [elen EL].
    destruct (idx =? 1); [|destruct (idx =? 2)]; rewrite EL; cbn [obind]; eauto.
Qed.

Theorem events_ok :
  (forall base len ps evs, enc_len base len ps = Ok evs -> forallb ev_ok evs = true) /\
  (forall c ps dist len evs c', 0 <= dist < 2 ^ 32 ->
     enc_match_events c ps dist len = Ok (evs, c') -> forallb ev_ok evs = true) /\
  (forall c ps idx len evs c', enc_rep_events c ps idx len = Ok (evs, c') -> forallb ev_ok evs = true) /\
  (forall lbase mb b, forallb ev_ok (lit_events lbase mb b) = true).
Proof.
  split; [intros base len ps evs H; exact (proj1 (proj2 (len_reads _ _ _ _ H)))|].
  split; [intros c ps dist len evs c' Hd H; exact (proj1 (match_reads _ _ _ _ _ _ Hd H))|].
  split; [intros c ps idx len evs c' H; exact (proj1 (rep_reads _ _ _ _ _ _ H)) | exact lit_events_ok].
Qed.

Corollary events_ok_in evs ev : forallb ev_ok evs = true -> In ev evs -> ev_ok ev = true.
Proof. intros H. rewrite forallb_forall in H. apply H. Qed.

(* Non-vacuity: concrete instances (the LZMA1 end marker, a long distance, a rep2, a matched literal) *)
Example end_marker_instance :
  let c := mkCoder 5 7 8 9 10 3 0 2 in
  match enc_match_events c 3 4294967295 2 with
  | Ok (evs, c') =>
      run_trace (decode_match c 3) (evs ++ [EBit 0 1]) = Some (Ok (c', 2), [EBit 0 1]) /\
      c_rep0 c' = 4294967295 /\ length evs = 15%nat
  | _ => False
  end.
Proof. vm_compute. repeat split. Qed.

Example rep2_instance :
  let c := mkCoder 8 7 8 9 10 3 0 2 in
  match enc_rep_events c 1 2 273 with
  | Ok (evs, c') =>
      run_trace (decode_rep_match c 1) (evs ++ []) = Some (Ok (c', 273), []) /\
      (c_rep0 c', c_rep1 c', c_rep2 c', c_rep3 c') = (9, 7, 8, 10)
  | _ => False
  end.
Proof. vm_compute. repeat split. Qed.

Example matched_literal_instance :
  run_trace (lit_prog 1856 (Some 0xA5)) (lit_events 1856 (Some 0xA5) 0xA7 ++ []) = Some (Ok 0x1A7, []).
Proof. vm_compute. reflexivity. Qed.

Print Assumptions run_trace_bind.
Print Assumptions run_trace_consumed.
Print Assumptions state_range.
Print Assumptions bittree_roundtrip.
Print Assumptions rev_bittree_roundtrip.
Print Assumptions len_roundtrip.
Print Assumptions lit_roundtrip.
Print Assumptions rep_roundtrip.
Print Assumptions dist_slot_spec.
Print Assumptions match_roundtrip.
Print Assumptions events_ok.
