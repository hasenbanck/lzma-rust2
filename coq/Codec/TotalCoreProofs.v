(* Codec/TotalCoreProofs.v — what the totality proofs of the two readers (Total1Proofs.v: LZMAReader,
   Total2Proofs.v: LZMA2Reader) share.
   (1) A potential of the range decoder that every decoded bit lowers as long as no byte is fetched
       past the end of the source: 400 * (bytes left) + lev(range), lev = how many bits the range can
       still take before a normalisation must fetch a byte (each bit multiplies the range by at most
       2017/2048, so at most 364 of them between two fetches).
   (2) Bit counting for decision programs: [pbits] (implied by [pcost] of LzmaTotalProofs.v, which
       also gives the cost of one LZMA symbol) and run_rc_pbits: a run that fetched nothing past
       the end of the source has lowered the potential by the bits it asked for.
   (3) lzma_decode_post: LZMADecoder::decode from a consistent state over ANY input returns, and
       everything the readers' invariants need holds again afterwards (window relation, byte
       history, coder, pending copy, tables, registers, progress, potential).
       lzma_decode_dry: if the source ran dry while the first k bytes of a call were produced, the
       whole call ends with rd_over > 0.
   (4) A generic read-history loop and its termination bound (both readers' read_all are instances).
   The definitions here are proof devices, not models of code. *)
From LzVerif Require Import Base.Bytes Codec.Store Codec.Range Codec.ProbProofs Codec.RangeArithProofs
  Codec.LzWindow Codec.LzmaDec Codec.LzmaAbs Codec.LzWindowProofs Codec.ProgProofs Codec.LzmaAbsProofs
  Codec.RangeNoWrapProofs Codec.LzmaReadProofs Codec.LzmaTotalProofs Codec.TruncProofs.

Definition gstep (r : Z) : Z := r * 2017 / 2048 + 31.

Fixpoint lev_aux (f : nat) (r : Z) : Z :=
  match f with
  | O => 0
  | S k => if r <? P2_24 then 0 else 1 + lev_aux k (gstep r)
  end.

Definition LEVF : nat := 400.
Definition lev (r : Z) : Z := lev_aux LEVF r.
Definition MU_BYTE : Z := 400.
Definition mu (d : rdec) : Z := MU_BYTE * zlen (rd_in d) + lev (rd_range d).

Lemma lev_aux_S k r : lev_aux (S k) r = if r <? P2_24 then 0 else 1 + lev_aux k (gstep r).
Proof. reflexivity. Qed.

Lemma lev_aux_range f : forall r, 0 <= lev_aux f r <= Z.of_nat f.
Proof.
  induction f as [|k IH]; intros r; cbn [lev_aux]; [lia|].
  destruct (r <? P2_24); [lia|]. specialize (IH (gstep r)). lia.
Qed.

Lemma gstep_mono r r' : r' <= r -> gstep r' <= gstep r.
Proof. intros H. unfold gstep. (Z.div_mod_to_equations; lia). Qed.

Lemma lev_aux_mono f : forall r r', r' <= r -> lev_aux f r' <= lev_aux f r.
Proof.
  induction f as [|k IH]; intros r r' H; cbn [lev_aux]; [lia|].
  destruct (Z.ltb_spec r' P2_24) as [Hs'|Hb']; destruct (Z.ltb_spec r P2_24) as [Hs|Hb].
  - lia.
  - pose proof (lev_aux_range k (gstep r)). lia.
  - lia.
  - specialize (IH _ _ (gstep_mono _ _ H)). lia.
Qed.

Lemma lev_aux_stable f : forall r, lev_aux f r < Z.of_nat f -> lev_aux (S f) r = lev_aux f r.
Proof.
  induction f as [|k IH]; intros r H.
  - cbn [lev_aux] in H. lia.
  - change (lev_aux (S (S k)) r) with (if r <? P2_24 then 0 else 1 + lev_aux (S k) (gstep r)).
    change (lev_aux (S k) r) with (if r <? P2_24 then 0 else 1 + lev_aux k (gstep r)) in *.
    destruct (r <? P2_24); [reflexivity|].
    rewrite IH; [reflexivity|]. lia.
Qed.

(* from the largest 32-bit range 364 bits bring the range below 2^24 *)
Lemma lev_top : lev_aux 399 4294967295 = 364.
Proof. vm_compute. reflexivity. Qed.

Lemma lev_399 r : r < 4294967296 -> lev_aux 399 r <= 364.
Proof. intros H. rewrite <- lev_top. apply lev_aux_mono. lia. Qed.

Lemma lev_unfold r : r < 4294967296 -> lev r = lev_aux 399 r.
Proof.
  intros H. unfold lev, LEVF. change 400%nat with (S 399). apply lev_aux_stable.
  pose proof (lev_399 r H). lia.
Qed.

Lemma lev_range r : r < 4294967296 -> 0 <= lev r <= 364.
Proof. intros H. rewrite (lev_unfold r H). pose proof (lev_399 r H). pose proof (lev_aux_range 399 r). lia. Qed.

Lemma lev_small r : r < P2_24 -> lev r = 0.
Proof. intros H. unfold lev, LEVF. change 400%nat with (S 399). rewrite lev_aux_S. destruct (Z.ltb_spec r P2_24); [reflexivity | lia]. Qed.

(* one bit: the range shrinks to at most gstep of itself, the level drops *)
Lemma lev_step r r' : P2_24 <= r < 4294967296 -> r' <= gstep r -> lev r' + 1 <= lev r.
Proof.
  intros Hr Hr'. unfold P2_24 in Hr.
  assert (Hg : gstep r < 4294967296) by (unfold gstep; (Z.div_mod_to_equations; lia)).
  assert (Hr'32 : r' < 4294967296) by lia.
  rewrite (lev_unfold r') by assumption.
  unfold lev, LEVF. change 400%nat with (S 399). rewrite (lev_aux_S 399 r).
  destruct (Z.ltb_spec r P2_24) as [Hlt|_]; [unfold P2_24 in Hlt; lia|].
  pose proof (lev_aux_mono 399 _ _ Hr'). lia.
Qed.

Lemma mu_nonneg d : rd_range d < 4294967296 -> 0 <= mu d.
Proof. intros H. unfold mu, MU_BYTE. pose proof (lev_range _ H). pose proof (zlen_nonneg (rd_in d)). lia. Qed.

(* normalisation that does not run past the end of the source does not raise the potential *)
Lemma normalize_mu d : rdec_wf d -> 0 <= rd_over d -> rd_over (rdec_normalize d) = 0 ->
  mu (rdec_normalize d) <= mu d /\ rd_over d = 0 /\
  (rd_range d < P2_24 -> MU_BYTE * zlen (rd_in (rdec_normalize d)) + 400 <= mu d) /\
  (P2_24 <= rd_range d -> rdec_normalize d = d).
Proof.
  intros Hwf Ho Hn. unfold rdec_wf in Hwf. unfold rdec_normalize in *.
  destruct (Z.ltb_spec (rd_range d) P2_24) as [Hlt|Hge].
  - unfold rdec_read in *. destruct (rd_in d) as [|b tl] eqn:Ein; cbn [rd_over rd_in rd_range] in *; [lia|].
    unfold mu, MU_BYTE; cbn [rd_in rd_range]. rewrite Ein, zlen_cons.
    pose proof (lev_range (wrap32 (rd_range d * 256))) as Hl.
    assert (Hw : wrap32 (rd_range d * 256) < 4294967296) by (unfold wrap32; (Z.div_mod_to_equations; lia)).
    specialize (Hl Hw). pose proof (lev_small _ Hlt) as Hs. rewrite Hs.
    split; [lia|]. split; [lia|]. split; [intros _; lia | intros Hx; lia].
  - split; [lia|]. split; [lia|]. split; [intros Hlt; lia | reflexivity].
Qed.

(* the potential after a step that leaves range r' (the other registers do not matter) *)
Lemma mu_after_step d d1 r' : rdec_wf d -> 0 <= rd_over d -> d1 = rdec_normalize d -> rd_over d1 = 0 ->
  r' < 4294967296 -> (P2_24 <= rd_range d1 -> r' <= gstep (rd_range d1)) ->
  MU_BYTE * zlen (rd_in d1) + lev r' + 1 <= mu d /\ rd_over d = 0.
Proof.
  intros Hwf Ho Hd1 Ho1 Hr' Hbig. subst d1.
  destruct (normalize_mu d Hwf Ho Ho1) as (Hmu & Hod & Hsm & Hsame).
  split; [|exact Hod].
  pose proof (rdec_normalize_range d Hwf) as Hwf1.
  pose proof (lev_range r' Hr') as Hl'.
  destruct (Z.lt_ge_cases (rd_range d) P2_24) as [Hdl|Hdg].
  - specialize (Hsm Hdl). lia.
  - rewrite (Hsame Hdg) in *.
    pose proof (lev_step (rd_range d) r' ltac:(unfold rdec_wf in Hwf; lia) (Hbig Hdg)). unfold mu. lia.
Qed.

Lemma decode_bit_mu d t k b d' t' : probs_ok t -> rdec_wf d -> 0 <= rd_over d ->
  decode_bit d t k = Some (b, d', t') -> rd_over d' = 0 -> mu d' + 1 <= mu d /\ rd_over d = 0.
Proof.
  intros Ht Hwf Ho H Ho'. unfold decode_bit in H.
  pose proof (probs_ok_get t k Ht) as Hp. apply prob_ok_iff in Hp.
  remember (rdec_normalize d) as d1 eqn:Hd1.
  assert (Hwf1 : rd_range d1 < 4294967296) by (subst d1; apply rdec_normalize_range; exact Hwf).
  destruct (P2_32 <=? Z.shiftr (rd_range d1) 11 * prob_get t k) eqn:E; [discriminate|].
  apply Z.leb_gt in E. unfold P2_32 in E.
  rewrite shiftr_div in * by lia. change (2 ^ 11) with 2048 in *.
  set (p := prob_get t k) in *. set (r := rd_range d1) in *.
  set (q := r / 2048) in *.
  assert (Ho1 : rd_over d1 = 0).
  { destruct (rd_code d1 <? q * p); inversion H; subst; cbn [rd_over] in Ho'; exact Ho'. }
  assert (Hq : q * 2048 <= r < q * 2048 + 2048) by (unfold q; (Z.div_mod_to_equations; lia)).
  assert (Hgs : P2_24 <= r -> 2017 * q + 2047 - 30 <= gstep r + 2047 - 30 /\ 0 <= q).
  { intros Hb. unfold gstep, P2_24 in *. (Z.div_mod_to_equations; lia). }
  destruct (rd_code d1 <? q * p) eqn:Ec; inversion H; subst b d' t'; clear H.
  - unfold mu at 1; cbn [rd_in rd_range].
    apply (mu_after_step d d1 (q * p) Hwf Ho Hd1 Ho1); [lia|].
    intros Hb. fold r in Hb |- *. destruct (Hgs Hb) as (_ & Hq0). unfold gstep, P2_24 in *. nia.
  - unfold mu at 1; cbn [rd_in rd_range].
    pose proof (wrap32_range (r - q * p)) as Hw.
    apply (mu_after_step d d1 (wrap32 (r - q * p)) Hwf Ho Hd1 Ho1); [lia|].
    intros Hb. fold r in Hb |- *. destruct (Hgs Hb) as (_ & Hq0).
    assert (Hqp : 31 * q <= q * p <= 2017 * q) by nia.
    assert (Hwe : wrap32 (r - q * p) = r - q * p) by (unfold wrap32; apply Z.mod_small; lia).
    rewrite Hwe. unfold gstep, P2_24 in *. (Z.div_mod_to_equations; lia).
Qed.

Lemma decode_direct_bits_mu n : forall d acc v d', rdec_wf d -> 0 <= rd_over d ->
  decode_direct_bits d n acc = (v, d') -> rd_over d' = 0 -> mu d' + Z.of_nat n <= mu d /\ rd_over d = 0.
Proof.
  induction n as [|m IH]; intros d acc v d' Hwf Ho H Ho'; cbn [decode_direct_bits] in H.
  - inversion H; subst. split; lia.
  - remember (rdec_normalize d) as d1 eqn:Hd1.
    assert (Hwf1 : rd_range d1 < 4294967296) by (subst d1; apply rdec_normalize_range; exact Hwf).
    assert (Hom : rd_over d <= rd_over d1) by (subst d1; apply normalize_over_mono).
    match type of H with decode_direct_bits ?dn _ _ = _ => set (d2 := dn) in * end.
    assert (Hr2 : rd_range d2 = rd_range d1 / 2) by (unfold d2; cbn [rd_range]; rewrite shiftr_div by lia; reflexivity).
    assert (Hwf2 : rdec_wf d2).
    { unfold rdec_wf. rewrite Hr2. destruct (Z.lt_ge_cases (rd_range d1) 0); (Z.div_mod_to_equations; lia). }
    assert (Ho2 : 0 <= rd_over d2) by (unfold d2; cbn [rd_over]; lia).
    destruct (IH d2 _ v d' Hwf2 Ho2 H Ho') as (Hmu2 & Ho2z).
    assert (Ho1 : rd_over d1 = 0) by (unfold d2 in Ho2z; cbn [rd_over] in Ho2z; exact Ho2z).
    assert (Hst : MU_BYTE * zlen (rd_in d1) + lev (rd_range d2) + 1 <= mu d /\ rd_over d = 0).
    { apply (mu_after_step d d1 (rd_range d2) Hwf Ho Hd1 Ho1); [apply Hwf2|].
      intros Hb. rewrite Hr2. unfold gstep, P2_24 in *. (Z.div_mod_to_equations; lia). }
    destruct Hst as (Hst & Hod). split; [|exact Hod].
    assert (Hin : mu d2 = MU_BYTE * zlen (rd_in d1) + lev (rd_range d2)) by (unfold mu, d2; cbn [rd_in rd_range]; reflexivity).
    lia.
Qed.

Inductive pbits {A : Type} (Q : A -> Z -> Prop) : prog A -> Z -> Prop :=
| pb_ret a k : Q a k -> pbits Q (Ret a) k
| pb_fail e k : pbits Q (Fail e) k
| pb_bit key f k : (forall b, bit_ok b -> pbits Q (f b) (k + 1)) -> pbits Q (Bit key f) k
| pb_direct n f k : (forall v, direct_ok n v -> pbits Q (f v) (k + Z.of_nat n)) -> pbits Q (Direct n f) k.

Lemma pcost_pbits {A} (Q : A -> Z -> Prop) p k : pcost Q p k -> pbits Q p k.
Proof. induction 1; constructor; auto. Qed.

Theorem run_rc_pbits {A} (Q : A -> Z -> Prop) (p : prog A) k :
  pbits Q p k -> forall d t a d' t', probs_ok t -> rdec_wf d -> 0 <= rd_over d ->
  run_rc p d t = Ok (a, d', t') -> rd_over d' = 0 ->
  exists j, Q a j /\ mu d' + (j - k) <= mu d.
Proof.
  induction 1 as [a0 k Ha|e k|key f k Hf IH|n f k Hf IH]; intros d t a d' t' Ht Hwf Ho Hr Ho'; cbn [run_rc] in Hr.
  - inversion Hr; subst. exists k. split; [exact Ha | lia].
  - destruct e; discriminate.
  - destruct (decode_bit d t key) as [[[b d1] t1]|] eqn:E; [|discriminate].
    destruct (decode_bit_wf _ _ _ _ _ _ Ht Hwf E) as (Hwf1 & Ht1).
    pose proof (decode_bit_over_mono _ _ _ _ _ _ E) as Hom.
    pose proof (run_rc_over_mono _ _ _ _ _ _ Hr) as Hom2.
    assert (Ho1 : rd_over d1 = 0) by lia.
    destruct (decode_bit_mu _ _ _ _ _ _ Ht Hwf Ho E Ho1) as (Hmu & _).
    destruct (IH b (decode_bit_bit _ _ _ _ _ _ E) d1 t1 a d' t' Ht1 Hwf1 ltac:(lia) Hr Ho') as (j & Hq & Hj).
    exists j. split; [exact Hq | lia].
  - destruct (decode_direct_bits d n 0) as [v d1] eqn:E.
    pose proof (decode_direct_bits_wf _ _ _ _ _ Hwf E) as Hwf1.
    pose proof (direct_bits_over_mono _ _ _ _ _ E) as Hom.
    pose proof (run_rc_over_mono _ _ _ _ _ _ Hr) as Hom2.
    assert (Ho1 : rd_over d1 = 0) by lia.
    destruct (decode_direct_bits_mu _ _ _ _ _ Hwf Ho E Ho1) as (Hmu & _).
    destruct (IH v (decode_direct_bits_ok _ _ _ _ E) d1 t a d' t' Ht Hwf1 ltac:(lia) Hr Ho') as (j & Hq & Hj).
    exists j. split; [exact Hq | lia].
Qed.

Lemma normalize_in_len d : (length (rd_in (rdec_normalize d)) <= length (rd_in d))%nat.
Proof.
  unfold rdec_normalize. destruct (rd_range d <? P2_24); [|lia].
  unfold rdec_read. destruct (rd_in d) as [|b tl]; cbn [rd_in length]; lia.
Qed.

Lemma decode_bit_in_len d t k b d1 t1 : decode_bit d t k = Some (b, d1, t1) -> (length (rd_in d1) <= length (rd_in d))%nat.
Proof.
  unfold decode_bit. intros H. pose proof (normalize_in_len d) as Hn.
  destruct (P2_32 <=? _); [discriminate|].
  destruct (rd_code (rdec_normalize d) <? _); inversion H; subst; cbn [rd_in]; exact Hn.
Qed.

Lemma direct_bits_in_len n : forall d acc v d1, decode_direct_bits d n acc = (v, d1) -> (length (rd_in d1) <= length (rd_in d))%nat.
Proof.
  induction n as [|m IH]; intros d acc v d1 H; cbn [decode_direct_bits] in H.
  - inversion H; subst. lia.
  - apply IH in H. cbn [rd_in] in H. pose proof (normalize_in_len d). lia.
Qed.

Lemma run_rc_in_len {A} (p : prog A) : forall d t a d1 t1, run_rc p d t = Ok (a, d1, t1) ->
  (length (rd_in d1) <= length (rd_in d))%nat.
Proof.
  induction p as [a0|e|key f IH|n f IH]; intros d t a d1 t1 H; cbn [run_rc] in H.
  - inversion H; subst. lia.
  - destruct e; discriminate.
  - destruct (decode_bit d t key) as [[[b d2] t2]|] eqn:E; [|discriminate].
    apply decode_bit_in_len in E. apply IH in H. lia.
  - destruct (decode_direct_bits d n 0) as [v d2] eqn:E.
    apply direct_bits_in_len in E. apply IH in H. lia.
Qed.

Theorem lzma_decode_post : forall c w hist d t,
  Rel w hist -> hist_bytes hist -> coder_ok c (w_full w) -> w_pos w <= w_limit w ->
  (0 < w_pending_len w -> 0 <= w_pending_dist w < w_full w) ->
  probs_ok t -> rdec_wf d ->
  exists c1 w1 st d1 t1 hist1,
    lzma_decode c w d t = Ok (c1, w1, st, d1, t1) /\
    Rel w1 hist1 /\ hist_bytes hist1 /\ probs_ok t1 /\ rdec_wf d1 /\
    w_size w1 = w_size w /\ w_limit w1 = w_limit w /\ w_start w1 = w_start w /\
    w_pos w <= w_pos w1 <= w_limit w /\
    (0 < w_pending_len w1 -> 0 <= w_pending_dist w1 < w_full w1) /\
    ((st = Ok tt /\ coder_ok c1 (w_full w1) /\ w_pos w1 = w_limit w) \/ exists e, st = Err e) /\
    (length (rd_in d1) <= length (rd_in d))%nat /\ rd_over d <= rd_over d1 /\
    (0 <= rd_over d -> rd_over d1 = 0 ->
       20 * mu d1 + w_pending_len w1 + (w_pos w1 - w_pos w) <= 20 * mu d + w_pending_len w).
Proof.
  intros c w hist d t R Hh Hc Hpl Hpd Ht Hd.
  set (n := Z.to_nat (w_limit w - w_pos w)).
  set (s0 := mkAstate c hist (w_size w) (w_pending_len w) (w_pending_dist w)).
  pose proof (lzma_decode_abs c w hist d t n R Hc Hpl ltac:(unfold n; lia) Hpd) as HA. fold s0 in HA.
  assert (Hcost : pcost (acost s0 0) (aproduce n s0) 0).
  { apply aproduce_cost; [|exact (r_pending _ _ R)]. destruct Hc as (Hpar & Hst & _). unfold asafe, s0; cbn [a_coder a_hist]. auto. }
  destruct (run_rc_safe _ (pcost_psafe _ _ _ Hcost) d t Ht Hd) as ([s2 st2] & d2 & t2 & Hrun & Hd2 & Ht2).
  rewrite Hrun in HA. destruct HA as (w1 & Hdec & Hrel).
  pose proof (run_rc_pall _ _ (pall_and _ _ _ (pcost_post _ _ _ Hcost) (aproduce_grows n s0)) _ _ _ _ _ Hrun)
    as ((j0 & Hsafe2 & Hstat & _) & Hgrow).
  unfold grows in Hgrow. cbn [fst snd] in Hstat, Hsafe2, Hgrow.
  unfold loop_rel in Hrel. destruct Hrel as (_ & _ & R1 & E4 & E5 & E6 & E7 & E8 & E9 & E10 & E11 & E12).
  set (dfin := match st2 with Ok _ => rdec_normalize d2 | _ => d2 end) in *.
  pose proof (run_rc_over_mono _ _ _ _ _ _ Hrun) as Hov.
  pose proof (run_rc_in_len _ _ _ _ _ _ Hrun) as Hin.
  exists (a_coder s2), w1, st2, dfin, t2, (a_hist s2).
  split; [exact Hdec|]. split; [exact R1|]. split; [apply Hsafe2|]. split; [exact Ht2|].
  split.
  { unfold dfin. destruct st2; try exact Hd2. apply rdec_normalize_range. exact Hd2. }
  split; [exact E5|]. split; [exact E6|]. split; [exact E7|]. split; [exact E8|].
  split.
  { intros Hpos. rewrite E10 in Hpos. destruct (E12 Hpos) as (Hpd1 & Hpd2). rewrite Hpd1. exact Hpd2. }
  split.
  { destruct Hstat as [Hok|(e & He)]; [|right; exists e; exact He]. left.
    destruct (E11 Hok) as (Hc1 & _). split; [exact Hok|]. split; [exact Hc1|].
    destruct Hgrow as (_ & Hg & _). destruct (Hg Hok) as (new & Hnew & Hlen).
    unfold s0 in Hnew; cbn [a_hist] in Hnew. rewrite Hnew, zlen_app in E9. unfold zlen in E9 at 1. rewrite Hlen in E9.
    unfold n in E9. lia. }
  split.
  { unfold dfin. destruct st2; try exact Hin. pose proof (normalize_in_len d2). lia. }
  split.
  { unfold dfin. destruct st2; try exact Hov. pose proof (normalize_over_mono d2). lia. }
  intros Ho Ho1.
  assert (Ho2 : rd_over d2 = 0).
  { unfold dfin in Ho1. destruct st2; try lia. pose proof (normalize_over_mono d2). lia. }
  destruct (run_rc_pbits _ _ 0 (pcost_pbits _ _ _ Hcost) d t _ _ _ Ht Hd Ho Hrun Ho2) as (j & (_ & _ & Hq1 & Hq2) & Hj).
  cbn [fst] in Hq1, Hq2. unfold s0 in Hq2; cbn [a_hist a_pend_len] in Hq2.
  assert (Hfin : mu dfin <= mu d2).
  { unfold dfin. destruct st2; try lia. apply (normalize_mu d2 Hd2 ltac:(lia)). unfold dfin in Ho1. exact Ho1. }
  lia.
Qed.

(* Once the source has run dry while the first k bytes were produced, it stays dry however many
   bytes are asked for: producing n >= k bytes is producing k and going on from there
   (aproduce_split), and the count of bytes fetched past the end never falls. *)
Lemma lzma_decode_dry c w hist d t k s2 st2 d2 t2 :
  Rel w hist -> hist_bytes hist -> coder_ok c (w_full w) -> w_pos w <= w_limit w ->
  (0 < w_pending_len w -> 0 <= w_pending_dist w < w_full w) -> probs_ok t -> rdec_wf d ->
  (k <= Z.to_nat (w_limit w - w_pos w))%nat ->
  run_rc (aproduce k (mkAstate c hist (w_size w) (w_pending_len w) (w_pending_dist w))) d t = Ok (s2, st2, d2, t2) ->
  0 < rd_over d2 ->
  exists c1 w1 st d1 t1, lzma_decode c w d t = Ok (c1, w1, st, d1, t1) /\ 0 < rd_over d1.
Proof.
  intros R Hh Hc Hpl Hpd Ht Hd Hk Hrun Hov.
  set (n := Z.to_nat (w_limit w - w_pos w)) in *.
  set (s0 := mkAstate c hist (w_size w) (w_pending_len w) (w_pending_dist w)) in *.
  pose proof (lzma_decode_abs c w hist d t n R Hc Hpl ltac:(unfold n; lia) Hpd) as HA. fold s0 in HA.
  pose proof (run_rc_peq _ _ _ (aproduce_split k (n - k) s0) d t) as HS.
  replace (k + (n - k))%nat with n in HS by lia.
  rewrite run_rc_bind, Hrun in HS. unfold athen in HS. cbn [fst snd] in HS.
  assert (Hmono : forall r d3 t3, run_rc (match st2 with Ok _ => aproduce (n - k) s2 | _ => Ret (s2, st2) end) d2 t2
                                  = Ok (r, d3, t3) -> 0 < rd_over d3).
  { intros r d3 t3 E. pose proof (run_rc_over_mono _ _ _ _ _ _ E). lia. }
  destruct (lzma_decode_post c w hist d t R Hh Hc Hpl Hpd Ht Hd) as (c1 & w1 & st & d1 & t1 & _ & Hdec & _).
  exists c1, w1, st, d1, t1. split; [exact Hdec|].
  destruct (run_rc (aproduce n s0) d t) as [[[[s3 st3] d3] t3]|e|e|]; [|rewrite HA in Hdec; discriminate..].
  destruct HA as (w1' & Hdec' & _). rewrite Hdec' in Hdec.
  assert (Hd1 : d1 = match st3 with Ok _ => rdec_normalize d3 | _ => d3 end) by congruence.
  destruct (run_rc (match st2 with Ok _ => aproduce (n - k) s2 | _ => Ret (s2, st2) end) d2 t2)
    as [[[r d4] t4]|e|e|] eqn:E; try contradiction.
  destruct HS as (_ & -> & _). specialize (Hmono _ _ _ eq_refl).
  rewrite Hd1. destruct st3; try exact Hmono. pose proof (normalize_over_mono d4). lia.
Qed.

(* read histories: destination sizes cycled until a non-empty buffer gets nothing *)
Inductive gend := GEnd | GErr (e : Z) | GPanic (e : Z) | GFuel.

Fixpoint lead0 (l : list Z) : Z :=
  match l with
  | [] => 0
  | x :: r => if 0 <? x then 0 else 1 + lead0 r
  end.

(* read calls until the next one with a non-empty buffer *)
Definition rdist (cur all : list Z) : Z := if lead0 cur <? zlen cur then lead0 cur else zlen cur + lead0 all.

Lemma lead0_range l : 0 <= lead0 l <= zlen l.
Proof.
  induction l as [|x r IH]; cbn [lead0]; [unfold zlen; cbn; lia|].
  rewrite zlen_cons. destruct (0 <? x); lia.
Qed.

Section GenReadAll.
  Variable St : Type.
  Variable step : St -> Z -> outcome (list Z * St).

  (* bytes of the successful calls, the state (after the last successful call; at an error: the
     state the failing call found) and how the history ended *)
  Fixpoint g_obs (fuel : nat) (s : St) (cur all : list Z) (acc : list Z) : list Z * St * gend :=
    match fuel with
    | O => (frev acc, s, GFuel)
    | S f =>
        let '(sz, rest) := match cur with [] => (4096, all) | x :: r => (x, r) end in
        match step s sz with
        | Ok (out, s1) =>
            if (0 <? sz) && (zlen out =? 0) then (frev acc, s1, GEnd)
            else g_obs f s1 (match rest with [] => all | _ => rest end) all (rev_append out acc)
        | Err e => (frev acc, s, GErr e)
        | Panic e => (frev acc, s, GPanic e)
        | Fuel => (frev acc, s, GFuel)
        end
    end.

  Variable I : St -> Prop.
  Variable pot : St -> Z.
  Hypothesis pot_nonneg : forall s, I s -> 0 <= pot s.
  Hypothesis step_zero : forall s n, n <= 0 -> step s n = Ok ([], s).
  Hypothesis step_pos : forall s n, I s -> 0 < n ->
    (exists e, step s n = Err e) \/
    exists out s1, step s n = Ok (out, s1) /\ I s1 /\ zlen out + pot s1 <= pot s.

  Definition g_done (r : list Z * St * gend) (acc : list Z) (s : St) : Prop :=
    exists new s', fst (fst r) = rev acc ++ new /\ snd (fst r) = s' /\ I s' /\ zlen new + pot s' <= pot s /\
                   (snd r = GEnd \/ exists e, snd r = GErr e).

  Lemma g_obs_total_aux M : forall fuel s cur all acc, I s -> (all = [] \/ lead0 all < zlen all) ->
    zlen cur <= M -> zlen all <= M ->
    pot s * (M + zlen all + 1) + rdist cur all + 1 <= Z.of_nat fuel ->
    g_done (g_obs fuel s cur all acc) acc s.
  Proof.
    induction fuel as [|f IH]; intros s cur all acc HI Hall Hcur HallM Hfuel.
    { exfalso. pose proof (pot_nonneg s HI). pose proof (zlen_nonneg all). pose proof (zlen_nonneg cur).
      pose proof (lead0_range cur). pose proof (lead0_range all).
      assert (0 <= rdist cur all) by (unfold rdist; destruct (lead0 cur <? zlen cur); lia). nia. }
    pose proof (pot_nonneg s HI) as Hp0. pose proof (zlen_nonneg all) as Ha0. pose proof (zlen_nonneg cur) as Hc0.
    pose proof (lead0_range all) as Hla.
    set (K := M + zlen all + 1) in *.
    (* a call with a non-empty buffer *)
    assert (Hposcall : forall sz rest, 0 < sz -> zlen rest <= M ->
              pot s * K + 1 <= Z.of_nat (S f) ->
              g_done (match step s sz with
                      | Ok (out, s1) =>
                          if (0 <? sz) && (zlen out =? 0) then (frev acc, s1, GEnd)
                          else g_obs f s1 (match rest with [] => all | _ => rest end) all (rev_append out acc)
                      | Err e => (frev acc, s, GErr e)
                      | Panic e => (frev acc, s, GPanic e)
                      | Fuel => (frev acc, s, GFuel)
                      end) acc s).
    { intros sz rest Hsz Hrest Hf.
      destruct (step_pos s sz HI Hsz) as [(e & He)|(out & s1 & Hok & HI1 & Hpot)].
      - rewrite He. exists [], s. cbn [fst snd]. rewrite frev_rev, app_nil_r.
        split; [reflexivity|]. split; [reflexivity|]. split; [exact HI|]. split; [unfold zlen; cbn; lia|]. right. eexists; reflexivity.
      - rewrite Hok. destruct (Z.ltb_spec 0 sz) as [_|]; [|lia]. cbn [andb].
        pose proof (pot_nonneg s1 HI1) as Hp1. pose proof (zlen_nonneg out) as Ho0.
        destruct (Z.eqb_spec (zlen out) 0) as [Hz|Hnz].
        + exists [], s1. cbn [fst snd]. rewrite frev_rev, app_nil_r.
          split; [reflexivity|]. split; [reflexivity|]. split; [exact HI1|]. split; [unfold zlen at 1; cbn; lia|]. left; reflexivity.
        + set (cur' := match rest with [] => all | _ => rest end).
          assert (Hc' : zlen cur' <= M) by (unfold cur'; destruct rest; assumption).
          assert (Hd' : rdist cur' all <= M + zlen all).
          { unfold rdist. pose proof (lead0_range cur'). destruct (lead0 cur' <? zlen cur'); lia. }
          assert (Hf' : pot s1 * K + rdist cur' all + 1 <= Z.of_nat f).
          { assert (pot s1 * K <= (pot s - 1) * K) by (apply Z.mul_le_mono_nonneg_r; unfold K; lia). unfold K in *. lia. }
          destruct (IH s1 cur' all (rev_append out acc) HI1 Hall Hc' HallM Hf') as (new & s' & E1 & E2 & HI' & Hpot' & Hend).
          exists (out ++ new), s'. split; [rewrite E1, rev_append_rev, rev_app_distr, rev_involutive, <- app_assoc; reflexivity|].
          split; [exact E2|]. split; [exact HI'|]. split; [rewrite zlen_app; lia | exact Hend]. }
    cbn [g_obs]. destruct cur as [|x rest].
    - apply (Hposcall 4096 all); [lia | exact HallM|].
      assert (0 <= rdist [] all) by (unfold rdist; cbn [lead0]; change (zlen (@nil Z)) with 0; cbn; lia). lia.
    - rewrite zlen_cons in Hcur. pose proof (zlen_nonneg rest) as Hr0.
      destruct (Z.lt_ge_cases 0 x) as [Hx|Hx].
      + apply (Hposcall x rest); [exact Hx | lia|].
        assert (0 <= rdist (x :: rest) all).
        { unfold rdist. pose proof (lead0_range (x :: rest)). destruct (lead0 (x :: rest) <? zlen (x :: rest)); lia. }
        lia.
      + rewrite (step_zero s x ltac:(lia)). destruct (Z.ltb_spec 0 x) as [|_]; [lia|]. cbn [andb rev_append].
        set (cur' := match rest with [] => all | _ => rest end).
        assert (Hc' : zlen cur' <= M) by (unfold cur'; destruct rest; [assumption | lia]).
        assert (Hd' : rdist cur' all + 1 = rdist (x :: rest) all).
        { unfold rdist at 2. cbn [lead0]. destruct (Z.ltb_spec 0 x) as [|_]; [lia|]. rewrite zlen_cons.
          unfold cur'. destruct rest as [|y r'].
          - change (zlen (@nil Z)) with 0. cbn [lead0]. destruct (Z.ltb_spec (1 + 0) (0 + 1)); [lia|].
            unfold rdist. destruct Hall as [->|Hall]; [reflexivity|].
            destruct (Z.ltb_spec (lead0 all) (zlen all)); lia.
          - unfold rdist. destruct (Z.ltb_spec (lead0 (y :: r')) (zlen (y :: r')));
              destruct (Z.ltb_spec (1 + lead0 (y :: r')) (zlen (y :: r') + 1)); lia. }
        destruct (IH s cur' all acc HI Hall Hc' HallM ltac:(fold K; lia)) as (new & s' & E1 & E2 & HI' & Hpot' & Hend).
        exists new, s'. auto.
  Qed.

  (* the number of read calls a history needs: a function of the sizes and of the potential *)
  Definition ra_fuel (sizes all : list Z) (p : Z) : nat :=
    Z.to_nat ((p + 1) * (zlen sizes + 2 * zlen all + 2)).

  Theorem g_obs_total : forall fuel s sizes all acc, I s -> (all = [] \/ lead0 all < zlen all) ->
    (ra_fuel sizes all (pot s) <= fuel)%nat ->
    g_done (g_obs fuel s sizes all acc) acc s.
  Proof.
    intros fuel s sizes all acc HI Hall Hfuel.
    pose proof (pot_nonneg s HI) as Hp0. pose proof (zlen_nonneg all) as Ha0. pose proof (zlen_nonneg sizes) as Hc0.
    apply (g_obs_total_aux (Z.max (zlen sizes) (zlen all))); [exact HI | exact Hall | lia | lia|].
    unfold ra_fuel in Hfuel.
    assert (Hd : rdist sizes all <= zlen sizes + zlen all).
    { unfold rdist. pose proof (lead0_range sizes). pose proof (lead0_range all). destruct (lead0 sizes <? zlen sizes); lia. }
    assert (pot s * (Z.max (zlen sizes) (zlen all) + zlen all + 1) <= pot s * (zlen sizes + 2 * zlen all + 2))
      by (apply Z.mul_le_mono_nonneg_l; lia).
    nia.
  Qed.
End GenReadAll.

Print Assumptions run_rc_pbits.
Print Assumptions lzma_decode_post.
Print Assumptions g_obs_total.
