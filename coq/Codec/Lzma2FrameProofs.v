(* Codec/Lzma2FrameProofs.v — rc.prepare of the LZMA2 reader model takes exactly compressed_size
   bytes off the source: 0x00, four code bytes, the payload (rdec_prepare_exact). *)
From LzVerif Require Import Base.Bytes Codec.Store Codec.Range Codec.LzWindow Codec.LzmaDec Codec.Lzma2Dec.

Lemma rdec_prepare_exact input csize rc rest :
  rdec_prepare input csize = Ok (rc, rest) ->
  exists b1 b2 b3 b4 payload,
    input = 0 :: b1 :: b2 :: b3 :: b4 :: payload ++ rest /\
    length payload = Z.to_nat (csize - 5) /\ 5 <= csize /\
    rd_in rc = payload /\ rd_over rc = 0 /\ rd_range rc = 4294967295 /\
    rd_code rc = ((b1 * 256 + b2) * 256 + b3) * 256 + b4.
Proof.
  unfold rdec_prepare. destruct (Z.ltb_spec csize 5) as [Hc|Hc]; [discriminate|].
  destruct input as [|b0 r0]; [discriminate|].
  destruct (Z.eqb_spec b0 0) as [->|]; cbn [negb]; [|discriminate].
  destruct r0 as [|b1 [|b2 [|b3 [|b4 r]]]]; try discriminate.
  destruct (Nat.ltb_spec (length r) (Z.to_nat (csize - 5))) as [Hl|Hl]; [discriminate|].
  intros Heq. inversion Heq; subst; clear Heq.
  exists b1, b2, b3, b4, (firstn (Z.to_nat (csize - 5)) r).
  rewrite firstn_skipn. cbn [rd_in rd_over rd_range rd_code].
  repeat split; auto. apply firstn_length_le. lia.
Qed.
