(* Codec/Store.v — functional arrays (binary tries over positive) used for the probability tables
   and for the dictionary window, with the two characterising lemmas (agss/agso, from pgss/pgso on
   the trie) every proof uses.
   A cell never written reads as the array's initial value, which the caller supplies. *)
From LzVerif Require Export Base.Bytes.

Inductive ptree : Type :=
| PLeaf
| PNode (l : ptree) (v : option Z) (r : ptree).

Fixpoint pget (t : ptree) (p : positive) : option Z :=
  match t with
  | PLeaf => None
  | PNode l v r =>
      match p with
      | xH => v
      | xO q => pget l q
      | xI q => pget r q
      end
  end.

Fixpoint pset (t : ptree) (p : positive) (x : Z) : ptree :=
  match p with
  | xH => match t with PLeaf => PNode PLeaf (Some x) PLeaf | PNode l _ r => PNode l (Some x) r end
  | xO q => match t with PLeaf => PNode (pset PLeaf q x) None PLeaf | PNode l v r => PNode (pset l q x) v r end
  | xI q => match t with PLeaf => PNode PLeaf None (pset PLeaf q x) | PNode l v r => PNode l v (pset r q x) end
  end.

(* arrays indexed by Z >= 0 *)
Definition akey (i : Z) : positive := Z.to_pos (i + 1).
Definition aget (dflt : Z) (t : ptree) (i : Z) : Z :=
  match pget t (akey i) with Some v => v | None => dflt end.
Definition aset (t : ptree) (i : Z) (x : Z) : ptree := pset t (akey i) x.

Lemma pget_leaf p : pget PLeaf p = None.
Proof. destruct p; reflexivity. Qed.

Lemma pgss t p x : pget (pset t p x) p = Some x.
Proof. revert t; induction p as [q IH|q IH|]; intros [|l v r]; cbn; auto. Qed.

Lemma pgso t p q x : p <> q -> pget (pset t p x) q = pget t q.
Proof.
  revert t q; induction p as [p IH|p IH|]; intros [|l v r] [q|q|] Hne; cbn;
    try rewrite pget_leaf; try reflexivity; try (apply IH; congruence);
    try (rewrite IH by congruence; apply pget_leaf); try congruence.
Qed.

Lemma akey_inj i j : 0 <= i -> 0 <= j -> akey i = akey j -> i = j.
Proof. unfold akey; intros Hi Hj H. apply Z2Pos.inj in H; lia. Qed.

Lemma agss d t i x : aget d (aset t i x) i = x.
Proof. unfold aget, aset. rewrite pgss. reflexivity. Qed.

Lemma agso d t i j x : 0 <= i -> 0 <= j -> i <> j -> aget d (aset t i x) j = aget d t j.
Proof.
  intros Hi Hj Hne. unfold aget, aset. rewrite pgso; [reflexivity|].
  intro H. apply akey_inj in H; lia.
Qed.
