(* Codec/Lzma1ReadProofs.v — END-TO-END LZMA1 round trip through the LZMAReader model (Lzma1.v):
   what the writer model (LzmaWriters.v, lzma1_write) produced for a validated symbol sequence is
   read back by the reader model, for EVERY sequence of destination buffer sizes, as exactly the
   data, and exactly the bytes after the stream are left in the source.
   Built on Lzma1LoopProofs.v (the read loops over a stream with known decisions), LzmaRoundtrip.v
   (symbols -> decisions -> specification decoder), RangeProofs.v (range coder), LzmaAbsProofs.v /
   LzmaReadProofs.v (decode calls over the cyclic window).
   Defines preset_hyps (side conditions for a preset dictionary) and lzma1_header. *)
From LzVerif Require Import Base.Bytes Codec.Store Codec.Range Codec.ProbProofs Codec.RangeArithProofs
  Codec.LzWindow Codec.LzmaDec Codec.LzmaEnc Codec.LzmaAbs Codec.LzWindowProofs Codec.ProgProofs Codec.LzmaAbsProofs
  Codec.RangeEncProofs Codec.RangeDecProofs Codec.RangeProofs Codec.LzmaSymProofs Codec.LzmaRoundtrip
  Codec.LzmaChunkProofs Codec.LzmaReadProofs Codec.LzmaWriters Codec.Lzma1 Codec.Lzma1LoopProofs
  Codec.Lzma2SpecProofs Codec.Lzma2BitsProofs.
From LzVerif Require Export Codec.Lzma2ReadAuxProofs.

Lemma hnth_ext : forall l1 l2, zlen l1 = zlen l2 -> (forall d, 0 <= d < zlen l1 -> hnth l1 d = hnth l2 d) -> l1 = l2.
Proof.
  induction l1 as [|x t IH]; intros [|y u] Hl Hd; rewrite ?zlen_cons in *; change (zlen (@nil Z)) with 0 in *;
    try (pose proof (zlen_nonneg t)); try (pose proof (zlen_nonneg u)); try lia; [reflexivity|].
  f_equal.
  - specialize (Hd 0 ltac:(lia)). exact Hd.
  - apply IH; [lia|]. intros d Hr. specialize (Hd (d + 1) ltac:(lia)).
    rewrite !hnth_cons_S in Hd by lia. replace (d + 1 - 1) with d in Hd by lia. exact Hd.
Qed.

Lemma hist_rel_fun h a b : hist_rel h a -> hist_rel h b -> a = b.
Proof.
  intros (La & _ & Ha) (Lb & _ & Hb). apply hnth_ext; [lia|].
  intros d Hd. rewrite Ha, Hb by lia. reflexivity.
Qed.

(* the writer model in terms of the pure decision list *)
Lemma enc_steps_syms syms : forall s s1, enc_steps s syms = Ok s1 ->
  exists evs, enc_syms (es_coder s) (es_hist s) syms = Ok (evs, es_coder s1, es_hist s1) /\
    renc_events (es_rc s) (es_probs s) evs = (es_rc s1, es_probs s1).
Proof.
  induction syms as [|x r IH]; intros s s1 H; cbn [enc_steps] in H.
  - apply Ok_inj in H. subst s1. exists []. split; reflexivity.
  - apply obind_ok in H as (s' & Hstep & H). unfold enc_step in Hstep.
    apply obind_ok in Hstep as ([[e1 c1] h1] & Hsym & Hstep).
    destruct (renc_events (es_rc s) (es_probs s) e1) as [re1 t1] eqn:Ere.
    apply Ok_inj in Hstep. subst s'.
    destruct (IH _ _ H) as (e2 & Hsyms & Hre2). cbn [es_coder es_hist es_rc es_probs] in *.
    exists (e1 ++ e2). cbn [enc_syms]. rewrite Hsym. cbn [obind fst snd]. rewrite Hsyms. cbn [obind fst snd].
    split; [reflexivity|]. rewrite renc_events_app, Ere. exact Hre2.
Qed.

Lemma enc_syms_app l1 : forall c h l2 e1 c1 h1 e2 c2 h2,
  enc_syms c h l1 = Ok (e1, c1, h1) -> enc_syms c1 h1 l2 = Ok (e2, c2, h2) ->
  enc_syms c h (l1 ++ l2) = Ok (e1 ++ e2, c2, h2).
Proof.
  induction l1 as [|x r IH]; intros c h l2 e1 c1 h1 e2 c2 h2 H1 H2; cbn [enc_syms app] in *.
  - apply Ok_inj in H1. apply pair_inj in H1 as [H1 <-]. apply pair_inj in H1 as [<- <-]. exact H2.
  - apply obind_ok in H1 as ([[ea ca] ha] & Hs & H1). cbn [fst snd] in H1.
    apply obind_ok in H1 as ([[eb cb] hb] & Hr & H1). cbn [fst snd] in H1.
    apply Ok_inj in H1. apply pair_inj in H1 as [H1 <-]. apply pair_inj in H1 as [<- <-].
    rewrite Hs. cbn [obind fst snd]. rewrite (IH _ _ _ _ _ _ _ _ _ Hr H2). cbn [obind fst snd].
    rewrite app_assoc. reflexivity.
Qed.

(* every symbol costs at least one coded bit and describes at most 273 bytes *)
Lemma enc_syms_adv r c h evs c' h' : enc_syms c h r = Ok (evs, c', h') ->
  h_pos h' - h_pos h <= 273 * events_bits evs.
Proof. intros He. apply (enc_syms_facts _ _ _ _ _ _ He). Qed.

(* the specification decoder over the decisions of the whole stream *)
Lemma coder_new_reps lc lp pb : reps_nonneg (coder_new lc lp pb).
Proof. unfold reps_nonneg, coder_new; cbn. lia. Qed.

Lemma stream_facts lc lp pb dict preset data syms (marker : bool) W E1 c1 h1 E2 :
  4096 <= dict <= 2147483648 -> bytes_ok preset = true -> bytes_ok data = true -> no_end syms ->
  let p := preset_kept dict preset in
  (dict <= W \/ zlen p + zlen data <= W) -> W <= 4294967296 ->
  enc_syms (coder_new lc lp pb) (ehist_new dict preset data) syms = Ok (E1, c1, h1) ->
  h_pos h1 = h_total h1 ->
  (if marker then exists c2 h2, enc_symbol c1 h1 SEnd = Ok (E2, c2, h2) else E2 = []) ->
  exists sN,
    run_trace (aproduce (length data) (mkAstate (coder_new lc lp pb) (rev p) W 0 0)) (E1 ++ E2)
      = Some (Ok (sN, Ok tt), E2) /\
    fin_ok data (rev p) marker sN E2 /\ h_pos h1 = zlen p + zlen data.
Proof.
  intros Hdict Hbp Hbd Hne p HW HW32 Hsyms Hall Hend.
  set (h0 := ehist_new dict preset data) in *.
  assert (Hh0 : h0 = mkEhist (array_of_list (p ++ data)) (zlen p + zlen data) 0 (zlen p) dict) by reflexivity.
  destruct (ehist_new_rel dict preset data) as (Hr0 & Hdf). fold h0 p in Hr0, Hdf.
  assert (Hdata0 : data_ok h0) by (apply data_ok_new; assumption).
  pose proof (enc_syms_mono _ _ _ _ _ _ Hsyms) as Hmono.
  destruct (aproduce_syms syms (coder_new lc lp pb) h0 (rev p) W 0 (Z.to_nat (h_pos h1 - h_pos h0)) E1 c1 h1 E2
              Hne Hr0) as (hist' & pd' & Hrun & Hr1 & Hreps1 & Hb1 & Hd1 & Ht1 & Hda1).
  { rewrite Hh0; cbn [h_dict]; lia. }
  { rewrite Hh0; cbn [h_dict h_total h_base]. lia. }
  { exact Hdata0. }
  { apply coder_new_reps. }
  { exact Hsyms. }
  { lia. }
  assert (Hn : Z.to_nat (h_pos h1 - h_pos h0) = length data).
  { rewrite Hall, Ht1, Hh0. cbn [h_total h_pos]. unfold zlen. lia. }
  rewrite Hn in Hrun.
  assert (Hhist : hist' = rev data ++ rev p).
  { apply (hist_rel_fun h1); [exact Hr1|].
    pose proof (hist_rel_stored (length data) h0 (rev p) Hr0) as H.
    assert (Hd : aget_list (h_data h0) (h_pos h0) (length data) = data).
    { transitivity (data_from h0); [|exact Hdf]. unfold data_from. f_equal.
      rewrite Hh0. cbn [h_total h_pos]. unfold zlen. lia. }
    rewrite Hd in H.
    replace (h_at h0 (h_pos h0 + Z.of_nat (length data))) with h1 in H; [exact H|].
    destruct h1 as [dat tot base pos dct]. cbn [h_pos h_total h_base h_dict h_data] in *.
    unfold h_at. f_equal; try assumption.
    rewrite Hall, Ht1, Hh0. cbn [h_pos h_total]. unfold zlen. lia. }
  subst hist'.
  eexists. split; [exact Hrun|].
  split; [|rewrite Hall, Ht1, Hh0; reflexivity].
  split; [reflexivity|]. split; [reflexivity|].
  destruct marker; [|exact Hend].
  destruct Hend as (c2 & h2 & Hsym).
  assert (Hdata1 : data_ok h1) by (intros i; unfold hget; rewrite Hda1; apply Hdata0).
  destruct (sym_abs_step c1 h1 (rev data ++ rev p) SEnd E2 c2 h2 [] Hr1 ltac:(rewrite Hd1, Hh0; cbn [h_dict]; lia)
              Hdata1 Hreps1 Hsym) as (Htr & _ & (_ & Hrep0) & _).
  rewrite app_nil_r in Htr.
  intros j. eexists.
  cbn [aproduce a_pend_len a_coder a_hist a_dict a_pend_dist]. change (0 <? 0) with false. cbv iota.
  rewrite (run_trace_bind_ok _ _ _ _ _ Htr). cbn [fst snd sym_res].
  unfold a_full; cbn [a_hist a_dict].
  assert (Hfar : Z.min (zlen (rev data ++ rev p)) W <= rep_as_usize (c_rep0 c2)).
  { rewrite Hrep0. unfold rep_as_usize, P2_31, P2_64, P2_32. change (4294967295 <? 2147483648) with false. cbv iota. lia. }
  destruct (Z.leb_spec (Z.min (zlen (rev data ++ rev p)) W) (rep_as_usize (c_rep0 c2))); [|lia].
  rewrite run_trace_ret. split; [reflexivity|]. cbn [a_coder a_hist a_pend_len]. repeat split. exact Hrep0.
Qed.

(* what lzma1_write produced, in terms of the decision list *)
Definition lzma1_header (lc lp pb dict : Z) (expected : option Z) : list Z :=
  props_byte lc lp pb :: le_bytes 4 dict ++
  le_bytes 8 (match expected with Some n => n | None => 18446744073709551615 end).

Definition end_syms (marker : bool) : list sym := if marker then [SEnd] else [].

Lemma lzma1_write_inv lc lp pb dict preset data syms use_header marker expected out :
  lzma1_write lc lp pb dict preset data syms use_header marker expected = Ok out ->
  exists E1 c1 h1 E2 c2 h2,
    enc_syms (coder_new lc lp pb) (ehist_new dict preset data) syms = Ok (E1, c1, h1) /\
    h_pos h1 = h_total h1 /\
    (if marker then exists c2 h2, enc_symbol c1 h1 SEnd = Ok (E2, c2, h2) else E2 = []) /\
    enc_syms (coder_new lc lp pb) (ehist_new dict preset data) (syms ++ end_syms marker) = Ok (E1 ++ E2, c2, h2) /\
    out = (if use_header then lzma1_header lc lp pb dict expected else []) ++
          renc_bytes (renc_finish (fst (renc_events renc_init PLeaf (E1 ++ E2)))).
Proof.
  unfold lzma1_write. intros H.
  apply obind_ok in H as (s1 & Hsteps & H).
  destruct (h_pos (es_hist s1) =? h_total (es_hist s1)) eqn:Hall; cbn [negb] in H; [|discriminate].
  apply Z.eqb_eq in Hall.
  apply obind_ok in H as (s2 & Hs2 & H). apply Ok_inj in H.
  destruct (enc_steps_syms _ _ _ Hsteps) as (E1 & Hsyms & Hre1). cbn [es_coder es_hist es_rc es_probs] in Hsyms, Hre1.
  destruct marker.
  - unfold enc_step in Hs2. apply obind_ok in Hs2 as ([[e2 c2] h2] & Hsym & Hs2).
    destruct (renc_events (es_rc s1) (es_probs s1) e2) as [re2 t2] eqn:Ere2.
    apply Ok_inj in Hs2. subst s2. cbn [es_rc] in H.
    exists E1, (es_coder s1), (es_hist s1), e2, c2, h2.
    split; [exact Hsyms|]. split; [exact Hall|]. split; [exists c2, h2; exact Hsym|].
    split.
    + eapply enc_syms_app; [exact Hsyms|]. cbn [end_syms enc_syms]. rewrite Hsym. cbn [obind fst snd].
      rewrite app_nil_r. reflexivity.
    + rewrite renc_events_app, Hre1. cbn [fst snd]. rewrite Ere2. cbn [fst]. symmetry. exact H.
  - apply Ok_inj in Hs2. subst s2.
    exists E1, (es_coder s1), (es_hist s1), [], (es_coder s1), (es_hist s1).
    split; [exact Hsyms|]. split; [exact Hall|]. split; [reflexivity|].
    split.
    + eapply enc_syms_app; [exact Hsyms|]. reflexivity.
    + rewrite app_nil_r, Hre1. cbn [fst]. symmetry. exact H.
Qed.

(* construct2: the window size the reader chooses *)
Lemma get_dict_size_ok x : 0 <= x <= DICT_SIZE_MAX ->
  exists r, lzma1_get_dict_size x = Ok r /\ Z.max x 4096 <= r < Z.max x 4096 + 16 /\ r mod 16 = 0.
Proof.
  intros Hx. unfold lzma1_get_dict_size. destruct (Z.ltb_spec DICT_SIZE_MAX x); [lia|].
  eexists. split; [reflexivity|]. (Z.div_mod_to_equations; lia).
Qed.

Lemma get_dict_size_fix r : 4096 <= r <= DICT_SIZE_MAX -> r mod 16 = 0 -> lzma1_get_dict_size r = Ok r.
Proof.
  intros Hr Hm. unfold lzma1_get_dict_size. destruct (Z.ltb_spec DICT_SIZE_MAX r); [lia|]. f_equal. (Z.div_mod_to_equations; lia).
Qed.

Lemma construct2_ok input d0 uncomp lc lp pb dict preset :
  0 <= lc <= 8 -> 0 <= lp <= 4 -> 0 <= pb <= 4 -> 4096 <= dict <= 2147483648 ->
  rdec_init input = Ok d0 -> 0 <= uncomp ->
  exists W, lzma1_construct2 input uncomp lc lp pb dict preset
            = Ok (mkLzma1 (coder_new lc lp pb) (lzwin_new W preset) d0 PLeaf false uncomp) /\
    4096 <= W < dict + 16 /\ W mod 16 = 0 /\
    (dict <= W \/ (uncomp <= U64_HALF /\ Z.max uncomp 4096 <= W)).
Proof.
  intros Hlc Hlp Hpb Hdict Hinit Hu. unfold lzma1_construct2.
  destruct (Z.ltb_spec 8 lc); [lia|]. destruct (Z.ltb_spec 4 lp); [lia|]. destruct (Z.ltb_spec 4 pb); [lia|].
  cbn [orb].
  destruct (get_dict_size_ok dict ltac:(unfold DICT_SIZE_MAX; lia)) as (ds & Hds & Hdsr & Hds16).
  rewrite Hds. cbn [obind].
  destruct ((match preset with None => true | Some _ => false end) && (uncomp <=? U64_HALF) && (uncomp <? ds)) eqn:Esh.
  - (* no preset dictionary and a small declared size: the buffer shrinks to it *)
    apply andb_true_iff in Esh as [Esh Hlt]. apply andb_true_iff in Esh as [_ Hh].
    apply Z.leb_le in Hh. apply Z.ltb_lt in Hlt.
    assert (Hw : wrap32 uncomp = uncomp) by (unfold wrap32; rewrite Z.mod_small; lia).
    rewrite Hw.
    destruct (get_dict_size_ok uncomp ltac:(unfold DICT_SIZE_MAX; lia)) as (ds1 & Hds1 & Hds1r & Hds116).
    rewrite Hds1. cbn [obind]. rewrite Hinit. cbn [obind].
    rewrite (get_dict_size_fix ds1) by (unfold DICT_SIZE_MAX; lia). cbn [obind].
    exists ds1. split; [reflexivity|]. split; [(Z.div_mod_to_equations; lia)|]. split; [exact Hds116|]. right. lia.
  - cbn [obind]. rewrite Hinit. cbn [obind].
    rewrite (get_dict_size_fix ds) by (unfold DICT_SIZE_MAX; lia). cbn [obind].
    exists ds. split; [reflexivity|]. split; [lia|]. split; [exact Hds16|]. left. lia.
Qed.

Definition preset_list (popt : option (list Z)) : list Z := match popt with Some p => p | None => [] end.

Lemma preset_kept_length dict preset : 0 <= dict -> zlen (preset_kept dict preset) = Z.min (zlen preset) dict.
Proof.
  intros Hd. pose proof (zlen_nonneg preset). unfold preset_kept. apply zlen_lastn. lia.
Qed.

(* the reader's initial window represents the part of the preset the encoder kept *)
Lemma lzwin_new_start W dict popt : 0 < W -> W mod 16 = 0 ->
  Z.min (zlen (preset_list popt)) W = Z.min (zlen (preset_list popt)) dict ->
  let w0 := lzwin_new W popt in
  Rel w0 (rev (preset_kept dict (preset_list popt))) /\ w_start w0 = w_pos w0 /\ w_size w0 = W /\
  w_pending_len w0 = 0 /\ w_pending_dist w0 = 0.
Proof.
  intros HW H16 Hmin. destruct popt as [preset|]; cbn [preset_list] in *.
  - split; [|repeat split; reflexivity].
    unfold preset_kept. rewrite <- Hmin. apply lzwin_new_preset_rel; assumption.
  - split; [|repeat split; reflexivity]. apply lzwin_new_rel; assumption.
Qed.

(* the range decoder on what the writer's range encoder produced for the whole decision list *)
Lemma stream_init lc lp pb dict preset data syms (marker : bool) E cE hE tail :
  dict <= 2147483648 ->
  enc_syms (coder_new lc lp pb) (ehist_new dict preset data) (syms ++ end_syms marker) = Ok (E, cE, hE) ->
  events_bits E <= RC_MAX_BITS ->
  exists d0, rdec_init (renc_bytes (renc_finish (fst (renc_events renc_init PLeaf E))) ++ tail) = Ok d0 /\
    rc_sim E PLeaf tail [] d0 PLeaf.
Proof.
  intros Hdict Hfull Hbits. apply rc_sim_init; [exact probs_ok_empty | | exact Hbits].
  rewrite forallb_ev_ok_same. eapply enc_syms_events_ok; [|exact Hfull]. cbn [ehist_new h_dict]. exact Hdict.
Qed.

(* the reader right after construction satisfies the loop invariant at byte 0 *)
Lemma reader_start lc lp pb dict preset data syms (marker : bool) E1 c1 h1 E2 W w0 tail d0 :
  0 <= lc <= 8 -> 0 <= lp <= 4 -> 0 <= pb <= 4 -> 4096 <= dict <= 2147483648 ->
  bytes_ok preset = true -> bytes_ok data = true -> no_end syms ->
  enc_syms (coder_new lc lp pb) (ehist_new dict preset data) syms = Ok (E1, c1, h1) ->
  h_pos h1 = h_total h1 ->
  (if marker then exists c2 h2, enc_symbol c1 h1 SEnd = Ok (E2, c2, h2) else E2 = []) ->
  events_bits (E1 ++ E2) <= RC_MAX_BITS ->
  rc_sim (E1 ++ E2) PLeaf tail [] d0 PLeaf ->
  let p := preset_kept dict preset in
  (dict <= W \/ zlen p + zlen data <= W) -> W <= 4294967296 ->
  Rel w0 (rev p) -> w_start w0 = w_pos w0 -> w_size w0 = W ->
  w_pending_len w0 = 0 -> w_pending_dist w0 = 0 ->
  let uncomp := if marker then U64_MAX else zlen data in
  zlen data <= U64_HALF /\
  InvG (E1 ++ E2) tail W data (rev p) marker false 0 (mkLzma1 (coder_new lc lp pb) w0 d0 PLeaf false uncomp).
Proof.
  intros Hlc Hlp Hpb Hdict Hbp Hbd Hne Hsyms Hall Hend Hbits Hsim p HW HW32 R0 Hst0 Hsz0 Hpl0 Hpd0 uncomp.
  destruct (stream_facts lc lp pb dict preset data syms marker W E1 c1 h1 E2 Hdict Hbp Hbd Hne HW HW32 Hsyms Hall Hend)
    as (sN & Hrun & Hfin & Hpos1).
  split.
  { pose proof (enc_syms_adv _ _ _ _ _ _ Hsyms) as Hadv. rewrite Hpos1 in Hadv. cbn [ehist_new h_pos] in Hadv.
    fold p in Hadv. rewrite events_bits_app in Hbits. pose proof (events_bits_nonneg E2).
    unfold RC_MAX_BITS in Hbits. unfold U64_HALF. lia. }
  split; [lia|]. exists (rev p), [], (E1 ++ E2), sN, E2.
  cbn [l_coder l_win l_rc l_probs l_end_reached l_remaining].
  split; [reflexivity|]. split; [exact Hsim|]. split; [exact R0|]. split; [exact Hst0|].
  split; [intros; discriminate|].
  split; [exact Hsz0|]. split; [apply coder_new_ok; assumption|]. split; [intros; lia|].
  split; [rewrite Nat.sub_0_r, Hsz0, Hpl0, Hpd0; exact Hrun|]. split; [exact Hfin|]. split; [reflexivity|].
  unfold uncomp. destruct marker; [reflexivity|]. rewrite Nat.sub_0_r. reflexivity.
Qed.

Lemma reader_roundtrip lc lp pb dict preset data syms (marker : bool) E1 c1 h1 E2 W w0 tail d0 :
  0 <= lc <= 8 -> 0 <= lp <= 4 -> 0 <= pb <= 4 -> 4096 <= dict <= 2147483648 ->
  bytes_ok preset = true -> bytes_ok data = true -> no_end syms ->
  enc_syms (coder_new lc lp pb) (ehist_new dict preset data) syms = Ok (E1, c1, h1) ->
  h_pos h1 = h_total h1 ->
  (if marker then exists c2 h2, enc_symbol c1 h1 SEnd = Ok (E2, c2, h2) else E2 = []) ->
  events_bits (E1 ++ E2) <= RC_MAX_BITS ->
  rc_sim (E1 ++ E2) PLeaf tail [] d0 PLeaf ->
  let p := preset_kept dict preset in
  (dict <= W \/ zlen p + zlen data <= W) -> W <= 4294967296 ->
  Rel w0 (rev p) -> w_start w0 = w_pos w0 -> w_size w0 = W ->
  w_pending_len w0 = 0 -> w_pending_dist w0 = 0 ->
  let uncomp := if marker then U64_MAX else zlen data in
  zlen data <= U64_HALF /\
  forall sizes fuel, Forall (fun z => 0 < z) sizes -> zlen data + 2 <= Z.of_nat fuel ->
  exists s_end,
    lzma1_read_all fuel (mkLzma1 (coder_new lc lp pb) w0 d0 PLeaf false uncomp) sizes sizes [] = Ok (data, s_end) /\
    lzma1_unconsumed s_end = tail.
Proof.
  intros Hlc Hlp Hpb Hdict Hbp Hbd Hne Hsyms Hall Hend Hbits Hsim p HW HW32 R0 Hst0 Hsz0 Hpl0 Hpd0 uncomp.
  destruct (reader_start lc lp pb dict preset data syms marker E1 c1 h1 E2 W w0 tail d0 Hlc Hlp Hpb Hdict Hbp Hbd Hne
              Hsyms Hall Hend Hbits Hsim HW HW32 R0 Hst0 Hsz0 Hpl0 Hpd0) as (Hsmall & HI).
  split; [exact Hsmall|]. intros sizes fuel Hsizes Hfuel.
  destruct (read_all_steps (E1 ++ E2) tail W data (rev p) marker Hsmall fuel false _ data sizes sizes []
              (ex_intro _ 0%nat (conj HI eq_refl)) Hsizes Hsizes) as (s_end & Hra & (_ & Hin)).
  { unfold zlen in Hfuel. lia. }
  exists s_end. split; [exact Hra | exact Hin].
Qed.

(* the general form: optional preset dictionary, the stream after the optional header *)
Definition preset_hyps (dict : Z) (preset data : list Z) (marker : bool) : Prop :=
  (* both sides keep the same part of the preset (the reader rounds the dictionary size up to a
     multiple of 16, the encoder does not) *)
  (zlen preset <= dict \/ dict mod 16 = 0) /\
  (* needed only by construct2_ok, whose last disjunct does not record that the window shrinks to
     a declared size only when no preset is given; with popt = None it holds trivially
     (preset_hyps_none) *)
  (marker = true \/ dict <= zlen data \/ zlen preset + zlen data <= Z.max (zlen data) 4096).

Lemma preset_hyps_none dict data marker : 0 <= dict -> preset_hyps dict [] data marker.
Proof.
  intros Hd. split; [left; change (zlen (@nil Z)) with 0; lia|]. right. right. change (zlen (@nil Z)) with 0. lia.
Qed.

Theorem lzma1_roundtrip_body : forall lc lp pb dict popt data syms use_header use_end_marker expected stream tail sizes,
  0 <= lc <= 8 -> 0 <= lp <= 4 -> 0 <= pb <= 4 -> 4096 <= dict <= 2147483648 ->
  let preset := preset_list popt in
  bytes_ok preset = true -> bytes_ok data = true -> no_end syms ->
  preset_hyps dict preset data use_end_marker ->
  lzma1_write lc lp pb dict preset data syms use_header use_end_marker expected = Ok stream ->
  (forall E c' h', enc_syms (coder_new lc lp pb) (ehist_new dict preset data) (syms ++ end_syms use_end_marker) = Ok (E, c', h') ->
     events_bits E <= RC_MAX_BITS) ->
  Forall (fun z => 0 < z) sizes ->
  let uncomp := if use_end_marker then U64_MAX else zlen data in
  exists body s0,
    stream = (if use_header then lzma1_header lc lp pb dict expected else []) ++ body /\
    lzma1_construct2 (body ++ tail) uncomp lc lp pb dict popt = Ok s0 /\ zlen data <= U64_HALF /\
    forall fuel, zlen data + 2 <= Z.of_nat fuel ->
    exists s_end, lzma1_read_all fuel s0 sizes sizes [] = Ok (data, s_end) /\ lzma1_unconsumed s_end = tail.
Proof.
  intros lc lp pb dict popt data syms use_header marker expected stream tail sizes Hlc Hlp Hpb Hdict preset
         Hbp Hbd Hne (HP1 & HP2) Hw Hbits Hsizes uncomp.
  destruct (lzma1_write_inv _ _ _ _ _ _ _ _ _ _ _ Hw) as (E1 & c1 & h1 & E2 & cE & hE & Hsyms & Hall & Hend & Hfull & ->).
  specialize (Hbits _ _ _ Hfull).
  assert (Hu : 0 <= uncomp) by (unfold uncomp, U64_MAX; destruct marker; [lia | apply zlen_nonneg]).
  destruct (stream_init lc lp pb dict preset data syms marker _ cE hE tail ltac:(lia) Hfull Hbits) as (d0 & Hinit & Hsim).
  destruct (construct2_ok _ d0 uncomp lc lp pb dict popt Hlc Hlp Hpb Hdict Hinit Hu) as (W & Hc2 & HWr & HW16 & HWd).
  pose proof (zlen_nonneg preset) as Hp0. pose proof (zlen_nonneg data) as Hd0.
  assert (HuM : marker = true -> ~ uncomp <= U64_HALF) by (intros ->; unfold uncomp, U64_MAX, U64_HALF; lia).
  assert (HuD : marker = false -> uncomp = zlen data) by (intros ->; reflexivity).
  assert (Hmin : Z.min (zlen preset) W = Z.min (zlen preset) dict).
  { destruct HWd as [HWd|(Hh & HWd)].
    - destruct HP1 as [HP1|HP1]; (Z.div_mod_to_equations; lia).
    - destruct marker; [exfalso; apply HuM; [reflexivity | exact Hh]|]. rewrite (HuD eq_refl) in HWd.
      destruct HP2 as [HP2|[HP2|HP2]]; [discriminate | destruct HP1 as [HP1|HP1]; (Z.div_mod_to_equations; lia) | lia]. }
  assert (HWfit : dict <= W \/ zlen (preset_kept dict preset) + zlen data <= W).
  { rewrite preset_kept_length by lia. destruct HWd as [HWd|(Hh & HWd)]; [left; exact HWd|].
    destruct marker; [exfalso; apply HuM; [reflexivity | exact Hh]|]. rewrite (HuD eq_refl) in HWd.
    destruct HP2 as [HP2|[HP2|HP2]]; [discriminate | left; lia | right; lia]. }
  destruct (lzwin_new_start W dict popt ltac:(lia) HW16 Hmin) as (R0 & Hst0 & Hsz0 & Hpl0 & Hpd0).
  destruct (reader_roundtrip lc lp pb dict preset data syms marker E1 c1 h1 E2 W (lzwin_new W popt) tail d0
              Hlc Hlp Hpb Hdict Hbp Hbd Hne Hsyms Hall Hend Hbits Hsim HWfit ltac:(lia) R0 Hst0 Hsz0 Hpl0 Hpd0)
    as (Hsmall & Hread).
  eexists. eexists. split; [reflexivity|]. split; [exact Hc2|]. split; [exact Hsmall|].
  intros fuel Hfuel. exact (Hread sizes fuel Hsizes Hfuel).
Qed.

(* END-TO-END, raw stream (no .lzma header, no preset dictionary): whatever destination sizes the
   caller uses, LZMAReader returns exactly the data and leaves exactly [tail] unread - with an end
   marker (size unknown) and with a declared size and no marker.
   The bound on the number of coded bits (the u32 pending-byte counter of the range encoder, see
   RangeProofs.v) is stated on the decision list of the symbols (plus the end marker). *)
Theorem lzma1_roundtrip_raw : forall lc lp pb dict data syms use_end_marker stream tail sizes,
  0 <= lc <= 8 -> 0 <= lp <= 4 -> 0 <= pb <= 4 -> 4096 <= dict <= 2147483648 ->
  bytes_ok data = true -> no_end syms ->
  lzma1_write lc lp pb dict [] data syms false use_end_marker None = Ok stream ->
  (forall E c' h', enc_syms (coder_new lc lp pb) (ehist_new dict [] data) (syms ++ end_syms use_end_marker) = Ok (E, c', h') ->
     events_bits E <= RC_MAX_BITS) ->
  Forall (fun z => 0 < z) sizes ->
  let uncomp := if use_end_marker then U64_MAX else zlen data in
  exists s0, lzma1_construct2 (stream ++ tail) uncomp lc lp pb dict None = Ok s0 /\
    forall fuel, zlen data + 2 <= Z.of_nat fuel ->
    exists s_end, lzma1_read_all fuel s0 sizes sizes [] = Ok (data, s_end) /\ lzma1_unconsumed s_end = tail.
Proof.
  intros lc lp pb dict data syms marker stream tail sizes Hlc Hlp Hpb Hdict Hbd Hne Hw Hbits Hsizes uncomp.
  destruct (lzma1_roundtrip_body lc lp pb dict None data syms false marker None stream tail sizes Hlc Hlp Hpb Hdict
              eq_refl Hbd Hne (preset_hyps_none dict data marker ltac:(lia)) Hw Hbits Hsizes)
    as (body & s0 & Hst & Hc2 & _ & Hread).
  cbn [app] in Hst. subst body. exists s0. split; [exact Hc2 | exact Hread].
Qed.

(* the same with a preset dictionary *)
Theorem lzma1_roundtrip_preset : forall lc lp pb dict preset data syms use_end_marker stream tail sizes,
  0 <= lc <= 8 -> 0 <= lp <= 4 -> 0 <= pb <= 4 -> 4096 <= dict <= 2147483648 ->
  bytes_ok preset = true -> bytes_ok data = true -> no_end syms ->
  preset_hyps dict preset data use_end_marker ->
  lzma1_write lc lp pb dict preset data syms false use_end_marker None = Ok stream ->
  (forall E c' h', enc_syms (coder_new lc lp pb) (ehist_new dict preset data) (syms ++ end_syms use_end_marker) = Ok (E, c', h') ->
     events_bits E <= RC_MAX_BITS) ->
  Forall (fun z => 0 < z) sizes ->
  let uncomp := if use_end_marker then U64_MAX else zlen data in
  exists s0, lzma1_construct2 (stream ++ tail) uncomp lc lp pb dict (Some preset) = Ok s0 /\
    forall fuel, zlen data + 2 <= Z.of_nat fuel ->
    exists s_end, lzma1_read_all fuel s0 sizes sizes [] = Ok (data, s_end) /\ lzma1_unconsumed s_end = tail.
Proof.
  intros lc lp pb dict preset data syms marker stream tail sizes Hlc Hlp Hpb Hdict Hbp Hbd Hne HP Hw Hbits Hsizes uncomp.
  destruct (lzma1_roundtrip_body lc lp pb dict (Some preset) data syms false marker None stream tail sizes Hlc Hlp Hpb Hdict
              Hbp Hbd Hne HP Hw Hbits Hsizes)
    as (body & s0 & Hst & Hc2 & _ & Hread).
  cbn [app] in Hst. subst body. exists s0. split; [exact Hc2 | exact Hread].
Qed.

(* the 13-byte .lzma header *)
Lemma props_byte_val lc lp pb : 0 <= lc <= 8 -> 0 <= lp <= 4 -> 0 <= pb <= 4 ->
  props_byte lc lp pb = (pb * 5 + lp) * 9 + lc.
Proof. intros. unfold props_byte, wrap8. rewrite Z.mod_small; lia. Qed.

Lemma memory_usage_by_props_eq dict lc lp pb : 0 <= lc <= 8 -> 0 <= lp <= 4 -> 0 <= pb <= 4 -> dict <= DICT_SIZE_MAX ->
  lzma1_memory_usage_by_props dict (props_byte lc lp pb) = lzma1_memory_usage dict lc lp.
Proof.
  intros Hlc Hlp Hpb Hd. unfold lzma1_memory_usage_by_props. rewrite props_byte_val by assumption.
  destruct (Z.ltb_spec DICT_SIZE_MAX dict); [lia|]. destruct (Z.ltb_spec 224 ((pb * 5 + lp) * 9 + lc)); [lia|].
  cbv zeta.
  replace (((pb * 5 + lp) * 9 + lc) mod 45) with (lp * 9 + lc) by (Z.div_mod_to_equations; lia).
  replace ((lp * 9 + lc) / 9) with lp by (Z.div_mod_to_equations; lia). replace (lp * 9 + lc - lp * 9) with lc by lia. reflexivity.
Qed.

Lemma construct1_eq input uncomp lc lp pb dict popt :
  0 <= lc <= 8 -> 0 <= lp <= 4 -> 0 <= pb <= 4 -> dict <= DICT_SIZE_MAX ->
  lzma1_construct1 input uncomp (props_byte lc lp pb) dict popt = lzma1_construct2 input uncomp lc lp pb dict popt.
Proof.
  intros Hlc Hlp Hpb Hd. unfold lzma1_construct1. rewrite props_byte_val by assumption.
  destruct (Z.ltb_spec 224 ((pb * 5 + lp) * 9 + lc)); [lia|]. cbv zeta.
  destruct (Z.ltb_spec DICT_SIZE_MAX dict); [lia|].
  replace (((pb * 5 + lp) * 9 + lc) / 45) with pb by (Z.div_mod_to_equations; lia).
  replace ((pb * 5 + lp) * 9 + lc - pb * 45) with (lp * 9 + lc) by lia.
  replace ((lp * 9 + lc) / 9) with lp by (Z.div_mod_to_equations; lia). replace (lp * 9 + lc - lp * 9) with lc by lia. reflexivity.
Qed.

Lemma header_parse lc lp pb dict expected rest mem popt need :
  0 <= lc <= 8 -> 0 <= lp <= 4 -> 0 <= pb <= 4 -> 0 <= dict <= 4294967280 ->
  let u := match expected with Some n => n | None => 18446744073709551615 end in
  0 <= u < 18446744073709551616 ->
  lzma1_memory_usage dict lc lp = Ok need -> need <= mem ->
  lzma1_new_mem_limit (lzma1_header lc lp pb dict expected ++ rest) mem popt
  = lzma1_construct2 rest u lc lp pb dict popt.
Proof.
  intros Hlc Hlp Hpb Hdict u Hu Hmem Hneed.
  pose proof (le_value_bytes 4 dict ltac:(change (256 ^ Z.of_nat 4) with 4294967296; lia)) as H4.
  pose proof (le_value_bytes 8 u ltac:(change (256 ^ Z.of_nat 8) with 18446744073709551616; lia)) as H8.
  unfold lzma1_new_mem_limit, lzma1_header. fold u. cbn [le_bytes app] in *.
  rewrite H4, H8.
  rewrite memory_usage_by_props_eq by (unfold DICT_SIZE_MAX; lia). rewrite Hmem. cbn [obind].
  destruct (Z.ltb_spec mem need); [lia|].
  apply construct1_eq; try assumption. unfold DICT_SIZE_MAX; lia.
Qed.

(* END-TO-END with the .lzma header (LZMAReader::new_mem_limit), optional preset dictionary *)
Theorem lzma1_roundtrip_header : forall lc lp pb dict popt data syms use_end_marker stream tail sizes mem_limit_kb need,
  0 <= lc <= 8 -> 0 <= lp <= 4 -> 0 <= pb <= 4 -> 4096 <= dict <= 2147483648 ->
  let preset := preset_list popt in
  bytes_ok preset = true -> bytes_ok data = true -> no_end syms ->
  preset_hyps dict preset data use_end_marker ->
  lzma1_write lc lp pb dict preset data syms true use_end_marker
              (if use_end_marker then None else Some (zlen data)) = Ok stream ->
  (forall E c' h', enc_syms (coder_new lc lp pb) (ehist_new dict preset data) (syms ++ end_syms use_end_marker) = Ok (E, c', h') ->
     events_bits E <= RC_MAX_BITS) ->
  Forall (fun z => 0 < z) sizes ->
  lzma1_memory_usage dict lc lp = Ok need -> need <= mem_limit_kb ->
  exists s0, lzma1_new_mem_limit (stream ++ tail) mem_limit_kb popt = Ok s0 /\
    forall fuel, zlen data + 2 <= Z.of_nat fuel ->
    exists s_end, lzma1_read_all fuel s0 sizes sizes [] = Ok (data, s_end) /\ lzma1_unconsumed s_end = tail.
Proof.
  intros lc lp pb dict popt data syms marker stream tail sizes mem need Hlc Hlp Hpb Hdict preset Hbp Hbd Hne HP Hw Hbits
         Hsizes Hmem Hneed.
  destruct (lzma1_roundtrip_body lc lp pb dict popt data syms true marker _ stream tail sizes Hlc Hlp Hpb Hdict
              Hbp Hbd Hne HP Hw Hbits Hsizes)
    as (body & s0 & Hst & Hc2 & Hsmall & Hread).
  exists s0. split; [|exact Hread]. subst stream. rewrite <- app_assoc.
  pose proof (zlen_nonneg data) as Hd0.
  rewrite (header_parse lc lp pb dict _ (body ++ tail) mem popt need Hlc Hlp Hpb ltac:(lia)); try assumption.
  - rewrite <- Hc2. destruct marker; reflexivity.
  - destruct marker; [lia | unfold U64_HALF in Hsmall; lia].
Qed.

(* a destination of length 0 (or less) reads nothing and changes nothing, in every state *)
Theorem lzma1_read_zero : forall s buflen, buflen <= 0 -> lzma1_read s buflen = Ok ([], s).
Proof. exact LzmaReadProofs.lzma1_read_zero. Qed.

(* after the end was reported every further read returns Ok(0) *)
Theorem lzma1_read_after_end : forall s buflen, l_end_reached s = true -> lzma1_read s buflen = Ok ([], s).
Proof. exact read_ended. Qed.

(* non-vacuity: a small stream, the hypotheses of the theorems on it, and the pipeline evaluated *)
Definition ex_data : list Z := [97; 98; 97; 98; 97; 98; 99].
Definition ex_syms : list sym := [SLit 97; SLit 98; SMatch 1 4; SLit 99].

Definition run_raw (lc lp pb dict : Z) (popt : option (list Z)) (data : list Z) (syms : list sym) (marker : bool)
           (tail sizes : list Z) (fuel : nat) : outcome (list Z * list Z) :=
  do stream <- lzma1_write lc lp pb dict (preset_list popt) data syms false marker None;
  do s0 <- lzma1_construct2 (stream ++ tail) (if marker then U64_MAX else zlen data) lc lp pb dict popt;
  do r <- lzma1_read_all fuel s0 sizes sizes [];
  Ok (fst r, lzma1_unconsumed (snd r)).

Lemma ex_no_end : no_end ex_syms.
Proof. intros s [<-|[<-|[<-|[<-|[]]]]]; discriminate. Qed.

Example lzma1_roundtrip_raw_hyps : forall marker : bool,
  bytes_ok ex_data = true /\ no_end ex_syms /\
  (exists stream, lzma1_write 3 0 2 4096 [] ex_data ex_syms false marker None = Ok stream) /\
  (forall E c' h', enc_syms (coder_new 3 0 2) (ehist_new 4096 [] ex_data) (ex_syms ++ end_syms marker) = Ok (E, c', h') ->
     events_bits E <= RC_MAX_BITS) /\
  Forall (fun z => 0 < z) [1; 3].
Proof.
  intros marker. split; [reflexivity|]. split; [exact ex_no_end|].
  split; [destruct marker; eexists; vm_compute; reflexivity|].
  split; [|repeat constructor].
  intros E c' h' H.
  assert (Hb : match enc_syms (coder_new 3 0 2) (ehist_new 4096 [] ex_data) (ex_syms ++ end_syms marker) with
               | Ok (E, _, _) => events_bits E <= RC_MAX_BITS
               | _ => True
               end) by (destruct marker; vm_compute; discriminate).
  rewrite H in Hb. exact Hb.
Qed.

Example lzma1_example_run :
  run_raw 3 0 2 4096 None ex_data ex_syms true [1; 2; 3] [1; 3] 20 = Ok (ex_data, [1; 2; 3]) /\
  run_raw 3 0 2 4096 None ex_data ex_syms false [1; 2; 3] [1; 3] 20 = Ok (ex_data, [1; 2; 3]) /\
  run_raw 3 0 2 4096 None ex_data ex_syms false [] [4096] 20 = Ok (ex_data, []).
Proof. vm_compute. repeat split; reflexivity. Qed.

(* a preset dictionary that fills the window exactly (the first iteration produces nothing) *)
Definition ex_preset (n : nat) : list Z := map (fun i => i mod 251) (zrange 0 n).

Example lzma1_example_run_preset :
  run_raw 3 0 2 4096 (Some (ex_preset 4096)) [0; 1; 2; 7] [SMatch 4095 3; SLit 7] false [5] [16] 20 = Ok ([0; 1; 2; 7], [5]) /\
  run_raw 3 0 2 4096 (Some (ex_preset 4096)) [0; 1; 2; 7] [SMatch 4095 3; SLit 7] true [5] [1] 20 = Ok ([0; 1; 2; 7], [5]).
Proof. vm_compute. split; reflexivity. Qed.

Example lzma1_roundtrip_preset_hyps :
  preset_hyps 4096 (ex_preset 4096) [0; 1; 2; 7] true /\ preset_hyps 8192 (ex_preset 100) [0; 1; 2; 7] false /\
  bytes_ok (ex_preset 4096) = true.
Proof.
  split; [|split].
  - split; [left; vm_compute; discriminate | left; reflexivity].
  - split; [left; vm_compute; discriminate | right; right; vm_compute; discriminate].
  - vm_compute. reflexivity.
Qed.

(* dict_size 8192, a 5000-byte preset, data that copies the start of the preset, declared size =
   length of the data: construct2 does not shrink the window when a preset is given (Lzma1.v), so
   the match reaching 4999 bytes back is decodable.  The code before the repair ef8562d replaced the
   dictionary size by the smaller declared size before LZDecoder::new copied the preset, kept only
   the last buf_size bytes of it, and rejected this stream with the error of lz.repeat. *)
Example lzma1_preset_declared_size_fixed :
  exists stream s0,
    lzma1_write 3 0 2 8192 (ex_preset 5000) [0; 1; 2] [SMatch 4999 3] false false None = Ok stream /\
    lzma1_construct2 stream 3 3 0 2 8192 (Some (ex_preset 5000)) = Ok s0 /\
    exists s1, lzma1_read s0 16 = Ok ([0; 1; 2], s1).
Proof.
  eexists. eexists. split; [vm_compute; reflexivity|]. split; [vm_compute; reflexivity|].
  eexists. vm_compute. reflexivity.
Qed.

Example lzma1_preset_declared_size_marker_ok :
  run_raw 3 0 2 8192 (Some (ex_preset 5000)) [0; 1; 2] [SMatch 4999 3] true [] [16] 20 = Ok ([0; 1; 2], []).
Proof. vm_compute. reflexivity. Qed.

Print Assumptions lzma1_roundtrip_raw.
Print Assumptions lzma1_roundtrip_preset.
Print Assumptions lzma1_roundtrip_header.
Print Assumptions lzma1_read_zero.
