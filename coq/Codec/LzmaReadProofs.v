(* Codec/LzmaReadProofs.v — one decode call under any budget: a run of a+b bytes is a run of a, then
   of b (run_rc_split, run_trace_split); one call from a flushed window followed by flush() is a
   prefix of the specification run and leaves a flushed window (decode_flush, decode_flush_step;
   win_ok, pending_ok, pd_eq).  The readers compose these over their call sequences
   (Lzma1LoopProofs.v iter_step, Lzma2ReadProofs.v body_lzma).  Also: zero-length reads change
   nothing. *)
From LzVerif Require Import Base.Bytes Codec.Store Codec.Range Codec.LzWindow Codec.LzmaDec
  Codec.LzmaAbs Codec.LzWindowProofs Codec.ProgProofs Codec.LzmaAbsProofs
  Codec.ProbProofs Codec.RangeEncProofs Codec.RangeDecProofs Codec.RangeProofs Codec.LzmaSymProofs
  Codec.Lzma2WindowProofs Codec.Lzma1 Codec.Lzma2Dec.

Definition grows (k : nat) (s : astate) (r : astate * outcome unit) : Prop :=
  a_dict (fst r) = a_dict s /\
  (snd r = Ok tt -> exists new, a_hist (fst r) = new ++ a_hist s /\ length new = k) /\
  (snd r <> Ok tt -> exists new, a_hist (fst r) = new ++ a_hist s /\ (length new < k)%nat).

Lemma grows_step k s s' x r :
  a_dict s' = a_dict s -> a_hist s' = x :: a_hist s -> grows k s' r -> grows (S k) s r.
Proof.
  intros Hd Hh (Hd' & Hok & Herr). split; [congruence|].
  split; intros E; [destruct (Hok E) as (new & Hn & Hl) | destruct (Herr E) as (new & Hn & Hl)];
    exists (new ++ [x]); rewrite <- app_assoc, Hn, Hh; (split; [reflexivity|]); rewrite app_length; cbn [length]; lia.
Qed.

Lemma aproduce_grows k : forall s, pall (grows k s) (aproduce k s).
Proof.
  induction k as [|k IH]; intros s; cbn [aproduce].
  - constructor. unfold grows; cbn [fst snd]. split; [reflexivity|]. split.
    + intros _. exists []. split; reflexivity.
    + intros H. congruence.
  - destruct (0 <? a_pend_len s).
    + eapply pall_mono; [|apply IH]. intros r. eapply grows_step; reflexivity.
    + eapply pall_bind; [apply pall_true|]. intros r _.
      destruct (snd r) as [b|dist len].
      * eapply pall_mono; [|apply IH]. intros r'. eapply grows_step; reflexivity.
      * destruct (a_full s <=? dist).
        -- constructor. unfold grows; cbn [fst snd a_hist a_dict]. split; [reflexivity|]. split.
           ++ intros E. discriminate.
           ++ intros _. exists []. split; [reflexivity | cbn; lia].
        -- destruct (len <=? 0); [constructor|].
           eapply pall_mono; [|apply IH]. intros r'. eapply grows_step; reflexivity.
Qed.

Lemma run_rc_peq_eq {A} (p q : prog A) d t : peq eq p q -> run_rc p d t = run_rc q d t.
Proof.
  intros H. pose proof (run_rc_peq _ _ _ H d t) as X.
  destruct (run_rc p d t) as [[[a d1] t1]|e|e|], (run_rc q d t) as [[[b d2] t2]|e'|e'|];
    try contradiction; try (subst; reflexivity).
  destruct X as (-> & -> & ->). reflexivity.
Qed.

Lemma run_rc_split a b s d t :
  run_rc (aproduce (a + b) s) d t =
  match run_rc (aproduce a s) d t with
  | Ok (s1, Ok _, d1, t1) => run_rc (aproduce b s1) d1 t1
  | Ok (s1, st, d1, t1) => Ok (s1, st, d1, t1)
  | Err e => Err e
  | Panic e => Panic e
  | Fuel => Fuel
  end.
Proof.
  rewrite (run_rc_peq_eq _ _ d t (aproduce_split a b s)), run_rc_bind.
  destruct (run_rc (aproduce a s) d t) as [[[[s1 st] d1] t1]|e|e|]; try reflexivity.
  unfold athen. cbn [snd fst]. destruct st; reflexivity.
Qed.

(* the decisions run_trace accepts *)
Definition ev_wf (ev : event) : Prop :=
  match ev with
  | EBit _ b => bit_ok b
  | EDirect n v => direct_ok n v
  end.

Lemma run_trace_peq {A B} (R : A -> B -> Prop) p q :
  peq R p q -> forall evs, Forall ev_wf evs ->
  match run_trace p evs, run_trace q evs with
  | Some (Ok a, r1), Some (Ok b, r2) => R a b /\ r1 = r2
  | Some (Err e1, r1), Some (Err e2, r2) => e1 = e2 /\ r1 = r2
  | Some (Panic e1, r1), Some (Panic e2, r2) => e1 = e2 /\ r1 = r2
  | Some (Fuel, r1), Some (Fuel, r2) => r1 = r2
  | None, None => True
  | _, _ => False
  end.
Proof.
  induction 1 as [a b Hab|e|key k1 k2 Hk IH|n k1 k2 Hk IH]; intros evs Hwf; cbn [run_trace].
  - auto.
  - destruct e as [u|c|c|]; auto.
  - destruct evs as [|[key' b|n' v] rest]; auto.
    destruct ((key =? key') && ((b =? 0) || (b =? 1))) eqn:E; [|exact I].
    inversion Hwf; subst. apply IH; assumption.
  - destruct evs as [|[key' b|n' v] rest]; auto.
    destruct (Nat.eqb_spec n n') as [->|]; [|exact I].
    inversion Hwf; subst. apply IH; assumption.
Qed.

Lemma run_trace_pall {A} (P : A -> Prop) p evs a rest :
  pall P p -> Forall ev_wf evs -> run_trace p evs = Some (Ok a, rest) -> P a.
Proof.
  intros Hp Hwf Hr. pose proof (run_trace_peq _ _ _ (peq_pall_refl P p Hp) evs Hwf) as H.
  rewrite Hr in H. tauto.
Qed.

Lemma run_trace_grows k s evs s' st rest : Forall ev_wf evs ->
  run_trace (aproduce k s) evs = Some (Ok (s', st), rest) -> grows k s (s', st).
Proof. intros Hwf Hr. exact (run_trace_pall _ _ _ _ _ (aproduce_grows k s) Hwf Hr). Qed.

Lemma run_trace_peq_eq {A} (p q : prog A) evs : peq eq p q -> Forall ev_wf evs -> run_trace p evs = run_trace q evs.
Proof.
  intros H Hwf. pose proof (run_trace_peq _ _ _ H evs Hwf) as X.
  destruct (run_trace p evs) as [[[a|e|e|] r1]|], (run_trace q evs) as [[[b|e'|e'|] r2]|];
    try contradiction; try reflexivity; try (destruct X as (-> & ->); reflexivity).
  subst. reflexivity.
Qed.

Lemma run_trace_split a b s evs : Forall ev_wf evs ->
  run_trace (aproduce (a + b) s) evs =
  match run_trace (aproduce a s) evs with
  | Some (Ok (s1, Ok _), rest) => run_trace (aproduce b s1) rest
  | Some (Ok (s1, st), rest) => Some (Ok (s1, st), rest)
  | other => other
  end.
Proof.
  intros Hwf. rewrite (run_trace_peq_eq _ _ evs (aproduce_split a b s) Hwf), ProgProofs.run_trace_bind.
  destruct (run_trace (aproduce a s) evs) as [[[[s1 st]|e|e|] rest]|]; try reflexivity.
  unfold athen. cbn [snd fst]. destruct st; reflexivity.
Qed.

Lemma ev_ok_wf ev : RangeEncProofs.ev_ok ev = true -> ev_wf ev.
Proof.
  destruct ev as [k b|n v]; cbn [RangeEncProofs.ev_ok ev_wf].
  - intros H. apply orb_true_iff in H as [H|H]; apply Z.eqb_eq in H; [left | right]; assumption.
  - intros H. repeat (apply andb_true_iff in H as [H ?]).
    apply Nat.leb_le in H. match goal with X : Nat.leb n 32 = true |- _ => apply Nat.leb_le in X end.
    match goal with X : (0 <=? v) = true |- _ => apply Z.leb_le in X end.
    match goal with X : (v <? _) = true |- _ => apply Z.ltb_lt in X; rewrite Z.shiftl_1_l in X end.
    unfold direct_ok. rewrite Nat.min_l by assumption. lia.
Qed.

Lemma forall_ev_wf evs : forallb RangeEncProofs.ev_ok evs = true -> Forall ev_wf evs.
Proof.
  induction evs as [|e r IH]; intros H; constructor; cbn [forallb] in H; apply andb_true_iff in H as [H1 H2];
    [apply ev_ok_wf; assumption | apply IH; assumption].
Qed.

Lemma Forall_app_r {A} (P : A -> Prop) l1 l2 : Forall P (l1 ++ l2) -> Forall P l2.
Proof. induction l1 as [|x t IH]; cbn [app]; intros H; [exact H | inversion H; auto]. Qed.

Lemma rc_sim_wf all t0 tail done rest d t : rc_sim all t0 tail done d t -> all = done ++ rest -> Forall ev_wf rest.
Proof. intros (_ & Hok & _) ->. apply forall_ev_wf in Hok. eapply Forall_app_r; exact Hok. Qed.

Lemma rdec_normalize_over d : rd_over d <= rd_over (rdec_normalize d).
Proof.
  unfold rdec_normalize. destruct (rd_range d <? P2_24); [|lia].
  unfold rdec_read. destruct (rd_in d); cbn [rd_over]; lia.
Qed.

Lemma rc_sim_over all t0 tail done d t : rc_sim all t0 tail done d t -> (0 <? rd_over d) = false.
Proof.
  intros H. apply rc_sim_no_overread in H. pose proof (rdec_normalize_over d). apply Z.ltb_ge. lia.
Qed.

Lemma rc_sim_normal all t0 tail done d t :
  rc_sim all t0 tail done d t -> rdec_normalize (rdec_normalize d) = rdec_normalize d.
Proof.
  intros Hsim. destruct (rc_sim_state _ _ _ _ _ _ Hsim) as (HI & _).
  destruct Hsim as (_ & _ & _ & rest & _ & _ & Hm).
  exact (dec_match_normalized _ _ _ _ Hm HI).
Qed.

(* one decode call, related to the recorded decisions and the range coder; a successful call
   leaves the range decoder normalised *)
Lemma decode_call_sim_norm all t0 tail done rest c w hist d t b s' st' rest' :
  rc_sim all t0 tail done d t -> all = done ++ rest ->
  Rel w hist -> coder_ok c (w_full w) -> w_pos w <= w_limit w -> Z.of_nat b = w_limit w - w_pos w ->
  (0 < w_pending_len w -> 0 <= w_pending_dist w < w_full w) ->
  run_trace (aproduce b (mkAstate c hist (w_size w) (w_pending_len w) (w_pending_dist w))) rest
    = Some (Ok (s', st'), rest') ->
  exists w1 d1 t1 evs1,
    rest = evs1 ++ rest' /\
    lzma_decode c w d t = Ok (a_coder s', w1, st', d1, t1) /\
    rc_sim all t0 tail (done ++ evs1) d1 t1 /\
    loop_rel w hist (a_coder s', w1, st') (s', st') /\
    (st' = Ok tt -> rdec_normalize d1 = d1).
Proof.
  intros Hsim Hall R Hc Hpl Hb Hpd Hrun.
  destruct (run_trace_consumed _ _ _ _ Hrun) as (evs1 & Hrest & _).
  subst rest.
  destruct (rc_sim_run all t0 tail done d t _ _ evs1 rest' _ Hsim Hall Hrun) as (d' & t' & Hrc & Hsim').
  pose proof (lzma_decode_abs c w hist d t b R Hc Hpl Hb Hpd) as HA.
  rewrite Hrc in HA. destruct HA as (w1 & Hdec & Hrel).
  exists w1, (match st' with Ok _ => rdec_normalize d' | _ => d' end), t', evs1.
  split; [reflexivity|]. split; [exact Hdec|]. split; [|split; [exact Hrel|]].
  - destruct st'; [apply rc_sim_normalize|..]; exact Hsim'.
  - intros ->. eapply rc_sim_normal; exact Hsim'.
Qed.

Theorem decode_call_sim : forall all t0 tail done rest c w hist d t b s' st' rest',
  rc_sim all t0 tail done d t -> all = done ++ rest ->
  Rel w hist -> coder_ok c (w_full w) -> w_pos w <= w_limit w -> Z.of_nat b = w_limit w - w_pos w ->
  (0 < w_pending_len w -> 0 <= w_pending_dist w < w_full w) ->
  run_trace (aproduce b (mkAstate c hist (w_size w) (w_pending_len w) (w_pending_dist w))) rest
    = Some (Ok (s', st'), rest') ->
  exists w1 d1 t1 evs1,
    rest = evs1 ++ rest' /\
    lzma_decode c w d t = Ok (a_coder s', w1, st', d1, t1) /\
    rc_sim all t0 tail (done ++ evs1) d1 t1 /\
    loop_rel w hist (a_coder s', w1, st') (s', st').
Proof.
  intros all t0 tail done rest c w hist d t b s' st' rest' Hsim Hall R Hc Hpl Hb Hpd Hrun.
  destruct (decode_call_sim_norm _ _ _ _ _ _ _ _ _ _ _ _ _ _ Hsim Hall R Hc Hpl Hb Hpd Hrun)
    as (w1 & d1 & t1 & evs1 & H1 & H2 & H3 & H4 & _).
  exists w1, d1, t1, evs1. auto.
Qed.

(* if a run of a+b bytes succeeds, so does its first part, and the second continues from it *)
Lemma trace_prefix_ok a b s evs s2 r2 : Forall ev_wf evs ->
  run_trace (aproduce (a + b) s) evs = Some (Ok (s2, Ok tt), r2) ->
  exists s1 r1, run_trace (aproduce a s) evs = Some (Ok (s1, Ok tt), r1) /\
                run_trace (aproduce b s1) r1 = Some (Ok (s2, Ok tt), r2).
Proof.
  intros Hwf H. rewrite (run_trace_split a b s evs Hwf) in H.
  destruct (run_trace (aproduce a s) evs) as [[[[s1 st]|e|e|] r1]|]; try discriminate.
  destruct st as [[]|e|e|]; try discriminate.
  exists s1, r1. split; [reflexivity | exact H].
Qed.

Lemma run_trace_rest_wf {A} (p : prog A) evs r rest : Forall ev_wf evs -> run_trace p evs = Some (r, rest) -> Forall ev_wf rest.
Proof.
  intros Hwf H. destruct (run_trace_consumed _ _ _ _ H) as (used & -> & _). eapply Forall_app_r; exact Hwf.
Qed.

Lemma coder_new_ok lc lp pb full : 0 <= lc <= 8 -> 0 <= lp <= 4 -> 0 <= pb <= 4 -> coder_ok (coder_new lc lp pb) full.
Proof.
  intros Hlc Hlp Hpb. unfold coder_ok, params_ok, coder_new, reps_nonneg; cbn [c_lc c_lp c_pb c_state c_rep0 c_rep1 c_rep2 c_rep3].
  repeat split; try lia. intros H. discriminate.
Qed.

(* a pending distance that is not in use does not matter *)
Definition pd_eq (s s' : astate) : Prop :=
  a_coder s = a_coder s' /\ a_hist s = a_hist s' /\ a_dict s = a_dict s' /\ a_pend_len s = a_pend_len s' /\
  (0 < a_pend_len s -> a_pend_dist s = a_pend_dist s').

Lemma aproduce_pd_eq n : forall s s', pd_eq s s' ->
  peq (fun r r' => pd_eq (fst r) (fst r') /\ snd r = snd r') (aproduce n s) (aproduce n s').
Proof.
  induction n as [|k IH]; intros s s' (Hc & Hh & Hd & Hl & Hpd); cbn [aproduce].
  - constructor. cbn [fst snd]. split; [repeat split; assumption | reflexivity].
  - rewrite <- Hl. destruct (Z.ltb_spec 0 (a_pend_len s)) as [Hpos|Hzero].
    + apply IH. rewrite <- Hc, <- Hh, <- Hd, <- (Hpd Hpos).
      unfold pd_eq; cbn [a_coder a_hist a_dict a_pend_len a_pend_dist]. repeat split; auto.
    + rewrite <- Hc, <- Hh. eapply peq_bind; [apply peq_refl|]. intros r ? <-.
      destruct (snd r) as [b|dist len].
      * apply IH. rewrite <- Hd. unfold pd_eq; cbn [a_coder a_hist a_dict a_pend_len a_pend_dist].
        repeat split; auto. intros X; lia.
      * assert (Hf : a_full s' = a_full s) by (unfold a_full; rewrite Hh, Hd; reflexivity).
        rewrite Hf. destruct (a_full s <=? dist).
        -- constructor. cbn [fst snd]. rewrite <- Hd. split; [|reflexivity].
           unfold pd_eq; cbn [a_coder a_hist a_dict a_pend_len a_pend_dist]. repeat split; auto. intros X; lia.
        -- destruct (len <=? 0); [constructor|].
           apply IH. rewrite <- Hd. unfold pd_eq; cbn [a_coder a_hist a_dict a_pend_len a_pend_dist].
           repeat split; auto.
Qed.

Lemma run_trace_pd_eq n s s' evs r st rest : pd_eq s s' -> Forall ev_wf evs ->
  run_trace (aproduce n s) evs = Some (Ok (r, st), rest) ->
  exists r', run_trace (aproduce n s') evs = Some (Ok (r', st), rest) /\ pd_eq r r'.
Proof.
  intros Hs Hwf Hr. pose proof (run_trace_peq _ _ _ (aproduce_pd_eq n s s' Hs) evs Hwf) as H.
  rewrite Hr in H. destruct (run_trace (aproduce n s') evs) as [[[[r' st']|e|e|] rest']|]; try contradiction.
  cbn [fst snd] in H. destruct H as ((Ha & <-) & <-). exists r'. split; [reflexivity | exact Ha].
Qed.

(* A flushed window of size [W] holding [hist].  [st = true]: the write position is strictly inside
   the buffer (always so after a flush); [st = false] also allows the state LZDecoder::new leaves
   for a preset that fills the buffer. *)
Definition win_ok (W : Z) (st : bool) (w : lzwin) (hist : list Z) : Prop :=
  Rel w hist /\ w_size w = W /\ w_start w = w_pos w /\ (st = true -> w_pos w < w_size w).

Definition pending_ok (w : lzwin) : Prop := 0 < w_pending_len w -> 0 <= w_pending_dist w < w_full w.

(* One decode call with output limit [m] from a flushed window, followed by flush(): the call has
   the budget min(m, W - pos); flush hands out exactly what the specification run added to the
   history, and leaves a flushed window again. *)
Lemma decode_flush E t0 tail done rest c w hist W st d t m s1 st1 r1 :
  win_ok W st w hist -> coder_ok c (w_full w) -> pending_ok w ->
  rc_sim E t0 tail done d t -> E = done ++ rest -> 0 <= m ->
  run_trace (aproduce (Z.to_nat (Z.min m (W - w_pos w)))
               (mkAstate c hist W (w_pending_len w) (w_pending_dist w))) rest = Some (Ok (s1, st1), r1) ->
  exists w1 d1 t1 evs1 out w3,
    lzma_decode c (lzwin_set_limit w m) d t = Ok (a_coder s1, w1, st1, d1, t1) /\
    lzwin_flush w1 = (out, w3) /\
    rest = evs1 ++ r1 /\ rc_sim E t0 tail (done ++ evs1) d1 t1 /\ (st1 = Ok tt -> rdec_normalize d1 = d1) /\
    a_hist s1 = rev out ++ hist /\ win_ok W true w3 (a_hist s1) /\
    w_pending_len w3 = a_pend_len s1 /\ (0 < a_pend_len s1 -> w_pending_dist w3 = a_pend_dist s1) /\
    pending_ok w3 /\
    (st1 = Ok tt -> zlen out = Z.min m (W - w_pos w) /\ coder_ok (a_coder s1) (w_full w3)).
Proof.
  intros (R & Hsz & Hst & _) Hc Hpd Hsim HE Hm Hrun. subst W.
  pose proof (rc_sim_wf _ _ _ _ _ _ _ Hsim HE) as Hwf.
  destruct (set_limit_rel w hist m R Hm) as (R' & Hpl').
  set (w' := lzwin_set_limit w m) in *. pose proof R as [_ [_ HpW] _ _ _ _ _ _].
  assert (Hb : Z.of_nat (Z.to_nat (Z.min m (w_size w - w_pos w))) = w_limit w' - w_pos w').
  { cbn [w' lzwin_set_limit w_limit w_pos]. lia. }
  destruct (decode_call_sim_norm E t0 tail done rest c w' hist d t _ s1 st1 r1 Hsim HE R' Hc Hpl' Hb Hpd Hrun)
    as (w1 & d1 & t1 & evs1 & Hrest & Hdec & Hsim1 & Hrel & Hnorm).
  destruct Hrel as (_ & _ & R1 & _ & Hsz1 & _ & Hst1 & _ & Hzl1 & Hpl1 & Hok1 & Hpd1).
  cbn [w' lzwin_set_limit w_size w_start w_pos] in Hsz1, Hst1, Hzl1.
  destruct (run_trace_grows _ _ _ _ _ _ Hwf Hrun) as (_ & Hgok & Hgerr). cbn [fst snd a_hist] in Hgok, Hgerr.
  assert (Hnew : exists new, a_hist s1 = new ++ hist /\ (st1 = Ok tt -> length new = Z.to_nat (Z.min m (w_size w - w_pos w)))).
  { destruct st1 as [[]|e|e|].
    - destruct (Hgok eq_refl) as (new & Hn & Hl). exists new. auto.
    - destruct Hgerr as (new & Hn & _); [discriminate|]. exists new. split; [exact Hn | discriminate].
    - destruct Hgerr as (new & Hn & _); [discriminate|]. exists new. split; [exact Hn | discriminate].
    - destruct Hgerr as (new & Hn & _); [discriminate|]. exists new. split; [exact Hn | discriminate]. }
  destruct Hnew as (new & Hh1 & Hlen).
  assert (Hadv : w_pos w1 - w_start w1 = zlen new).
  { rewrite Hh1 in Hzl1. unfold zlen in *. rewrite app_length in Hzl1. lia. }
  pose proof (flush_rel w1 _ R1) as HF. pose proof (flush_facts w1) as (Hff & Hfp & _).
  pose proof R1 as [[HW0 _] [_ Hp2] _ _ _ _ _ _].
  destruct (lzwin_flush w1) as [out w3] eqn:Hfl. cbn [fst snd] in Hff, Hfp.
  destruct HF as (Hout & R3 & Hst3 & Hsz3 & _ & Hpl3 & Hpd3).
  assert (Hout' : rev out = new).
  { rewrite Hout, rev_involutive, Hadv, Hh1. unfold zlen. rewrite Nat2Z.id.
    rewrite firstn_app, Nat.sub_diag, firstn_all. cbn [firstn]. apply app_nil_r. }
  exists w1, d1, t1, evs1, out, w3.
  split; [exact Hdec|]. split; [exact Hfl|]. split; [exact Hrest|]. split; [exact Hsim1|]. split; [exact Hnorm|].
  split; [rewrite Hout'; exact Hh1|].
  split; [split; [exact R3|]; split; [congruence|]; split; [exact Hst3|]; intros _; rewrite Hsz3; apply Hfp; assumption|].
  split; [congruence|]. split; [intros Hp; rewrite Hpd3; apply (Hpd1 Hp)|].
  split.
  - intros Hp. rewrite Hpl3, Hpl1 in Hp. rewrite Hpd3, Hff. destruct (Hpd1 Hp) as (-> & Hrng). exact Hrng.
  - intros Hok. split.
    + rewrite <- (rev_involutive out), Hout'. unfold zlen. rewrite rev_length, (Hlen Hok). lia.
    + rewrite Hff. apply (Hok1 Hok).
Qed.

(* The same when the specification run goes on after the call: [n] bytes are still to come and the
   call's budget does not exceed them. *)
Lemma decode_flush_step E t0 tail done rest c w hist W st d t m n sN restN :
  win_ok W st w hist -> coder_ok c (w_full w) -> pending_ok w ->
  rc_sim E t0 tail done d t -> E = done ++ rest -> 0 <= m ->
  run_trace (aproduce n (mkAstate c hist W (w_pending_len w) (w_pending_dist w))) rest
    = Some (Ok (sN, Ok tt), restN) ->
  (Z.to_nat (Z.min m (W - w_pos w)) <= n)%nat ->
  exists s1 r1 w1 d1 t1 evs1 out w3 sN' new2,
    lzma_decode c (lzwin_set_limit w m) d t = Ok (a_coder s1, w1, Ok tt, d1, t1) /\
    lzwin_flush w1 = (out, w3) /\ zlen out = Z.min m (W - w_pos w) /\
    rest = evs1 ++ r1 /\ rc_sim E t0 tail (done ++ evs1) d1 t1 /\ rdec_normalize d1 = d1 /\
    a_hist s1 = rev out ++ hist /\ win_ok W true w3 (a_hist s1) /\
    coder_ok (a_coder s1) (w_full w3) /\ pending_ok w3 /\
    run_trace (aproduce (n - Z.to_nat (Z.min m (W - w_pos w)))
                 (mkAstate (a_coder s1) (a_hist s1) W (w_pending_len w3) (w_pending_dist w3))) r1
      = Some (Ok (sN', Ok tt), restN) /\
    pd_eq sN sN' /\ a_hist sN = new2 ++ a_hist s1 /\ (length new2 + Z.to_nat (Z.min m (W - w_pos w)) = n)%nat.
Proof.
  intros Hw Hc Hpd Hsim HE Hm Hrun Hle. set (b := Z.to_nat (Z.min m (W - w_pos w))) in *.
  pose proof (rc_sim_wf _ _ _ _ _ _ _ Hsim HE) as Hwf.
  replace n with (b + (n - b))%nat in Hrun by lia.
  destruct (trace_prefix_ok _ _ _ _ _ _ Hwf Hrun) as (s1 & r1 & Hrun1 & Hrun2).
  pose proof (run_trace_rest_wf _ _ _ _ Hwf Hrun1) as Hwf1.
  destruct (decode_flush E t0 tail done rest c w hist W st d t m s1 (Ok tt) r1 Hw Hc Hpd Hsim HE Hm Hrun1)
    as (w1 & d1 & t1 & evs1 & out & w3 & Hdec & Hfl & Hrest & Hsim1 & Hnorm & Hh1 & Hw3 & Hpl3 & Hpd3 & Hpo3 & Hok).
  destruct (Hok eq_refl) as (Hzo & Hc3).
  assert (Heq : pd_eq s1 (mkAstate (a_coder s1) (a_hist s1) W (w_pending_len w3) (w_pending_dist w3))).
  { destruct (run_trace_grows _ _ _ _ _ _ Hwf Hrun1) as (Hd1 & _).
    unfold pd_eq; cbn [fst a_coder a_hist a_dict a_pend_len a_pend_dist] in *.
    split; [reflexivity|]. split; [reflexivity|]. split; [exact Hd1|]. split; [congruence|].
    intros Hp. symmetry. exact (Hpd3 Hp). }
  destruct (run_trace_pd_eq _ _ _ _ _ _ _ Heq Hwf1 Hrun2) as (sN' & Hrun2' & HeqN).
  destruct (run_trace_grows _ _ _ _ _ _ Hwf1 Hrun2) as (_ & Hg2 & _).
  destruct (Hg2 eq_refl) as (new2 & Hh2 & Hl2). cbn [fst a_hist] in Hh2.
  exists s1, r1, w1, d1, t1, evs1, out, w3, sN', new2.
  split; [exact Hdec|]. split; [exact Hfl|]. split; [exact Hzo|]. split; [exact Hrest|]. split; [exact Hsim1|].
  split; [exact (Hnorm eq_refl)|]. split; [exact Hh1|]. split; [exact Hw3|]. split; [exact Hc3|].
  split; [exact Hpo3|]. split; [exact Hrun2'|]. split; [exact HeqN|]. split; [exact Hh2 | lia].
Qed.

(* zero-length reads never disturb the stream *)
Lemma lzma1_read_zero s n : n <= 0 -> lzma1_read s n = Ok ([], s).
Proof. intros H. unfold lzma1_read. destruct (Z.leb_spec n 0); [reflexivity | lia]. Qed.

Lemma lzma2_read_zero s n : n <= 0 -> lzma2_read s n = Ok ([], s).
Proof. intros H. unfold lzma2_read. destruct (Z.leb_spec n 0); [reflexivity | lia]. Qed.
