(* Codec/Total1Proofs.v — C06 for the LZMAReader model (Codec/Lzma1.v): TOTAL on arbitrary input.
   For every source (any list of integers behind the header), every parameter vector the
   constructors accept, and every history of destination sizes: construction returns Ok or Err,
   every read() returns Ok or Err within the iteration budget the model gives it (buflen + 2), and
   a whole read history ends (end of stream or error) within a number of calls that is a stated
   function of the source length and the sizes; the bytes returned are at most 8000 per source byte.
   The reader-state invariant [inv1] (window represents a byte history, coder in range, tables
   valid, pending copy inside the dictionary, registers 32-bit, nothing read past the end of the
   source, flushed window) is established by construction and kept by every iteration; from it
   lzma_decode_post (TotalCoreProofs.v) applies at each decode call.  After the end of the stream
   the reader answers Ok(0) whatever its state; after an error read_all stops. *)
From LzVerif Require Import Base.Bytes Codec.Store Codec.Range Codec.ProbProofs Codec.RangeArithProofs
  Codec.LzWindow Codec.LzmaDec Codec.LzmaAbs Codec.LzWindowProofs Codec.ProgProofs Codec.LzmaAbsProofs
  Codec.RangeNoWrapProofs Codec.LzmaSymProofs Codec.LzmaReadProofs Codec.LzmaChunkProofs Codec.LzmaTotalProofs Codec.TruncProofs
  Codec.Lzma2WindowProofs Codec.Lzma1 Codec.Lzma1LoopProofs Codec.Lzma1ReadProofs
  Codec.TotalCoreProofs.

Definition inv1 (s : lzma1) : Prop :=
  exists hist, Rel (l_win s) hist /\ hist_bytes hist /\ coder_ok (l_coder s) (w_full (l_win s)) /\
    (0 < w_pending_len (l_win s) -> 0 <= w_pending_dist (l_win s) < w_full (l_win s)) /\
    probs_ok (l_probs s) /\ rdec_wf (l_rc s) /\ rd_over (l_rc s) = 0 /\
    w_start (l_win s) = w_pos (l_win s) /\ 0 <= l_remaining s.

(* after the end of the stream nothing is decoded any more *)
Definition rinv1 (s : lzma1) : Prop := l_end_reached s = true \/ inv1 s.

(* bytes the reader can still return: 20 per bit the range decoder can still deliver, plus the
   part of the current match not yet copied *)
Definition P1 (s : lzma1) : Z := 20 * mu (l_rc s) + w_pending_len (l_win s).
Definition pot1 (s : lzma1) : Z := if l_end_reached s then 0 else P1 s.

Lemma P1_nonneg_rel s hist : Rel (l_win s) hist -> rdec_wf (l_rc s) -> 0 <= P1 s.
Proof. intros R Hwf. unfold P1. pose proof (mu_nonneg _ Hwf). pose proof (r_pending _ _ R). lia. Qed.

Lemma P1_nonneg s : inv1 s -> 0 <= P1 s.
Proof. intros (hist & R & _ & _ & _ & _ & Hwf & _). exact (P1_nonneg_rel s hist R Hwf). Qed.

Lemma pot1_nonneg s : rinv1 s -> 0 <= pot1 s.
Proof.
  intros [He|Hi]; unfold pot1.
  - rewrite He. lia.
  - destruct (l_end_reached s); [lia | apply P1_nonneg; exact Hi].
Qed.

Lemma csm_range s len : 0 <= l_remaining s -> 0 < len ->
  0 <= csm s len <= len /\ (l_remaining s <= U64_HALF -> csm s len <= l_remaining s) /\
  (csm s len = 0 -> l_remaining s = 0).
Proof.
  intros Hr Hl. unfold csm.
  destruct (Z.leb_spec (l_remaining s) U64_HALF); destruct (Z.ltb_spec (l_remaining s) len); cbn [andb]; lia.
Qed.

Lemma iter1_total s len : inv1 s -> l_end_reached s = false -> 0 < len ->
  (exists e, lzma1_iter s len = Err e) \/
  exists out s1, lzma1_iter s len = Ok (out, s1) /\ rinv1 s1 /\
    zlen out <= len /\ zlen out + P1 s1 <= P1 s /\ 0 <= P1 s1 /\
    (length (rd_in (l_rc s1)) <= length (rd_in (l_rc s)))%nat /\
    (l_end_reached s1 = false ->
       w_pos (l_win s1) < w_size (l_win s1) /\ (1 <= zlen out \/ w_pos (l_win s) = w_size (l_win s))).
Proof.
  intros (hist & R & Hhb & Hco & Hpd & Hpr & Hwf & Ho & Hsp & Hrem) Hne Hlen.
  destruct (csm_range s len Hrem Hlen) as (Hm & Hmk & Hm0).
  set (m := csm s len) in *.
  destruct (set_limit_rel (l_win s) hist m R ltac:(lia)) as (R' & Hpl').
  destruct (lzma_decode_post (l_coder s) (lzwin_set_limit (l_win s) m) hist (l_rc s) (l_probs s) R' Hhb Hco Hpl' Hpd Hpr Hwf)
    as (c1 & w1 & st & d1 & t1 & hist1 & Hdec & R1 & Hhb1 & Hpr1 & Hwf1 & Esz & Eli & Est & Epos & Hpd1 & Hst & Hlen1 & Hov & Hpot).
  cbn [lzwin_set_limit w_size w_limit w_start w_pos w_pending_len] in Esz, Eli, Est, Epos, Hpot.
  destruct (Z.ltb_spec 0 (rd_over d1)) as [Hov1|Hov0].
  { left. unfold lzma1_iter. fold (csm s len). fold m. rewrite Hdec. cbn [obind].
    destruct (Z.ltb_spec 0 (rd_over d1)); [eexists; reflexivity | lia]. }
  assert (Hd10 : rd_over d1 = 0) by lia.
  specialize (Hpot ltac:(lia) Hd10).
  assert (Hovb : (0 <? rd_over d1) = false) by (apply Z.ltb_ge; lia).
  pose proof (flush_rel w1 hist1 R1) as HF. pose proof (flush_facts w1) as (Ffull & Fpos & Flen).
  pose proof R as [[Hs0 _] [[Hp0 Hp1] Hp2] _ _ _ _ _ Hpe].
  pose proof R1 as [[Hs1 _] [[Hq0 Hq1] Hq2] _ _ _ _ _ Hpe1].
  destruct Hst as [(-> & Hco1 & Hlim)|(e & ->)].
  - (* the decoder filled the window up to the limit *)
    cbn [lzwin_set_limit w_limit w_pos w_size] in Hlim.
    rewrite (iter_of_decode_ok s len c1 w1 d1 t1 Hdec Hovb). cbv zeta.
    destruct (lzwin_flush w1) as [out w2]. cbn [fst snd] in *.
    destruct HF as (_ & R2 & Fst & Fsz & Fli & Fpl & Fpd).
    assert (Hzl : zlen out = w_pos w1 - w_pos (l_win s)) by lia.
    assert (Hzm : zlen out = Z.min m (w_size (l_win s) - w_pos (l_win s))) by lia.
    set (rem1 := if l_remaining s <=? U64_HALF then l_remaining s - zlen out else l_remaining s).
    assert (Hrem1 : 0 <= rem1).
    { unfold rem1. destruct (Z.leb_spec (l_remaining s) U64_HALF) as [Hk|Hk]; [specialize (Hmk Hk); lia | lia]. }
    rewrite Hne. cbn [orb].
    set (end2 := (l_remaining s <=? U64_HALF) && (rem1 =? 0)).
    destruct (end2 && lzwin_has_pending w2); [left; eexists; reflexivity|].
    right. eexists. eexists. split; [reflexivity|].
    cbn [l_coder l_win l_rc l_probs l_end_reached l_remaining].
    split.
    { right. exists hist1. cbn [l_coder l_win l_rc l_probs l_end_reached l_remaining].
      split; [exact R2|]. split; [exact Hhb1|]. split; [rewrite Ffull; exact Hco1|].
      split; [rewrite Fpl, Fpd, Ffull; exact Hpd1|]. split; [exact Hpr1|]. split; [exact Hwf1|].
      split; [exact Hd10|]. split; [exact Fst | exact Hrem1]. }
    split; [lia|]. split; [unfold P1; cbn [l_rc l_win]; lia|].
    split; [exact (P1_nonneg_rel (mkLzma1 _ _ _ _ _ _) hist1 R2 Hwf1)|].
    split; [exact Hlen1|].
    intros Hend. split; [rewrite Fsz; apply Fpos; lia|].
    destruct (Z.eq_dec m 0) as [Hmz|Hmnz].
    + (* nothing was asked for: only when the declared size is exhausted, and then the call ends *)
      exfalso. specialize (Hm0 Hmz). unfold end2, rem1 in Hend.
      rewrite Hm0 in Hend. change (0 <=? U64_HALF) with true in Hend. cbn [andb] in Hend.
      assert (zlen out = 0) by lia. destruct (Z.eqb_spec (0 - zlen out) 0); [discriminate | lia].
    + destruct (Z.eq_dec (w_pos (l_win s)) (w_size (l_win s))); [right; assumption | left; lia].
  - (* the decoder stopped with an error: the end marker of a stream of unknown size, or fatal *)
    unfold lzma1_iter. fold (csm s len). fold m. rewrite Hdec. cbn [obind]. rewrite Hovb.
    destruct (negb (l_remaining s =? U64_MAX) || negb (c_rep0 c1 =? 4294967295)) eqn:Emk; cbn [obind];
      [left; eexists; reflexivity|].
    destruct (Z.ltb_spec 0 (rd_over (rdec_normalize d1))) as [Hn1|Hn0]; cbn [obind]; [left; eexists; reflexivity|].
    pose proof (normalize_over_mono d1) as Hnm.
    assert (Hn : rd_over (rdec_normalize d1) = 0) by lia.
    destruct (normalize_mu d1 Hwf1 ltac:(lia) Hn) as (Hmun & _).
    destruct (lzwin_flush w1) as [out w2]. cbn [fst snd] in *.
    destruct HF as (_ & R2 & Fst & Fsz & Fli & Fpl & Fpd).
    cbn [orb andb].
    destruct (lzwin_has_pending w2); [left; eexists; reflexivity|].
    right. eexists. eexists. split; [reflexivity|].
    cbn [l_coder l_win l_rc l_probs l_end_reached l_remaining].
    split; [left; reflexivity|].
    split; [lia|]. split; [unfold P1; cbn [l_rc l_win]; lia|].
    split; [exact (P1_nonneg_rel (mkLzma1 _ _ _ _ _ _) hist1 R2 (rdec_normalize_range d1 Hwf1))|].
    split; [pose proof (normalize_in_len d1); lia|].
    intros Hx. discriminate.
Qed.

(* the source ran dry while the first k bytes of this iteration were decoded (lzma_decode_dry) *)
Lemma iter1_dry s len hist k s2 st2 d2 t2 :
  Rel (l_win s) hist -> hist_bytes hist -> coder_ok (l_coder s) (w_full (l_win s)) ->
  (0 < w_pending_len (l_win s) -> 0 <= w_pending_dist (l_win s) < w_full (l_win s)) ->
  probs_ok (l_probs s) -> rdec_wf (l_rc s) -> 0 <= csm s len ->
  (k <= Z.to_nat (Z.min (csm s len + w_pos (l_win s)) (w_size (l_win s)) - w_pos (l_win s)))%nat ->
  run_rc (aproduce k (mkAstate (l_coder s) hist (w_size (l_win s)) (w_pending_len (l_win s)) (w_pending_dist (l_win s))))
         (l_rc s) (l_probs s) = Ok (s2, st2, d2, t2) ->
  0 < rd_over d2 ->
  lzma1_iter s len = Err E_UNEXPECTED_EOF.
Proof.
  intros R Hh Hc Hpd Ht Hd Hm Hk Hrun Hov.
  destruct (set_limit_rel (l_win s) hist (csm s len) R Hm) as (R' & Hpl').
  destruct (lzma_decode_dry (l_coder s) (lzwin_set_limit (l_win s) (csm s len)) hist (l_rc s) (l_probs s) k s2 st2 d2 t2
              R' Hh Hc Hpl' Hpd Ht Hd Hk Hrun Hov) as (c1 & w1 & st & d1 & t1 & Hdec & Hov1).
  unfold lzma1_iter. fold (csm s len). rewrite Hdec. cbn [obind].
  destruct (Z.ltb_spec 0 (rd_over d1)); [reflexivity | lia].
Qed.

Lemma read1_iter_err s n e : l_end_reached s = false -> 0 < n -> lzma1_iter s n = Err e -> lzma1_read s n = Err e.
Proof.
  intros He Hn Hi. unfold lzma1_read. destruct (Z.leb_spec n 0); [lia|]. rewrite He.
  destruct (Z.to_nat (n + 2)) as [|f] eqn:Ef; [lia|]. cbn [lzma1_read_loop].
  destruct (Z.leb_spec n 0); [lia|]. rewrite Hi. reflexivity.
Qed.

Lemma loop1_total fuel : forall s len acc, inv1 s -> l_end_reached s = false -> 0 <= len ->
  len + (if w_pos (l_win s) =? w_size (l_win s) then 1 else 0) <= Z.of_nat fuel ->
  (exists e, lzma1_read_loop fuel s len acc = Err e) \/
  exists new s1, lzma1_read_loop fuel s len acc = Ok (rev acc ++ new, s1) /\ rinv1 s1 /\
    zlen new <= len /\ zlen new + P1 s1 <= P1 s /\ 0 <= P1 s1 /\
    (length (rd_in (l_rc s1)) <= length (rd_in (l_rc s)))%nat /\
    (l_end_reached s1 = false -> zlen new = len).
Proof.
  induction fuel as [|f IH]; intros s len acc Hi Hne Hlen Hf.
  - assert (len = 0) by (destruct (w_pos (l_win s) =? w_size (l_win s)); lia). subst len.
    cbn [lzma1_read_loop]. change (0 <=? 0) with true. cbv iota.
    right. exists [], s. rewrite frev_rev, app_nil_r. split; [reflexivity|]. split; [right; exact Hi|].
    pose proof (P1_nonneg s Hi). change (zlen (@nil Z)) with 0. repeat split; lia.
  - cbn [lzma1_read_loop]. destruct (Z.leb_spec len 0) as [Hz|Hpos].
    + right. exists [], s. rewrite frev_rev, app_nil_r. split; [reflexivity|]. split; [right; exact Hi|].
      pose proof (P1_nonneg s Hi). change (zlen (@nil Z)) with 0. repeat split; lia.
    + destruct (iter1_total s len Hi Hne Hpos) as [(e & He)|(out & s2 & Hit & Hi2 & Hol & Hpot & Hp2 & Hin & Hprog)].
      * left. rewrite He. cbn [obind]. eexists; reflexivity.
      * rewrite Hit. cbn [obind]. pose proof (zlen_nonneg out) as Ho0.
        destruct (l_end_reached s2) eqn:Eend.
        -- right. exists out, s2. rewrite frev_rev, rev_append_rev, rev_app_distr, rev_involutive.
           split; [reflexivity|]. split; [exact Hi2|]. split; [lia|]. split; [lia|]. split; [lia|]. split; [lia|]. intros Hx; congruence.
        -- destruct (Hprog eq_refl) as (Hroom & Hadv).
           assert (Hi2' : inv1 s2) by (destruct Hi2 as [Hx|Hx]; [congruence | exact Hx]).
           assert (Hf2 : len - zlen out + (if w_pos (l_win s2) =? w_size (l_win s2) then 1 else 0) <= Z.of_nat f).
           { destruct (Z.eqb_spec (w_pos (l_win s2)) (w_size (l_win s2))); [lia|].
             destruct (Z.eqb_spec (w_pos (l_win s)) (w_size (l_win s))); destruct Hadv as [Hadv|Hadv]; lia. }
           destruct (IH s2 (len - zlen out) (rev_append out acc) Hi2' Eend ltac:(lia) Hf2)
             as [(e & He)|(new & s1 & Hl & Hi1 & Hnl & Hpot1 & Hp1 & Hin1 & Hfull)].
           ++ left. rewrite He. eexists; reflexivity.
           ++ right. exists (out ++ new), s1.
              rewrite Hl, rev_append_rev, rev_app_distr, rev_involutive, <- app_assoc.
              split; [reflexivity|]. split; [exact Hi1|]. rewrite zlen_app.
              split; [lia|]. split; [lia|]. split; [lia|]. split; [lia|]. intros Hx. specialize (Hfull Hx). lia.
Qed.

Theorem read1_total s n : rinv1 s ->
  (exists e, lzma1_read s n = Err e) \/
  exists out s1, lzma1_read s n = Ok (out, s1) /\ rinv1 s1 /\
    zlen out <= Z.max 0 n /\ zlen out + pot1 s1 <= pot1 s /\
    (length (rd_in (l_rc s1)) <= length (rd_in (l_rc s)))%nat /\
    (l_end_reached s1 = false -> 0 < n -> zlen out = n).
Proof.
  intros Hi. unfold lzma1_read.
  destruct (Z.leb_spec n 0) as [Hz|Hpos].
  { right. exists [], s. split; [reflexivity|]. split; [exact Hi|]. change (zlen (@nil Z)) with 0. repeat split; lia. }
  destruct (l_end_reached s) eqn:Eend.
  { right. exists [], s. split; [reflexivity|]. split; [exact Hi|]. change (zlen (@nil Z)) with 0.
    split; [lia|]. split; [lia|]. split; [lia|]. intros Hx _. congruence. }
  assert (Hi' : inv1 s) by (destruct Hi as [Hx|Hx]; [congruence | exact Hx]).
  destruct (loop1_total (Z.to_nat (n + 2)) s n [] Hi' Eend ltac:(lia)
              ltac:(destruct (w_pos (l_win s) =? w_size (l_win s)); lia))
    as [(e & He)|(new & s1 & Hl & Hi1 & Hnl & Hpot & Hp1 & Hin & Hfull)].
  - left. exists e. exact He.
  - right. exists new, s1. cbn [rev app] in Hl. split; [exact Hl|]. split; [exact Hi1|].
    split; [lia|]. split.
    { unfold pot1. rewrite Eend. destruct (l_end_reached s1); lia. }
    split; [exact Hin|]. intros Hx _. exact (Hfull Hx).
Qed.

Lemma read_all_g fuel : forall s cur all acc,
  lzma1_read_all fuel s cur all acc =
  match g_obs lzma1 lzma1_read fuel s cur all acc with
  | (out, s1, GEnd) => Ok (out, s1)
  | (_, _, GErr e) => Err e
  | (_, _, GPanic e) => Panic e
  | (_, _, GFuel) => Fuel
  end.
Proof.
  induction fuel as [|f IH]; intros s cur all acc; cbn [lzma1_read_all g_obs]; [reflexivity|].
  destruct (match cur with [] => (4096, all) | x :: r => (x, r) end) as [sz rest].
  destruct (lzma1_read s sz) as [[out s1]|e|e|]; cbn [obind]; try reflexivity.
  destruct ((0 <? sz) && (zlen out =? 0)); [reflexivity | apply IH].
Qed.

Lemma lead0_exists l : Exists (fun z => 0 < z) l -> lead0 l < zlen l.
Proof.
  induction 1 as [x r Hx|x r _ IH]; cbn [lead0]; rewrite zlen_cons; pose proof (zlen_nonneg r).
  - destruct (Z.ltb_spec 0 x); lia.
  - destruct (0 <? x); lia.
Qed.

Definition sizes_ok (all : list Z) : Prop := all = [] \/ Exists (fun z => 0 < z) all.

Lemma sizes_ok_lead0 all : sizes_ok all -> all = [] \/ lead0 all < zlen all.
Proof. intros [H|H]; [left; exact H | right; apply lead0_exists; exact H]. Qed.

Lemma ra_fuel_mono sizes all p q : 0 <= p <= q -> (ra_fuel sizes all p <= ra_fuel sizes all q)%nat.
Proof.
  intros H. unfold ra_fuel. pose proof (zlen_nonneg sizes). pose proof (zlen_nonneg all).
  apply Z2Nat.inj_le; [nia | nia|]. apply Z.mul_le_mono_nonneg_r; lia.
Qed.

Theorem lzma1_read_all_total : forall s0 sizes all fuel, rinv1 s0 -> sizes_ok all ->
  (ra_fuel sizes all (pot1 s0) <= fuel)%nat ->
  (exists out s1, lzma1_read_all fuel s0 sizes all [] = Ok (out, s1) /\ zlen out <= pot1 s0) \/
  (exists e, lzma1_read_all fuel s0 sizes all [] = Err e).
Proof.
  intros s0 sizes all fuel Hi Hall Hfuel.
  assert (Hstep : forall s n, rinv1 s -> 0 < n ->
            (exists e, lzma1_read s n = Err e) \/
            exists out s1, lzma1_read s n = Ok (out, s1) /\ rinv1 s1 /\ zlen out + pot1 s1 <= pot1 s).
  { intros s n Hs _. destruct (read1_total s n Hs) as [He|(out & s1 & Hr & Hi1 & _ & Hp & _)]; [left; exact He|].
    right. exists out, s1. auto. }
  destruct (g_obs_total lzma1 lzma1_read rinv1 pot1 pot1_nonneg lzma1_read_zero Hstep fuel s0 sizes all []
              Hi (sizes_ok_lead0 all Hall) Hfuel) as (new & s' & E1 & E2 & Hi' & Hpot & Hend).
  rewrite read_all_g.
  destruct (g_obs lzma1 lzma1_read fuel s0 sizes all []) as [[out s1] en]. cbn [fst snd rev app] in *. subst out s1.
  pose proof (pot1_nonneg s' Hi').
  destruct Hend as [->|(e & ->)]; [left; exists new, s'; split; [reflexivity | lia] | right; exists e; reflexivity].
Qed.

Definition preset_bytes (preset : option (list Z)) : Prop :=
  match preset with Some p => bytes_ok p = true | None => True end.

Lemma get_dict_size_any x : match lzma1_get_dict_size x with
                            | Ok r => 0 < r /\ r mod 16 = 0
                            | Err _ => True
                            | _ => False
                            end.
Proof. unfold lzma1_get_dict_size. destruct (DICT_SIZE_MAX <? x); [exact I | (Z.div_mod_to_equations; lia)]. Qed.

Lemma lzwin_new_inv ds preset : 0 < ds -> ds mod 16 = 0 -> preset_bytes preset ->
  exists hist, Rel (lzwin_new ds preset) hist /\ hist_bytes hist /\
    w_start (lzwin_new ds preset) = w_pos (lzwin_new ds preset) /\ w_pending_len (lzwin_new ds preset) = 0.
Proof.
  intros Hds H16 Hp. destruct preset as [p|].
  - eexists. split; [apply lzwin_new_preset_rel; assumption|]. split; [|split; reflexivity].
    apply hist_bytes_in. intros x Hx. apply in_rev in Hx. unfold lastn in Hx. apply In_skipn in Hx.
    exact (bytes_ok_in _ _ Hp Hx).
  - exists []. split; [apply lzwin_new_rel; assumption|]. split; [|split; reflexivity].
    apply hist_bytes_in. intros x [].
Qed.

Lemma rdec_init_wf input d : rdec_init input = Ok d ->
  rdec_wf d /\ rd_over d = 0 /\ rd_range d = 4294967295 /\ (length (rd_in d) + 5 = length input)%nat.
Proof.
  unfold rdec_init. destruct input as [|b0 [|b1 [|b2 [|b3 [|b4 r]]]]]; try discriminate;
    try (destruct (negb (b0 =? 0)); discriminate).
  destruct (negb (b0 =? 0)); [discriminate|]. intros H. apply Ok_inj in H. subst d.
  unfold rdec_wf. cbn [rd_range rd_over rd_in length]. repeat split; lia.
Qed.

Lemma lev_init : lev 4294967295 = 364.
Proof. rewrite lev_unfold by lia. apply lev_top. Qed.

(* construct2: every parameter vector; the reader it returns satisfies the invariant and can
   return at most 8000 bytes per source byte *)
Theorem construct2_inv input uncomp lc lp pb dict preset :
  0 <= lc -> 0 <= lp -> 0 <= pb -> 0 <= uncomp -> preset_bytes preset ->
  match lzma1_construct2 input uncomp lc lp pb dict preset with
  | Ok s0 => inv1 s0 /\ l_end_reached s0 = false /\ pot1 s0 <= 8000 * zlen input /\
             (length (rd_in (l_rc s0)) <= length input)%nat
  | Err _ => True
  | _ => False
  end.
Proof.
  intros Hlc Hlp Hpb Hu Hpre. unfold lzma1_construct2.
  destruct (Z.ltb_spec 8 lc); [exact I|]. destruct (Z.ltb_spec 4 lp); [exact I|]. destruct (Z.ltb_spec 4 pb); [exact I|].
  cbn [orb].
  pose proof (get_dict_size_any dict) as G0.
  destruct (lzma1_get_dict_size dict) as [ds|e|e|]; cbn [obind]; try contradiction; [|exact I].
  match goal with |- context [if ?c then lzma1_get_dict_size (wrap32 uncomp) else Ok ds] =>
    assert (G1 : match (if c then lzma1_get_dict_size (wrap32 uncomp) else Ok ds) with
                 | Ok r => True | Err _ => True | _ => False end)
      by (destruct c; [pose proof (get_dict_size_any (wrap32 uncomp)) as G; destruct (lzma1_get_dict_size (wrap32 uncomp)); auto | exact I]);
    destruct (if c then lzma1_get_dict_size (wrap32 uncomp) else Ok ds) as [ds1|e|e|] end;
    cbn [obind]; try contradiction; [|exact I].
  destruct (rdec_init input) as [d0|e|e|] eqn:Ei; cbn [obind]; try exact I;
    try (unfold rdec_init in Ei; destruct input as [|b0 [|b1 [|b2 [|b3 [|b4 r]]]]]; try discriminate;
         destruct (negb (b0 =? 0)); discriminate).
  pose proof (get_dict_size_any ds1) as G2.
  destruct (lzma1_get_dict_size ds1) as [ds2|e|e|]; cbn [obind]; try contradiction; [|exact I].
  destruct G2 as (Hds2 & H16).
  destruct (rdec_init_wf input d0 Ei) as (Hwf & Hov & Hrange & Hlen).
  destruct (lzwin_new_inv ds2 preset Hds2 H16 Hpre) as (hist & R & Hhb & Hst & Hpl).
  split; [|split; [reflexivity|split]].
  - exists hist. cbn [l_coder l_win l_rc l_probs l_end_reached l_remaining].
    split; [exact R|]. split; [exact Hhb|]. split; [apply coder_new_ok; lia|].
    split; [rewrite Hpl; lia|]. split; [apply probs_ok_empty|]. split; [exact Hwf|].
    split; [exact Hov|]. split; [exact Hst | exact Hu].
  - unfold pot1, P1, mu, MU_BYTE. cbn [l_coder l_win l_rc l_probs l_end_reached l_remaining].
    rewrite Hpl, Hrange, lev_init. unfold zlen. lia.
  - cbn [l_rc]. lia.
Qed.

(* construct1 (new_with_props): the properties byte *)
Theorem construct1_inv input uncomp props dict preset :
  0 <= props -> 0 <= uncomp -> preset_bytes preset ->
  match lzma1_construct1 input uncomp props dict preset with
  | Ok s0 => inv1 s0 /\ l_end_reached s0 = false /\ pot1 s0 <= 8000 * zlen input /\
             (length (rd_in (l_rc s0)) <= length input)%nat
  | Err _ => True
  | _ => False
  end.
Proof.
  intros Hp Hu Hpre. unfold lzma1_construct1. destruct (Z.ltb_spec 224 props); [exact I|]. cbv zeta.
  destruct (DICT_SIZE_MAX <? dict); [exact I|].
  set (pbv := props / 45). set (r := props - pbv * 45). set (lpv := r / 9). set (lcv := r - lpv * 9).
  apply construct2_inv; try assumption; unfold lcv, lpv, r, pbv; (Z.div_mod_to_equations; lia).
Qed.

Lemma le_value_4 d0 d1 d2 d3 : bytes_ok [d0; d1; d2; d3] = true -> 0 <= le_value [d0; d1; d2; d3] < 4294967296.
Proof. intros H. apply (le_value_bound [d0; d1; d2; d3]) in H. exact H. Qed.

Lemma memory_usage_total dict lc lp : 0 <= dict -> 0 <= lc -> 0 <= lp ->
  match lzma1_memory_usage dict lc lp with Ok _ | Err _ => True | _ => False end.
Proof.
  intros Hd Hlc Hlp. unfold lzma1_memory_usage.
  destruct (Z.ltb_spec 8 lc); [exact I|]. destruct (Z.ltb_spec 4 lp); [exact I|]. cbn [orb].
  unfold lzma1_get_dict_size. destruct (Z.ltb_spec DICT_SIZE_MAX dict); cbn [obind]; [exact I|].
  assert (Hs : Z.shiftl 1536 (lc + lp) <= 6291456).
  { rewrite Z.shiftl_mul_pow2 by lia. assert (2 ^ (lc + lp) <= 2 ^ 12) by (apply Z.pow_le_mono_r; lia).
    change (2 ^ 12) with 4096 in *. lia. }
  assert (Hs0 : 0 <= Z.shiftl 1536 (lc + lp)) by (apply Z.shiftl_nonneg; lia).
  unfold P2_32, DICT_SIZE_MAX in *.
  destruct (Z.leb_spec 4294967296 (Z.shiftl 1536 (lc + lp))); [lia|].
  match goal with |- context [4294967296 <=? ?m] => destruct (Z.leb_spec 4294967296 m); [(Z.div_mod_to_equations; lia) | exact I] end.
Qed.

(* the .lzma header: props byte, dictionary size, declared size, memory limit *)
Theorem new_mem_limit_inv input mem preset : bytes_ok input = true -> preset_bytes preset ->
  match lzma1_new_mem_limit input mem preset with
  | Ok s0 => inv1 s0 /\ l_end_reached s0 = false /\ pot1 s0 <= 8000 * zlen input /\
             (length (rd_in (l_rc s0)) <= length input)%nat
  | Err _ => True
  | _ => False
  end.
Proof.
  intros Hb Hpre. unfold lzma1_new_mem_limit.
  destruct input as [|props [|d0 [|d1 [|d2 [|d3 [|s0 [|s1 [|s2 [|s3 [|s4 [|s5 [|s6 [|s7 rest]]]]]]]]]]]]]; try exact I.
  change (props :: d0 :: d1 :: d2 :: d3 :: s0 :: s1 :: s2 :: s3 :: s4 :: s5 :: s6 :: s7 :: rest)
    with ([props] ++ [d0; d1; d2; d3] ++ [s0; s1; s2; s3; s4; s5; s6; s7] ++ rest) in Hb.
  apply bytes_ok_app in Hb as (Hbp & Hb). apply bytes_ok_app in Hb as (Hbd & Hb). apply bytes_ok_app in Hb as (Hbs & _).
  pose proof (le_value_4 _ _ _ _ Hbd) as Hd.
  pose proof (le_value_bound _ Hbs) as Hs. change (256 ^ zlen [s0; s1; s2; s3; s4; s5; s6; s7]) with 18446744073709551616 in Hs.
  apply bytes_ok_cons in Hbp as (Hp & _).
  set (dict := le_value [d0; d1; d2; d3]) in *. set (uncomp := le_value [s0; s1; s2; s3; s4; s5; s6; s7]) in *.
  (* the memory estimate *)
  assert (Hmu : match lzma1_memory_usage_by_props dict props with Ok _ | Err _ => True | _ => False end).
  { unfold lzma1_memory_usage_by_props. destruct (DICT_SIZE_MAX <? dict); [exact I|]. destruct (224 <? props); [exact I|].
    cbv zeta. apply memory_usage_total; (Z.div_mod_to_equations; lia). }
  destruct (lzma1_memory_usage_by_props dict props) as [need|e|e|]; cbn [obind]; try contradiction; [|exact I].
  destruct (mem <? need); [exact I|].
  pose proof (construct1_inv rest uncomp props dict preset ltac:(lia) ltac:(lia) Hpre) as HC.
  destruct (lzma1_construct1 rest uncomp props dict preset) as [st|e|e|]; try exact HC.
  destruct HC as (Hi & He & Hpot & Hlen). split; [exact Hi|]. split; [exact He|].
  pose proof (zlen_nonneg rest). split; [rewrite !zlen_cons; lia | cbn [length]; lia].
Qed.

Definition total1 (o : outcome (list Z * lzma1)) (bound : Z) : Prop :=
  (exists out s1, o = Ok (out, s1) /\ zlen out <= bound) \/ (exists e, o = Err e).

Lemma total1_of_inv s0 bound sizes all fuel : inv1 s0 -> pot1 s0 <= bound -> sizes_ok all ->
  (ra_fuel sizes all bound <= fuel)%nat -> total1 (lzma1_read_all fuel s0 sizes all []) bound.
Proof.
  intros Hi Hpot Hall Hfuel.
  pose proof (pot1_nonneg s0 (or_intror Hi)) as Hp0.
  destruct (lzma1_read_all_total s0 sizes all fuel (or_intror Hi) Hall
              ltac:(pose proof (ra_fuel_mono sizes all (pot1 s0) bound ltac:(lia)); lia))
    as [(out & s1 & Hr & Hz)|(e & Hr)].
  - left. exists out, s1. split; [exact Hr | lia].
  - right. exists e. exact Hr.
Qed.

Theorem lzma1_raw_total : forall input uncomp lc lp pb dict preset sizes all fuel,
  0 <= lc -> 0 <= lp -> 0 <= pb -> 0 <= uncomp -> preset_bytes preset -> sizes_ok all ->
  (ra_fuel sizes all (8000 * zlen input) <= fuel)%nat ->
  match lzma1_construct2 input uncomp lc lp pb dict preset with
  | Ok s0 => total1 (lzma1_read_all fuel s0 sizes all []) (8000 * zlen input)
  | Err _ => True
  | _ => False
  end.
Proof.
  intros input uncomp lc lp pb dict preset sizes all fuel Hlc Hlp Hpb Hu Hpre Hall Hfuel.
  pose proof (construct2_inv input uncomp lc lp pb dict preset Hlc Hlp Hpb Hu Hpre) as HC.
  destruct (lzma1_construct2 input uncomp lc lp pb dict preset) as [s0|e|e|]; try exact HC.
  destruct HC as (Hi & _ & Hpot & _). exact (total1_of_inv s0 _ sizes all fuel Hi Hpot Hall Hfuel).
Qed.

Theorem lzma1_hdr_total : forall input mem preset sizes all fuel,
  bytes_ok input = true -> preset_bytes preset -> sizes_ok all ->
  (ra_fuel sizes all (8000 * zlen input) <= fuel)%nat ->
  match lzma1_new_mem_limit input mem preset with
  | Ok s0 => total1 (lzma1_read_all fuel s0 sizes all []) (8000 * zlen input)
  | Err _ => True
  | _ => False
  end.
Proof.
  intros input mem preset sizes all fuel Hb Hpre Hall Hfuel.
  pose proof (new_mem_limit_inv input mem preset Hb Hpre) as HC.
  destruct (lzma1_new_mem_limit input mem preset) as [s0|e|e|]; try exact HC.
  destruct HC as (Hi & _ & Hpot & _). exact (total1_of_inv s0 _ sizes all fuel Hi Hpot Hall Hfuel).
Qed.

(* the hypothesis on the cycled sizes is needed: with zero-size buffers only, a read history never
   reaches a call that could report the end (every such read() is a no-op) *)
Lemma read_all_zero_sizes_fuel fuel : forall s acc, lzma1_read_all fuel s [0] [0] acc = Fuel.
Proof.
  induction fuel as [|f IH]; intros s acc; cbn [lzma1_read_all]; [reflexivity|].
  rewrite (lzma1_read_zero s 0 ltac:(lia)). cbn [obind]. change (0 <? 0) with false. cbn [andb rev_append]. apply IH.
Qed.

Theorem lzma1_props_total : forall input uncomp props dict preset sizes all fuel,
  0 <= props -> 0 <= uncomp -> preset_bytes preset -> sizes_ok all ->
  (ra_fuel sizes all (8000 * zlen input) <= fuel)%nat ->
  match lzma1_construct1 input uncomp props dict preset with
  | Ok s0 => total1 (lzma1_read_all fuel s0 sizes all []) (8000 * zlen input)
  | Err _ => True
  | _ => False
  end.
Proof.
  intros input uncomp props dict preset sizes all fuel Hp Hu Hpre Hall Hfuel.
  pose proof (construct1_inv input uncomp props dict preset Hp Hu Hpre) as HC.
  destruct (lzma1_construct1 input uncomp props dict preset) as [s0|e|e|]; try exact HC.
  destruct HC as (Hi & _ & Hpot & _). exact (total1_of_inv s0 _ sizes all fuel Hi Hpot Hall Hfuel).
Qed.

Print Assumptions read1_total.
Print Assumptions lzma1_props_total.
Print Assumptions lzma1_raw_total.
Print Assumptions lzma1_hdr_total.
