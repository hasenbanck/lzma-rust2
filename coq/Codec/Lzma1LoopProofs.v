(* Codec/Lzma1LoopProofs.v — the read loops of the LZMAReader model (Lzma1.v) over a stream whose
   decisions are known: whatever destination sizes the caller uses, the calls of LZMADecoder::decode
   they cause compose to ONE run of the specification decoder (LzmaAbs.v), the bytes handed out are
   consecutive segments of the data, and when the end is reported exactly the encoder's bytes have
   been consumed.  Both ways a stream ends are covered: declared size reached, end marker met.
   This file is parametric in the facts about the recorded decisions (Section Reader);
   Lzma1ReadProofs.v instantiates them from the writer model.  Defines seg, csm, fin_ok, InvG, InvR and Ended, which
   Lzma1ReadProofs.v and Format/PayloadLzma1Proofs.v state their results with. *)
From LzVerif Require Import Base.Bytes Codec.Store Codec.Range Codec.ProbProofs Codec.RangeArithProofs
  Codec.LzWindow Codec.LzmaDec Codec.LzmaAbs Codec.LzWindowProofs Codec.ProgProofs Codec.LzmaAbsProofs
  Codec.RangeEncProofs Codec.RangeDecProofs Codec.RangeProofs Codec.LzmaSymProofs Codec.LzmaReadProofs
  Codec.Lzma1.
From LzVerif Require Export Codec.ReadLoopProofs.

(* lists: segments of the data and the newest-first history *)
Definition seg {A} (l : list A) (k m : nat) : list A := firstn m (skipn k l).

Lemma firstn_skipn_add {A} a : forall b (l : list A), firstn a l ++ firstn b (skipn a l) = firstn (a + b) l.
Proof.
  induction a as [|a IH]; intros b l; [reflexivity|].
  destruct l as [|x t].
  - cbn [firstn skipn app Nat.add]. apply firstn_nil.
  - cbn [firstn skipn app Nat.add]. rewrite IH. reflexivity.
Qed.

Lemma seg_app {A} (l : list A) k a b : seg l k a ++ seg l (k + a) b = seg l k (a + b).
Proof.
  unfold seg. replace (skipn (k + a) l) with (skipn a (skipn k l)) by apply skipn_skipn.
  apply firstn_skipn_add.
Qed.

Lemma seg_length {A} (l : list A) k m : (k + m <= length l)%nat -> length (seg l k m) = m.
Proof. intros H. unfold seg. rewrite firstn_length, skipn_length. lia. Qed.

Lemma seg_all {A} (l : list A) : seg l 0 (length l) = l.
Proof. unfold seg. cbn [skipn]. apply firstn_all. Qed.

Lemma seg_nil {A} (l : list A) k : seg l k 0 = [].
Proof. reflexivity. Qed.

(* the history is the data reversed (followed by what was there before); the bytes [out] that a
   call adds on top of the first k bytes are segment k.. of the data *)
Lemma hist_seg (data hist0 hist new2 out : list Z) k :
  rev data ++ hist0 = new2 ++ rev out ++ hist ->
  (k + length out + length new2 = length data)%nat ->
  out = seg data k (length out).
Proof.
  intros He Hl. set (b := length out) in *.
  assert (Hd : data = firstn k data ++ seg data k b ++ skipn (k + b) data).
  { rewrite <- (firstn_skipn k data) at 1. f_equal.
    rewrite <- (firstn_skipn b (skipn k data)) at 1. unfold seg. f_equal. apply skipn_skipn. }
  rewrite Hd in He at 1. rewrite !rev_app_distr, <- !app_assoc in He.
  apply app_eq_len in He as [_ He].
  2:{ rewrite rev_length, skipn_length. lia. }
  apply app_eq_len in He as [He _].
  2:{ rewrite !rev_length, seg_length; lia. }
  rewrite <- (rev_involutive out), <- He. apply rev_involutive.
Qed.

Definition aeqv (s s' : astate) : Prop :=
  a_coder s = a_coder s' /\ a_hist s = a_hist s' /\ a_dict s = a_dict s' /\ a_pend_len s = a_pend_len s' /\
  (0 < a_pend_len s -> a_pend_dist s = a_pend_dist s').

Lemma aeqv_refl s : aeqv s s.
Proof. unfold aeqv; tauto. Qed.

(* one iteration of read_decode, in terms of the decode call it makes *)
Definition csm (s : lzma1) (len : Z) : Z :=
  if (l_remaining s <=? U64_HALF) && (l_remaining s <? len) then l_remaining s else len.

Lemma csm_marker s len : l_remaining s = U64_MAX -> csm s len = len.
Proof. intros H. unfold csm. rewrite H. reflexivity. Qed.

Lemma csm_sized s len : 0 <= l_remaining s <= U64_HALF -> csm s len = Z.min (l_remaining s) len.
Proof.
  intros H. unfold csm. destruct (Z.leb_spec (l_remaining s) U64_HALF); [|lia].
  destruct (Z.ltb_spec (l_remaining s) len); cbn [andb]; lia.
Qed.

Lemma iter_of_decode_ok s len c1 w1 d1 t1 :
  lzma_decode (l_coder s) (lzwin_set_limit (l_win s) (csm s len)) (l_rc s) (l_probs s) = Ok (c1, w1, Ok tt, d1, t1) ->
  (0 <? rd_over d1) = false ->
  lzma1_iter s len =
    (let out := fst (lzwin_flush w1) in
     let w2 := snd (lzwin_flush w1) in
     let remaining := if l_remaining s <=? U64_HALF then l_remaining s - zlen out else l_remaining s in
     let end2 := l_end_reached s || ((l_remaining s <=? U64_HALF) && (remaining =? 0)) in
     if end2 && lzwin_has_pending w2 then Err E_INVALID_DATA else Ok (out, mkLzma1 c1 w2 d1 t1 end2 remaining)).
Proof.
  intros Hd Ho. unfold lzma1_iter. fold (csm s len). rewrite Hd. cbn [obind]. rewrite Ho.
  cbn [obind]. destruct (lzwin_flush w1) as [out w2]. reflexivity.
Qed.

Lemma iter_of_decode_end s len c1 w1 e d1 t1 :
  lzma_decode (l_coder s) (lzwin_set_limit (l_win s) (csm s len)) (l_rc s) (l_probs s) = Ok (c1, w1, Err e, d1, t1) ->
  (0 <? rd_over d1) = false -> l_remaining s = U64_MAX -> c_rep0 c1 = 4294967295 ->
  (0 <? rd_over (rdec_normalize d1)) = false ->
  lzma1_iter s len =
    (let out := fst (lzwin_flush w1) in
     let w2 := snd (lzwin_flush w1) in
     if lzwin_has_pending w2 then Err E_INVALID_DATA else Ok (out, mkLzma1 c1 w2 (rdec_normalize d1) t1 true U64_MAX)).
Proof.
  intros Hd Ho Hr Hc Ho2. unfold lzma1_iter. fold (csm s len). rewrite Hd. cbn [obind]. rewrite Ho.
  rewrite Hr, Hc, Ho2. change (U64_MAX =? U64_MAX) with true. change (4294967295 =? 4294967295) with true.
  cbn [negb orb obind]. change (U64_MAX <=? U64_HALF) with false.
  destruct (lzwin_flush w1) as [out w2]. reflexivity.
Qed.

(* the reader over a stream with known decisions *)
Section Reader.
Variable E : list event.        (* all decisions coded in the stream *)
Variable tail : list Z.         (* what follows the stream in the source *)
Variable W : Z.                 (* the decoder's window size *)
Variable data : list Z.
Variable hist0 : list Z.        (* the history before the first byte (newest first): [] or the preset *)
Variable marker : bool.         (* true: unknown size, end marker; false: declared size *)
Hypothesis Hsmall : zlen data <= U64_HALF.
Notation N := (length data).

(* the state of the specification decoder once all the data has been produced *)
Definition fin_ok (sN : astate) (restN : list event) : Prop :=
  a_hist sN = rev data ++ hist0 /\ a_pend_len sN = 0 /\
  if marker then
    forall j, exists sE, run_trace (aproduce (S j) sN) restN = Some (Ok (sE, Err E_OTHER), []) /\
      c_rep0 (a_coder sE) = 4294967295 /\ a_hist sE = rev data ++ hist0 /\ a_pend_len sE = 0
  else restN = [].

(* the reader after k bytes, between two iterations.  [strict = false] also covers the state right
   after construction with a preset dictionary that fills the window completely (pos = buf_size):
   the first iteration then produces nothing and flush() wraps the position. *)
Definition InvG (strict : bool) (k : nat) (s : lzma1) : Prop :=
  (k <= N)%nat /\
  exists hist done rest sN restN,
    E = done ++ rest /\
    rc_sim E PLeaf tail done (l_rc s) (l_probs s) /\
    Rel (l_win s) hist /\ w_start (l_win s) = w_pos (l_win s) /\
    (strict = true -> w_pos (l_win s) < w_size (l_win s)) /\
    w_size (l_win s) = W /\
    coder_ok (l_coder s) (w_full (l_win s)) /\
    (0 < w_pending_len (l_win s) -> 0 <= w_pending_dist (l_win s) < w_full (l_win s)) /\
    run_trace (aproduce (N - k) (mkAstate (l_coder s) hist (w_size (l_win s)) (w_pending_len (l_win s))
                                          (w_pending_dist (l_win s)))) rest
      = Some (Ok (sN, Ok tt), restN) /\
    fin_ok sN restN /\
    l_end_reached s = false /\
    l_remaining s = (if marker then U64_MAX else Z.of_nat (N - k)).

Notation Inv := (InvG true).

Lemma Inv_weaken strict k s : Inv k s -> InvG strict k s.
Proof.
  intros (HkN & hist & done & rest & sN & restN & HE & Hsim & R & Hst & Hpos & H).
  split; [exact HkN|]. exists hist, done, rest, sN, restN.
  split; [exact HE|]. split; [exact Hsim|]. split; [exact R|]. split; [exact Hst|].
  split; [intros _; apply Hpos; reflexivity | exact H].
Qed.

Definition Ended (s : lzma1) : Prop := l_end_reached s = true /\ rd_in (l_rc s) = tail.

Lemma fin_ok_pd_eq sN sN' restN : Forall ev_wf restN -> pd_eq sN sN' -> fin_ok sN restN -> fin_ok sN' restN.
Proof.
  intros Hwf Ha (HH & Hpl & Hm). pose proof Ha as (Hc & Hh & Hd & Hp & _).
  split; [congruence|]. split; [congruence|].
  destruct marker; [|exact Hm].
  intros j. destruct (Hm j) as (sE & Hrun & Hrep & HhE & HpE).
  destruct (run_trace_pd_eq _ _ _ _ _ _ _ Ha Hwf Hrun) as (sE' & Hrun' & (Hc' & Hh' & _ & Hp' & _)).
  exists sE'. split; [exact Hrun'|]. split; [congruence|]. split; congruence.
Qed.

Lemma InvG_remaining strict k s : InvG strict k s ->
  l_remaining s = (if marker then U64_MAX else Z.of_nat (N - k)) /\ 0 <= Z.of_nat (N - k) <= U64_HALF.
Proof.
  intros (_ & hist & done & rest & sN & restN & H). split; [tauto|]. unfold zlen in Hsmall. lia.
Qed.

(* One iteration is one decode call and a flush (decode_flush, decode_flush_step): either the call's
   budget stays inside the data, or (unknown size) it runs into the end marker. *)
Lemma iter_step strict k s len : InvG strict k s -> 0 < len ->
  exists m s', lzma1_iter s len = Ok (seg data k m, s') /\ Z.of_nat m <= len /\ (k + m <= N)%nat /\
    ((Ended s' /\ (k + m = N)%nat) \/ (Inv (k + m) s' /\ (strict = true -> (0 < m)%nat))).
Proof.
  intros HI Hlen. destruct (InvG_remaining _ _ _ HI) as (Hrem & HNk).
  destruct HI as (HkN & hist & done & rest & sN & restN & HE & Hsim & R & Hst & Hpos & Hsz & Hco & Hpd & Hrun &
                  Hfin & Hend & _).
  assert (Hw : win_ok W strict (l_win s) hist).
  { split; [exact R|]. split; [exact Hsz|]. split; [exact Hst | exact Hpos]. }
  assert (Hposw : strict = true -> w_pos (l_win s) < W) by (rewrite <- Hsz; exact Hpos).
  assert (HposW : w_pos (l_win s) <= W) by (destruct R as [_ [_ X] _ _ _ _ _ _]; lia).
  rewrite Hsz in Hrun. clear R Hst Hpos Hsz.
  assert (Hcsm : csm s len = if marker then len else Z.min (Z.of_nat (N - k)) len).
  { destruct marker; [apply csm_marker; exact Hrem | rewrite csm_sized, Hrem by (rewrite Hrem; exact HNk); reflexivity]. }
  set (m := csm s len) in *. set (bz := Z.min m (W - w_pos (l_win s))).
  assert (Hm : 0 <= m <= len) by (destruct marker; lia).
  pose proof (rc_sim_wf _ _ _ _ _ _ _ Hsim HE) as Hwfr.
  pose proof Hfin as (HH & HplN & Hmode).
  destruct (le_lt_dec (Z.to_nat bz) (N - k)) as [Hle|Hgt].
  - (* a call that stays inside the data *)
    destruct (decode_flush_step E PLeaf tail done rest _ _ hist W strict _ _ m (N - k)%nat sN restN
                Hw Hco Hpd Hsim HE (proj1 Hm) Hrun Hle)
      as (s1 & r1 & w1 & d1 & t1 & evs1 & out & w3 & sN' & new2 & Hdec & Hfl & Hzo & Hrest & Hsim1 & Hnorm & Hh1 &
          Hw3 & Hc3 & Hpd3 & Hrun' & Heq & HhN & Hl2).
    fold bz in Hzo, Hrun', Hl2.
    assert (Hlo : length out = Z.to_nat bz) by (unfold zlen in Hzo; lia).
    assert (Hout : out = seg data k (Z.to_nat bz)).
    { rewrite <- Hlo. apply (hist_seg data hist0 hist new2); [rewrite <- HH, HhN, Hh1; reflexivity | lia]. }
    assert (HwfN : Forall ev_wf restN) by (eapply run_trace_rest_wf; eassumption).
    rewrite (iter_of_decode_ok s len _ _ _ _ Hdec (rc_sim_over _ _ _ _ _ _ Hsim1)), Hfl. cbn [fst snd]. cbv zeta.
    rewrite Hend, Hrem, Hzo. cbn [orb].
    (* the state from which the next iteration starts *)
    assert (Hcont : forall remaining, remaining = (if marker then U64_MAX else Z.of_nat (N - (k + Z.to_nat bz))) ->
              Inv (k + Z.to_nat bz) (mkLzma1 (a_coder s1) w3 d1 t1 false remaining)).
    { intros remaining Hremaining. destruct Hw3 as (R3 & Hsz3 & Hst3 & Hpos3). split; [lia|].
      exists (a_hist s1), (done ++ evs1), r1, sN', restN. cbn [l_coder l_win l_rc l_probs l_end_reached l_remaining].
      split; [rewrite <- app_assoc, <- Hrest; exact HE|].
      split; [exact Hsim1|]. split; [exact R3|]. split; [exact Hst3|]. split; [intros _; apply Hpos3; reflexivity|].
      split; [exact Hsz3|]. split; [exact Hc3|]. split; [exact Hpd3|].
      split; [rewrite Hsz3; replace (N - (k + Z.to_nat bz))%nat with (N - k - Z.to_nat bz)%nat by lia; exact Hrun'|].
      split; [eapply fin_ok_pd_eq; eassumption|]. split; [reflexivity | exact Hremaining]. }
    assert (Hprog : strict = true -> 0 < m -> (0 < Z.to_nat bz)%nat) by (intros X; specialize (Hposw X); lia).
    destruct marker.
    + change (U64_MAX <=? U64_HALF) with false. cbn [andb].
      exists (Z.to_nat bz). eexists. split; [rewrite <- Hout; reflexivity|]. split; [lia|]. split; [lia|].
      right. split; [apply Hcont; reflexivity|]. intros X. apply Hprog; [exact X | lia].
    + destruct (Z.leb_spec (Z.of_nat (N - k)) U64_HALF); [|lia]. cbn [andb].
      destruct (Z.eqb_spec (Z.of_nat (N - k) - bz) 0) as [Hz|Hnz].
      * (* the declared size is reached *)
        replace (N - k - Z.to_nat bz)%nat with 0%nat in Hrun' by lia. cbn [aproduce run_trace] in Hrun'.
        inversion Hrun'; subst sN' restN. subst r1. rewrite app_nil_r in Hrest. subst rest.
        destruct Heq as (_ & _ & _ & HplN' & _). cbn [a_pend_len] in HplN'.
        unfold lzwin_has_pending. rewrite <- HplN', HplN. change (0 <? 0) with false.
        exists (Z.to_nat bz). eexists. split; [rewrite <- Hout; reflexivity|]. split; [lia|]. split; [lia|].
        left. split; [|lia]. split; [reflexivity|]. cbn [l_rc].
        rewrite <- HE in Hsim1. destruct (rc_sim_end _ _ _ _ _ Hsim1) as (_ & Hin & _).
        rewrite Hnorm in Hin. exact Hin.
      * replace (if lzwin_has_pending w3 then _ else _) with
          (Ok (out, mkLzma1 (a_coder s1) w3 d1 t1 false (Z.of_nat (N - k) - bz)) : outcome (list Z * lzma1))
          by (destruct (lzwin_has_pending w3); reflexivity).
        exists (Z.to_nat bz). eexists. split; [rewrite <- Hout; reflexivity|]. split; [lia|]. split; [lia|].
        right. split; [apply Hcont; lia|]. intros X. apply Hprog; [exact X | lia].
  - (* the call runs into the end marker *)
    destruct marker; [|lia].
    destruct (Hmode (Z.to_nat bz - (N - k) - 1)%nat) as (sE & HrunE & Hrep & HhE & HplE).
    assert (HrunB : run_trace (aproduce (Z.to_nat bz) (mkAstate (l_coder s) hist W (w_pending_len (l_win s))
                                                        (w_pending_dist (l_win s)))) rest
                    = Some (Ok (sE, Err E_OTHER), [])).
    { replace (Z.to_nat bz) with ((N - k) + S (Z.to_nat bz - (N - k) - 1))%nat by lia.
      rewrite (run_trace_split _ _ _ _ Hwfr), Hrun. exact HrunE. }
    destruct (decode_flush E PLeaf tail done rest _ _ hist W strict _ _ m sE (Err E_OTHER) []
                Hw Hco Hpd Hsim HE (proj1 Hm) HrunB)
      as (w1 & d1 & t1 & evs1 & out & w3 & Hdec & Hfl & Hrest & Hsim1 & _ & Hh1 & _ & Hpl3 & _).
    rewrite app_nil_r in Hrest. subst rest. rewrite <- HE in Hsim1.
    destruct (run_trace_grows _ _ _ _ _ _ Hwfr Hrun) as (_ & Hg & _).
    destruct (Hg eq_refl) as (new & Hh & Hln). cbn [a_hist fst] in Hh.
    assert (Hlo : length out = (N - k)%nat).
    { rewrite <- Hln, <- (rev_length out). f_equal. apply (app_inv_tail hist). rewrite <- Hh1, <- Hh. congruence. }
    assert (Hout : out = seg data k (N - k)).
    { rewrite <- Hlo. apply (hist_seg data hist0 hist []); [rewrite <- HhE; exact Hh1 | cbn [length]; lia]. }
    rewrite (iter_of_decode_end s len _ _ _ _ _ Hdec (rc_sim_over _ _ _ _ _ _ Hsim1) Hrem Hrep
               (rc_sim_over _ _ _ _ _ _ (rc_sim_normalize _ _ _ _ _ _ Hsim1))), Hfl.
    cbn [fst snd]. cbv zeta.
    unfold lzwin_has_pending. rewrite Hpl3, HplE. change (0 <? 0) with false.
    exists (N - k)%nat. eexists. split; [rewrite Hout; reflexivity|]. split; [lia|]. split; [lia|].
    left. split; [|lia]. split; [reflexivity|]. cbn [l_rc].
    destruct (rc_sim_end _ _ _ _ _ Hsim1) as (_ & Hin & _). exact Hin.
Qed.

Lemma Inv_not_ended strict k s : InvG strict k s -> l_end_reached s = false.
Proof. intros (_ & hist & done & rest & sN & restN & H). tauto. Qed.

(* what is left after k bytes: the next segment, then the rest *)
Lemma skipn_seg k m : skipn k data = seg data k m ++ skipn (k + m) data.
Proof. unfold seg. rewrite <- skipn_skipn. symmetry. apply firstn_skipn. Qed.

Lemma skipn_app_seg k out rem' : skipn k data = out ++ rem' -> (k <= N)%nat ->
  out = seg data k (length out) /\ rem' = skipn (k + length out) data /\ (k + length out <= N)%nat.
Proof.
  intros H Hk. split; [|split].
  - unfold seg. rewrite H, firstn_app, Nat.sub_diag, firstn_all. cbn [firstn]. symmetry. apply app_nil_r.
  - rewrite <- skipn_skipn, H, skipn_app, Nat.sub_diag, skipn_all. reflexivity.
  - apply (f_equal (@length Z)) in H. rewrite skipn_length, app_length in H. lia.
Qed.

(* the reader as an instance of ReadLoopProofs: the data still to deliver is what follows byte k *)
Definition InvR (st : bool) (s : lzma1) (rem : list Z) : Prop := exists k, InvG st k s /\ rem = skipn k data.

Lemma iter_spec st s rem len : InvR st s rem -> 0 < len ->
  exists out s' rem', lzma1_iter s len = Ok (out, s') /\ rem = out ++ rem' /\ zlen out <= len /\
    ((l_end_reached s' = true /\ rem' = [] /\ Ended s') \/
     (l_end_reached s' = false /\ (st = true -> out <> []) /\ InvR true s' rem')).
Proof.
  intros (k & HI & ->) Hlen. destruct (iter_step st k s len HI Hlen) as (m & s' & Hit & Hm & Hk & Hcase).
  exists (seg data k m), s', (skipn (k + m) data). split; [exact Hit|]. split; [apply skipn_seg|].
  split; [unfold zlen; rewrite seg_length by exact Hk; exact Hm|].
  destruct Hcase as [(HE & HkN) | (HI' & Hpos)].
  - left. split; [apply HE|]. split; [rewrite HkN; apply skipn_all | exact HE].
  - right. split; [exact (Inv_not_ended _ _ _ HI')|]. split; [|exists (k + m)%nat; split; [exact HI' | reflexivity]].
    intros X Hnil. specialize (Hpos X). apply (f_equal (@length Z)) in Hnil.
    rewrite seg_length in Hnil by exact Hk. cbn [length] in Hnil. lia.
Qed.

Lemma l1_loop_done fuel s len acc : len <= 0 -> lzma1_read_loop fuel s len acc = Ok (frev acc, s).
Proof. intros H. destruct fuel; cbn [lzma1_read_loop]; destruct (Z.leb_spec len 0); try lia; reflexivity. Qed.

Lemma l1_loop_step f s len acc out s1 : 0 < len -> lzma1_iter s len = Ok (out, s1) ->
  lzma1_read_loop (S f) s len acc =
  if l_end_reached s1 then Ok (frev (rev_append out acc), s1)
  else lzma1_read_loop f s1 (len - zlen out) (rev_append out acc).
Proof. intros H Hit. cbn [lzma1_read_loop]. destruct (Z.leb_spec len 0); [lia|]. rewrite Hit. reflexivity. Qed.

Lemma l1_read_live st s rem sz : InvR st s rem -> 0 < sz ->
  exists fuel, lzma1_read s sz = lzma1_read_loop fuel s sz [] /\ (Z.to_nat sz + 2 <= fuel)%nat.
Proof.
  intros (k & HI & _) Hsz. exists (Z.to_nat (sz + 2)). split; [|lia].
  unfold lzma1_read. destruct (Z.leb_spec sz 0); [lia|]. rewrite (Inv_not_ended _ _ _ HI). reflexivity.
Qed.

Lemma read_ended s buflen : l_end_reached s = true -> lzma1_read s buflen = Ok ([], s).
Proof. intros H. unfold lzma1_read. rewrite H. destruct (buflen <=? 0); reflexivity. Qed.

Lemma read_steps strict k s buflen : InvG strict k s -> 0 < buflen ->
  exists m s', lzma1_read s buflen = Ok (seg data k m, s') /\ (k + m <= N)%nat /\
    ((Ended s' /\ (k + m = N)%nat) \/ (Inv (k + m) s' /\ Z.of_nat m = buflen)).
Proof.
  intros HI Hb.
  destruct (read_ok lzma1 lzma1_iter l_end_reached lzma1_read_loop lzma1_read InvR Ended l1_loop_done l1_loop_step
              l1_read_live iter_spec strict s (skipn k data) buflen (ex_intro _ k (conj HI eq_refl)) Hb)
    as (out & s' & rem' & Hr & Hrem & Hcase).
  destruct (skipn_app_seg k out rem' Hrem (proj1 HI)) as (Hout & Hrem' & Hk).
  exists (length out), s'. rewrite <- Hout. split; [exact Hr|]. split; [exact Hk|].
  destruct Hcase as [(Hfull & k' & HI' & Hk') | (_ & Hnil & HE)].
  - right. split; [|exact Hfull]. replace (k + length out)%nat with k'; [exact HI'|].
    rewrite Hk' in Hrem'. apply (f_equal (@length Z)) in Hrem'. rewrite !skipn_length in Hrem'.
    pose proof (proj1 HI'). lia.
  - left. split; [exact HE|]. rewrite Hnil in Hrem'. apply (f_equal (@length Z)) in Hrem'.
    rewrite skipn_length in Hrem'. cbn [length] in Hrem'. lia.
Qed.

Lemma l1_read_all_next f s sizes all acc out s1 :
  lzma1_read s (fst (next_size sizes all)) = Ok (out, s1) ->
  lzma1_read_all (S f) s sizes all acc =
  if (0 <? fst (next_size sizes all)) && (zlen out =? 0) then Ok (frev acc, s1)
  else lzma1_read_all f s1 (match snd (next_size sizes all) with [] => all | _ => snd (next_size sizes all) end)
         all (rev_append out acc).
Proof. intros H. cbn [lzma1_read_all]. destruct sizes as [|x r]; cbn [next_size fst snd] in *; rewrite H; reflexivity. Qed.

(* a whole read history *)
Lemma read_all_steps fuel st s rem sizes all acc : InvR st s rem ->
  Forall (fun z => 0 < z) sizes -> Forall (fun z => 0 < z) all -> (length rem + 2 <= fuel)%nat ->
  exists s_end, lzma1_read_all fuel s sizes all acc = Ok (rev acc ++ rem, s_end) /\ Ended s_end.
Proof.
  intros HI. apply (read_all_ok lzma1 _ lzma1_read lzma1_read_all pair (fun s rem => exists st, InvR st s rem) Ended
                      l1_read_all_next); [| |exists st; exact HI].
  - intros s0 rem0 sz (st0 & HI0) Hsz.
    destruct (read_ok lzma1 lzma1_iter l_end_reached lzma1_read_loop lzma1_read InvR Ended l1_loop_done l1_loop_step
                l1_read_live iter_spec st0 s0 rem0 sz HI0 Hsz) as (out & s' & rem' & Hr & Hrem & Hcase).
    exists out, s', rem'. split; [exact Hr|]. split; [exact Hrem|].
    destruct Hcase as [(Hfull & HI') | (_ & H)]; [left | right; exact H].
    split; [intros ->; unfold zlen in Hfull; cbn [length] in Hfull; lia | exists true; exact HI'].
  - intros s0 sz (He & _) _. apply read_ended. exact He.
Qed.

End Reader.
