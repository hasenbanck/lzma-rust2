(* Codec/TruncLzma2Proofs.v — C05 for the LZMA2Reader model (Codec/Lzma2Dec.v) under TRUNCATION of
   its source.
   (A) For ANY reader state and any bytes [tl] appended to its source: every step of the reader
       (chunk header, one loop iteration, read(), a whole read history) over the shorter source
       either reports UnexpectedEof or is exactly the step over the longer source (with [tl] left
       unread).  LZMA2Reader takes its input only through read_u8 / read_exact of announced sizes,
       so no assumption on the state is needed.
   (B) For every stream the writer model produces and every proper prefix of it: the reader,
       driven with any history of positive destination sizes, returns a prefix of the data and
       then reports UnexpectedEof (which is sticky).  Never end of stream, never a panic. *)
From LzVerif Require Import Base.Bytes Codec.Store Codec.Range Codec.ProbProofs Codec.LzWindow Codec.LzmaDec
  Codec.LzmaEnc Codec.LzmaAbs Codec.LzmaAbsProofs
  Codec.RangeEncProofs Codec.RangeDecProofs Codec.RangeProofs Codec.LzmaRoundtrip
  Codec.LzmaWriters Codec.LzmaChunkProofs Codec.LzmaReadProofs Codec.Lzma2Dec Codec.Lzma2FrameProofs
  Codec.Lzma2FrameSyncProofs Codec.Lzma2ReadProofs Codec.TruncProofs.

Notation EOF := (Err E_UNEXPECTED_EOF).

(* the step over the truncated source [rt] and the step over the complete source [rf] *)
Definition tr2 {A} (f : A -> A) (rt rf : outcome A) : Prop := rt = EOF \/ rf = omap f rt.

Lemma tr2_bind {A B} (f : A -> A) (g : B -> B) x xf (k kf : A -> outcome B) :
  tr2 f x xf -> (forall a, tr2 g (k a) (kf (f a))) -> tr2 g (obind x k) (obind xf kf).
Proof.
  intros [->| ->] Hk; [left; reflexivity|].
  destruct x as [a|e|e|]; cbn [obind omap]; [apply Hk | right; reflexivity..].
Qed.

Lemma tr2_same {A} (f : A -> A) r : tr2 f r (omap f r).
Proof. right; reflexivity. Qed.

Definition rest_app {A} (tl : list Z) (r : A * list Z) : A * list Z := (fst r, snd r ++ tl).

Definition m_app (s : lzma2) (tl : list Z) : lzma2 := with_in s (m_in s ++ tl).

Section Mono.
Variable tl : list Z.

Lemma read_u8_tr input : tr2 (rest_app tl) (read_u8 input) (read_u8 (input ++ tl)).
Proof. destruct input as [|b r]; [left; reflexivity | right; reflexivity]. Qed.

Lemma read_u16_tr input : tr2 (rest_app tl) (read_u16_be input) (read_u16_be (input ++ tl)).
Proof. destruct input as [|a [|b r]]; [left; reflexivity | left; reflexivity | right; reflexivity]. Qed.

Lemma decode_props_tr input : tr2 (rest_app tl) (lzma2_decode_props input) (lzma2_decode_props (input ++ tl)).
Proof.
  unfold lzma2_decode_props. apply tr2_bind with (f := rest_app tl); [apply read_u8_tr|].
  intros [props rest]. unfold rest_app; cbn [fst snd].
  destruct (224 <? props); [right; reflexivity|]. cbv zeta.
  destruct (4 <? _); right; reflexivity.
Qed.

Lemma firstn_app_le {A} n (a b : list A) : (n <= length a)%nat -> firstn n (a ++ b) = firstn n a.
Proof. intros H. rewrite firstn_app. replace (n - length a)%nat with 0%nat by lia. rewrite firstn_O, app_nil_r. reflexivity. Qed.

Lemma skipn_app_le {A} n (a b : list A) : (n <= length a)%nat -> skipn n (a ++ b) = skipn n a ++ b.
Proof. intros H. rewrite skipn_app. replace (n - length a)%nat with 0%nat by lia. reflexivity. Qed.

Lemma rdec_prepare_tr input len : tr2 (rest_app tl) (rdec_prepare input len) (rdec_prepare (input ++ tl) len).
Proof.
  unfold rdec_prepare. destruct (len <? 5); [right; reflexivity|].
  destruct input as [|b0 rest0]; [left; reflexivity|]. cbn [app].
  destruct (negb (b0 =? 0)); [right; reflexivity|].
  destruct rest0 as [|b1 [|b2 [|b3 [|b4 rest]]]]; try (left; reflexivity). cbn [app].
  destruct (Nat.ltb_spec (length rest) (Z.to_nat (len - 5))) as [Hlt|Hge]; [left; reflexivity|].
  right. rewrite app_length. destruct (Nat.ltb_spec (length rest + length tl) (Z.to_nat (len - 5))); [lia|].
  rewrite firstn_app_le, skipn_app_le by lia. reflexivity.
Qed.

Lemma copy_uncompressed_tr w input len :
  tr2 (rest_app tl) (lzwin_copy_uncompressed w input len) (lzwin_copy_uncompressed w (input ++ tl) len).
Proof.
  unfold lzwin_copy_uncompressed. cbv zeta. destruct (_ <? 0); [right; reflexivity|].
  set (n := Z.to_nat _).
  destruct (Nat.ltb_spec (length input) n) as [Hlt|Hge]; [left; reflexivity|].
  right. rewrite app_length. destruct (Nat.ltb_spec (length input + length tl) n); [lia|].
  rewrite firstn_app_le, skipn_app_le by lia. reflexivity.
Qed.

Ltac msimpl :=
  cbn [m_app with_in m_in m_win m_rc m_probs m_coder m_uncompressed_size m_is_lzma_chunk m_need_dict_reset m_need_props
       m_end_reached m_error].

Lemma chunk_header_tr s : tr2 (fun s' => m_app s' tl) (lzma2_chunk_header s) (lzma2_chunk_header (m_app s tl)).
Proof.
  destruct s as [inp w rc pr co us isl ndr np er err]. unfold lzma2_chunk_header. msimpl.
  apply tr2_bind with (f := rest_app tl); [apply read_u8_tr|].
  intros [control in1]. unfold rest_app; cbn [fst snd].
  destruct (control =? 0); [right; reflexivity|].
  destruct (if (224 <=? control) || (control =? 1) then _ else _) as [[[w1 np1] ndr1]|e|e|]; cbn [obind];
    try (right; reflexivity).
  destruct (128 <=? control).
  - apply tr2_bind with (f := rest_app tl); [apply read_u16_tr|].
    intros [ulow in2]. unfold rest_app; cbn [fst snd]. cbv zeta.
    apply tr2_bind with (f := rest_app tl); [apply read_u16_tr|].
    intros [clow in3]. unfold rest_app; cbn [fst snd]. cbv zeta.
    apply tr2_bind with (f := fun r : option coder * probs * bool * list Z => (fst r, snd r ++ tl)).
    + destruct (192 <=? control).
      * apply tr2_bind with (f := rest_app tl); [apply decode_props_tr|].
        intros [c in4]. right; reflexivity.
      * destruct np1; [right; reflexivity|]. destruct (160 <=? control); right; reflexivity.
    + intros [[[coder1 probs1] np2] in4]. cbn [fst snd].
      apply tr2_bind with (f := rest_app tl); [apply rdec_prepare_tr|].
      intros [rc1 in5]. right; reflexivity.
  - destruct (2 <? control); [right; reflexivity|].
    apply tr2_bind with (f := rest_app tl); [apply read_u16_tr|].
    intros [ulow in2]. right; reflexivity.
Qed.

Definition l2_res_app (r : list Z * lzma2) : list Z * lzma2 := (fst r, m_app (snd r) tl).

Lemma iter_tr s len : tr2 l2_res_app (lzma2_iter s len) (lzma2_iter (m_app s tl) len).
Proof.
  unfold lzma2_iter.
  apply tr2_bind with (f := fun s' => m_app s' tl).
  { change (m_uncompressed_size (m_app s tl)) with (m_uncompressed_size s).
    destruct (m_uncompressed_size s =? 0); [apply chunk_header_tr | right; reflexivity]. }
  intros [inp w rc pr co us isl ndr np er err]. msimpl.
  destruct er; [right; reflexivity|]. cbv zeta.
  apply tr2_bind with (f := fun s' => m_app s' tl).
  - destruct (negb isl).
    + apply tr2_bind with (f := rest_app tl); [apply copy_uncompressed_tr|].
      intros [w' input]. right; reflexivity.
    + destruct co as [c|]; [|right; reflexivity].
      destruct (lzma_decode c _ rc pr) as [[[[[c1 w1] st] d1] t1]|e|e|]; cbn [obind]; try (right; reflexivity).
      destruct st; right; reflexivity.
  - intros [inp2 w2 rc2 pr2 co2 us2 isl2 ndr2 np2 er2 err2]. msimpl.
    destruct (lzwin_flush w2) as [out w3]. cbv zeta.
    destruct (_ <? 0); [right; reflexivity|]. msimpl.
    destruct (_ && _); right; reflexivity.
Qed.

Lemma loop_tr fuel : forall s len acc,
  tr2 l2_res_app (lzma2_read_loop fuel s len acc) (lzma2_read_loop fuel (m_app s tl) len acc).
Proof.
  induction fuel as [|f IH]; intros s len acc; cbn [lzma2_read_loop].
  - destruct (len <=? 0); right; reflexivity.
  - destruct (len <=? 0); [right; reflexivity|].
    apply tr2_bind with (f := l2_res_app); [apply iter_tr|].
    intros [out s1]. unfold l2_res_app at 2; cbn [fst snd].
    change (m_end_reached (m_app s1 tl)) with (m_end_reached s1).
    destruct (m_end_reached s1); [right; reflexivity | apply IH].
Qed.

Theorem lzma2_read_tr s buflen : tr2 l2_res_app (lzma2_read s buflen) (lzma2_read (m_app s tl) buflen).
Proof.
  unfold lzma2_read. destruct (buflen <=? 0); [right; reflexivity|].
  change (m_error (m_app s tl)) with (m_error s). change (m_end_reached (m_app s tl)) with (m_end_reached s).
  destruct (m_error s); [right; reflexivity|].
  destruct (m_end_reached s); [right; reflexivity | apply loop_tr].
Qed.

(* what a read history returns extends what it had collected *)
Lemma read_all_acc fuel : forall s sizes all acc out e s', lzma2_read_all fuel s sizes all acc = Ok (out, e, s') ->
  exists rest, out = rev acc ++ rest.
Proof.
  induction fuel as [|f IH]; intros s sizes all acc out e s' H; cbn [lzma2_read_all] in H; [discriminate|].
  destruct (match sizes with [] => (4096, all) | x :: r => (x, r) end) as [sz rest].
  destruct (lzma2_read s sz) as [[o s1]|x|x|]; try discriminate.
  - destruct ((0 <? sz) && (zlen o =? 0)).
    + apply Ok_inj in H. apply pair_inj in H as [H _]. apply pair_inj in H as [<- _].
      exists []. rewrite frev_rev, app_nil_r. reflexivity.
    + destruct (IH _ _ _ _ _ _ _ H) as (r & ->). rewrite rev_append_rev, rev_app_distr, rev_involutive, <- app_assoc.
      eexists; reflexivity.
  - apply Ok_inj in H. apply pair_inj in H as [H _]. apply pair_inj in H as [<- _].
    exists []. rewrite frev_rev, app_nil_r. reflexivity.
Qed.

Definition l2_all_app (r : list Z * Z * lzma2) : list Z * Z * lzma2 := (fst r, m_app (snd r) tl).

(* a whole read history: it stops with UnexpectedEof after bytes that the history over the complete
   source returns as well, or it is the history over the complete source *)
Theorem lzma2_read_all_tr fuel : forall s sizes all acc,
  (exists out st, lzma2_read_all fuel s sizes all acc = Ok (out, E_UNEXPECTED_EOF, st) /\
     forall outf ef sf, lzma2_read_all fuel (m_app s tl) sizes all acc = Ok (outf, ef, sf) -> exists rest, outf = out ++ rest) \/
  lzma2_read_all fuel (m_app s tl) sizes all acc = omap l2_all_app (lzma2_read_all fuel s sizes all acc).
Proof.
  induction fuel as [|f IH]; intros s sizes all acc; [right; reflexivity|].
  cbn [lzma2_read_all].
  destruct (match sizes with [] => (4096, all) | x :: r => (x, r) end) as [sz rest] eqn:Esz.
  destruct (lzma2_read_tr s sz) as [He|Hf].
  - left. rewrite He. eexists. eexists. split; [reflexivity|].
    intros outf ef sf H.
    assert (H' : lzma2_read_all (S f) (m_app s tl) sizes all acc = Ok (outf, ef, sf)).
    { cbn [lzma2_read_all]. rewrite Esz. exact H. }
    destruct (read_all_acc _ _ _ _ _ _ _ _ H') as (r & ->). rewrite frev_rev. eexists; reflexivity.
  - rewrite Hf. destruct (lzma2_read s sz) as [[o s1]|x|x|]; cbn [omap l2_res_app fst snd].
    + destruct ((0 <? sz) && (zlen o =? 0)); [right; reflexivity | apply IH].
    + right; reflexivity.
    + right; reflexivity.
    + right; reflexivity.
Qed.

Lemma lzma2_new_app input dict preset s0 : lzma2_new input dict preset = Ok s0 ->
  lzma2_new (input ++ tl) dict preset = Ok (m_app s0 tl).
Proof.
  unfold lzma2_new, lzma2_get_dict_size. cbn [obind]. intros H. apply Ok_inj in H. subst s0. reflexivity.
Qed.

(* success over a source is success over every extension of it *)
Corollary lzma2_read_all_mono fuel s sizes all acc out st :
  lzma2_read_all fuel s sizes all acc = Ok (out, 0, st) ->
  lzma2_read_all fuel (m_app s tl) sizes all acc = Ok (out, 0, m_app st tl).
Proof.
  intros H. destruct (lzma2_read_all_tr fuel s sizes all acc) as [(o & st' & He & _)|Hf].
  - rewrite H in He. apply Ok_inj in He. apply pair_inj in He as [He _]. apply pair_inj in He as [_ He].
    unfold E_UNEXPECTED_EOF in He. discriminate.
  - rewrite Hf, H. reflexivity.
Qed.

End Mono.

Lemma skipn_nonnil {A} k (l : list A) : (k < length l)%nat -> skipn k l <> [].
Proof. intros Hk Hnil. pose proof (skipn_length k l) as Hl. rewrite Hnil in Hl. cbn [length] in Hl. lia. Qed.

(* the shared argument: the reader over the complete stream ends with nothing left in the source *)
Lemma truncated_from_roundtrip dict popt stream data sizes k :
  (exists s0, lzma2_new (stream ++ []) dict popt = Ok s0 /\
     forall fuel, (length data + 2 <= fuel)%nat ->
     exists s_end, lzma2_read_all fuel s0 sizes sizes [] = Ok (data, 0, s_end) /\ m_in s_end = []) ->
  (k < length stream)%nat ->
  exists s0, lzma2_new (firstn k stream) dict popt = Ok s0 /\
    forall fuel, (length data + 2 <= fuel)%nat ->
    exists out st, lzma2_read_all fuel s0 sizes sizes [] = Ok (out, E_UNEXPECTED_EOF, st) /\
                   exists rest, data = out ++ rest.
Proof.
  intros (sf & Hnew & Hread) Hk. rewrite app_nil_r in Hnew.
  set (p := firstn k stream). set (tl := skipn k stream).
  assert (Htl : tl <> []) by (apply skipn_nonnil; exact Hk).
  assert (Hs : stream = p ++ tl) by (symmetry; apply firstn_skipn).
  assert (Hnp : exists s0, lzma2_new p dict popt = Ok s0).
  { unfold lzma2_new, lzma2_get_dict_size. cbn [obind]. eexists; reflexivity. }
  destruct Hnp as (s0 & Hs0). exists s0. split; [exact Hs0|].
  pose proof (lzma2_new_app tl p dict popt s0 Hs0) as Hfull. rewrite <- Hs, Hnew in Hfull.
  apply Ok_inj in Hfull. subst sf.
  intros fuel Hfuel. destruct (Hread fuel Hfuel) as (s_end & Hra & Hin).
  destruct (lzma2_read_all_tr tl fuel s0 sizes sizes []) as [(out & st & He & Hpre)|Hf].
  - exists out, st. split; [exact He|]. exact (Hpre _ _ _ Hra).
  - exfalso. rewrite Hra in Hf.
    destruct (lzma2_read_all fuel s0 sizes sizes []) as [[[o e] st]|x|x|]; cbn [omap] in Hf; try discriminate.
    apply Ok_inj in Hf. unfold l2_all_app in Hf; cbn [fst snd] in Hf.
    apply pair_inj in Hf as [_ Hst]. subst s_end. cbn [m_app with_in m_in] in Hin.
    apply app_eq_nil in Hin as [_ Hin]. exact (Htl Hin).
Qed.

Theorem lzma2_truncated : forall lc lp pb dict data evs stream sizes k,
  0 <= lc -> 0 <= lp -> lc + lp <= 4 -> 0 <= pb <= 4 -> dict <= 2147483648 ->
  bytes_ok data = true ->
  l2_no_end evs ->
  lzma2_write lc lp pb dict None data evs = Ok stream ->
  Forall (fun z => 0 < z) sizes ->
  (k < length stream)%nat ->
  exists s0, lzma2_new (firstn k stream) dict None = Ok s0 /\
    forall fuel, (length data + 2 <= fuel)%nat ->
    exists out st, lzma2_read_all fuel s0 sizes sizes [] = Ok (out, E_UNEXPECTED_EOF, st) /\
                   exists rest, data = out ++ rest.
Proof.
  intros lc lp pb dict data evs stream sizes k Hlc Hlp Hs Hpb Hdict Hbytes Hne Hw Hsizes Hk.
  apply truncated_from_roundtrip; [|exact Hk].
  exact (lzma2_roundtrip lc lp pb dict data evs stream [] sizes Hlc Hlp Hs Hpb Hdict Hbytes Hne Hw Hsizes).
Qed.

Theorem lzma2_truncated_preset : forall lc lp pb dict p data evs stream sizes k,
  0 <= lc -> 0 <= lp -> lc + lp <= 4 -> 0 <= pb <= 4 -> dict <= 2147483648 ->
  p <> [] -> (zlen p <= dict \/ l2_window_size dict = dict) ->
  bytes_ok p = true -> bytes_ok data = true ->
  l2_no_end evs ->
  lzma2_write lc lp pb dict (Some p) data evs = Ok stream ->
  Forall (fun z => 0 < z) sizes ->
  (k < length stream)%nat ->
  exists s0, lzma2_new (firstn k stream) dict (Some p) = Ok s0 /\
    forall fuel, (length data + 2 <= fuel)%nat ->
    exists out st, lzma2_read_all fuel s0 sizes sizes [] = Ok (out, E_UNEXPECTED_EOF, st) /\
                   exists rest, data = out ++ rest.
Proof.
  intros lc lp pb dict p data evs stream sizes k Hlc Hlp Hs Hpb Hdict Hpne Hplen Hbp Hbytes Hne Hw Hsizes Hk.
  apply truncated_from_roundtrip; [|exact Hk].
  exact (lzma2_roundtrip_preset lc lp pb dict p data evs stream [] sizes Hlc Hlp Hs Hpb Hdict Hpne Hplen Hbp Hbytes Hne Hw Hsizes).
Qed.

(* the error is sticky: every later read() with a non-empty buffer reports it again *)
Lemma lzma2_error_sticky s e buflen : 0 < buflen -> lzma2_read (lzma2_set_error s e) buflen = Err e.
Proof.
  intros H. unfold lzma2_read. destruct (Z.leb_spec buflen 0); [lia|]. reflexivity.
Qed.

(* non-vacuity: the stream of Lzma2ExamplesProofs.v (LZMA chunk, stored chunk, restart, LZMA chunk)
   satisfies the hypotheses; every one of its cut points evaluated, two read histories *)
From LzVerif Require Import Codec.Lzma2ExamplesProofs.

Fixpoint is_prefix2 (a b : list Z) : bool :=
  match a, b with
  | [], _ => true
  | x :: a', y :: b' => (x =? y) && is_prefix2 a' b'
  | _ :: _, [] => false
  end.

Definition l2_cut (sizes : list Z) (k : nat) : bool :=
  match lzma2_new (firstn k ex_stream) 4096 None with
  | Ok s0 => match lzma2_read_all 40 s0 sizes sizes [] with
             | Ok (out, e, _) => (e =? E_UNEXPECTED_EOF) && is_prefix2 out ex_data
             | _ => false
             end
  | _ => false
  end.

Example lzma2_truncated_all_cuts :
  length ex_stream = 33%nat /\ forallb (l2_cut [3; 1]) (seq 0 (length ex_stream)) = true /\ forallb (l2_cut [4096]) (seq 0 (length ex_stream)) = true.
Proof. vm_compute. repeat split; reflexivity. Qed.

Example lzma2_truncated_instance : forall sizes k, Forall (fun z => 0 < z) sizes -> (k < 33)%nat ->
  exists s0, lzma2_new (firstn k ex_stream) 4096 None = Ok s0 /\
    forall fuel, (12 <= fuel)%nat ->
    exists out st, lzma2_read_all fuel s0 sizes sizes [] = Ok (out, E_UNEXPECTED_EOF, st) /\ exists rest, ex_data = out ++ rest.
Proof.
  intros sizes k Hs Hk. destruct lzma2_roundtrip_hyps as (Hb & Hne & Hw).
  exact (lzma2_truncated 3 0 2 4096 ex_data ex_evs ex_stream sizes k ltac:(lia) ltac:(lia) ltac:(lia)
           ltac:(lia) ltac:(lia) Hb Hne Hw Hs Hk).
Qed.

Print Assumptions lzma2_read_all_tr.
Print Assumptions lzma2_truncated.
Print Assumptions lzma2_truncated_preset.
