(* Codec/Lzma2ExamplesProofs.v — the hypotheses of lzma2_roundtrip are satisfiable (a stream with an
   LZMA chunk, a stored chunk, an independent restart and another LZMA chunk, evaluated); the side
   condition that is really needed is witnessed: an end marker among the LZMA2 symbols (the writer
   model does not reject it) is not decodable; and an EMPTY preset dictionary counts as none on
   both sides. *)
From LzVerif Require Import Base.Bytes Codec.Store Codec.Range Codec.LzWindow Codec.LzmaDec Codec.LzmaEnc
  Codec.LzmaWriters Codec.Lzma2Dec Codec.Lzma2FrameSyncProofs Codec.Lzma2ReadProofs.

Definition ex_data : list Z := [97; 98; 97; 98; 97; 98; 99; 100; 101; 102].
Definition ex_evs : list l2ev :=
  [L2Sym (SLit 97); L2Sym (SLit 98); L2Sym (SMatch 1 4); L2Lzma 6 8;
   L2Sym (SLit 99); L2Unc 2; L2New; L2Sym (SLit 101); L2Sym (SLit 102); L2Lzma 2 7].
Definition ex_stream : list Z :=
  [224; 0; 5; 0; 7; 93; 0; 48; 152; 158; 4; 0; 0; 0; 2; 0; 1; 99; 100;
   224; 0; 1; 0; 6; 93; 0; 50; 153; 124; 0; 0; 0; 0].

Example lzma2_roundtrip_hyps :
  bytes_ok ex_data = true /\ l2_no_end ex_evs /\ lzma2_write 3 0 2 4096 None ex_data ex_evs = Ok ex_stream.
Proof.
  split; [reflexivity|]. split; [|vm_compute; reflexivity].
  intros ev Hin. cbn [ex_evs In] in Hin.
  repeat (destruct Hin as [<- | Hin]; [discriminate|]). contradiction.
Qed.

(* the conclusion of the theorem on this instance, by the theorem *)
Example lzma2_roundtrip_instance : forall tail sizes, Forall (fun z => 0 < z) sizes ->
  exists s0, lzma2_new (ex_stream ++ tail) 4096 None = Ok s0 /\
    forall fuel, (12 <= fuel)%nat ->
    exists s_end, lzma2_read_all fuel s0 sizes sizes [] = Ok (ex_data, 0, s_end) /\ m_in s_end = tail.
Proof.
  intros tail sizes Hs. destruct lzma2_roundtrip_hyps as (Hb & Hne & Hw).
  exact (lzma2_roundtrip 3 0 2 4096 ex_data ex_evs ex_stream tail sizes ltac:(lia) ltac:(lia) ltac:(lia)
           ltac:(lia) ltac:(lia) Hb Hne Hw Hs).
Qed.

(* and by evaluation, reading 3 bytes, 1 byte, 3 bytes, ... *)
Example lzma2_roundtrip_eval :
  match lzma2_new (ex_stream ++ [7; 7]) 4096 None with
  | Ok s0 => match lzma2_read_all 40 s0 [3; 1] [3; 1] [] with
             | Ok (out, st, s) => out = ex_data /\ st = 0 /\ m_in s = [7; 7]
             | _ => False
             end
  | _ => False
  end.
Proof. vm_compute. repeat split; reflexivity. Qed.

(* what the reader returns for a write history *)
Definition l2_run (lc lp pb dict : Z) (preset : option (list Z)) (data : list Z) (evs : list l2ev) (sizes : list Z)
  : outcome (list Z * Z) :=
  do stream <- lzma2_write lc lp pb dict preset data evs;
  do s0 <- lzma2_new stream dict preset;
  do r <- lzma2_read_all 100 s0 sizes sizes [];
  Ok (fst (fst r), snd (fst r)).

(* an end marker inside an LZMA2 chunk: accepted by the writer model, InvalidInput in the reader *)
Theorem lzma2_end_marker_refuted :
  exists data evs, bytes_ok data = true /\ ~ l2_no_end evs /\
    l2_run 3 0 2 4096 None data evs [5] = Ok ([], E_INVALID_INPUT).
Proof.
  exists [97], [L2Sym (SLit 97); L2Sym SEnd; L2Lzma 1 11].
  split; [reflexivity|]. split; [|vm_compute; reflexivity].
  intros H. apply (H (L2Sym SEnd)); [cbn; tauto | reflexivity].
Qed.

(* an empty preset dictionary counts as none on both sides: the writer model asks for a dictionary
   reset in the first chunk (start_level (Some []) = RDict), as the reader does.  The code before the
   repair 14cc6e9 treated Some [] as a preset in the writer (no dictionary reset in the first chunk)
   while the reader insisted on one, and rejected [L2Sym (SLit 97); L2Lzma 1 6] and [L2Unc 1]. *)
Example lzma2_empty_preset_fixed :
  l2_run 3 0 2 4096 (Some []) [97] [L2Sym (SLit 97); L2Lzma 1 6] [5] = Ok ([97], 0) /\
  l2_run 3 0 2 4096 (Some []) [97] [L2Unc 1] [5] = Ok ([97], 0).
Proof. split; vm_compute; reflexivity. Qed.

(* the preset variant is not vacuous either *)
Example lzma2_roundtrip_preset_hyps :
  let p := [1; 2; 3] in let data := [3; 97] in
  let evs := [L2Sym (SLit 3); L2Sym (SLit 97); L2Lzma 2 7] in
  p <> [] /\ (zlen p <= 4096 \/ l2_window_size 4096 = 4096) /\ bytes_ok p = true /\ bytes_ok data = true /\
  l2_no_end evs /\
  lzma2_write 3 0 2 4096 (Some p) data evs = Ok [192; 0; 1; 0; 6; 93; 0; 1; 153; 61; 240; 0; 0; 0] /\
  l2_run 3 0 2 4096 (Some p) data evs [1] = Ok (data, 0).
Proof.
  cbv zeta. split; [discriminate|]. split; [right; vm_compute; reflexivity|].
  split; [reflexivity|]. split; [reflexivity|]. split; [|split; vm_compute; reflexivity].
  intros ev Hin. cbn [In] in Hin. repeat (destruct Hin as [<- | Hin]; [discriminate|]). contradiction.
Qed.

(* a preset longer than the dictionary: the window starts full, the first loop iteration of the
   reader only wraps the write position; the first symbol copies the oldest bytes of the window *)
Definition ex_big_preset : list Z := map (fun i => i mod 251) (ProbProofs.zrange 0 4100).

Example lzma2_roundtrip_full_preset_eval :
  l2_run 3 0 2 4096 (Some ex_big_preset) [4; 5; 6; 7] [L2Sym (SMatch 4095 3); L2Sym (SLit 7); L2Lzma 4 8] [3; 1]
  = Ok ([4; 5; 6; 7], 0).
Proof. vm_compute. reflexivity. Qed.
