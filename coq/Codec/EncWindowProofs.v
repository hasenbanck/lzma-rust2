(* Codec/EncWindowProofs.v — the position accounting of Codec/EncWindow.v, for ALL call histories,
   ALL parser strategies and ALL range-coder oracles (Section variables of EncWindow.v, universally
   quantified here).  Invariants wf_p, lzinv/Kp, minv, einv, phi and the frame adv; results
   lzma1_run_exact, lzma2_run_exact (no panic, fuel suffices, byte accounting),
   enc_partition_independent_lzma1/_lzma2, lookahead_clamped, history_kept, lzma_expected_size;
   witnesses against the code before the repairs: uncompressed_fallback_in_window_max_refuted,
   uncompressed_fallback_in_window_old_refuted, fill_window_huge_slice_old_refuted,
   process_pending_strict_assert_refuted. *)
From LzVerif Require Import Base.Bytes Codec.EncWindow.

(* result discipline: a run may end because the oracle left its contract; it never panics and
   never runs out of the stated fuel *)
Definition okor {A} (o : outcome A) (Q : A -> Prop) : Prop :=
  match o with
  | Ok a => Q a
  | Err c => c = V_BAD_PARSER \/ c = V_BAD_RC
  | Panic _ => False
  | Fuel => False
  end.

Lemma okor_bind {A B} (x : outcome A) (f : A -> outcome B) (Q1 : A -> Prop) (Q2 : B -> Prop) :
  okor x Q1 -> (forall a, Q1 a -> okor (f a) Q2) -> okor (obind x f) Q2.
Proof. destruct x; cbn; auto; intros []. Qed.

Lemma okor_weaken {A} (o : outcome A) (Q Q' : A -> Prop) :
  okor o Q -> (forall a, Q a -> Q' a) -> okor o Q'.
Proof. destruct o; cbn; auto. Qed.

Lemma okor_ok {A} (o : outcome A) (Q : A -> Prop) a : okor o Q -> o = Ok a -> Q a.
Proof. intros H E; subst; exact H. Qed.

(* the ranges as numerals, so that lia needs no unfolding at the uses *)
Lemma ck_i32_ok x : -2147483648 <= x <= 2147483647 -> ck_i32 x = Ok x.
Proof.
  intros H. unfold ck_i32, I32_MIN, I32_MAX. destruct (Z.leb_spec (-2147483648) x); [|lia]. destruct (Z.leb_spec x 2147483647); [|lia]. reflexivity.
Qed.
Lemma ck_u32_ok x : 0 <= x <= 4294967295 -> ck_u32 x = Ok x.
Proof.
  intros H. unfold ck_u32, U32_MAX. destruct (Z.leb_spec 0 x); [|lia]. destruct (Z.leb_spec x 4294967295); [|lia]. reflexivity.
Qed.
Lemma ck_u64_ok x : 0 <= x <= 18446744073709551615 -> ck_u64 x = Ok x.
Proof.
  intros H. unfold ck_u64, U64_MAX. destruct (Z.leb_spec 0 x); [|lia]. destruct (Z.leb_spec x 18446744073709551615); [|lia]. reflexivity.
Qed.
Lemma as_i32_id x : -2147483648 <= x <= 2147483647 -> as_i32 x = x.
Proof. unfold as_i32. intros H. rewrite Z.mod_small; lia. Qed.
Lemma as_u32_id x : 0 <= x <= 4294967295 -> as_u32 x = x.
Proof. unfold as_u32. intros H. rewrite Z.mod_small; lia. Qed.
(* x & !63 for x >= 0 *)
Lemma land_m64 x : 0 <= x -> Z.land x (-64) = x - x mod 64.
Proof.
  intros Hx. change (-64) with (Z.lnot (Z.ones 6)).
  rewrite <- Z.ldiff_land, Z.ldiff_ones_r by lia.
  rewrite Z.shiftl_mul_pow2, Z.shiftr_div_pow2 by lia. change (2 ^ 6) with 64.
  pose proof (Z.div_mod x 64). lia.
Qed.

Section Steps.
  Context {St Ev : Type} (step : St -> option (St * Ev)).

  Fixpoint steps (n : nat) (st : St) (acc : list Ev) : option (St * list Ev) :=
    match n with
    | O => Some (st, acc)
    | S k => match step st with
             | Some (st1, ev) => steps k st1 (ev :: acc)
             | None => None
             end
    end.

  Lemma steps_app n1 : forall st acc st1 acc1 n2 st2 acc2,
    steps n1 st acc = Some (st1, acc1) -> steps n2 st1 acc1 = Some (st2, acc2) ->
    steps (n1 + n2) st acc = Some (st2, acc2).
  Proof.
    induction n1 as [|n IH]; intros st acc st1 acc1 n2 st2 acc2 H1 H2.
    - cbn in H1. injection H1 as -> ->. exact H2.
    - cbn [steps Nat.add] in *. destruct (step st) as [[st' ev]|]; [|discriminate].
      eapply IH; eassumption.
  Qed.

  Lemma steps_split : forall n1 n2 st acc r,
    steps (n1 + n2) st acc = Some r ->
    exists mid macc, steps n1 st acc = Some (mid, macc) /\ steps n2 mid macc = Some r.
  Proof.
    induction n1 as [|n IH]; intros n2 st acc r H.
    - exists st, acc. split; [reflexivity|exact H].
    - cbn [steps Nat.add] in *. destruct (step st) as [[st' ev]|]; [|discriminate].
      apply IH. exact H.
  Qed.

  (* two runs from the same state that both end in a state without successor are the same run *)
  Lemma steps_stuck_det st : forall n n' acc f acc1 f' acc1',
    steps n st acc = Some (f, acc1) -> steps n' st acc = Some (f', acc1') ->
    step f = None -> step f' = None -> f = f' /\ acc1 = acc1'.
  Proof.
    assert (Hle : forall n n' acc f acc1 f' acc1',
      steps n st acc = Some (f, acc1) -> steps n' st acc = Some (f', acc1') ->
      step f = None -> (n <= n')%nat -> f = f' /\ acc1 = acc1').
    { intros n n' acc f acc1 f' acc1' H H' Hf Hle.
      replace n' with (n + (n' - n))%nat in H' by lia.
      destruct (steps_split _ _ _ _ _ H') as (mid & macc & M1 & M2).
      rewrite H in M1. injection M1 as <- <-.
      destruct (n' - n)%nat as [|m].
      - cbn in M2. injection M2 as <- <-. split; reflexivity.
      - cbn [steps] in M2. rewrite Hf in M2. discriminate. }
    intros n n' acc f acc1 f' acc1' H H' Hf Hf'.
    destruct (Nat.le_ge_cases n n') as [L|L].
    - eapply Hle; eassumption.
    - destruct (Hle _ _ _ _ _ _ _ H' H Hf' L) as [A B]. split; congruence.
  Qed.
  (* the machine gets from x to y, and the events of that run put before l give l1 *)
  Definition reaches (x : St) (l : list Ev) (y : St) (l1 : list Ev) : Prop :=
    forall acc, exists n L, steps n x acc = Some (y, L ++ acc) /\ l1 = L ++ l.

  Lemma reaches_refl x l : reaches x l x l.
  Proof. intros acc. exists O, []. split; reflexivity. Qed.

  Lemma reaches_step x l y ev l1 : step x = Some (y, ev) -> l1 = ev :: l -> reaches x l y l1.
  Proof. intros H -> acc. exists 1%nat, [ev]. cbn [steps app]. rewrite H. split; reflexivity. Qed.

  Lemma reaches_trans x l y l1 z l2 : reaches x l y l1 -> reaches y l1 z l2 -> reaches x l z l2.
  Proof.
    intros H1 H2 acc. destruct (H1 acc) as (n1 & L1 & E1 & ->). destruct (H2 (L1 ++ acc)) as (n2 & L2 & E2 & ->).
    exists (n1 + n2)%nat, (L2 ++ L1). rewrite <- !app_assoc. split; [eapply steps_app; eassumption|reflexivity].
  Qed.

  Lemma reaches_stuck_det x l f l1 f' l1' : reaches x l f l1 -> reaches x l f' l1' ->
    step f = None -> step f' = None -> f = f' /\ l1 = l1'.
  Proof.
    intros H H' Hf Hf'. destruct (H []) as (n & L & E & ->). destruct (H' []) as (n' & L' & E' & ->).
    destruct (steps_stuck_det _ _ _ _ _ _ _ _ E E' Hf Hf') as [A B]. rewrite !app_nil_r in B. subst. split; reflexivity.
  Qed.
End Steps.

Fixpoint sum_sym (tr : list wev) : Z :=
  match tr with [] => 0 | EvSym len _ :: r => len + sum_sym r | _ :: r => sum_sym r end.
Fixpoint sum_fill (tr : list wev) : Z :=
  match tr with [] => 0 | EvFill _ used :: r => used + sum_fill r | _ :: r => sum_fill r end.
Fixpoint sum_abs (tr : list wev) : Z :=
  match tr with [] => 0 | EvAbsorb n :: r => n + sum_abs r | _ :: r => sum_abs r end.
Fixpoint sum_chunk (tr : list wev) : Z :=
  match tr with [] => 0 | EvLzma u _ :: r => u + sum_chunk r | EvUnc u :: r => u + sum_chunk r | _ :: r => sum_chunk r end.

(* what determines the output besides the data: the symbols (here: their lengths; everything else
   the parser decided lives in its state) and the chunk decisions, newest first *)
Inductive iev : Type := ISym (len : Z) | ILzma (u c : Z) | IUnc (u : Z).
Fixpoint rsyms (tr : list wev) : list iev :=
  match tr with
  | [] => []
  | EvSym len _ :: r => ISym len :: rsyms r
  | EvLzma u c :: r => ILzma u c :: rsyms r
  | EvUnc u :: r => IUnc u :: rsyms r
  | _ :: r => rsyms r
  end.

Definition acct (tr : list wev) : Z * Z * Z * Z * list iev := (sum_sym tr, sum_fill tr, sum_abs tr, sum_chunk tr, rsyms tr).

Set Implicit Arguments.
Record wf_p (p : lzp) : Prop := mkWf {
  wf_mlm : 1 <= match_len_max p;
  wf_rf : REQ_FINISH <= req_flush p <= match_len_max p;
  wf_ea : 0 <= extra_after p <= 65536;
  wf_ka : keep_after p = extra_after p + match_len_max p;
  wf_mb : 1 <= mode_before p <= 65536;
  wf_dict : 1 <= dict_size p;
  wf_kb : dict_size p + mode_before p <= keep_before p;
  wf_kakb : keep_after p <= keep_before p;
  wf_buf : keep_before p + keep_after p + 64 <= buf_size p;
  wf_i32 : buf_size p <= I32_MAX
}.
Unset Implicit Arguments.

(* LZEncoderData between two calls *)
Set Implicit Arguments.
Record lzinv (p : lzp) (d : lzd) : Prop := mkLzinv {
  li_rp : -1 <= read_pos d <= write_pos d - 1;
  li_wp : write_pos d <= buf_size p;
  li_rl : -1 <= read_limit d <= write_pos d - 1;
  li_pend : 0 <= pending_size d <= read_pos d + 1;
  li_pb : pending_size d < req_flush p
}.
Unset Implicit Arguments.

(* the pending positions are the last ones before read_pos + 1 and each of them saw fewer than
   required_for_flushing bytes of the CURRENT write_pos *)
Definition Kp (p : lzp) (d : lzd) : Prop :=
  pending_size d = 0 \/ pending_size d + (write_pos d - read_pos d) <= req_flush p.

Lemma lzd_ext d d' : read_pos d = read_pos d' -> read_limit d = read_limit d' -> finishing d = finishing d' ->
  write_pos d = write_pos d' -> pending_size d = pending_size d' -> d = d'.
Proof. destruct d, d'; cbn; congruence. Qed.

Lemma move_pos_eq d rf rfin :
  rfin <= rf -> -1 <= read_pos d -> read_pos d + 1 <= write_pos d <= 2147483647 ->
  0 <= pending_size d <= 2147483647 ->
  move_pos d rf rfin =
  Ok (let av := write_pos d - (read_pos d + 1) in
      if (av <? rf) && ((av <? rfin) || negb (finishing d))
      then (mkLzd (read_pos d + 1) (read_limit d) (finishing d) (write_pos d) (pending_size d + 1), 0)
      else (mkLzd (read_pos d + 1) (read_limit d) (finishing d) (write_pos d) (pending_size d), av)).
Proof.
  intros Hr H1 H2 H3. unfold move_pos.
  unfold I32_MAX, U32_MAX in *.
  destruct (Z.ltb_spec rf rfin); [lia|].
  rewrite ck_i32_ok by lia. cbn [obind].
  rewrite ck_i32_ok by lia. cbn [obind].
  destruct ((write_pos d - (read_pos d + 1) <? rf) && ((write_pos d - (read_pos d + 1) <? rfin) || negb (finishing d))); [|reflexivity].
  rewrite ck_u32_ok by lia. reflexivity.
Qed.

(* one move inside the data: what it returns and what it does to the state *)
Lemma move_pos_step p d : wf_p p ->
  -1 <= read_pos d -> read_pos d + 1 <= write_pos d - 1 -> write_pos d <= 2147483647 ->
  0 <= pending_size d <= 2147483647 -> Kp p d ->
  exists d1 ret, move_pos d (req_flush p) REQ_FINISH = Ok (d1, ret) /\
    read_pos d1 = read_pos d + 1 /\ write_pos d1 = write_pos d /\ read_limit d1 = read_limit d /\
    finishing d1 = finishing d /\ Kp p d1 /\
    ((ret = 0 /\ pending_size d1 = pending_size d + 1 /\ write_pos d - read_pos d1 < req_flush p) \/
     (ret = write_pos d - read_pos d1 /\ pending_size d1 = pending_size d /\ 1 <= ret)) /\
    (req_flush p <= write_pos d - read_pos d1 -> ret = write_pos d - read_pos d1 /\ pending_size d1 = pending_size d) /\
    (finishing d = true ->
     ret = let av := write_pos d - (read_pos d + 1) in if (av <? req_flush p) && (av <? REQ_FINISH) then 0 else av).
Proof.
  intros W H1 H2 H3 H4 HK. destruct W as [W1 W2 W3 W4 W5 W6 W7 W8 W9 W10]. unfold REQ_FINISH in *.
  rewrite move_pos_eq by lia. cbv zeta.
  destruct ((write_pos d - (read_pos d + 1) <? req_flush p) && ((write_pos d - (read_pos d + 1) <? 4) || negb (finishing d))) eqn:Ec.
  - assert (Ec' := Ec). apply andb_true_iff in Ec as [Ec1 _]. apply Z.ltb_lt in Ec1.
    eexists _, _. split; [reflexivity|]. cbn [read_pos write_pos read_limit finishing pending_size].
    split; [reflexivity|]. split; [reflexivity|]. split; [reflexivity|]. split; [reflexivity|].
    split; [unfold Kp in *; cbn [read_pos write_pos pending_size]; right; destruct HK; lia|].
    split; [left; repeat split; lia|]. split; [intros; lia|].
    intros Hfin. cbv zeta. rewrite Hfin, orb_false_r in Ec'. rewrite Ec'. reflexivity.
  - assert (Ec' := Ec). apply andb_false_iff in Ec.
    eexists _, _. split; [reflexivity|]. cbn [read_pos write_pos read_limit finishing pending_size].
    split; [reflexivity|]. split; [reflexivity|]. split; [reflexivity|]. split; [reflexivity|].
    split; [unfold Kp in *; cbn [read_pos write_pos pending_size]; destruct HK; [left; assumption | right; lia]|].
    split; [right; repeat split; lia|]. split; [intros; split; lia|].
    intros Hfin. cbv zeta. rewrite Hfin, orb_false_r in Ec'. rewrite Ec'. reflexivity.
Qed.

(* mf_skip: n positions, all inside the data *)
Lemma mf_skip_spec p : wf_p p -> forall n d tr,
  -1 <= read_pos d -> read_pos d + Z.of_nat n <= write_pos d - 1 -> write_pos d <= 2147483647 ->
  0 <= pending_size d -> Kp p d ->
  okor (mf_skip p n d tr) (fun r =>
    read_pos (fst r) = read_pos d + Z.of_nat n /\ write_pos (fst r) = write_pos d /\
    read_limit (fst r) = read_limit d /\ finishing (fst r) = finishing d /\
    pending_size d <= pending_size (fst r) <= pending_size d + Z.of_nat n /\ Kp p (fst r) /\
    (req_flush p <= write_pos d - (read_pos d + Z.of_nat n) -> pending_size (fst r) = pending_size d) /\
    acct (snd r) = acct tr).
Proof.
  intros W. induction n as [|n IH]; intros d tr H1 H2 H3 H4 HK.
  - cbn [mf_skip okor fst snd]. repeat split; try lia. assumption.
  - cbn [mf_skip].
    assert (Hpb : pending_size d <= 2147483647).
    { destruct HK as [HK|HK]; [lia|]. destruct W. unfold I32_MAX in *. lia. }
    destruct (move_pos_step p d W) as (d1 & ret & E & A & B & C & D & K1 & Hcase & Hbig & _); try lia; try assumption.
    rewrite E. cbn [obind fst snd].
    eapply okor_weaken.
    { apply IH; try assumption; try lia. all: destruct Hcase as [(? & ? & ?)|(? & ? & ?)]; lia. }
    intros r (A' & B' & C' & D' & E' & K' & Hbig' & F').
    split; [lia|]. split; [lia|]. split; [congruence|]. split; [congruence|].
    split; [destruct Hcase as [(? & ? & ?)|(? & ? & ?)]; lia|].
    split; [assumption|].
    split; [intros Hb; rewrite Hbig' by lia; apply Hbig; lia|].
    rewrite F'. reflexivity.
Qed.

(* process_pending_bytes: the pending positions are handed to the match finder again, exactly
   pending_size of them (mf_skip n performs n moves), read_pos is back where it was *)
Lemma process_pending_spec p d tr : wf_p p -> lzinv p d ->
  okor (process_pending p d tr) (fun r =>
    lzinv p (fst r) /\ read_pos (fst r) = read_pos d /\ write_pos (fst r) = write_pos d /\
    read_limit (fst r) = read_limit d /\ finishing (fst r) = finishing d /\ acct (snd r) = acct tr /\
    ((fst r = d /\ ~ (0 < pending_size d /\ read_pos d < read_limit d)) \/
     (0 < pending_size d /\ read_pos d < read_limit d /\ Kp p (fst r) /\
      (req_flush p <= write_pos d - read_pos d -> pending_size (fst r) = 0)))).
Proof.
  intros W I. pose proof I as [[Ha Hb] Hc [Hd He] [Hf Hg] Hpb]. pose proof (wf_i32 W) as Hi.
  unfold I32_MAX, U32_MAX in *.
  pose proof (wf_rf W) as Hrf. pose proof (wf_mlm W).
  unfold process_pending.
  destruct ((0 <? pending_size d) && (read_pos d <? read_limit d)) eqn:Ec.
  2:{ cbn [okor fst snd]. repeat split; try lia; try assumption. left. split; [reflexivity|].
      intros [X Y]. apply Z.ltb_lt in X, Y. rewrite X, Y in Ec. discriminate. }
  apply andb_true_iff in Ec as [Ec1 Ec2]. apply Z.ltb_lt in Ec1, Ec2.
  rewrite as_i32_id by lia.
  rewrite ck_i32_ok by lia. cbn [obind].
  eapply okor_bind.
  { apply mf_skip_spec; cbn [read_pos write_pos pending_size]; try assumption; try lia; try (left; reflexivity). }
  cbn [read_pos write_pos pending_size read_limit finishing]. intros r (A & B & C & D & E & K & Hbig & F).
  rewrite Z2Nat.id in * by lia.
  destruct (Z.ltb_spec (pending_size d) (pending_size (fst r))); [lia|]. cbn [okor].
  assert (Hpb' : pending_size (fst r) < req_flush p).
  { destruct K as [K|K]; lia. }
  repeat split; try lia; try assumption.
  right. repeat split; try lia; try assumption.
Qed.

(* move_window: the offset is a positive multiple of 64 and leaves keep_size_before bytes before
   read_pos + 1 in the buffer (history_kept, per move) *)
Lemma move_window_spec p d tr : wf_p p -> lzinv p d ->
  buf_size p - keep_after p <= read_pos d ->
  exists off, move_window p d tr =
    Ok (mkLzd (read_pos d - off) (read_limit d - off) (finishing d) (write_pos d - off) (pending_size d),
        EvMove off (write_pos d - off) :: tr) /\
    64 <= off /\ off mod 64 = 0 /\ off <= read_pos d + 1 - keep_before p < off + 64.
Proof.
  intros W [[Ha Hb] Hc [Hd He] [Hf Hg] Hpb] Hl. destruct W as [W1 W2 W3 W4 W5 W6 W7 W8 W9 W10].
  unfold I32_MAX, U32_MAX in *.
  set (b := read_pos d + 1 - keep_before p).
  assert (Hb65 : 65 <= b) by (unfold b; lia).
  exists (b - b mod 64).
  unfold move_window.
  rewrite ck_i32_ok by lia. cbn [obind].
  rewrite as_i32_id by lia.
  rewrite ck_i32_ok by lia. cbn [obind].
  fold b. rewrite land_m64 by lia.
  assert (Hm : 0 <= b mod 64 < 64) by (apply Z.mod_pos_bound; lia).
  rewrite ck_i32_ok by (unfold I32_MIN, I32_MAX, b in *; lia). cbn [obind].
  destruct (Z.ltb_spec (write_pos d - (b - b mod 64)) 0); [unfold b in *; lia|].
  destruct (Z.ltb_spec (b - b mod 64) 0); [lia|]. cbn [orb].
  destruct (Z.ltb_spec (buf_size p) (b - b mod 64 + (write_pos d - (b - b mod 64)))); [lia|].
  rewrite ck_i32_ok by (unfold I32_MIN, I32_MAX, b in *; lia). cbn [obind].
  rewrite ck_i32_ok by (unfold I32_MIN, I32_MAX, b in *; lia). cbn [obind].
  split; [reflexivity|].
  pose proof (Z.div_mod b 64).
  repeat split; try lia.
  rewrite Zminus_mod_idemp_r, Z.sub_diag. reflexivity.
Qed.

(* fill_window(input) with input.len() = n: returns exactly what it copied; a window move
   (if any) keeps keep_size_before bytes of history *)
Lemma fill_window_spec p d n tr : wf_p p -> lzinv p d -> finishing d = false -> 0 <= n ->
  okor (fill_window p d n tr) (fun r =>
    let '(d1, used, tr1) := r in
    exists off,
      lzinv p d1 /\ finishing d1 = false /\
      0 <= off /\ off mod 64 = 0 /\
      ((off = 0 /\ read_pos d < buf_size p - keep_after p) \/
       (64 <= off /\ buf_size p - keep_after p <= read_pos d /\ off <= read_pos d + 1 - keep_before p < off + 64)) /\
      read_pos d1 = read_pos d - off /\
      used = Z.min n (buf_size p - (write_pos d - off)) /\ 0 <= used /\
      write_pos d1 = write_pos d - off + used /\
      read_limit d1 = (if keep_after p <=? write_pos d1 then write_pos d1 - keep_after p else read_limit d) /\
      ((pending_size d1 = pending_size d /\ ~ (0 < pending_size d /\ read_pos d1 < read_limit d1)) \/
       (0 < pending_size d /\ read_pos d1 < read_limit d1 /\ Kp p d1 /\
        (req_flush p <= write_pos d1 - read_pos d1 -> pending_size d1 = 0))) /\
      acct tr1 = (sum_sym tr, sum_fill tr + used, sum_abs tr, sum_chunk tr, rsyms tr)).
Proof.
  intros W I Hfin Hn. pose proof I as [[Ha Hb] Hc [Hd He] [Hf Hg] Hpb].
  pose proof W as [W1 W2 W3 W4 W5 W6 W7 W8 W9 W10].
  unfold fill_window. rewrite Hfin.
  unfold I32_MAX, U32_MAX in *.
  rewrite !as_i32_id by lia.
  rewrite ck_i32_ok by lia. cbn [obind].
  (* the state after the optional move *)
  assert (Hmv : exists off d1 tr1,
     (if buf_size p - keep_after p <=? read_pos d then move_window p d tr else Ok (d, tr)) = Ok (d1, tr1) /\
     0 <= off /\ off mod 64 = 0 /\
     ((off = 0 /\ read_pos d < buf_size p - keep_after p) \/
      (64 <= off /\ buf_size p - keep_after p <= read_pos d /\ off <= read_pos d + 1 - keep_before p < off + 64)) /\
     d1 = mkLzd (read_pos d - off) (read_limit d - off) (finishing d) (write_pos d - off) (pending_size d) /\
     acct tr1 = acct tr).
  { destruct (Z.leb_spec (buf_size p - keep_after p) (read_pos d)) as [Hl|Hl].
    - destruct (move_window_spec p d tr W I Hl) as (off & E & O1 & O2 & O3).
      exists off, (mkLzd (read_pos d - off) (read_limit d - off) (finishing d) (write_pos d - off) (pending_size d)),
             (EvMove off (write_pos d - off) :: tr).
      split; [exact E|]. split; [lia|]. split; [exact O2|]. split; [right; repeat split; lia|].
      split; reflexivity.
    - exists 0, d, tr.
      split; [reflexivity|]. split; [lia|]. split; [reflexivity|]. split; [left; split; [reflexivity|lia]|].
      split; [destruct d; cbn; f_equal; lia | reflexivity]. }
  destruct Hmv as (off & d1 & tr1 & E & O1 & O2 & O3 & Ed1 & Etr1).
  rewrite E. cbn [obind]. subst d1. cbn [write_pos read_pos read_limit finishing pending_size].
  assert (Hoff : off <= read_pos d + 1 - keep_before p \/ off = 0) by (destruct O3 as [[? ?]|(? & ? & ?)]; lia).
  rewrite ck_i32_ok by lia. cbn [obind].
  set (room := buf_size p - (write_pos d - off)).
  assert (Hroom : 0 <= room) by (unfold room; lia).
  set (len := Z.min n (room mod 18446744073709551616)).
  assert (Hlen : len = Z.min n room).
  { unfold len. rewrite Z.mod_small by (unfold I32_MAX, room in *; lia). reflexivity. }
  rewrite (Z.mod_small (write_pos d - off)) by lia.
  destruct (Z.ltb_spec (buf_size p) (write_pos d - off + len)); [unfold room in *; lia|].
  destruct (Z.ltb_spec n len); [lia|]. cbn [orb].
  rewrite as_i32_id by (unfold I32_MIN, I32_MAX, room in *; lia).
  rewrite ck_i32_ok by (unfold I32_MIN, I32_MAX, room in *; lia). cbn [obind].
  set (wp := write_pos d - off + len).
  assert (Hrl : exists rl, (if keep_after p <=? wp then ck_i32 (wp - keep_after p) else Ok (read_limit d - off)) = Ok rl /\
                 rl = (if keep_after p <=? wp then wp - keep_after p else read_limit d) /\ -1 <= rl <= wp - 1).
  { destruct (Z.leb_spec (keep_after p) wp).
    - rewrite ck_i32_ok by (unfold I32_MIN, I32_MAX, wp, room in *; lia). eexists; split; [reflexivity|]. split; [reflexivity|]. lia.
    - assert (off = 0) by (destruct O3 as [[? ?]|(? & ? & ?)]; [lia| unfold wp in *; lia]). subst off.
      eexists; split; [reflexivity|]. split; [lia|]. unfold wp; lia. }
  destruct Hrl as (rl & Erl & Erl2 & Hrlb). rewrite Erl. cbn [obind].
  eapply okor_bind.
  { apply process_pending_spec; [assumption|].
    constructor; cbn [read_pos write_pos read_limit pending_size]; fold wp; try lia; unfold wp, room in *; lia. }
  cbn [read_pos write_pos read_limit pending_size finishing].
  intros [d2 tr2]. cbn [fst snd okor]. intros (I2 & A & B & C & D & F & Hcase).
  exists off.
  split; [assumption|]. split; [congruence|]. split; [assumption|]. split; [assumption|]. split; [assumption|].
  split; [assumption|]. split; [fold len; rewrite Hlen; reflexivity|]. split; [lia|].
  split; [rewrite B; reflexivity|].
  split; [rewrite B; fold wp; rewrite C; exact Erl2|].
  split.
  - destruct Hcase as [[Eq Hn']|(P1 & P2 & P3 & P4)].
    + left. subst d2. cbn [pending_size read_pos read_limit] in *. split; [reflexivity|exact Hn'].
    + right. rewrite A, B, C. repeat split; try assumption; try (rewrite A, B in P4; exact P4).
  - rewrite F. unfold acct in *. cbn [sum_sym sum_fill sum_abs sum_chunk rsyms].
    injection Etr1 as E1 E2' E3 E4 E5. rewrite E1, E2', E3, E4, E5. f_equal. f_equal. f_equal. f_equal. lia.
Qed.

(* set_flushing / set_finishing: read_limit goes to write_pos - 1 and the pending positions are looked at again *)
Definition limited (p : lzp) (d : lzd) (fin : bool) (tr : list wev) (r : lzd * list wev) : Prop :=
  lzinv p (fst r) /\ read_pos (fst r) = read_pos d /\ write_pos (fst r) = write_pos d /\
  read_limit (fst r) = write_pos d - 1 /\ finishing (fst r) = fin /\ acct (snd r) = acct tr /\
  ((pending_size (fst r) = pending_size d /\ ~ (0 < pending_size d /\ read_pos d < write_pos d - 1)) \/
   (0 < pending_size d /\ Kp p (fst r))).

(* the common body of set_flushing and set_finishing *)
Lemma set_limit_spec p d fin tr : wf_p p -> lzinv p d ->
  okor (process_pending p (mkLzd (read_pos d) (write_pos d - 1) fin (write_pos d) (pending_size d)) tr) (limited p d fin tr).
Proof.
  intros W I. pose proof I as [[Ha Hb] Hc [Hd He] [Hf Hg] Hpb].
  eapply okor_weaken.
  { apply process_pending_spec; [assumption|]. constructor; cbn [read_pos write_pos read_limit pending_size]; lia. }
  cbn [read_pos write_pos read_limit pending_size finishing].
  intros r (I2 & A & B & C & D & F & Hcase).
  repeat (split; [assumption|]).
  destruct Hcase as [[Eq Hn']|(P1 & P2 & P3 & P4)].
  - left. rewrite Eq. cbn [pending_size]. split; [reflexivity|exact Hn'].
  - right. split; assumption.
Qed.

Lemma set_flushing_spec p d tr : wf_p p -> lzinv p d ->
  okor (set_flushing p d tr) (limited p d (finishing d) tr).
Proof.
  intros W I. pose proof (li_rp I). pose proof (li_wp I). pose proof (wf_i32 W).
  unfold I32_MAX, U32_MAX in *.
  unfold set_flushing. rewrite ck_i32_ok by lia.
  exact (set_limit_spec p d (finishing d) tr W I).
Qed.

Lemma set_finishing_spec p d tr : wf_p p -> lzinv p d ->
  okor (set_finishing p d tr) (limited p d true tr).
Proof.
  intros W I. pose proof (li_rp I). pose proof (li_wp I). pose proof (wf_i32 W).
  unfold I32_MAX, U32_MAX in *.
  unfold set_finishing. rewrite ck_i32_ok by lia.
  exact (set_limit_spec p d true tr W I).
Qed.

Definition pidx (e : encd) : Z := read_pos (e_lz e) - read_ahead e.   (* buffer index of the next byte to code *)

(* the state while the parser is being consulted *)
Set Implicit Arguments.
Record minv (p : lzp) (e : encd) : Prop := mkMinv {
  mi_lz : lzinv p (e_lz e);
  mi_ra : -1 <= read_ahead e <= read_pos (e_lz e);
  mi_K : 0 < pending_size (e_lz e) -> Kp p (e_lz e) \/ read_pos (e_lz e) = write_pos (e_lz e) - 1
}.
Unset Implicit Arguments.

Section Oracle.
  Variable PS : Type.
  Variable parse : PS -> Z -> Z -> strat PS.
  Variable chunkc : PS -> Z -> Z * PS.

  (* The same consultation seen from the DATA alone: [A] is the number of bytes from the match
     finder's position to the end of all the data the writer will ever get, [ra] the read-ahead.
     This is what the parser would observe if the whole input were already in an unbounded window
     and the writer were finishing. *)
  Fixpoint irun (p : lzp) (s : strat PS) (A ra : Z) : option (Z * Z * bool * PS) :=
    match s with
    | SFail => None
    | SMove k =>
        let A1 := A - 1 in
        if (A1 <? 1) || (extra_after p <? ra + 1) then None else
        let ret := if (A1 <? req_flush p) && (A1 <? REQ_FINISH) then 0 else A1 in
        irun p (k (Z.min ret (match_len_max p))) A1 (ra + 1)
    | SAvail c k =>
        if (ra <? 0) || (c <? 0) || (keep_after p <? c + ra) then None else irun p (k (Z.min A c)) A ra
    | SEmit len full ps =>
        if (len <? 1) || (ra + 1 <? len) || (mode_before p <=? ra - len) then None else Some (ra, len, full, ps)
    end.

  (* when the real consultation sees what the data-only consultation sees: the writer is finishing
     and the window ends where the data ends, or the window holds the full look-ahead *)
  Definition view_ok (p : lzp) (e : encd) (A : Z) : Prop :=
    let av := write_pos (e_lz e) - read_pos (e_lz e) in
    (finishing (e_lz e) = true /\ A = av) \/
    (match_len_max p + extra_after p - read_ahead e <= av /\ av <= A).

  Lemma run_strat_spec p : wf_p p -> forall s e tr, minv p e ->
    okor (run_strat PS p s e tr) (fun r =>
      let '(e1, len, full, ps1, tr1) := r in
      minv p e1 /\
      (exists k, 0 <= k /\ read_pos (e_lz e1) = read_pos (e_lz e) + k /\ read_ahead e1 = read_ahead e + k /\
                 (0 < k -> read_ahead e1 <= extra_after p)) /\
      write_pos (e_lz e1) = write_pos (e_lz e) /\ read_limit (e_lz e1) = read_limit (e_lz e) /\
      finishing (e_lz e1) = finishing (e_lz e) /\
      unc_size e1 = unc_size e /\ rc_full e1 = rc_full e /\ g_base e1 = g_base e /\
      1 <= len <= read_ahead e1 + 1 /\ read_ahead e1 - len < mode_before p /\
      (match_len_max p + extra_after p <= write_pos (e_lz e) - pidx e -> pending_size (e_lz e1) = pending_size (e_lz e)) /\
      acct tr1 = acct tr /\
      (forall A, view_ok p e A -> irun p s A (read_ahead e) = Some (read_ahead e1, len, full, ps1))).
  Proof.
    intros W. pose proof W as [W1 W2 W3 W4 W5 W6 W7 W8 W9 W10].
    induction s as [k IH|c k IH|len full ps|]; intros e tr M.
    - pose proof M as [[[Ha Hb] Hc [Hd He] [Hf Hg] Hpb] [Hr1 Hr2] HK].
      cbn [run_strat].
      unfold I32_MAX, U32_MAX in *.
      rewrite ck_i32_ok by lia. cbn [obind].
      destruct (Z.eq_dec (read_pos (e_lz e)) (write_pos (e_lz e) - 1)) as [Hend|Hend].
      + (* the move leaves the data: contract violation *)
        rewrite move_pos_eq by (unfold REQ_FINISH, I32_MAX in *; lia). cbv zeta. cbn [obind].
        destruct ((write_pos (e_lz e) - (read_pos (e_lz e) + 1) <? req_flush p) && _);
          cbn [write_pos read_pos];
          (destruct (Z.ltb_spec (write_pos (e_lz e) - (read_pos (e_lz e) + 1)) 1); [|lia]); cbn [orb okor]; left; reflexivity.
      + assert (HK0 : Kp p (e_lz e)).
        { destruct (Z.eq_dec (pending_size (e_lz e)) 0) as [Hz|Hz]; [left; exact Hz|].
          destruct HK as [HK|HK]; [lia|exact HK|lia]. }
        destruct (move_pos_step p (e_lz e) W) as (d1 & ret & E & A & B & C & D & K1 & Hcase & Hbig & Hmp);
          try assumption; try (unfold I32_MAX in *; lia).
        rewrite E. cbn [obind].
        destruct (Z.ltb_spec (write_pos d1 - read_pos d1) 1); [cbn [orb okor]; left; reflexivity|].
        destruct (Z.ltb_spec (extra_after p) (read_ahead e + 1)); [cbn [orb okor]; left; reflexivity|].
        cbn [orb].
        assert (Hpend1 : 0 <= pending_size d1 <= read_pos d1 + 1 /\ pending_size d1 < req_flush p).
        { destruct Hcase as [(? & ? & ?)|(? & ? & ?)]; [|lia]. destruct K1 as [K1|K1]; lia. }
        eapply okor_weaken.
        { apply IH. constructor; cbn [e_lz read_ahead].
          - constructor; lia.
          - lia.
          - intros _. left. exact K1. }
        intros [[[[e1 len] full] ps1] tr1].
        cbn [e_lz read_ahead unc_size rc_full g_base].
        intros (M1 & (k1 & Hk1 & Hk2 & Hk3 & Hk4) & X1 & X2 & X3 & X4 & X5 & X6 & X7 & X8 & X10 & X11 & X12).
        split; [exact M1|].
        split.
        { exists (k1 + 1). split; [lia|]. split; [lia|]. split; [lia|]. intros _.
          destruct (Z.eq_dec k1 0); [lia|]. apply Hk4; lia. }
        split; [congruence|]. split; [congruence|]. split; [congruence|].
        split; [exact X4|]. split; [exact X5|]. split; [exact X6|]. split; [exact X7|]. split; [exact X8|].
        split.
        { unfold pidx in *. cbn [e_lz read_ahead] in X10. intros Hs.
          rewrite X10 by lia. apply Hbig. lia. }
        split; [rewrite X11; reflexivity|].
        (* the data-only consultation makes the same move *)
        intros AA HV. cbn [irun]. unfold view_ok in HV. cbv zeta in HV.
        set (av := write_pos (e_lz e) - read_pos (e_lz e)) in *.
        assert (Hav1 : write_pos d1 - read_pos d1 = av - 1) by (unfold av; lia).
        destruct HV as [[Hfin HA]|[Hst HA]].
        { (* finishing: identical arithmetic *)
          subst AA.
          destruct (Z.ltb_spec (av - 1) 1); [lia|].
          destruct (Z.ltb_spec (extra_after p) (read_ahead e + 1)); [lia|]. cbn [orb].
          rewrite (Hmp Hfin) in X12. cbv zeta in X12. replace (write_pos (e_lz e) - (read_pos (e_lz e) + 1)) with (av - 1) in X12 by (unfold av; lia).
          apply X12. unfold view_ok. cbn [e_lz read_ahead]. cbv zeta. left.
          split; [congruence|lia]. }
        (* full look-ahead on both sides: both observe the clamp *)
        destruct (Z.ltb_spec (AA - 1) 1); [unfold av in *; lia|].
        destruct (Z.ltb_spec (extra_after p) (read_ahead e + 1)); [lia|]. cbn [orb].
        assert (Hge : match_len_max p <= av - 1) by lia.
        assert (Hret : ret = av - 1) by (destruct Hbig as [Hb1 _]; [unfold av in *; lia|unfold av in *; lia]).
        assert (Hi : (if (AA - 1 <? req_flush p) && (AA - 1 <? REQ_FINISH) then 0 else AA - 1) = AA - 1).
        { destruct (Z.ltb_spec (AA - 1) (req_flush p)); [lia|]. reflexivity. }
        rewrite Hi. rewrite Hret in X12.
        replace (Z.min (AA - 1) (match_len_max p)) with (Z.min (av - 1) (match_len_max p)) by lia.
        apply X12. unfold view_ok. cbn [e_lz read_ahead]. cbv zeta. right. lia.
    - pose proof M as [[[Ha Hb] Hc [Hd He] [Hf Hg] Hpb] [Hr1 Hr2] HK].
      cbn [run_strat].
      destruct (Z.ltb_spec (read_ahead e) 0); [cbn [orb okor]; left; reflexivity|]. cbn [orb].
      destruct ((c <? 0) || (keep_after p <? c + read_ahead e)) eqn:Ec; [cbn [okor]; left; reflexivity|].
      unfold I32_MAX, U32_MAX in *.
      unfold get_avail. rewrite ck_i32_ok by lia. cbn [obind].
      eapply okor_weaken; [apply IH; exact M|].
      intros [[[[e1 len] full] ps1] tr1].
      intros (M1 & Hk & X1 & X2 & X3 & X4 & X5 & X6 & X7 & X8 & X10 & X11 & X12).
      repeat (split; [assumption|]).
      intros A HV. cbn [irun].
      destruct (Z.ltb_spec (read_ahead e) 0); [lia|]. cbn [orb]. rewrite Ec. 
      replace (Z.min A c) with (Z.min (write_pos (e_lz e) - read_pos (e_lz e)) c); [apply X12; exact HV|].
      unfold view_ok in HV. cbv zeta in HV. apply orb_false_iff in Ec as [Ec1 Ec2].
      apply Z.ltb_ge in Ec1, Ec2. destruct HV as [[_ HA]|[Hst HA]]; lia.
    - cbn [run_strat].
      destruct (Z.ltb_spec len 1); [cbn [orb okor]; left; reflexivity|].
      destruct (Z.ltb_spec (read_ahead e + 1) len); [cbn [orb okor]; left; reflexivity|].
      destruct (Z.leb_spec (mode_before p) (read_ahead e - len)); [cbn [orb okor]; left; reflexivity|].
      cbn [orb okor].
      split; [exact M|]. split; [exists 0; repeat split; lia|].
      repeat split; try reflexivity; try lia.
      intros A _. cbn [irun].
      destruct (Z.ltb_spec len 1); [lia|]. destruct (Z.ltb_spec (read_ahead e + 1) len); [lia|].
      destruct (Z.leb_spec (mode_before p) (read_ahead e - len)); [lia|]. reflexivity.
    - cbn [run_strat okor]. left; reflexivity.
  Qed.

  (* the encoder between two symbols.  [org] ties the state to the event trace: the number of
     bytes accepted so far is org + g_base + write_pos. *)
  Set Implicit Arguments.
  Record einv (p : lzp) (org : Z) (e : encd) (tr : list wev) : Prop := mkEinv {
    ei_lz : lzinv p (e_lz e);
    ei_ra : -1 <= read_ahead e <= read_pos (e_lz e);
    ei_mb : read_ahead e < mode_before p;
    ei_base : 0 <= g_base e /\ g_base e mod 64 = 0;
    ei_hist : g_base e = 0 \/ keep_before p <= read_pos (e_lz e) + 1;
    ei_dict : g_base e = 0 \/ dict_size p <= pidx e;
    ei_pidx1 : read_pos (e_lz e) = -1 \/ 1 <= pidx e;
    ei_unc : 0 <= unc_size e;
    ei_U : 0 < pending_size (e_lz e) ->
           Kp p (e_lz e) \/ (read_ahead e = -1 /\ read_limit (e_lz e) <= read_pos (e_lz e)) \/
           read_pos (e_lz e) = write_pos (e_lz e) - 1;
    ei_fill : sum_fill tr = org + g_base e + write_pos (e_lz e);
    ei_sym : sum_sym tr + sum_abs tr = org + logical_pos e;
    ei_chunk : sum_chunk tr + unc_size e = org + logical_pos e;
    ei_org : org <= sum_chunk tr
  }.
  Unset Implicit Arguments.

  (* uncompressed_size (u32) cannot overflow while the current chunk plus what is still uncoded
     in the window stays below 2^32 *)
  Definition cap (e : encd) : Prop := unc_size e + (write_pos (e_lz e) - pidx e) <= U32_MAX.
  (* no consultation possible: has_enough_data(read_ahead + 1) is false *)
  Definition quiet (e : encd) : Prop := read_limit (e_lz e) <= pidx e - 1.

  Lemma logical_pidx e : logical_pos e = g_base e + pidx e.
  Proof. unfold logical_pos, pidx. lia. Qed.

  (* the longest symbol the contract admits *)
  Definition SYM_MAX (p : lzp) : Z := Z.max (extra_after p + 1) (mode_before p).

  Definition steady (p : lzp) (e : encd) : Prop := read_limit (e_lz e) <= write_pos (e_lz e) - keep_after p.

  (* The data-only machine: state = (logical position of the next byte to code, read_ahead,
     parser state); [T] = logical end of all data (kept preset bytes + every byte that will be
     written).  One step = the forced first literal, or one consultation of the parser. *)
  Definition ist : Type := (Z * Z * PS)%type.
  Definition istep (p : lzp) (T : Z) (st : ist) : option (ist * iev) :=
    let '(P, ra, ps) := st in
    if P =? 0 then (if 1 <=? T then Some ((1, -1, ps), ISym 1) else None)
    else match irun p (parse ps P ra) (T - (P + ra)) ra with
         | Some (ra1, len, full, ps1) => Some ((P + len, ra1 - len, ps1), ISym len)
         | None => None
         end.
  Definition est (e : encd) (ps : PS) : ist := (logical_pos e, read_ahead e, ps).

  (* the real encoder sees what the data-only machine sees *)
  Definition Vc (p : lzp) (e : encd) (T : Z) : Prop :=
    (finishing (e_lz e) = true /\ g_base e + write_pos (e_lz e) = T) \/
    (g_base e + write_pos (e_lz e) <= T /\ (quiet e \/ steady p e)).

  (* what a consultation, and so any number of them, changes and what it leaves alone *)
  Set Implicit Arguments.
  Record adv (p : lzp) (e e1 : encd) : Prop := mkAdv {
    ad_wp : write_pos (e_lz e1) = write_pos (e_lz e);
    ad_rl : read_limit (e_lz e1) = read_limit (e_lz e);
    ad_fin : finishing (e_lz e1) = finishing (e_lz e);
    ad_base : g_base e1 = g_base e;
    ad_pidx : pidx e <= pidx e1;
    ad_unc : unc_size e1 = unc_size e + (pidx e1 - pidx e);
    ad_pend : steady p e -> pending_size (e_lz e1) = pending_size (e_lz e)
  }.
  Unset Implicit Arguments.

  Lemma adv_refl p e : adv p e e.
  Proof. constructor; try reflexivity; lia. Qed.

  Lemma adv_trans p e e1 e2 : adv p e e1 -> adv p e1 e2 -> adv p e e2.
  Proof.
    intros [A1 A2 A3 A4 A5 A6 A7] [B1 B2 B3 B4 B5 B6 B7]. constructor; try congruence; try lia.
    intros Hs. rewrite B7, A7; [reflexivity|exact Hs|]. unfold steady in *. rewrite A1, A2. exact Hs.
  Qed.

  Lemma cap_adv p e e1 : adv p e e1 -> cap e -> cap e1.
  Proof. intros A. unfold cap. rewrite (ad_wp A), (ad_unc A). lia. Qed.

  Lemma Vc_adv p e e1 T : adv p e e1 -> ~ quiet e -> Vc p e T -> Vc p e1 T.
  Proof.
    intros A NQ HV. unfold Vc, steady in *. rewrite (ad_wp A), (ad_rl A), (ad_fin A), (ad_base A).
    destruct HV as [HV|[HT [Hq|Hs]]]; [left; exact HV|contradiction|right; split; [exact HT|right; exact Hs]].
  Qed.

  (* when all data is coded and nothing is read ahead the data-only machine has no successor *)
  Lemma istep_end p T ps : istep p T (T, -1, ps) = None.
  Proof.
    unfold istep. destruct (Z.eqb_spec T 0) as [->|_]; [reflexivity|].
    replace (T - (T + -1)) with 1 by lia.
    destruct (parse ps T (-1)) as [k|c k|len full ps1|]; cbn [irun Z.sub Z.ltb Z.compare orb]; try reflexivity.
    destruct (Z.ltb_spec len 1); [reflexivity|]. destruct (Z.ltb_spec (-1 + 1) len); [reflexivity|lia].
  Qed.

  (* its two kinds of step, seen from two encoder states *)
  Lemma istep_init p T e ps e1 : logical_pos e = 0 -> 1 <= T -> logical_pos e1 = 1 -> read_ahead e1 = -1 ->
    istep p T (est e ps) = Some (est e1 ps, ISym 1).
  Proof. intros H0 HT H1 Hr. unfold istep, est. rewrite H0, H1, Hr. cbn [Z.eqb]. destruct (Z.leb_spec 1 T); [reflexivity|lia]. Qed.

  Lemma istep_sym p T e ps e1 ps1 len : 1 <= logical_pos e -> logical_pos e1 = logical_pos e + len ->
    irun p (parse ps (logical_pos e) (read_ahead e)) (T - (logical_pos e + read_ahead e)) (read_ahead e) =
      Some (read_ahead e1 + len, len, rc_full e1, ps1) ->
    istep p T (est e ps) = Some (est e1 ps1, ISym len).
  Proof.
    intros H1 Hl Hr. unfold istep, est. destruct (Z.eqb_spec (logical_pos e) 0); [lia|]. rewrite Hr, Hl.
    replace (read_ahead e1 + len - len) with (read_ahead e1) by lia. reflexivity.
  Qed.

  Lemma adv_logical p e e1 : adv p e e1 -> logical_pos e1 = logical_pos e + (pidx e1 - pidx e).
  Proof. intros A. rewrite !logical_pidx, (ad_base A). lia. Qed.

  (* an encoder that has not started: nothing read ahead, nothing coded, no window move yet *)
  Lemma unstarted p org e tr : wf_p p -> einv p org e tr -> read_pos (e_lz e) = -1 ->
    read_ahead e = -1 /\ g_base e = 0 /\ unc_size e = 0 /\ pending_size (e_lz e) = 0.
  Proof.
    intros W I Hns. pose proof (ei_ra I). pose proof (li_pend (ei_lz I)). pose proof (ei_unc I).
    pose proof (ei_chunk I) as Hc. pose proof (ei_org I). unfold logical_pos in Hc.
    destruct (ei_hist I) as [G|G]; [lia|]. pose proof (wf_kb W). pose proof (wf_dict W). pose proof (wf_mb W). lia.
  Qed.

  Lemma encode_symbol_spec p org ps e tr : wf_p p -> einv p org e tr -> cap e -> 1 <= pidx e ->
    okor (encode_symbol PS parse p ps e tr) (fun r =>
      match r with
      | None => quiet e
      | Some (e1, ps1, tr1) =>
          let len := pidx e1 - pidx e in
          einv p org e1 tr1 /\ adv p e e1 /\ ~ quiet e /\ 1 <= len <= SYM_MAX p /\
          sum_abs tr1 = sum_abs tr /\ rsyms tr1 = ISym len :: rsyms tr /\
          (forall T, Vc p e T ->
             logical_pos e < T /\
             irun p (parse ps (logical_pos e) (read_ahead e)) (T - (logical_pos e + read_ahead e)) (read_ahead e) =
             Some (read_ahead e1 + len, len, rc_full e1, ps1))
      end).
  Proof.
    intros W I Hcap Hp1.
    pose proof (ei_lz I) as [Hrp Hwp Hrl Hpe Hpb]. pose proof (ei_ra I) as Hra.
    pose proof (ei_mb I) as Hmb. pose proof (ei_unc I) as Hu.
    pose proof (wf_i32 W) as Hi32. pose proof (wf_mb W) as Hwmb. pose proof (wf_ea W) as Hwea.
    unfold I32_MAX in Hi32.
    unfold encode_symbol, has_enough_data.
    rewrite ck_i32_ok by lia. cbn [obind].
    rewrite ck_i32_ok by lia. cbn [obind].
    unfold pidx in Hp1.
    destruct (Z.ltb_spec (read_pos (e_lz e) - (read_ahead e + 1)) (read_limit (e_lz e))) as [Hq|Hq]; cbn [negb].
    2:{ cbn [okor]. unfold quiet, pidx. lia. }
    eapply okor_bind.
    { apply run_strat_spec; [exact W|]. constructor.
      - exact (ei_lz I).
      - lia.
      - intros Hp. destruct (ei_U I Hp) as [K|[[K1 K2]|K]]; [left; exact K | lia | right; exact K]. }
    intros [[[[e1 len] full] ps1] tr1].
    intros (M1 & (k1 & Hk1 & Hk2 & Hk3 & Hk4) & X1 & X2 & X3 & X4 & X5 & X6 & X7 & X8 & X10 & X11 & X12).
    pose proof (mi_ra M1) as Hra'. pose proof (li_rp (mi_lz M1)) as Hrp'.
    injection X11 as E1 E2 E3 E4 E5.
    destruct (Z.ltb_spec (read_ahead e1) 0); [lia|].
    replace (read_pos (e_lz e1) - read_ahead e1) with (read_pos (e_lz e) - read_ahead e) by lia.
    destruct (Z.ltb_spec (read_pos (e_lz e) - read_ahead e - 1) 0); [lia|].
    destruct (Z.leb_spec (buf_size p) (read_pos (e_lz e) - read_ahead e)); [lia|]. cbn [orb].
    assert (Hsh : (g_base e1 =? 0) || (dict_size p <=? read_pos (e_lz e) - read_ahead e) = true).
    { rewrite X6. apply orb_true_iff. destruct (ei_dict I) as [Hd0|Hd0]; [left; apply Z.eqb_eq|right; apply Z.leb_le]; assumption. }
    rewrite Hsh. cbn [negb].
    rewrite as_i32_id by lia.
    rewrite ck_i32_ok by lia. cbn [obind].
    unfold cap, pidx in Hcap.
    unfold I32_MAX, U32_MAX in *.
    rewrite ck_u32_ok by lia. cbn [obind okor].
    assert (Hpi : pidx (mkEncd (e_lz e1) (read_ahead e1 - len) (unc_size e1 + len) full (g_base e1)) = pidx e + len).
    { unfold pidx. cbn [e_lz read_ahead]. lia. }
    cbv zeta. rewrite Hpi. replace (pidx e + len - pidx e) with len by lia.
    split.
    { constructor; cbn [e_lz read_ahead unc_size g_base rc_full]; try rewrite Hpi.
      - exact (mi_lz M1).
      - lia.
      - lia.
      - rewrite X6. exact (ei_base I).
      - rewrite X6. destruct (ei_hist I); [left; assumption | right; lia].
      - rewrite X6. destruct (ei_dict I) as [Hd0|Hd0]; [left; assumption | right; lia].
      - right. unfold pidx. lia.
      - lia.
      - intros Hp. destruct (mi_K M1 Hp) as [K|K]; [left; exact K | right; right; exact K].
      - cbn [sum_fill]. rewrite X6, X1, E2. exact (ei_fill I).
      - rewrite logical_pidx. cbn [g_base]. rewrite Hpi, X6.
        cbn [sum_sym sum_abs]. rewrite E1, E3. pose proof (ei_sym I) as Hsym. rewrite logical_pidx in Hsym. lia.
      - rewrite logical_pidx. cbn [g_base]. rewrite Hpi, X6.
        cbn [sum_chunk]. rewrite E4. pose proof (ei_chunk I) as Hchunk. rewrite logical_pidx in Hchunk. lia.
      - cbn [sum_chunk]. rewrite E4. exact (ei_org I). }
    split.
    { constructor; try rewrite Hpi; cbn [e_lz g_base unc_size]; try assumption; try lia.
      intros Hs. apply X10. unfold steady in Hs. pose proof (wf_ka W). unfold pidx. lia. }
    split; [unfold quiet, pidx; lia|].
    split; [unfold SYM_MAX; destruct (Z.eq_dec k1 0); [|specialize (Hk4 ltac:(lia))]; lia|].
    split; [cbn [sum_abs]; exact E3|]. split; [cbn [rsyms]; rewrite E5; reflexivity|].
    intros T HV. cbn [read_ahead rc_full].
    assert (Hv : view_ok p e (T - (logical_pos e + read_ahead e)) /\ logical_pos e < T).
    { unfold view_ok. cbv zeta. unfold Vc in HV. unfold logical_pos.
      destruct HV as [[Hfin HT]|[HT [Hqq|Hs]]].
      + split; [left; split; [exact Hfin|lia]|lia].
      + exfalso. unfold quiet, pidx in Hqq. lia.
      + unfold steady in Hs. pose proof (wf_ka W). split; [right; lia|lia]. }
    split; [exact (proj2 Hv)|]. rewrite (X12 _ (proj1 Hv)).
    replace (read_ahead e1 - len + len) with (read_ahead e1) by lia. reflexivity.
  Qed.

  Lemma encode_init_spec p org e tr : wf_p p -> einv p org e tr -> cap e -> read_pos (e_lz e) = -1 ->
    okor (encode_init p e tr) (fun r =>
      let '(ok, e1, tr1) := r in
      if ok then
        einv p org e1 tr1 /\ adv p e e1 /\ ~ quiet e /\ pidx e1 = 1 /\ read_ahead e1 = -1 /\ rc_full e1 = rc_full e /\
        sum_abs tr1 = sum_abs tr /\ rsyms tr1 = ISym 1 :: rsyms tr
      else e1 = e /\ tr1 = tr /\ quiet e).
  Proof.
    intros W I Hcap Hns. pose proof W as [W1 W2 W3 W4 W5 W6 W7 W8 W9 W10].
    pose proof I as [[[Ha Hb] Hc [Hd He] [Hf Hg] Hpb] [Hr1 Hr2] Hmb [Hb1 Hb2] Hh Hdict Hpx Hu HU Hfill Hsym Hchunk Horg].
    unfold I32_MAX in *.
    destruct (unstarted p org e tr W I Hns) as (Hra & Hbase & Hunc & Hp0).
    unfold encode_init, has_enough_data. rewrite Hra. cbn [Z.eqb negb].
    rewrite ck_i32_ok by lia. cbn [obind].
    rewrite Z.sub_0_r.
    destruct (Z.ltb_spec (read_pos (e_lz e)) (read_limit (e_lz e))) as [Hq|Hq]; cbn [negb].
    2:{ cbn [okor]. split; [reflexivity|]. split; [reflexivity|]. unfold quiet, pidx. lia. }
    rewrite ck_i32_ok by lia. cbn [obind].
    eapply okor_bind.
    { apply (mf_skip_spec p W 1%nat); try lia. left; exact Hp0. }
    intros [d1 tr1]. cbn [fst snd]. intros (A & B & C & D & E & K & Hbig & F).
    change (Z.of_nat 1) with 1 in *.
    destruct (Z.ltb_spec (read_pos d1 - (-1 + 1)) 0); [lia|].
    destruct (Z.leb_spec (buf_size p) (read_pos d1 - (-1 + 1))); [lia|]. cbn [orb].
    rewrite ck_i32_ok by lia. cbn [obind].
    change (-1 + 1 - 1 =? -1) with true. cbn [negb].
    rewrite Hunc. rewrite ck_u32_ok by lia. cbn [obind].
    change (0 + 1 =? 1) with true. cbn [negb okor].
    injection F as E1 E2 E3 E4 E5.
    assert (Hpi : pidx (mkEncd d1 (-1 + 1 - 1) (0 + 1) (rc_full e) (g_base e)) = 1).
    { unfold pidx. cbn [e_lz read_ahead]. lia. }
    split.
    { constructor; cbn [e_lz read_ahead unc_size g_base rc_full]; try rewrite Hpi.
      - constructor; try lia; destruct K as [K|K]; lia.
      - lia.
      - lia.
      - split; assumption.
      - left; assumption.
      - left; assumption.
      - right; lia.
      - lia.
      - intros _. left. exact K.
      - cbn [sum_fill]. rewrite E2, B. exact Hfill.
      - rewrite logical_pidx. cbn [g_base]. rewrite Hpi. cbn [sum_sym sum_abs]. rewrite E1, E3.
        rewrite logical_pidx in Hsym. unfold pidx in Hsym. lia.
      - rewrite logical_pidx. cbn [g_base]. rewrite Hpi. cbn [sum_chunk]. rewrite E4.
        rewrite logical_pidx in Hchunk. unfold pidx in Hchunk. lia.
      - cbn [sum_chunk]. rewrite E4. exact Horg. }
    split.
    { constructor; try rewrite Hpi; cbn [e_lz g_base unc_size]; try assumption; try reflexivity; try (unfold pidx; lia).
      intros Hs. unfold steady in Hs. rewrite Hbig, Hp0; [reflexivity|lia]. }
    split; [unfold quiet, pidx; lia|]. split; [exact Hpi|]. cbn [read_ahead rc_full sum_abs rsyms].
    split; [reflexivity|]. split; [reflexivity|]. split; [exact E3|]. rewrite E5. reflexivity.
  Qed.

  (* what the symbol loop of the LZMA encoder does: it ends with no consultation possible *)
  Definition sym_run1 (p : lzp) (org : Z) (e : encd) (ps : PS) (tr : list wev) (r : encd * PS * list wev) : Prop :=
    let '(e1, ps1, tr1) := r in
    einv p org e1 tr1 /\ adv p e e1 /\ quiet e1 /\
    (quiet e -> e1 = e /\ ps1 = ps /\ tr1 = tr) /\ sum_abs tr1 = sum_abs tr /\
    (forall T, Vc p e T -> reaches (istep p T) (est e ps) (rsyms tr) (est e1 ps1) (rsyms tr1)).

  Lemma sym_run1_refl p org e ps tr : einv p org e tr -> quiet e -> sym_run1 p org e ps tr (e, ps, tr).
  Proof.
    intros I Q. split; [exact I|]. split; [apply adv_refl|]. split; [exact Q|]. split; [auto|]. split; [reflexivity|].
    intros T _. apply reaches_refl.
  Qed.

  (* a first step e -> e1 (the forced literal or a consultation) before such a run *)
  Lemma sym_run1_step p org e ps tr e1 ps1 tr1 r : adv p e e1 -> ~ quiet e -> sum_abs tr1 = sum_abs tr ->
    (forall T, Vc p e T -> reaches (istep p T) (est e ps) (rsyms tr) (est e1 ps1) (rsyms tr1)) ->
    sym_run1 p org e1 ps1 tr1 r -> sym_run1 p org e ps tr r.
  Proof.
    intros A1 NQ XA XR. destruct r as [[e2 ps2] tr2]. intros (I2 & A2 & Q2 & _ & YA & YI).
    split; [exact I2|]. split; [exact (adv_trans p e e1 e2 A1 A2)|]. split; [exact Q2|].
    split; [intros Q; contradiction|]. split; [congruence|].
    intros T HV. exact (reaches_trans _ _ _ _ _ _ _ (XR T HV) (YI T (Vc_adv p e e1 T A1 NQ HV))).
  Qed.

  (* fuel = bytes left in the window + 1 *)
  Lemma enc_loop1_spec p org : wf_p p -> forall fuel ps e tr,
    einv p org e tr -> cap e -> 1 <= pidx e ->
    write_pos (e_lz e) - pidx e + 1 <= Z.of_nat fuel ->
    okor (enc_loop1 PS parse fuel p ps e tr) (sym_run1 p org e ps tr).
  Proof.
    intros W. induction fuel as [|f IH]; intros ps e tr I Hcap Hp1 Hfuel.
    - exfalso. pose proof (li_rp (ei_lz I)). pose proof (ei_ra I). unfold pidx in *. lia.
    - cbn [enc_loop1].
      eapply okor_bind; [apply (encode_symbol_spec p org ps e tr W I Hcap Hp1)|].
      intros [[[e1 ps1] tr1]|]; cbv zeta; [|exact (sym_run1_refl p org e ps tr I)].
      intros (I1 & A1 & Q & Hl & XA & XR & XJ).
      eapply okor_weaken; [apply (IH ps1 e1 tr1 I1 (cap_adv p e e1 A1 Hcap)); pose proof (ad_wp A1); lia|].
      intros r. apply (sym_run1_step p org e ps tr e1 ps1 tr1 r A1 Q XA).
      intros T HV.
      refine (reaches_step _ _ _ _ _ _ (istep_sym p T e ps e1 ps1 _ _ (adv_logical p e e1 A1) (proj2 (XJ T HV))) XR).
      rewrite logical_pidx. pose proof (proj1 (ei_base I)). lia.
  Qed.

  Lemma encode_for_lzma1_spec p org ps e tr : wf_p p -> einv p org e tr -> cap e ->
    okor (encode_for_lzma1 PS parse p ps e tr) (sym_run1 p org e ps tr).
  Proof.
    intros W I Hcap. unfold encode_for_lzma1, is_started.
    destruct (Z.eqb_spec (read_pos (e_lz e)) (-1)) as [Hns|Hst]; cbn [negb].
    - eapply okor_bind; [apply (encode_init_spec p org e tr W I Hcap Hns)|].
      intros [[ok e1] tr1]. destruct ok; cbn [negb].
      2:{ intros (E1 & E2 & Q). subst e1 tr1. exact (sym_run1_refl p org e ps tr I Q). }
      intros (I1 & A1 & NQ & P1 & R1 & _ & XA & XR).
      destruct (unstarted p org e tr W I Hns) as (Hra & Hg & _).
      eapply okor_weaken.
      { apply (enc_loop1_spec p org W _ ps e1 tr1 I1 (cap_adv p e e1 A1 Hcap)); [lia|].
        unfold sym_fuel. pose proof (li_rp (ei_lz I1)). rewrite P1. lia. }
      intros r. apply (sym_run1_step p org e ps tr e1 ps tr1 r A1 NQ XA).
      intros T HV.
      assert (H0 : logical_pos e = 0) by (unfold logical_pos; lia).
      refine (reaches_step _ _ _ _ _ _ (istep_init p T e ps e1 H0 _ _ R1) XR).
      + unfold Vc in HV. pose proof (li_rp (ei_lz I1)). pose proof (ad_wp A1). unfold pidx in P1.
        destruct HV as [[_ ?]|[? _]]; lia.
      + rewrite (adv_logical p e e1 A1), H0. unfold pidx at 2. lia.
    - assert (Hp1 : 1 <= pidx e) by (destruct (ei_pidx1 I); [contradiction|assumption]).
      apply (enc_loop1_spec p org W _ ps e tr I Hcap Hp1). unfold sym_fuel. pose proof (ei_ra I). unfold pidx. lia.
  Qed.

  Set Implicit Arguments.
  Record phi (p : lzp) (e : encd) : Prop := mkPhi {
    ph_fin : finishing (e_lz e) = false;
    ph_sq : steady p e \/ quiet e;
    ph_pend : 0 < pending_size (e_lz e) -> read_ahead e = -1;
    ph_G : write_pos (e_lz e) = buf_size p -> buf_size p - keep_after p <= read_limit (e_lz e)
  }.
  Unset Implicit Arguments.

  (* a consultation in the steady phase finds no pending position (fill_window has re-processed them) *)
  Lemma phi_consult_nopend p org e tr : wf_p p -> einv p org e tr -> phi p e -> ~ quiet e ->
    steady p e /\ pending_size (e_lz e) = 0.
  Proof.
    intros W I [Hfin Hsq Hpend HG] NQ. pose proof W as [W1 W2 W3 W4 W5 W6 W7 W8 W9 W10].
    pose proof I as [[[Ha Hb] Hc [Hd He] [Hf Hg] Hpb] [Hr1 Hr2] Hmb [Hb1 Hb2] Hh Hdict Hpx Hu HU Hfill Hsym Hchunk Horg].
    assert (Hst : steady p e) by (destruct Hsq; [assumption|contradiction]).
    split; [exact Hst|].
    destruct (Z.eq_dec (pending_size (e_lz e)) 0) as [Hz|Hz]; [exact Hz|exfalso].
    assert (Hp : 0 < pending_size (e_lz e)) by lia.
    pose proof (Hpend Hp) as Hra. unfold steady, quiet, pidx, Kp in *.
    destruct (HU Hp) as [[K|K]|[[K1 K2]|K]]; lia.
  Qed.

  (* so the steady phase survives any number of consultations *)
  Lemma phi_adv p org e tr e1 : wf_p p -> einv p org e tr -> phi p e -> adv p e e1 -> (quiet e -> e1 = e) -> phi p e1.
  Proof.
    intros W I F A Hq. destruct (Z_le_dec (read_limit (e_lz e)) (pidx e - 1)) as [Q|NQ]; [rewrite (Hq Q); exact F|].
    destruct (phi_consult_nopend p org e tr W I F NQ) as [Hst Hp0].
    constructor.
    - rewrite (ad_fin A). exact (ph_fin F).
    - left. unfold steady in *. rewrite (ad_wp A), (ad_rl A). exact Hst.
    - rewrite (ad_pend A Hst), Hp0. lia.
    - rewrite (ad_wp A), (ad_rl A). exact (ph_G F).
  Qed.

  (* fill_window as the write loops use it (the ghost base follows a window move) *)
  Definition after_fill (e : encd) (d1 : lzd) : encd :=
    mkEncd d1 (read_ahead e) (unc_size e) (rc_full e) (g_base e + (read_pos (e_lz e) - read_pos d1)).

  Lemma fill_step p org e tr n : wf_p p -> einv p org e tr -> phi p e -> 0 <= n ->
    okor (fill_window p (e_lz e) n tr) (fun r =>
      let '(d1, used, tr1) := r in
      let e1 := after_fill e d1 in
      einv p org e1 tr1 /\ phi p e1 /\ 0 <= used <= n /\
      logical_pos e1 = logical_pos e /\ unc_size e1 = unc_size e /\ rc_full e1 = rc_full e /\
      write_pos (e_lz e1) - pidx e1 = write_pos (e_lz e) - pidx e + used /\
      g_base e1 + write_pos (e_lz e1) = g_base e + write_pos (e_lz e) + used /\
      (quiet e -> 0 < n -> 1 <= used) /\
      (used = 0 -> 0 < n -> write_pos (e_lz e1) = buf_size p /\ d1 = e_lz e) /\
      sum_abs tr1 = sum_abs tr /\ sum_fill tr1 = sum_fill tr + used /\ rsyms tr1 = rsyms tr).
  Proof.
    intros W I F Hn.
    eapply okor_weaken; [apply (fill_window_spec p (e_lz e) n tr W (ei_lz I) (ph_fin F) Hn)|].
    intros [[d1 used] tr1] (off & L1 & F1 & O1 & O2 & O3 & R1 & U1 & U2 & Wp1 & Rl1 & Pcase & Acc).
    injection Acc as E1 E2 E3 E4 E5.
    pose proof (ei_ra I) as Hra. pose proof (ei_mb I) as Hmb.
    pose proof (wf_kb W) as Hkb. pose proof (wf_dict W) as Hdi.
    (* a move keeps the dictionary and the read-ahead in the window *)
    assert (Hoff : off = 0 \/ (64 <= off /\ dict_size p <= pidx e - off /\ keep_before p <= read_pos d1 + 1)).
    { clear - O3 R1 Hra Hmb Hkb Hdi. unfold pidx. lia. }
    assert (Hg : g_base (after_fill e d1) = g_base e + off) by (unfold after_fill; cbn [g_base]; lia).
    assert (Hpi : pidx (after_fill e d1) = pidx e - off) by (unfold pidx, after_fill; cbn [e_lz read_ahead]; lia).
    assert (Hlp : logical_pos (after_fill e d1) = logical_pos e) by (rewrite !logical_pidx, Hg, Hpi; lia).
    (* pending positions survive only where nothing can be consulted *)
    assert (Hpend1 : 0 < pending_size d1 -> Kp p d1 \/ (0 < pending_size (e_lz e) /\ read_limit d1 <= read_pos d1)).
    { clear - Pcase. intros Hp. destruct Pcase as [[Pq Pn]|(_ & _ & P3 & _)]; [right; lia|left; exact P3]. }
    split.
    { constructor; rewrite ?Hg, ?Hpi, ?Hlp; unfold after_fill; cbn [e_lz read_ahead unc_size].
      - exact L1.
      - clear - Hoff Hra Hmb Hkb Hdi R1. unfold pidx in Hoff. lia.
      - exact Hmb.
      - destruct (ei_base I) as [Hb1 Hb2]. split; [lia|].
        rewrite Z.add_mod, Hb2, O2 by lia. reflexivity.
      - pose proof (ei_hist I). clear - H Hoff R1 O1. lia.
      - pose proof (ei_dict I). clear - H Hoff O1. lia.
      - pose proof (ei_pidx1 I). clear - H Hoff R1 Hdi. lia.
      - exact (ei_unc I).
      - intros Hp. destruct (Hpend1 Hp) as [K|[Hp0 Hq]]; [left; exact K|right; left].
        split; [exact (ph_pend F Hp0)|exact Hq].
      - rewrite E2, Wp1, (ei_fill I). lia.
      - rewrite E1, E3. exact (ei_sym I).
      - rewrite E4. exact (ei_chunk I).
      - rewrite E4. exact (ei_org I). }
    pose proof (wf_ka W) as Hka. pose proof (wf_mlm W) as Hml. pose proof (wf_ea W) as Hea.
    pose proof (ei_lz I) as [Hrp Hwp Hrl _ _].
    split.
    { constructor; unfold steady, quiet; rewrite ?Hpi; unfold after_fill; cbn [e_lz read_ahead].
      - exact F1.
      - destruct (Z.leb_spec (keep_after p) (write_pos d1)); [left; lia|].
        assert (off = 0) by (pose proof (li_rp L1); pose proof (wf_kakb W); lia). subst off.
        destruct (ph_sq F) as [Hs|Hq]; [left; unfold steady in Hs|right; unfold quiet in Hq]; lia.
      - intros Hp. destruct (Hpend1 Hp) as [K|[Hp0 Hq]].
        + apply (ph_pend F). destruct Pcase as [[Pq _]|(P1 & _)]; lia.
        + exact (ph_pend F Hp0).
      - intros Hfull. rewrite Rl1. destruct (Z.leb_spec (keep_after p) (write_pos d1)); [lia|].
        pose proof (wf_buf W). lia. }
    rewrite Hg, Hpi, Hlp. unfold after_fill. cbn [e_lz unc_size rc_full].
    split; [lia|]. split; [reflexivity|]. split; [reflexivity|]. split; [reflexivity|].
    split; [lia|]. split; [lia|].
    split.
    { intros Q Hn0. unfold quiet in Q.
      (* no move: there must be room, otherwise the window is full and a drained encoder forces a move *)
      destruct O3 as [[Ho Hlt]|(Ho & Hge & Hb3)]; [subst off|unfold pidx in Q; lia].
      destruct (Z.eq_dec (write_pos (e_lz e)) (buf_size p)) as [Hfullw|Hnf]; [|lia].
      pose proof (ph_G F Hfullw). unfold pidx in Q. lia. }
    split; [|split; [exact E3|split; [exact E2|exact E5]]].
    intros Hu0 Hn0. subst used.
    assert (off = 0) by (destruct O3 as [[? ?]|(? & ? & ?)]; lia). subst off.
    assert (Hfullw : write_pos (e_lz e) = buf_size p) by lia.
    split; [lia|].
    (* nothing changed *)
    pose proof (ph_G F Hfullw) as HG. pose proof (wf_buf W) as Hbuf.
    assert (Erl : read_limit d1 = read_limit (e_lz e)).
    { rewrite Rl1. destruct (Z.leb_spec (keep_after p) (write_pos d1)); [|reflexivity].
      destruct (ph_sq F) as [Hs|Hq]; [unfold steady in Hs; lia|unfold quiet, pidx in Hq; lia]. }
    assert (Epe : pending_size d1 = pending_size (e_lz e)).
    { destruct Pcase as [[Pq Pn]|(P1 & P2 & P3 & P4)]; [exact Pq|exfalso].
      pose proof (ph_pend F P1) as Hra1.
      destruct (ei_U I P1) as [[K|K]|[[K1 K2]|K]]; [lia| |lia|lia].
      pose proof (wf_rf W). unfold REQ_FINISH in *. lia. }
    apply lzd_ext; [lia|exact Erl|rewrite F1; symmetry; exact (ph_fin F)|lia|exact Epe].
  Qed.


  (* set_flushing / set_finishing seen from the encoder *)
  Lemma set_limit_einv p org e tr fin r : einv p org e tr -> limited p (e_lz e) fin tr r -> einv p org (with_lz e (fst r)) (snd r).
  Proof.
    intros I (L1 & R1 & Wp1 & _ & _ & Acc & Pcase). injection Acc as E1 E2 E3 E4 E5.
    pose proof I as [[[Ha Hb] Hc [Hd He] [Hf Hg] Hpb] [Hr1 Hr2] Hmb [Hb1 Hb2] Hh Hdict Hpx Hu HU Hfill Hsym Hchunk Horg'].
    constructor; unfold with_lz, pidx, logical_pos in *; cbn [e_lz read_ahead unc_size g_base rc_full]; try rewrite R1; try rewrite Wp1;
      try assumption; try lia.
    intros Hp0. destruct Pcase as [[Pq Pn]|[P1 P2]].
    + right; right. lia.
    + left; exact P2.
  Qed.


  (* between two calls of an LZMAWriter *)
  Definition l1inv (p : lzp) (org : Z) (e : encd) (tr : list wev) : Prop :=
    einv p org e tr /\ phi p e /\ quiet e /\ sum_abs tr = 0.

  Lemma l1_write_loop_spec p org : wf_p p -> forall fuel ps e len off tr,
    l1inv p org e tr -> 0 <= len ->
    unc_size e + (write_pos (e_lz e) - pidx e) + len <= U32_MAX ->
    len + 1 <= Z.of_nat fuel ->
    okor (l1_write_loop PS parse fuel p ps e len off tr) (fun r =>
      let '(e1, ps1, off1, tr1) := r in
      l1inv p org e1 tr1 /\ off1 = off + len /\ sum_fill tr1 = sum_fill tr + len /\
      unc_size e1 + (write_pos (e_lz e1) - pidx e1) = unc_size e + (write_pos (e_lz e) - pidx e) + len /\
      (forall T, g_base e + write_pos (e_lz e) + len <= T ->
         reaches (istep p T) (est e ps) (rsyms tr) (est e1 ps1) (rsyms tr1))).
  Proof.
    intros W. induction fuel as [|f IH]; intros ps e len off tr (I & F & Q & A0) Hlen Hcap Hfuel; [lia|].
    cbn [l1_write_loop].
    destruct (Z.leb_spec len 0) as [Hz|Hpos].
    { cbn [okor]. assert (len = 0) by lia. subst len.
      split; [split; [exact I|split; [exact F|split; [exact Q|exact A0]]]|]. split; [lia|]. split; [lia|]. split; [lia|].
      intros T _. apply reaches_refl. }
    eapply okor_bind; [apply (fill_step p org e tr len W I F Hlen)|].
    intros [[d1 used] tr1]. fold (after_fill e d1).
    intros (I1 & F1 & U1 & L1 & Un1 & Rc1 & Wn1 & Bw1 & Hprog & _ & Ab1 & Fl1 & Rs1).
    assert (Hu : 1 <= used) by (apply Hprog; [exact Q|lia]).
    assert (Hcap1 : cap (after_fill e d1)) by (unfold cap; rewrite Un1; lia).
    eapply okor_bind; [apply (encode_for_lzma1_spec p org ps _ tr1 W I1 Hcap1)|].
    intros [[e2 ps2] tr2] (I2 & A2 & Q2 & Y9 & YA & YI).
    pose proof (phi_adv p org _ tr1 e2 W I1 F1 A2 (fun q => proj1 (Y9 q))) as F2.
    pose proof (ad_wp A2) as Y2. pose proof (ad_unc A2) as Y6. pose proof (ad_base A2) as Y5.
    eapply okor_weaken.
    { apply (IH ps2 e2 (len - used) (off + used) tr2).
      - split; [exact I2|]. split; [exact F2|]. split; [exact Q2|]. congruence.
      - lia.
      - rewrite Y6, Y2. lia.
      - lia. }
    intros [[[e3 ps3] off3] tr3] (L3 & O3 & S3 & C3 & ZI).
    pose proof (ei_fill I2) as Hf2. pose proof (ei_fill I1) as Hf1.
    split; [exact L3|]. split; [lia|]. split; [lia|]. split; [rewrite C3, Y6, Y2; lia|].
    intros T HT.
    assert (HV1 : Vc p (after_fill e d1) T).
    { unfold Vc. right. split; [lia|]. destruct (ph_sq F1) as [Hs|Hq]; [right; exact Hs|left; exact Hq]. }
    assert (Hest : est (after_fill e d1) ps = est e ps) by (unfold est; rewrite L1; reflexivity).
    rewrite <- Hest, <- Rs1. eapply reaches_trans; [exact (YI T HV1)|]. apply ZI. rewrite Y5, Y2. lia.
  Qed.

  (* the state of an LZMAWriter between calls, tied to what has been written *)
  Set Implicit Arguments.
  Record l1ok (s : l1st PS) (p : lzp) (org : Z) : Prop := mkL1ok {
    lo_p : l1_p _ s = p;
    lo_inv : l1inv p org (l1_e _ s) (l1_tr _ s);
    lo_cur : l1_cur _ s = sum_fill (l1_tr _ s);          (* current_uncompressed_size = bytes accepted *)
    lo_org : org <= 0;                                    (* - (preset dictionary bytes in the window) *)
    lo_nn : 0 <= sum_fill (l1_tr _ s)
  }.
  Unset Implicit Arguments.

  Lemma einv_cap_bound p org e tr : einv p org e tr ->
    unc_size e + (write_pos (e_lz e) - pidx e) <= sum_fill tr - org.
  Proof.
    intros I. pose proof (ei_fill I). pose proof (ei_chunk I). pose proof (ei_org I).
    rewrite logical_pidx in *. lia.
  Qed.

  Lemma l1_write_spec p org s n : wf_p p -> l1ok s p org -> 0 <= n ->
    sum_fill (l1_tr _ s) - org + n <= U32_MAX ->
    okor (l1_write PS parse s n) (fun r =>
      let '(s1, res) := r in
      if (match l1_exp _ s with Some ex => ex <? l1_cur _ s + n | None => false end)
      then s1 = s /\ res = RRej E_INVALID_INPUT
      else l1ok s1 p org /\ res = RWrote n /\ l1_exp _ s1 = l1_exp _ s /\
           sum_fill (l1_tr _ s1) = sum_fill (l1_tr _ s) + n /\
           (forall T, sum_fill (l1_tr _ s) - org + n <= T ->
              reaches (istep p T) (est (l1_e _ s) (l1_ps _ s)) (rsyms (l1_tr _ s)) (est (l1_e _ s1) (l1_ps _ s1)) (rsyms (l1_tr _ s1)))).
  Proof.
    intros W [Hp Hinv Hcur Horg Hnn] Hn Hcap. unfold l1_write.
    pose proof Hinv as (I & F & Q & A0).
    assert (Hcur64 : 0 <= l1_cur _ s + n <= U64_MAX).
    { rewrite Hcur. unfold U64_MAX, U32_MAX, I32_MAX in *. lia. }
    assert (Htest : (match l1_exp PS s with
                     | Some ex => do t <- ck_u64 (l1_cur PS s + n); Ok (ex <? t)
                     | None => Ok false end) =
                    Ok (match l1_exp _ s with Some ex => ex <? l1_cur _ s + n | None => false end)).
    { destruct (l1_exp PS s); [rewrite ck_u64_ok by exact Hcur64; reflexivity|reflexivity]. }
    rewrite Htest.
    destruct (match l1_exp _ s with Some ex => ex <? l1_cur _ s + n | None => false end).
    { cbn [okor]. split; reflexivity. }
    rewrite ck_u64_ok by exact Hcur64. cbn [obind].
    rewrite Hp.
    eapply okor_bind.
    { apply (l1_write_loop_spec p org W (write_fuel n) (l1_ps _ s) (l1_e _ s) n 0 (l1_tr _ s) Hinv Hn).
      - pose proof (einv_cap_bound _ _ _ _ I). lia.
      - unfold write_fuel. lia. }
    intros [[[e1 ps1] off1] tr1] (L1 & O1 & S1 & C1 & ZI). cbn [okor].
    split.
    { constructor; cbn [l1_p l1_e l1_tr l1_cur]; try assumption; try reflexivity; try lia. }
    split; [f_equal; lia|]. split; [reflexivity|]. split; [exact S1|].
    cbn [l1_e l1_ps l1_tr]. intros T HT. apply ZI. pose proof (ei_fill I). lia.
  Qed.

  Lemma l1_finish_spec p org s : wf_p p -> l1ok s p org -> sum_fill (l1_tr _ s) - org <= U32_MAX ->
    okor (l1_finish PS parse s) (fun r =>
      let '(s1, res) := r in
      if (match l1_exp _ s with Some ex => negb (ex =? l1_cur _ s) | None => false end)
      then s1 = s /\ res = RRej E_INVALID_INPUT
      else res = RDone /\ sum_fill (l1_tr _ s1) = sum_fill (l1_tr _ s) /\
           sum_sym (l1_tr _ s1) = sum_fill (l1_tr _ s1) /\ sum_abs (l1_tr _ s1) = 0 /\
           (let T := sum_fill (l1_tr _ s) - org in
              reaches (istep p T) (est (l1_e _ s) (l1_ps _ s)) (rsyms (l1_tr _ s)) (T, -1, l1_ps _ s1) (rsyms (l1_tr _ s1)))).
  Proof.
    intros W [Hp Hinv Hcur Horg Hnn] Hcap. unfold l1_finish.
    pose proof Hinv as (I & F & Q & A0).
    destruct (match l1_exp _ s with Some ex => negb (ex =? l1_cur _ s) | None => false end).
    { cbn [okor]. split; reflexivity. }
    rewrite Hp.
    eapply okor_bind; [apply (set_finishing_spec p _ (l1_tr _ s) W (ei_lz I))|].
    intros [d1 tr1] Hlim. pose proof (set_limit_einv p org _ _ _ _ I Hlim) as I1.
    destruct Hlim as (L1 & R1 & Wp1 & Rl1 & Fin1 & Acc & Pcase). cbn [fst snd] in *.
    injection Acc as E1 E2 E3 E4 E5.
    assert (C1 : cap (with_lz (l1_e _ s) d1)).
    { pose proof (einv_cap_bound _ _ _ _ I1). unfold cap. rewrite E2 in H. lia. }
    eapply okor_bind; [apply (encode_for_lzma1_spec p org (l1_ps _ s) _ tr1 W I1 C1)|].
    intros [[e2 ps2] tr2] (I2 & A2 & Q2 & _ & YA & YI).
    pose proof (ad_wp A2) as Y2. pose proof (ad_rl A2) as Y3. pose proof (ad_base A2) as Y5.
    cbn [okor l1_tr l1_cur l1_exp l1_ps l1_e sum_fill sum_sym sum_abs rsyms].
    split; [reflexivity|].
    pose proof (ei_fill I2) as Hf2. pose proof (ei_sym I2) as Hs2.
    pose proof (ei_fill I1) as Hf1.
    pose proof (ei_lz I2) as [[Ha2 Hb2'] Hc2 [Hd2 He2] [Hf2' Hg2] Hpb2]. pose proof (ei_ra I2) as [Hr12 Hr22].
    unfold quiet in Q2. rewrite Y3 in Q2. unfold with_lz in Q2 at 1. cbn [e_lz] in Q2. rewrite Rl1 in Q2.
    unfold with_lz in Y2, Y5, Hf1. cbn [e_lz g_base] in Y2, Y5, Hf1.
    rewrite logical_pidx in Hs2. unfold pidx in *.
    split; [lia|]. split; [lia|]. split; [lia|].
    set (T := sum_fill (l1_tr PS s) - org).
    assert (HV : Vc p (with_lz (l1_e PS s) d1) T).
    { unfold Vc. left. unfold with_lz. cbn [e_lz g_base]. split; [exact Fin1|]. unfold T. lia. }
    assert (E1' : est (with_lz (l1_e PS s) d1) (l1_ps PS s) = est (l1_e PS s) (l1_ps PS s)).
    { unfold est, with_lz, logical_pos. cbn [e_lz read_ahead g_base]. rewrite R1. reflexivity. }
    assert (E2' : est e2 ps2 = (T, -1, ps2)).
    { unfold est, logical_pos. do 2 f_equal; unfold T; lia. }
    rewrite <- E1', <- E5, <- E2'. exact (YI T HV).
  Qed.


  (* option vectors the theorems cover: DICT_SIZE_MIN <= dict_size <= 1 GiB (beyond about 1.5 GiB
     buf_size no longer fits the i32 positions), 4 <= nice_len <= MATCH_LEN_MAX *)
  Definition opts_ok (dict nice : Z) : Prop := 4096 <= dict <= 1073741824 /\ 4 <= nice <= 273.

  Definition enc0 : encd := mkEncd (mkLzd (-1) (-1) false 0 0) (-1) 0 false 0.

  Lemma mode_extra_before_bounds normal : 1 <= mode_extra_before normal <= 4096.
  Proof. unfold mode_extra_before, NORMAL_EXTRA_BEFORE, FAST_EXTRA_BEFORE. destruct normal; lia. Qed.

  Lemma enc_new_with_spec eb normal bt4 dict nice : opts_ok dict nice ->
    mode_extra_before normal <= eb <= 65536 + 4096 ->
    exists p, enc_new_with eb normal bt4 dict nice = Ok (p, enc0) /\ wf_p p /\
      keep_before p = eb + dict /\ dict_size p = dict /\ mode_before p = mode_extra_before normal /\
      extra_after p = mode_extra_after normal /\ match_len_max p = MATCH_LEN_MAX /\
      keep_after p = mode_extra_after normal + MATCH_LEN_MAX /\ dict < buf_size p.
  Proof.
    intros [[Hd1 Hd2] [Hn1 Hn2]] Heb.
    pose proof (mode_extra_before_bounds normal) as Hmb.
    assert (Hma : 272 <= mode_extra_after normal <= 4096) by (unfold mode_extra_before, mode_extra_after, NORMAL_EXTRA_BEFORE, FAST_EXTRA_BEFORE, NORMAL_EXTRA_AFTER, FAST_EXTRA_AFTER; destruct normal; lia).
    assert (Hmm : mode_extra_after normal + 273 <= mode_extra_before normal + 4096) by (unfold mode_extra_before, mode_extra_after, NORMAL_EXTRA_BEFORE, FAST_EXTRA_BEFORE, NORMAL_EXTRA_AFTER, FAST_EXTRA_AFTER; destruct normal; lia).
    unfold enc_new_with, lz_new, get_buf_size, MATCH_LEN_MAX.
    set (reserve := Z.min (dict / 2 + 262144) 536870912).
    assert (Hres : 64 <= reserve <= 536870912) by (unfold reserve; pose proof (Z.div_pos dict 2); lia).
    rewrite (ck_u32_ok (eb + dict)) by lia. cbn [obind].
    rewrite (ck_u32_ok (mode_extra_after normal + 273)) by lia. cbn [obind].
    rewrite ck_u32_ok by lia. cbn [obind].
    rewrite ck_u32_ok by lia. cbn [obind].
    destruct (Z.ltb_spec (eb + dict + (mode_extra_after normal + 273) + reserve) 2); [lia|].
    destruct (Z.ltb_spec nice 1); [lia|]. cbn [fst snd].
    eexists. split; [reflexivity|].
    split.
    { constructor; cbn [fst snd match_len_max req_flush extra_after keep_after mode_before dict_size keep_before buf_size];
        unfold REQ_FINISH, I32_MAX; try lia. destruct bt4; lia. }
    cbn [fst snd match_len_max req_flush extra_after keep_after mode_before dict_size keep_before buf_size].
    repeat split; lia.
  Qed.

  Lemma enc0_einv_gen p org tr : wf_p p ->
    sum_fill tr = org -> sum_sym tr + sum_abs tr = org -> sum_chunk tr = org -> einv p org enc0 tr.
  Proof.
    intros [W1 W2 W3 W4 W5 W6 W7 W8 W9 W10] H1 H2 H3. unfold REQ_FINISH in *.
    constructor; unfold enc0, pidx, logical_pos, Kp; cbn; try lia; try (left; reflexivity).
    constructor; cbn; lia.
  Qed.

  Lemma enc0_einv p : wf_p p -> einv p 0 enc0 [] /\ phi p enc0 /\ quiet enc0.
  Proof.
    intros W. split; [exact (enc0_einv_gen p 0 [] W eq_refl eq_refl eq_refl)|].
    destruct W as [W1 W2 W3 W4 W5 W6 W7 W8 W9 W10]. split.
    - constructor; unfold enc0, steady, quiet, pidx; cbn; try lia; try reflexivity.
    - unfold quiet, enc0, pidx; cbn. lia.
  Qed.

  (* set_preset_dict on a fresh encoder: the kept bytes are in the window, handed to the match
     finder (the last ones may stay pending), none of them is coded *)
  Lemma preset_spec p dict plen : wf_p p -> dict_size p = dict -> dict < buf_size p -> 0 <= plen ->
    okor (set_preset_dict p dict plen (e_lz enc0) []) (fun r =>
      let cs := Z.min plen dict in
      let e1 := with_lz enc0 (fst r) in
      einv p (- cs) e1 (snd r) /\ phi p e1 /\ quiet e1 /\ acct (snd r) = acct []).
  Proof.
    intros W Hd Hbuf Hpl. pose proof W as [W1 W2 W3 W4 W5 W6 W7 W8 W9 W10]. unfold REQ_FINISH in *.
    unfold set_preset_dict, enc0. cbn [e_lz read_pos write_pos read_limit finishing pending_size Z.eqb andb negb].
    set (cs := Z.min plen dict).
    destruct (Z.ltb_spec (buf_size p) cs); [lia|].
    unfold I32_MAX, U32_MAX in *.
    rewrite as_i32_id by lia.
    rewrite ck_i32_ok by lia. cbn [obind].
    eapply okor_weaken.
    { apply (mf_skip_spec p W); cbn [read_pos write_pos pending_size]; try lia. left; reflexivity. }
    cbn [read_pos write_pos pending_size read_limit finishing].
    intros [d1 tr1]. cbn [fst snd]. rewrite Z2Nat.id by lia. intros (A & B & C & D & E & K & Hbig & F).
    injection F as E1 E2 E3 E4 E5. cbn [sum_sym sum_fill sum_abs sum_chunk rsyms] in *.
    assert (Hpb : pending_size d1 < req_flush p) by (destruct K as [K|K]; lia).
    split; [|split; [|split]].
    - constructor; unfold with_lz, pidx, logical_pos; cbn [e_lz read_ahead unc_size g_base rc_full]; try lia; try (left; reflexivity).
      + constructor; lia.
      + split; [lia|reflexivity].
    - constructor; unfold with_lz, steady, quiet, pidx; cbn [e_lz read_ahead]; try lia.
      exact D.
    - unfold quiet, with_lz, pidx; cbn [e_lz read_ahead]. lia.
    - unfold acct. cbn [sum_sym sum_fill sum_abs sum_chunk rsyms]. rewrite E1, E2, E3, E4, E5. reflexivity.
  Qed.

  Lemma l1_new_spec normal bt4 dict nice preset expected ps0 : opts_ok dict nice ->
    (match preset with Some plen => 0 <= plen | None => True end) ->
    okor (l1_new PS normal bt4 dict nice preset expected ps0) (fun s =>
      exists p, wf_p p /\ l1ok s p (- (match preset with Some plen => Z.min plen dict | None => 0 end)) /\
        sum_fill (l1_tr _ s) = 0 /\ l1_exp _ s = expected /\ l1_cur _ s = 0).
  Proof.
    intros Ho Hpl. pose proof Ho as [[Hd1 Hd2] [Hn1 Hn2]]. unfold l1_new, enc_new, extra_before_sum.
    pose proof (mode_extra_before_bounds normal) as Hmb.
    rewrite ck_u32_ok by lia. cbn [obind].
    destruct (enc_new_with_spec (0 + mode_extra_before normal) normal bt4 dict nice Ho) as (p & E & W & Kb & Ds & Mb & Ea & Ml & Ka & Hbuf); [lia|].
    rewrite E. cbn [obind].
    destruct preset as [plen|].
    - eapply okor_bind; [apply (preset_spec p dict plen W Ds Hbuf Hpl)|].
      intros [d1 tr1]. cbn [fst snd okor]. intros (I & F & Q & Acc). injection Acc as E1 E2 E3 E4 E5.
      cbn [sum_sym sum_fill sum_abs sum_chunk rsyms] in *.
      exists p. split; [exact W|]. split.
      { constructor; cbn [l1_p l1_e l1_tr l1_cur]; try reflexivity; try lia.
        split; [exact I|]. split; [exact F|]. split; [exact Q|exact E3]. }
      cbn [l1_tr l1_exp l1_cur]. repeat split; try assumption; try reflexivity; lia.
    - cbn [okor]. destruct (enc0_einv p W) as (I & F & Q).
      exists p. split; [exact W|]. split.
      { constructor; cbn [l1_p l1_e l1_tr l1_cur sum_fill]; try reflexivity; try lia.
        split; [exact I|]. split; [exact F|]. split; [exact Q|reflexivity]. }
      cbn [l1_tr l1_exp l1_cur sum_fill]. repeat split; try assumption; try reflexivity; lia.
  Qed.


  (* what the calls return and how many bytes have been accepted, as a function of the history,
     the declared size and nothing else *)
  Fixpoint l1_results (exp : option Z) (cur : Z) (ops : list wop) : list opres * Z * bool :=
    match ops with
    | [] => ([], cur, false)
    | WoWrite n :: r =>
        if (match exp with Some ex => ex <? cur + n | None => false end)
        then let '(rs, c, f) := l1_results exp cur r in (RRej E_INVALID_INPUT :: rs, c, f)
        else let '(rs, c, f) := l1_results exp (cur + n) r in (RWrote n :: rs, c, f)
    | WoFlush :: r => let '(rs, c, f) := l1_results exp cur r in (RDone :: rs, c, f)
    | WoFinish :: _ =>
        if (match exp with Some ex => negb (ex =? cur) | None => false end)
        then ([RRej E_INVALID_INPUT], cur, false) else ([RDone], cur, true)
    end.

  Fixpoint ops_total (ops : list wop) : Z :=
    match ops with [] => 0 | WoWrite n :: r => n + ops_total r | _ :: r => ops_total r end.
  (* every write() length is non-negative *)
  Fixpoint ops_ok (ops : list wop) : Prop :=
    match ops with [] => True | WoWrite n :: r => 0 <= n /\ ops_ok r | _ :: r => ops_ok r end.

  Lemma ops_total_nonneg ops : ops_ok ops -> 0 <= ops_total ops.
  Proof. induction ops as [|[n| |] r IH]; cbn; intros H; try lia; try (apply IH; exact H). destruct H. specialize (IH H0). lia. Qed.

  Lemma l1_results_mono exp : forall ops cur, ops_ok ops ->
    cur <= snd (fst (l1_results exp cur ops)).
  Proof.
    induction ops as [|[n| |] r IH]; intros cur Hok; cbn [l1_results ops_ok] in *.
    - cbn. lia.
    - destruct Hok as [Hn Hok].
      destruct (match exp with Some ex => ex <? cur + n | None => false end).
      + specialize (IH cur Hok). destruct (l1_results exp cur r) as [[rs c] f]. cbn in *. lia.
      + specialize (IH (cur + n) Hok). destruct (l1_results exp (cur + n) r) as [[rs c] f]. cbn in *. lia.
    - specialize (IH cur Hok). destruct (l1_results exp cur r) as [[rs c] f]. cbn in *. lia.
    - destruct (match exp with Some ex => negb (ex =? cur) | None => false end); cbn; lia.
  Qed.

  Lemma l1_run_spec p org exp : wf_p p -> forall ops s acc,
    l1ok s p org -> l1_exp _ s = exp -> ops_ok ops ->
    sum_fill (l1_tr _ s) - org + ops_total ops <= U32_MAX ->
    okor (l1_run PS parse s ops acc) (fun r =>
      let '(s1, res) := r in
      let '(rs, c, fin) := l1_results exp (l1_cur _ s) ops in
      res = rev acc ++ rs /\ sum_fill (l1_tr _ s1) = c /\
      (fin = true -> sum_sym (l1_tr _ s1) = c /\ sum_abs (l1_tr _ s1) = 0 /\
         reaches (istep p (c - org)) (est (l1_e _ s) (l1_ps _ s)) (rsyms (l1_tr _ s)) (c - org, -1, l1_ps _ s1) (rsyms (l1_tr _ s1)))).
  Proof.
    intros W. induction ops as [|op r IH]; intros s acc L Hexp Hok Hcap.
    - cbn [l1_run l1_results okor]. rewrite frev_rev, app_nil_r. split; [reflexivity|]. split; [symmetry; apply (lo_cur L)|discriminate].
    - destruct op as [n| |]; cbn [l1_run l1_results ops_total ops_ok] in *.
      + destruct Hok as [Hn Hok]. pose proof (ops_total_nonneg _ Hok).
        eapply okor_bind; [apply (l1_write_spec p org s n W L Hn); lia|].
        intros [s1 res]. rewrite Hexp. cbn [fst snd].
        destruct (match exp with Some ex => ex <? l1_cur PS s + n | None => false end).
        * intros [E1 E2]. subst s1 res.
          eapply okor_weaken; [apply (IH s (RRej E_INVALID_INPUT :: acc) L Hexp Hok); lia|].
          intros [s2 res2]. destruct (l1_results exp (l1_cur PS s) r) as [[rs c] fin].
          intros (R1 & R2 & R3). split; [|split; assumption].
          rewrite R1. cbn [rev]. rewrite <- app_assoc. reflexivity.
        * intros (L1 & E2 & E3 & E4 & ZI). subst res.
          assert (Hc1 : l1_cur _ s1 = l1_cur _ s + n).
          { rewrite (lo_cur L1), (lo_cur L), E4. reflexivity. }
          pose proof (l1_results_mono exp r (l1_cur PS s + n) Hok) as Hmono.
          eapply okor_weaken; [apply (IH s1 (RWrote n :: acc) L1); [congruence|exact Hok|lia]|].
          intros [s2 res2]. rewrite Hc1. destruct (l1_results exp (l1_cur PS s + n) r) as [[rs c] fin].
          cbn [fst snd] in Hmono.
          intros (R1 & R2 & R3). split; [|split; [assumption|]].
          { rewrite R1. cbn [rev]. rewrite <- app_assoc. reflexivity. }
          intros Hfin. destruct (R3 Hfin) as (R4 & R5 & R6). split; [exact R4|]. split; [exact R5|].
          eapply reaches_trans; [apply ZI; rewrite <- (lo_cur L); lia|exact R6].
      + eapply okor_weaken; [apply (IH s (RDone :: acc) L Hexp Hok Hcap)|].
        intros [s2 res2]. destruct (l1_results exp (l1_cur PS s) r) as [[rs c] fin].
        intros (R1 & R2 & R3). split; [|split; assumption].
        rewrite R1. cbn [rev]. rewrite <- app_assoc. reflexivity.
      + pose proof (ops_total_nonneg _ Hok).
        eapply okor_bind; [apply (l1_finish_spec p org s W L); lia|].
        intros [s1 res]. rewrite Hexp. cbn [fst snd okor].
        destruct (match exp with Some ex => negb (ex =? l1_cur PS s) | None => false end).
        * intros [E1 E2]. subst s1 res. rewrite frev_rev. cbn [rev].
          split; [reflexivity|]. split; [symmetry; apply (lo_cur L)|discriminate].
        * intros (E1 & E2 & E3 & E4 & ZI). subst res. rewrite frev_rev. cbn [rev].
          split; [reflexivity|]. rewrite (lo_cur L).
          split; [exact E2|]. intros _. split; [rewrite E3; exact E2|]. split; [exact E4|].
          exact ZI.
  Qed.


  Definition UNC_BOUND (p : lzp) : Z := LZMA2_UNCOMPRESSED_LIMIT + SYM_MAX p.
  Definition loop2_cond (e : encd) : bool := (unc_size e <=? LZMA2_UNCOMPRESSED_LIMIT) && negb (rc_full e).

  (* The data-only machine of the LZMA2 writer (no flush, no chunk_size): state = (logical position,
     read_ahead, oracle state, uncompressed_size of the chunk, range-coder bit).  A step is the
     forced first literal, a consultation, or write_chunk — the latter as soon as the chunk is full,
     and once more when all data is coded. *)
  Definition ist2 : Type := (Z * Z * PS * Z * bool)%type.
  Definition ichunk (st : ist2) : option (ist2 * iev) :=
    let '(P, ra, ps, unc, full) := st in
    let '(c, ps1) := chunkc ps unc in
    if (c <? 1) || (COMPRESSED_SIZE_MAX <? c + 2) || negb (Bool.eqb full (LZMA2_COMPRESSED_LIMIT <? c)) then None else
    if c + 2 <? unc then Some ((P, ra, ps1, 0, false), ILzma unc c)
    else Some ((P + (ra + 1), -1, ps1, 0, false), IUnc (unc + (ra + 1))).
  Definition istep2 (p : lzp) (T : Z) (st : ist2) : option (ist2 * iev) :=
    let '(P, ra, ps, unc, full) := st in
    if P =? 0 then (if 1 <=? T then Some ((1, -1, ps, unc + 1, full), ISym 1) else None)
    else if (unc <=? LZMA2_UNCOMPRESSED_LIMIT) && negb full then
      if P <? T then
        match irun p (parse ps P ra) (T - (P + ra)) ra with
        | Some (ra1, len, full1, ps1) => Some ((P + len, ra1 - len, ps1, unc + len, full1), ISym len)
        | None => None
        end
      else if 1 <=? unc then ichunk st else None
    else ichunk st.
  Definition est2 (e : encd) (ps : PS) : ist2 := (logical_pos e, read_ahead e, ps, unc_size e, rc_full e).

  Lemma cap_of_bound p org e tr : wf_p p -> einv p org e tr -> unc_size e <= UNC_BOUND p -> cap e.
  Proof.
    intros W I Hb. pose proof W as [W1 W2 W3 W4 W5 W6 W7 W8 W9 W10].
    pose proof (ei_lz I) as [[? ?] ? ? ? ?]. pose proof (ei_ra I).
    unfold cap, pidx, UNC_BOUND, SYM_MAX, LZMA2_UNCOMPRESSED_LIMIT, U32_MAX, I32_MAX in *. lia.
  Qed.

  Lemma istep2_init p T e ps e1 : logical_pos e = 0 -> 1 <= T -> logical_pos e1 = 1 -> read_ahead e1 = -1 ->
    unc_size e1 = unc_size e + 1 -> rc_full e1 = rc_full e ->
    istep2 p T (est2 e ps) = Some (est2 e1 ps, ISym 1).
  Proof.
    intros H0 HT H1 Hr Hu Hf. unfold istep2, est2. rewrite H0, H1, Hr, Hu, Hf. cbn [Z.eqb].
    destruct (Z.leb_spec 1 T); [reflexivity|lia].
  Qed.

  Lemma istep2_sym p T e ps e1 ps1 len : 1 <= logical_pos e -> loop2_cond e = true -> logical_pos e < T ->
    logical_pos e1 = logical_pos e + len -> unc_size e1 = unc_size e + len ->
    irun p (parse ps (logical_pos e) (read_ahead e)) (T - (logical_pos e + read_ahead e)) (read_ahead e) =
      Some (read_ahead e1 + len, len, rc_full e1, ps1) ->
    istep2 p T (est2 e ps) = Some (est2 e1 ps1, ISym len).
  Proof.
    intros H1 Hc HT Hl Hu Hr. unfold istep2, est2. destruct (Z.eqb_spec (logical_pos e) 0); [lia|].
    unfold loop2_cond in Hc. rewrite Hc. destruct (Z.ltb_spec (logical_pos e) T); [|lia]. rewrite Hr, Hl, Hu.
    replace (read_ahead e1 + len - len) with (read_ahead e1) by lia. reflexivity.
  Qed.

  (* what the symbol loop of the LZMA2 encoder does: it ends on a full chunk ([b]) or with no
     consultation possible *)
  Definition sym_run2 (p : lzp) (org : Z) (e : encd) (ps : PS) (tr : list wev) (r : bool * encd * PS * list wev) : Prop :=
    let '(b, e1, ps1, tr1) := r in
    einv p org e1 tr1 /\ adv p e e1 /\ unc_size e1 <= UNC_BOUND p /\
    loop2_cond e1 = negb b /\ (b = false -> quiet e1) /\
    (quiet e -> e1 = e /\ ps1 = ps /\ tr1 = tr) /\
    (~ quiet e -> loop2_cond e = true -> pidx e < pidx e1) /\
    sum_abs tr1 = sum_abs tr /\
    (forall T, Vc p e T -> reaches (istep2 p T) (est2 e ps) (rsyms tr) (est2 e1 ps1) (rsyms tr1)).

  Lemma sym_run2_refl p org e ps tr b : einv p org e tr -> unc_size e <= UNC_BOUND p -> loop2_cond e = negb b ->
    (b = false -> quiet e) -> sym_run2 p org e ps tr (b, e, ps, tr).
  Proof.
    intros I Hub Hc Hq. split; [exact I|]. split; [apply adv_refl|]. split; [exact Hub|]. split; [exact Hc|]. split; [exact Hq|].
    split; [auto|]. split; [|split; [reflexivity|intros T _; apply reaches_refl]].
    intros NQ Hc1. destruct b; [rewrite Hc1 in Hc; discriminate|elim NQ; auto].
  Qed.

  (* a first step e -> e1 (the forced literal or a consultation) before such a run *)
  Lemma sym_run2_step p org e ps tr e1 ps1 tr1 r : adv p e e1 -> ~ quiet e -> pidx e < pidx e1 ->
    sum_abs tr1 = sum_abs tr ->
    (forall T, Vc p e T -> reaches (istep2 p T) (est2 e ps) (rsyms tr) (est2 e1 ps1) (rsyms tr1)) ->
    sym_run2 p org e1 ps1 tr1 r -> sym_run2 p org e ps tr r.
  Proof.
    intros A1 NQ Hlt XA XR. destruct r as [[[b e2] ps2] tr2]. intros (I2 & A2 & U2 & C2 & Q2 & _ & _ & YA & YI).
    split; [exact I2|]. split; [exact (adv_trans p e e1 e2 A1 A2)|]. split; [exact U2|]. split; [exact C2|]. split; [exact Q2|].
    split; [intros Q; contradiction|]. split; [intros _ _; pose proof (ad_pidx A2); lia|]. split; [congruence|].
    intros T HV. exact (reaches_trans _ _ _ _ _ _ _ (XR T HV) (YI T (Vc_adv p e e1 T A1 NQ HV))).
  Qed.

  Lemma enc_loop2_spec p org : wf_p p -> forall fuel ps e tr,
    einv p org e tr -> unc_size e <= UNC_BOUND p -> 1 <= pidx e ->
    write_pos (e_lz e) - pidx e + 1 <= Z.of_nat fuel ->
    okor (enc_loop2 PS parse fuel p ps e tr) (sym_run2 p org e ps tr).
  Proof.
    intros W. induction fuel as [|f IH]; intros ps e tr I Hub Hp1 Hfuel.
    - exfalso. pose proof (li_rp (ei_lz I)). pose proof (ei_ra I). unfold pidx in *. lia.
    - cbn [enc_loop2]. fold (loop2_cond e).
      destruct (loop2_cond e) eqn:Ec; [|exact (sym_run2_refl p org e ps tr true I Hub Ec ltac:(discriminate))].
      eapply okor_bind; [apply (encode_symbol_spec p org ps e tr W I (cap_of_bound p org e tr W I Hub) Hp1)|].
      intros [[[e1 ps1] tr1]|]; cbv zeta; [|exact (fun Q => sym_run2_refl p org e ps tr false I Hub Ec (fun _ => Q))].
      intros (I1 & A1 & Q & Hl & XA & XR & XJ).
      assert (Hub1 : unc_size e1 <= UNC_BOUND p).
      { unfold loop2_cond in Ec. apply andb_true_iff in Ec as [Ec1 _]. apply Z.leb_le in Ec1.
        rewrite (ad_unc A1). unfold UNC_BOUND. lia. }
      eapply okor_weaken; [apply (IH ps1 e1 tr1 I1 Hub1); pose proof (ad_wp A1); lia|].
      intros r. apply (sym_run2_step p org e ps tr e1 ps1 tr1 r A1 Q ltac:(lia) XA).
      intros T HV. destruct (XJ T HV) as [Hlt Hir].
      refine (reaches_step _ _ _ _ _ _ (istep2_sym p T e ps e1 ps1 _ _ Ec Hlt (adv_logical p e e1 A1) (ad_unc A1) Hir) XR).
      rewrite logical_pidx. pose proof (proj1 (ei_base I)). lia.
  Qed.

  Lemma encode_for_lzma2_spec p org ps e tr : wf_p p -> einv p org e tr -> unc_size e <= UNC_BOUND p ->
    loop2_cond e = true ->
    okor (encode_for_lzma2 PS parse p ps e tr) (sym_run2 p org e ps tr).
  Proof.
    intros W I Hub Hc. unfold encode_for_lzma2, is_started.
    destruct (Z.eqb_spec (read_pos (e_lz e)) (-1)) as [Hns|Hst]; cbn [negb].
    - eapply okor_bind; [apply (encode_init_spec p org e tr W I (cap_of_bound p org e tr W I Hub) Hns)|].
      intros [[ok e1] tr1]. destruct ok; cbn [negb].
      2:{ intros (E1 & E2 & Q). subst e1 tr1. exact (sym_run2_refl p org e ps tr false I Hub Hc (fun _ => Q)). }
      intros (I1 & A1 & NQ & P1 & R1 & XF & XA & XR).
      destruct (unstarted p org e tr W I Hns) as (Hra & Hg & Hunc & _).
      assert (Hp0 : pidx e = 0) by (unfold pidx; lia).
      assert (H0 : logical_pos e = 0) by (rewrite logical_pidx; lia).
      assert (Hub1 : unc_size e1 <= UNC_BOUND p).
      { rewrite (ad_unc A1), Hunc, P1, Hp0. pose proof (wf_ea W). unfold UNC_BOUND, SYM_MAX, LZMA2_UNCOMPRESSED_LIMIT. lia. }
      eapply okor_weaken.
      { apply (enc_loop2_spec p org W _ ps e1 tr1 I1 Hub1); [lia|].
        unfold sym_fuel. pose proof (li_rp (ei_lz I1)). rewrite P1. lia. }
      intros r. apply (sym_run2_step p org e ps tr e1 ps tr1 r A1 NQ ltac:(lia) XA).
      intros T HV. refine (reaches_step _ _ _ _ _ _ (istep2_init p T e ps e1 H0 _ _ R1 _ XF) XR).
      + unfold Vc in HV. pose proof (li_rp (ei_lz I1)). pose proof (ad_wp A1). unfold pidx in P1.
        destruct HV as [[_ ?]|[? _]]; lia.
      + rewrite (adv_logical p e e1 A1), H0. lia.
      + rewrite (ad_unc A1). lia.
    - assert (Hp1 : 1 <= pidx e) by (destruct (ei_pidx1 I); [contradiction|assumption]).
      apply (enc_loop2_spec p org W _ ps e tr I Hub Hp1). unfold sym_fuel. pose proof (ei_ra I). unfold pidx. lia.
  Qed.

  (* write_uncompressed's copies: every slice read from the window lies inside it *)
  Lemma unc_copies_spec p d : wf_p p -> lzinv p d -> forall fuel u tr,
    0 <= u <= read_pos d + 1 -> u <= 65536 * (Z.of_nat fuel - 1) ->
    okor (unc_copies fuel p d u tr) (fun tr1 => acct tr1 = acct tr).
  Proof.
    intros W [[Ha Hb] Hc [Hd He] [Hf Hg] Hpb]. pose proof (wf_i32 W) as Hi.
    induction fuel as [|f IH]; intros u tr Hu Hfu; [lia|].
    cbn [unc_copies].
    destruct (Z.leb_spec u 0); [cbn [okor]; reflexivity|].
    unfold copy_uncompressed, COMPRESSED_SIZE_MAX.
    unfold I32_MAX, U32_MAX in *.
    rewrite ck_i32_ok by lia. cbn [obind].
    rewrite as_i32_id by lia.
    rewrite ck_i32_ok by lia. cbn [obind].
    destruct (Z.ltb_spec (read_pos d + 1 - u) 0); [lia|].
    destruct (Z.ltb_spec (buf_size p) (read_pos d + 1 - u + Z.min u 65536)); [lia|].
    cbn [obind fst snd].
    eapply okor_weaken; [apply IH; lia|].
    intros tr1 E. rewrite E. reflexivity.
  Qed.

  (* the state of an LZMA2Writer, tied to the event trace *)
  Set Implicit Arguments.
  Record l2inv (p : lzp) (org : Z) (s : l2st PS) : Prop := mkL2inv {
    l2i_p : l2_p _ s = p;
    l2i_new : l2_new _ s = Ok (p, enc0);
    l2i_e : einv p org (l2_e _ s) (l2_tr _ s);
    l2i_pend : l2_pending _ s = sum_fill (l2_tr _ s) - sum_chunk (l2_tr _ s);   (* accepted, not yet in a chunk *)
    l2i_unc : l2_unc _ s = sum_chunk (l2_tr _ s) - Z.max org 0;                 (* chunked since the last independent start *)
    l2i_big : sum_fill (l2_tr _ s) <= 4611686018427387904;                      (* 2^62: no u64 overflow of the byte counters *)
    l2i_cnn : 0 <= sum_chunk (l2_tr _ s)
  }.
  Unset Implicit Arguments.

  (* what the LZMA2 writer needs of the window: a nearly full incompressible chunk plus what the
     parser has read ahead must survive a window move *)
  Definition l2_hist_ok (p : lzp) : Prop := COMPRESSED_SIZE_MAX + mode_before p <= keep_before p.

  Lemma fresh_chunk_ok p e : wf_p p -> unc_size e = 0 -> rc_full e = false ->
    loop2_cond e = true /\ unc_size e <= UNC_BOUND p.
  Proof.
    intros W Hu Hr. unfold loop2_cond, UNC_BOUND, SYM_MAX, LZMA2_UNCOMPRESSED_LIMIT. rewrite Hu, Hr.
    split; [reflexivity|]. pose proof (wf_ea W). lia.
  Qed.

  Lemma l2_pending_cap p org s : l2inv p org s ->
    l2_pending _ s = unc_size (l2_e _ s) + (write_pos (e_lz (l2_e _ s)) - pidx (l2_e _ s)).
  Proof.
    intros [_ _ I Hp _ _ _]. pose proof (ei_fill I). pose proof (ei_chunk I).
    rewrite logical_pidx in *. lia.
  Qed.

  Lemma write_chunk_spec p org s : wf_p p -> l2_hist_ok p -> l2inv p org s ->
    1 <= unc_size (l2_e _ s) <= UNC_BOUND p ->
    okor (write_chunk PS chunkc s) (fun s1 =>
      l2inv p org s1 /\ l2_chunk _ s1 = l2_chunk _ s /\
      e_lz (l2_e _ s1) = e_lz (l2_e _ s) /\ g_base (l2_e _ s1) = g_base (l2_e _ s) /\
      unc_size (l2_e _ s1) = 0 /\ rc_full (l2_e _ s1) = false /\
      (read_ahead (l2_e _ s1) = read_ahead (l2_e _ s) \/ read_ahead (l2_e _ s1) = -1) /\
      sum_fill (l2_tr _ s1) = sum_fill (l2_tr _ s) /\
      sum_chunk (l2_tr _ s) < sum_chunk (l2_tr _ s1) /\ l2_pending _ s1 < l2_pending _ s /\
      (forall T, 1 <= logical_pos (l2_e _ s) -> loop2_cond (l2_e _ s) = false \/ T <= logical_pos (l2_e _ s) ->
         exists ev, istep2 p T (est2 (l2_e _ s) (l2_ps _ s)) = Some (est2 (l2_e _ s1) (l2_ps _ s1), ev) /\
                    rsyms (l2_tr _ s1) = ev :: rsyms (l2_tr _ s))).
  Proof.
    intros W HH L Hunc. pose proof W as [W1 W2 W3 W4 W5 W6 W7 W8 W9 W10].
    pose proof L as [Lp Ln I Lpend Lunc Lbig Lcnn].
    pose proof I as [[[Ha Hb] Hc [Hd He] [Hf Hg] Hpb] [Hr1 Hr2] Hmb [Hb1 Hb2] Hh Hdict Hpx Hu HU Hfill Hsym Hchunk Horg].
    pose proof (l2_pending_cap p org s L) as Hpc.
    unfold write_chunk. rewrite Lp.
    destruct (chunkc (l2_ps PS s) (unc_size (l2_e PS s))) as [c ps1] eqn:Ech.
    destruct (Z.ltb_spec c 1) as [?|Hc1]; [cbn [orb okor]; right; reflexivity|].
    destruct (Z.ltb_spec COMPRESSED_SIZE_MAX (c + 2)) as [?|Hc2]; [cbn [orb okor]; right; reflexivity|].
    destruct (Bool.eqb (rc_full (l2_e PS s)) (LZMA2_COMPRESSED_LIMIT <? c)) eqn:Hc3; [|cbn [orb negb okor]; right; reflexivity].
    cbn [orb negb].
    (* the data-only machine takes the same chunk step *)
    assert (Hich : forall T, 1 <= logical_pos (l2_e _ s) -> loop2_cond (l2_e _ s) = false \/ T <= logical_pos (l2_e _ s) ->
              istep2 p T (est2 (l2_e _ s) (l2_ps _ s)) = ichunk (est2 (l2_e _ s) (l2_ps _ s))).
    { intros T HP Hcase. unfold istep2, est2.
      destruct (Z.eqb_spec (logical_pos (l2_e PS s)) 0); [lia|].
      fold (loop2_cond (l2_e PS s)). destruct (loop2_cond (l2_e PS s)); [|reflexivity].
      destruct Hcase as [Hcf|HT]; [discriminate|].
      destruct (Z.ltb_spec (logical_pos (l2_e PS s)) T); [lia|].
      destruct (Z.leb_spec 1 (unc_size (l2_e PS s))); [reflexivity|lia]. }
    assert (Hichv : ichunk (est2 (l2_e _ s) (l2_ps _ s)) =
              if c + 2 <? unc_size (l2_e _ s)
              then Some ((logical_pos (l2_e _ s), read_ahead (l2_e _ s), ps1, 0, false), ILzma (unc_size (l2_e _ s)) c)
              else Some ((logical_pos (l2_e _ s) + (read_ahead (l2_e _ s) + 1), -1, ps1, 0, false), IUnc (unc_size (l2_e _ s) + (read_ahead (l2_e _ s) + 1)))).
    { unfold ichunk, est2. rewrite Ech.
      destruct (Z.ltb_spec c 1); [lia|]. destruct (Z.ltb_spec COMPRESSED_SIZE_MAX (c + 2)); [lia|].
      rewrite Hc3. reflexivity. }
    destruct (Z.ltb_spec (unc_size (l2_e PS s)) 1); [lia|].
    set (e := l2_e PS s) in *. set (tr := l2_tr PS s) in *.
    destruct (Z.ltb_spec (c + 2) (unc_size e)) as [Hlz|Hfb].
    - cbn [obind].
      rewrite ck_u32_ok by (unfold U32_MAX, I32_MAX, pidx in *; lia). cbn [obind].
      rewrite ck_u64_ok by (unfold U64_MAX, UNC_BOUND, SYM_MAX, LZMA2_UNCOMPRESSED_LIMIT, I32_MAX, pidx in *; lia). cbn [obind okor].
      cbn [l2_chunk l2_e l2_tr l2_pending e_lz g_base unc_size rc_full read_ahead sum_fill sum_chunk].
      split.
      { constructor; cbn [l2_p l2_new l2_e l2_tr l2_pending l2_unc sum_fill sum_chunk]; try assumption; try reflexivity; try lia.
        constructor; unfold pidx, logical_pos in *; cbn [e_lz read_ahead unc_size g_base rc_full sum_fill sum_sym sum_abs sum_chunk];
          try assumption; try lia; try (split; assumption); try exact (ei_lz I). }
      repeat split; try reflexivity; try lia; try (left; reflexivity).
      intros T HP Hcase. exists (ILzma (unc_size e) c). rewrite (Hich T HP Hcase), Hichv.
      destruct (Z.ltb_spec (c + 2) (unc_size e)); [|lia].
      split; [unfold est2, logical_pos; cbn [e_lz read_ahead g_base unc_size rc_full l2_e l2_ps]; reflexivity|reflexivity].
    - unfold enc_reset.
      rewrite ck_i32_ok by lia. cbn [obind].
      rewrite as_u32_id by lia.
      assert (HU' : unc_size e + (read_ahead e + 1) <= read_pos (e_lz e) + 1).
      { (* the chunk and the read-ahead lie inside the window *)
        unfold l2_hist_ok, COMPRESSED_SIZE_MAX in *.
        destruct Hh as [Hb0|Hk]; [|lia].
        rewrite logical_pidx in Hchunk. unfold pidx in Hchunk. lia. }
      unfold I32_MAX, U32_MAX in *.
      rewrite ck_u32_ok by lia. cbn [obind e_lz unc_size read_ahead].
      set (U := unc_size e + (read_ahead e + 1)).
      set (TR := EvUnc U :: EvAbsorb (read_ahead e + 1) :: EvChunk (unc_size e) c (read_ahead e) :: tr).
      eapply (okor_bind _ _ (fun r => fst (fst r) = mkEncd (e_lz e) (-1) U (rc_full e) (g_base e) /\
                                     snd (fst r) = U /\ acct (snd r) = acct TR)).
      { eapply okor_bind.
        - apply (unc_copies_spec p (e_lz e) W (ei_lz I)); [unfold U; lia|].
          rewrite Z2Nat.id by (apply Z.add_nonneg_nonneg; [apply Z.div_pos; unfold U, COMPRESSED_SIZE_MAX; lia|lia]).
          unfold COMPRESSED_SIZE_MAX. pose proof (Z.div_mod U 65536). pose proof (Z.mod_pos_bound U 65536). lia.
        - intros tr1 Acc. cbn [okor fst snd]. split; [reflexivity|]. split; [reflexivity|exact Acc]. }
      intros [[e2 u2] tr1] (Ee & Eu & Acc). cbn [fst snd] in Ee, Eu, Acc. subst e2 u2.
      injection Acc as E1 E2 E3 E4 E5. unfold TR, U in *. cbn [sum_sym sum_fill sum_abs sum_chunk rsyms] in *.
      rewrite ck_u32_ok by (unfold U32_MAX, I32_MAX, pidx in *; lia). cbn [obind].
      rewrite ck_u64_ok by (unfold U64_MAX, UNC_BOUND, SYM_MAX, LZMA2_UNCOMPRESSED_LIMIT, I32_MAX, pidx in *; lia). cbn [obind okor].
      cbn [l2_chunk l2_e l2_tr l2_pending e_lz g_base unc_size rc_full read_ahead].
      split.
      { constructor; cbn [l2_p l2_new l2_e l2_tr l2_pending l2_unc]; try assumption; try reflexivity; try lia.
        constructor; unfold pidx, logical_pos in *; cbn [e_lz read_ahead unc_size g_base rc_full];
          try assumption; try lia; try (split; assumption).
        - exact (ei_lz I).
        - intros Hp0. destruct (HU Hp0) as [K|[[K1 K2]|K]]; [left; exact K| |right; right; exact K].
          right; left. split; [reflexivity|exact K2]. }
      repeat split; try reflexivity; try lia; try (right; reflexivity).
      intros T HP Hcase. exists (IUnc (unc_size e + (read_ahead e + 1))). rewrite (Hich T HP Hcase), Hichv.
      destruct (Z.ltb_spec (c + 2) (unc_size e)); [lia|].
      split; [|rewrite E5; reflexivity].
      unfold est2, logical_pos. cbn [e_lz read_ahead g_base unc_size rc_full l2_e l2_ps].
      replace (g_base e + read_pos (e_lz e) - read_ahead e + (read_ahead e + 1)) with (g_base e + read_pos (e_lz e) - -1) by lia.
      reflexivity.
  Qed.


  (* the drain loop of flush / finish / start_independent_chunk: read_limit = write_pos - 1 *)
  Lemma l2_drain_spec p org : wf_p p -> l2_hist_ok p -> forall fuel s,
    l2inv p org s -> unc_size (l2_e _ s) <= UNC_BOUND p -> loop2_cond (l2_e _ s) = true ->
    read_limit (e_lz (l2_e _ s)) = write_pos (e_lz (l2_e _ s)) - 1 ->
    l2_pending _ s + 1 <= Z.of_nat fuel ->
    okor (l2_drain PS parse chunkc fuel s) (fun s1 =>
      l2inv p org s1 /\ l2_pending _ s1 = 0 /\ l2_chunk _ s1 = l2_chunk _ s /\
      unc_size (l2_e _ s1) = 0 /\ rc_full (l2_e _ s1) = false /\ read_ahead (l2_e _ s1) = -1 /\
      pidx (l2_e _ s1) = write_pos (e_lz (l2_e _ s1)) /\
      write_pos (e_lz (l2_e _ s1)) = write_pos (e_lz (l2_e _ s)) /\
      read_limit (e_lz (l2_e _ s1)) = read_limit (e_lz (l2_e _ s)) /\
      finishing (e_lz (l2_e _ s1)) = finishing (e_lz (l2_e _ s)) /\
      g_base (l2_e _ s1) = g_base (l2_e _ s) /\
      sum_fill (l2_tr _ s1) = sum_fill (l2_tr _ s) /\
      (forall T, finishing (e_lz (l2_e _ s)) = true -> g_base (l2_e _ s) + write_pos (e_lz (l2_e _ s)) = T ->
         reaches (istep2 p T) (est2 (l2_e _ s) (l2_ps _ s)) (rsyms (l2_tr _ s)) (est2 (l2_e _ s1) (l2_ps _ s1)) (rsyms (l2_tr _ s1)))).
  Proof.
    intros W HH. induction fuel as [|f IH]; intros s L Hub Hc Hrl Hfuel.
    - exfalso. pose proof (l2_pending_cap p org s L) as Hpc. pose proof (l2i_e L) as I.
      pose proof (ei_lz I) as [[? ?] ? ? ? ?]. pose proof (ei_ra I). pose proof (ei_unc I).
      unfold pidx in *. lia.
    - cbn [l2_drain].
      pose proof (l2_pending_cap p org s L) as Hpc. pose proof L as [Lp Ln I Lpend Lunc Lbig Lcnn].
      pose proof (ei_lz I) as [[Ha Hb] Hcw [Hd He] [Hf Hg] Hpb]. pose proof (ei_ra I) as [Hr1 Hr2].
      pose proof (ei_unc I) as Hu0.
      destruct (Z.leb_spec (l2_pending PS s) 0) as [Hz|Hpos].
      { cbn [okor]. unfold loop2_cond in Hc. apply andb_true_iff in Hc as [_ Hc2]. apply negb_true_iff in Hc2.
        unfold pidx in *.
        split; [exact L|]. repeat split; try lia; try assumption.
        intros T _ _. apply reaches_refl. }
      rewrite Lp.
      eapply okor_bind; [apply (encode_for_lzma2_spec p org (l2_ps _ s) (l2_e _ s) (l2_tr _ s) W I Hub Hc)|].
      intros [[[b e1] ps1] tr1] (I1 & A1 & U1 & C1 & B1 & Y9 & Y10 & YA & YI).
      pose proof (ad_wp A1) as Y2. pose proof (ad_rl A1) as Y3. pose proof (ad_fin A1) as Y4. pose proof (ad_base A1) as Y5.
      pose proof (ad_unc A1) as Y6. pose proof (ad_pidx A1) as Y1.
      assert (Hu1 : 1 <= unc_size e1).
      { destruct (Z_le_dec 1 (unc_size (l2_e _ s))) as [Hge|Hlt]; [lia|].
        assert (NQ : ~ quiet (l2_e _ s)) by (unfold quiet, pidx in *; lia).
        specialize (Y10 NQ Hc). lia. }
      pose proof (ei_fill I1) as Hf1. pose proof (ei_fill I) as Hf0.
      pose proof (ei_chunk I1) as Hc1. pose proof (ei_chunk I) as Hc0. rewrite logical_pidx in Hc1, Hc0.
      set (s' := mkL2 PS p e1 (l2_pending _ s) (l2_chunk _ s) (l2_unc _ s) (l2_new _ s) ps1 tr1).
      assert (L' : l2inv p org s').
      { constructor; unfold s'; cbn [l2_p l2_new l2_e l2_tr l2_pending l2_unc]; try assumption; try reflexivity; try lia. }
      eapply okor_bind; [apply (write_chunk_spec p org s' W HH L'); unfold s'; cbn [l2_e]; lia|].
      intros s2 (L2 & C2 & E2 & G2 & Un2 & Rc2 & Ra2 & F2 & Ch2 & P2 & ZC).
      unfold s' in *. cbn [l2_e l2_tr l2_pending l2_chunk l2_ps] in *.
      eapply okor_weaken.
      { apply (IH s2 L2).
        - exact (proj2 (fresh_chunk_ok p _ W Un2 Rc2)).
        - exact (proj1 (fresh_chunk_ok p _ W Un2 Rc2)).
        - rewrite E2. congruence.
        - lia. }
      intros s3 (L3 & P3 & C3 & X).
      split; [exact L3|]. split; [exact P3|]. split; [congruence|].
      rewrite E2, G2 in X.
      destruct X as (X1 & X2 & X3 & X4 & X5 & X6 & X7 & X8 & X9 & XI).
      repeat (split; [first [assumption|congruence|lia]|]).
      intros T Hfin HT.
      assert (HV : Vc p (l2_e PS s) T) by (unfold Vc; left; split; assumption).
      assert (HP1 : 1 <= logical_pos e1).
      { pose proof (ei_org I1). rewrite logical_pidx. lia. }
      assert (Hcase : loop2_cond e1 = false \/ T <= logical_pos e1).
      { destruct b; [left; exact C1|right]. specialize (B1 eq_refl). unfold quiet in B1. rewrite Y3, Hrl in B1. rewrite logical_pidx. lia. }
      destruct (ZC T HP1 Hcase) as (ev & Est & Erc).
      eapply reaches_trans; [exact (YI T HV)|]. eapply reaches_trans; [exact (reaches_step _ _ _ _ _ _ Est Erc)|].
      apply XI; [congruence|lia].
  Qed.


  (* an LZMA2Writer between two calls *)
  Definition l2ok (p : lzp) (org : Z) (s : l2st PS) : Prop :=
    l2inv p org s /\ phi p (l2_e _ s) /\ loop2_cond (l2_e _ s) = true /\ unc_size (l2_e _ s) <= UNC_BOUND p.

  (* after a completed drain the writer is back in the steady phase *)
  Lemma drained_phi p e : wf_p p -> finishing (e_lz e) = false ->
    read_limit (e_lz e) = write_pos (e_lz e) - 1 -> pidx e = write_pos (e_lz e) -> read_ahead e = -1 -> phi p e.
  Proof.
    intros [W1 W2 W3 W4 W5 W6 W7 W8 W9 W10] Hf Hrl Hp Hra.
    constructor; unfold steady, quiet; try assumption; try lia; try (intros _; exact Hra).
  Qed.

  (* flush, finish and start_independent_chunk open alike: the limit goes to write_pos - 1, then the
     drain loop runs *)
  Lemma l2_limit_drain_spec p org s fin r : wf_p p -> l2_hist_ok p -> l2ok p org s ->
    limited p (e_lz (l2_e _ s)) fin (l2_tr _ s) r ->
    okor (l2_drain PS parse chunkc (drain_fuel PS s) (l2_with_lz PS s r)) (fun s1 =>
      l2inv p org s1 /\ l2_pending _ s1 = 0 /\ l2_chunk _ s1 = l2_chunk _ s /\
      unc_size (l2_e _ s1) = 0 /\ rc_full (l2_e _ s1) = false /\ read_ahead (l2_e _ s1) = -1 /\
      pidx (l2_e _ s1) = write_pos (e_lz (l2_e _ s1)) /\
      write_pos (e_lz (l2_e _ s1)) = write_pos (e_lz (l2_e _ s)) /\
      read_limit (e_lz (l2_e _ s1)) = write_pos (e_lz (l2_e _ s)) - 1 /\
      finishing (e_lz (l2_e _ s1)) = finishing (fst r) /\
      g_base (l2_e _ s1) = g_base (l2_e _ s) /\
      sum_fill (l2_tr _ s1) = sum_fill (l2_tr _ s) /\
      (forall T, finishing (fst r) = true -> g_base (l2_e _ s) + write_pos (e_lz (l2_e _ s)) = T ->
         reaches (istep2 p T) (est2 (l2_e _ s) (l2_ps _ s)) (rsyms (l2_tr _ s)) (est2 (l2_e _ s1) (l2_ps _ s1)) (rsyms (l2_tr _ s1)))).
  Proof.
    intros W HH (L & F & J1 & J2) Hlim. pose proof L as [Lp Ln I Lpend Lunc Lbig Lcnn].
    pose proof (set_limit_einv p org _ _ _ _ I Hlim) as I1.
    destruct Hlim as (L1 & R1 & Wp1 & Rl1 & _ & Acc & Pcase). destruct r as [d1 tr1]. cbn [fst snd] in *.
    injection Acc as E1 E2 E3 E4 E5.
    assert (L' : l2inv p org (l2_with_lz PS s (d1, tr1))).
    { constructor; unfold l2_with_lz; cbn [l2_p l2_new l2_e l2_tr l2_pending l2_unc fst snd]; try assumption; try lia. }
    eapply okor_weaken.
    { apply (l2_drain_spec p org W HH (drain_fuel PS s) _ L').
      - exact J2.
      - exact J1.
      - unfold l2_with_lz, with_lz. cbn [l2_e e_lz fst]. lia.
      - unfold drain_fuel, l2_with_lz. cbn [l2_pending].
        pose proof (l2_pending_cap p org s L). pose proof (ei_lz I) as [[? ?] ? ? ? ?]. pose proof (ei_ra I).
        pose proof (ei_unc I). unfold pidx in *. lia. }
    intros s1 (L2 & P2 & C2 & Un2 & Rc2 & Ra2 & Pi2 & Wp2 & Rl2 & Fin2 & G2 & F2 & ZI).
    unfold l2_with_lz, with_lz in *. cbn [l2_e e_lz fst snd l2_tr l2_chunk l2_ps g_base read_ahead unc_size rc_full] in *.
    assert (E0 : est2 (mkEncd d1 (read_ahead (l2_e PS s)) (unc_size (l2_e PS s)) (rc_full (l2_e PS s)) (g_base (l2_e PS s))) (l2_ps PS s)
                 = est2 (l2_e PS s) (l2_ps PS s)).
    { unfold est2, logical_pos. cbn [e_lz read_ahead g_base unc_size rc_full]. rewrite R1. reflexivity. }
    rewrite E0 in ZI.
    repeat (split; [first [assumption|congruence|lia]|]).
    intros T Hfin HT. rewrite <- E5. apply ZI; [exact Hfin|rewrite Wp1; exact HT].
  Qed.

  Lemma l2_flush_spec p org s : wf_p p -> l2_hist_ok p -> l2ok p org s ->
    okor (l2_flush PS parse chunkc s) (fun r =>
      l2ok p org (fst r) /\ snd r = RDone /\ l2_chunk _ (fst r) = l2_chunk _ s /\
      sum_fill (l2_tr _ (fst r)) = sum_fill (l2_tr _ s)).
  Proof.
    intros W HH Lok. pose proof Lok as (L & F & J1 & J2). pose proof (l2i_e L) as I.
    unfold l2_flush. rewrite (l2i_p L).
    eapply okor_bind; [apply (set_flushing_spec p _ (l2_tr _ s) W (ei_lz I))|].
    intros r Hlim. pose proof Hlim as (_ & _ & _ & _ & Fin1 & _).
    eapply okor_bind; [exact (l2_limit_drain_spec p org s _ r W HH Lok Hlim)|].
    intros s1 (L2 & P2 & C2 & Un2 & Rc2 & Ra2 & Pi2 & Wp2 & Rl2 & Fin2 & G2 & F2 & _).
    cbn [okor fst snd].
    split.
    { split; [exact L2|]. split.
      - apply (drained_phi p _ W); try assumption; try lia. rewrite Fin2, Fin1. exact (ph_fin F).
      - exact (fresh_chunk_ok p _ W Un2 Rc2). }
    split; [reflexivity|]. split; [exact C2|exact F2].
  Qed.

  Lemma l2_finish_spec p org s : wf_p p -> l2_hist_ok p -> l2ok p org s ->
    okor (l2_finish PS parse chunkc s) (fun r =>
      snd r = RDone /\ sum_fill (l2_tr _ (fst r)) = sum_fill (l2_tr _ s) /\
      sum_chunk (l2_tr _ (fst r)) = sum_fill (l2_tr _ (fst r)) /\
      sum_sym (l2_tr _ (fst r)) + sum_abs (l2_tr _ (fst r)) = sum_fill (l2_tr _ (fst r)) /\
      (let T := sum_fill (l2_tr _ s) - org in
              reaches (istep2 p T) (est2 (l2_e _ s) (l2_ps _ s)) (rsyms (l2_tr _ s)) (T, -1, l2_ps _ (fst r), 0, false) (rsyms (l2_tr _ (fst r))))).
  Proof.
    intros W HH Lok. pose proof Lok as (L & F & J1 & J2). pose proof (l2i_e L) as I.
    unfold l2_finish. rewrite (l2i_p L).
    eapply okor_bind; [apply (set_finishing_spec p _ (l2_tr _ s) W (ei_lz I))|].
    intros r Hlim. pose proof Hlim as (_ & _ & _ & _ & Fin1 & _).
    eapply okor_bind; [exact (l2_limit_drain_spec p org s _ r W HH Lok Hlim)|].
    intros s1 (L2 & P2 & C2 & Un2 & Rc2 & Ra2 & Pi2 & Wp2 & Rl2 & Fin2 & G2 & F2 & ZI).
    cbn [okor fst snd l2_tr l2_ps sum_fill sum_chunk sum_sym sum_abs rsyms].
    pose proof L2 as [_ _ I2 Lpend2 _ _ _].
    pose proof (ei_fill I2). pose proof (ei_sym I2). pose proof (ei_fill I) as Hf0. rewrite logical_pidx in *.
    split; [reflexivity|]. split; [lia|]. split; [lia|]. split; [lia|].
    set (T := sum_fill (l2_tr PS s) - org).
    assert (E2' : est2 (l2_e PS s1) (l2_ps PS s1) = (T, -1, l2_ps PS s1, 0, false)).
    { unfold est2. rewrite logical_pidx, Pi2, Ra2, Un2, Rc2. do 4 f_equal. unfold T. lia. }
    rewrite <- E2'. apply ZI; [exact Fin1|unfold T; lia].
  Qed.

  Lemma l2_start_independent_spec p org s : wf_p p -> l2_hist_ok p -> l2ok p org s ->
    okor (l2_start_independent PS parse chunkc s) (fun s1 =>
      l2ok p (sum_fill (l2_tr _ s1)) s1 /\ l2_e _ s1 = enc0 /\ l2_chunk _ s1 = l2_chunk _ s /\
      sum_fill (l2_tr _ s1) = sum_fill (l2_tr _ s)).
  Proof.
    intros W HH Lok. pose proof Lok as (L & F & J1 & J2). pose proof (l2i_e L) as I.
    unfold l2_start_independent. rewrite (l2i_p L).
    eapply okor_bind; [apply (set_flushing_spec p _ (l2_tr _ s) W (ei_lz I))|].
    intros r Hlim. pose proof Hlim as (_ & _ & _ & _ & Fin1 & _).
    eapply okor_bind; [exact (l2_limit_drain_spec p org s _ r W HH Lok Hlim)|].
    intros s1 (L2 & P2 & C2 & Un2 & Rc2 & Ra2 & Pi2 & Wp2 & Rl2 & Fin2 & G2 & F2 & _).
    pose proof L2 as [Lp2 Ln2 I2 Lpend2 Lunc2 Lbig2 Lcnn2].
    rewrite Ln2. cbn [obind okor fst snd l2_tr l2_e l2_chunk sum_fill].
    pose proof (ei_fill I2). pose proof (ei_sym I2). rewrite logical_pidx in *.
    assert (Hsc : sum_chunk (l2_tr _ s1) = sum_fill (l2_tr _ s1)) by lia.
    split.
    { split.
      - constructor; cbn [l2_p l2_new l2_e l2_tr l2_pending l2_unc sum_fill sum_chunk]; try assumption; try reflexivity; try lia.
        apply enc0_einv_gen; cbn [sum_fill sum_sym sum_abs sum_chunk]; try assumption; lia.
      - cbn [l2_e]. destruct (enc0_einv p W) as (_ & F0 & _). split; [exact F0|]. exact (fresh_chunk_ok p enc0 W eq_refl eq_refl). }
    split; [reflexivity|]. split; [exact C2|]. lia.
  Qed.


  (* fuel measure of the LZMA2 write loop *)
  Definition qflag (e : encd) : Z := if read_limit (e_lz e) <=? pidx e - 1 then 0 else 1.
  Definition wmeasure (e : encd) (len : Z) : Z := 3 * len + (write_pos (e_lz e) - pidx e) + qflag e.

  Lemma qflag_quiet e : quiet e -> qflag e = 0.
  Proof. unfold quiet, qflag. intros H. destruct (Z.leb_spec (read_limit (e_lz e)) (pidx e - 1)); lia. Qed.
  Lemma qflag_range e : 0 <= qflag e <= 1.
  Proof. unfold qflag. destruct (_ <=? _); lia. Qed.
  Lemma qflag_nquiet e : ~ quiet e -> qflag e = 1.
  Proof. unfold quiet, qflag. intros H. destruct (Z.leb_spec (read_limit (e_lz e)) (pidx e - 1)); lia. Qed.

  Lemma l2_write_loop_spec p : wf_p p -> l2_hist_ok p -> forall fuel s org len off,
    l2ok p org s -> 0 <= len ->
    sum_fill (l2_tr _ s) + len <= 4611686018427387904 ->
    wmeasure (l2_e _ s) len + 1 <= Z.of_nat fuel ->
    okor (l2_write_loop PS parse chunkc fuel s len off) (fun r =>
      exists org1, l2ok p org1 (fst r) /\ snd r = off + len /\ l2_chunk _ (fst r) = l2_chunk _ s /\
        sum_fill (l2_tr _ (fst r)) = sum_fill (l2_tr _ s) + len /\
        (l2_chunk _ s = None -> org1 = org /\
           forall T, g_base (l2_e _ s) + write_pos (e_lz (l2_e _ s)) + len <= T ->
             reaches (istep2 p T) (est2 (l2_e _ s) (l2_ps _ s)) (rsyms (l2_tr _ s)) (est2 (l2_e _ (fst r)) (l2_ps _ (fst r))) (rsyms (l2_tr _ (fst r))))).
  Proof.
    intros W HH. pose proof W as [W1 W2 W3 W4 W5 W6 W7 W8 W9 W10].
    induction fuel as [|f IH]; intros s org len off Lok Hlen Hbig Hfuel.
    - exfalso. destruct Lok as (L & _). pose proof (l2i_e L) as I.
      pose proof (ei_lz I) as [[? ?] ? ? ? ?]. pose proof (ei_ra I). pose proof (qflag_range (l2_e _ s)).
      unfold wmeasure, pidx in *. lia.
    - cbn [l2_write_loop].
      destruct (Z.leb_spec len 0) as [Hz|Hpos].
      { cbn [okor fst snd]. exists org. split; [exact Lok|]. split; [lia|]. split; [reflexivity|]. split; [lia|].
        intros _. split; [reflexivity|]. intros T _. apply reaches_refl. }
      (* optional independent restart *)
      assert (Hs0 : okor (match l2_chunk PS s with
                          | Some cs => if cs <=? l2_unc PS s then l2_start_independent PS parse chunkc s else Ok s
                          | None => Ok s end)
                         (fun s0 => exists org0, l2ok p org0 s0 /\ l2_chunk _ s0 = l2_chunk _ s /\
                                                 sum_fill (l2_tr _ s0) = sum_fill (l2_tr _ s) /\
                                                 wmeasure (l2_e _ s0) len <= wmeasure (l2_e _ s) len /\
                                                 (l2_chunk _ s = None -> s0 = s /\ org0 = org))).
      { assert (Hsame : okor (Ok s) (fun s0 => exists org0, l2ok p org0 s0 /\ l2_chunk _ s0 = l2_chunk _ s /\
                                                 sum_fill (l2_tr _ s0) = sum_fill (l2_tr _ s) /\
                                                 wmeasure (l2_e _ s0) len <= wmeasure (l2_e _ s) len /\
                                                 (l2_chunk _ s = None -> s0 = s /\ org0 = org))).
        { cbn [okor]. exists org. split; [exact Lok|]. split; [reflexivity|]. split; [reflexivity|]. split; [lia|]. intros _; split; reflexivity. }
        destruct (l2_chunk PS s) as [cs|] eqn:Ecs; [|exact Hsame].
        destruct (cs <=? l2_unc PS s); [|exact Hsame].
        eapply okor_weaken; [apply (l2_start_independent_spec p org s W HH Lok)|].
        intros s0 (Lok0 & E0 & C0 & F0). exists (sum_fill (l2_tr _ s0)).
        split; [exact Lok0|]. split; [congruence|]. split; [exact F0|].
        split; [|intros X; congruence].
        rewrite E0. destruct Lok as (L & _). pose proof (l2i_e L) as I.
        pose proof (ei_lz I) as [[? ?] ? ? ? ?]. pose proof (ei_ra I). pose proof (qflag_range (l2_e _ s)).
        assert (Hq0 : qflag enc0 = 0) by reflexivity.
        assert (Hw0 : write_pos (e_lz enc0) - pidx enc0 = 0) by reflexivity.
        unfold wmeasure. rewrite Hq0, Hw0. unfold pidx in *. lia. }
      eapply okor_bind; [exact Hs0|]. clear Hs0.
      intros s0 (org0 & (L0 & F0 & J1 & J2) & C0 & Fl0 & M0 & Hnone).
      pose proof L0 as [Lp Ln I Lpend Lunc Lbig Lcnn].
      rewrite Lp.
      eapply okor_bind; [apply (fill_step p org0 (l2_e _ s0) (l2_tr _ s0) len W I F0 Hlen)|].
      intros [[d1 used] tr1]. fold (after_fill (l2_e _ s0) d1).
      set (e0 := l2_e _ s0) in *. set (e1 := after_fill e0 d1).
      intros (I1 & F1 & U1 & Lg1 & Un1 & Rc1 & Wn1 & Bw1 & Hprog & Hstuck & Ab1 & Fl1 & Rs1).
      pose proof (l2_pending_cap p org0 s0 L0) as Hpc. fold e0 in Hpc.
      pose proof (ei_lz I1) as [[Ha1 Hb1] Hc1 [Hd1 He1] [Hf1 Hg1] Hpb1]. pose proof (ei_ra I1) as [Hr11 Hr12].
      pose proof (ei_unc I) as Hu0.
      pose proof (ei_lz I) as [[Ha0 Hb0] Hc0 _ _ _]. pose proof (ei_ra I) as [Hr01 Hr02].
      assert (Hused : used <= buf_size p) by (unfold pidx in *; lia).
      unfold I32_MAX, U32_MAX in *.
      rewrite as_u32_id by lia.
      rewrite ck_u32_ok by (unfold U32_MAX, I32_MAX, UNC_BOUND, SYM_MAX, LZMA2_UNCOMPRESSED_LIMIT, pidx in *; lia). cbn [obind].
      assert (Hub1 : unc_size e1 <= UNC_BOUND p) by (rewrite Un1; exact J2).
      assert (Hc1' : loop2_cond e1 = true) by (unfold loop2_cond in *; rewrite Un1, Rc1; exact J1).
      eapply okor_bind; [apply (encode_for_lzma2_spec p org0 (l2_ps _ s0) e1 tr1 W I1 Hub1 Hc1')|].
      intros [[[b e2] ps2] tr2] (I2 & A2 & U2 & C2 & B2 & Y9 & Y10 & YA & YI).
      pose proof (ad_wp A2) as Y2. pose proof (ad_rl A2) as Y3. pose proof (ad_base A2) as Y5. pose proof (ad_unc A2) as Y6.
      pose proof (ad_pidx A2) as Y1.
      pose proof (ei_fill I2) as Hf2. pose proof (ei_fill I1) as Hf1'. pose proof (ei_fill I) as Hf0.
      pose proof (ei_chunk I2) as Hch2. pose proof (ei_chunk I1) as Hch1. pose proof (ei_chunk I) as Hch0.
      rewrite logical_pidx in Hch2, Hch1, Hch0. rewrite logical_pidx in Lg1. rewrite logical_pidx in Lg1.
      set (s2 := mkL2 PS p e2 (l2_pending PS s0 + used) (l2_chunk PS s0) (l2_unc PS s0) (l2_new PS s0) ps2 tr2).
      assert (L2 : l2inv p org0 s2).
      { constructor; unfold s2; cbn [l2_p l2_new l2_e l2_tr l2_pending l2_unc]; try assumption; try reflexivity; try lia. }
      pose proof (phi_adv p org0 e1 tr1 e2 W I1 F1 A2 (fun q => proj1 (Y9 q))) as F2.
      (* the state after the optional chunk *)
      assert (Hs3 : okor (if b then write_chunk PS chunkc s2 else Ok s2)
                         (fun s3 => l2ok p org0 s3 /\ l2_chunk _ s3 = l2_chunk _ s0 /\
                                    sum_fill (l2_tr _ s3) = sum_fill tr2 /\
                                    write_pos (e_lz (l2_e _ s3)) = write_pos (e_lz e2) /\
                                    read_limit (e_lz (l2_e _ s3)) = read_limit (e_lz e2) /\
                                    pidx e2 <= pidx (l2_e _ s3) /\ g_base (l2_e _ s3) = g_base e2 /\
                                    (forall T, reaches (istep2 p T) (est2 e2 ps2) (rsyms tr2) (est2 (l2_e _ s3) (l2_ps _ s3)) (rsyms (l2_tr _ s3))))).
      { destruct b.
        - (* a symbol was coded in this call or before: the chunk is not empty *)
          assert (Hu2 : 1 <= unc_size e2).
          { destruct (Z_le_dec (read_limit (e_lz e1)) (pidx e1 - 1)) as [Hq|Hnq].
            - destruct (Y9 Hq) as (E1 & _ & _). subst e2. rewrite Hc1' in C2. discriminate.
            - assert (NQ : ~ quiet e1) by (unfold quiet; lia). specialize (Y10 NQ Hc1'). rewrite Un1 in Y6. lia. }
          eapply okor_weaken; [apply (write_chunk_spec p org0 s2 W HH L2); unfold s2; cbn [l2_e]; lia|].
          intros s3 (L3 & C3 & E3 & G3 & Un3 & Rc3 & Ra3 & Fl3 & Ch3 & P3 & ZC).
          unfold s2 in *. cbn [l2_e l2_tr l2_chunk l2_pending l2_ps] in *.
          assert (Hpi : pidx e2 <= pidx (l2_e _ s3)).
          { unfold pidx. rewrite E3. pose proof (ei_ra I2). destruct Ra3 as [R|R]; rewrite R; lia. }
          split.
          { split; [exact L3|]. split.
            - destruct F2 as [G1 G2 G3' G4]. constructor.
              + rewrite E3. exact G1.
              + destruct G2 as [Gs|Gq]; [left; unfold steady in *; rewrite E3; exact Gs|right; unfold quiet in *; rewrite E3; lia].
              + rewrite E3. intros Hp0. destruct Ra3 as [R|R]; [rewrite R; exact (G3' Hp0)|exact R].
              + rewrite E3. exact G4.
            - exact (fresh_chunk_ok p _ W Un3 Rc3). }
          split; [exact C3|]. split; [exact Fl3|]. rewrite E3. split; [reflexivity|]. split; [reflexivity|]. split; [exact Hpi|].
          split; [exact G3|].
          intros T.
          assert (HP2 : 1 <= logical_pos e2) by (pose proof (ei_org I2); rewrite logical_pidx; lia).
          destruct (ZC T HP2 (or_introl C2)) as (ev & Est & Erc).
          exact (reaches_step _ _ _ _ _ _ Est Erc).
        - cbn [okor]. unfold s2. cbn [l2_e l2_tr l2_chunk l2_ps].
          split.
          { split; [exact L2|]. split; [exact F2|]. split; [exact C2|exact U2]. }
          repeat split; try reflexivity; try lia.
          intros T. apply reaches_refl. }
      eapply okor_bind; [exact Hs3|]. clear Hs3.
      intros s3 (Lok3 & C3 & Fl3 & Wp3 & Rl3 & Pi3 & G3 & ZS).
      eapply okor_weaken.
      { apply (IH s3 org0 (len - used) (off + used) Lok3); try lia.
        (* the measure decreases *)
        pose proof (qflag_range (l2_e _ s3)). pose proof (qflag_range e0).
        unfold wmeasure in *. rewrite Wp3, Y2.
        destruct (Z.eq_dec used 0) as [Hu0'|Hun0].
        - (* nothing accepted: the encoder was not drained, so it codes at least one symbol *)
          subst used.
          assert (NQ0 : ~ quiet e0) by (intros Q; specialize (Hprog Q Hpos); lia).
          destruct (Hstuck eq_refl Hpos) as [_ Ed1].
          assert (NQ1 : ~ quiet e1).
          { unfold quiet, e1, after_fill, pidx in *. cbn [e_lz read_ahead]. rewrite Ed1. exact NQ0. }
          specialize (Y10 NQ1 Hc1'). rewrite (qflag_nquiet e0 NQ0) in M0. lia.
        - lia. }
      intros [s4 off4] (org4 & Lok4 & O4 & C4 & Fl4 & ZI). cbn [fst snd] in *.
      exists org4. split; [exact Lok4|]. split; [lia|]. split; [congruence|]. split; [lia|].
      intros Hn. destruct (Hnone Hn) as [Es0 Eo0]. subst s0 org0.
      destruct (ZI ltac:(congruence)) as [Eo4 ZI']. split; [exact Eo4|].
      intros T HT.
      assert (HV1 : Vc p e1 T).
      { unfold Vc. right. split; [unfold e0 in *; lia|]. destruct (ph_sq F1) as [Hs|Hq]; [right; exact Hs|left; exact Hq]. }
      assert (Hest : est2 e1 (l2_ps PS s) = est2 e0 (l2_ps PS s)).
      { unfold est2. rewrite !logical_pidx, Lg1, Un1, Rc1. reflexivity. }
      fold e0. rewrite <- Hest, <- Rs1. eapply reaches_trans; [exact (YI T HV1)|]. eapply reaches_trans; [exact (ZS T)|].
      apply ZI'. rewrite G3, Y5, Wp3, Y2. unfold e0 in *. lia.
  Qed.


  Lemma l2_write_spec p org s n : wf_p p -> l2_hist_ok p -> l2ok p org s -> 0 <= n ->
    sum_fill (l2_tr _ s) + n <= 4611686018427387904 ->
    okor (l2_write PS parse chunkc s n) (fun r =>
      exists org1, l2ok p org1 (fst r) /\ snd r = RWrote n /\ l2_chunk _ (fst r) = l2_chunk _ s /\
        sum_fill (l2_tr _ (fst r)) = sum_fill (l2_tr _ s) + n /\
        (l2_chunk _ s = None -> org1 = org /\
           forall T, sum_fill (l2_tr _ s) - org + n <= T ->
             reaches (istep2 p T) (est2 (l2_e _ s) (l2_ps _ s)) (rsyms (l2_tr _ s)) (est2 (l2_e _ (fst r)) (l2_ps _ (fst r))) (rsyms (l2_tr _ (fst r))))).
  Proof.
    intros W HH Lok Hn Hbig. unfold l2_write.
    eapply okor_bind.
    { apply (l2_write_loop_spec p W HH (write_fuel2 PS s n) s org n 0 Lok Hn Hbig).
      destruct Lok as (L & _). pose proof L as [Lp _ I _ _ _ _].
      pose proof (ei_lz I) as [[? ?] ? ? ? ?]. pose proof (ei_ra I). pose proof (qflag_range (l2_e _ s)).
      unfold write_fuel2, wmeasure, pidx in *. rewrite Lp. lia. }
    intros [s1 off1] (org1 & Lok1 & O1 & C1 & F1 & ZI). cbn [fst snd okor] in *.
    exists org1. split; [exact Lok1|]. split; [f_equal; lia|]. split; [assumption|]. split; [assumption|].
    intros Hn0. destruct (ZI Hn0) as [Eo ZI']. split; [exact Eo|].
    intros T HT. apply ZI'. destruct Lok as (L & _). pose proof (ei_fill (l2i_e L)). lia.
  Qed.

  (* what the calls of an LZMA2Writer return *)
  Fixpoint l2_results (cur : Z) (ops : list wop) : list opres * Z * bool :=
    match ops with
    | [] => ([], cur, false)
    | WoWrite n :: r => let '(rs, c, f) := l2_results (cur + n) r in (RWrote n :: rs, c, f)
    | WoFlush :: r => let '(rs, c, f) := l2_results cur r in (RDone :: rs, c, f)
    | WoFinish :: _ => ([RDone], cur, true)
    end.

  Fixpoint no_flush (ops : list wop) : Prop :=
    match ops with [] => True | WoFlush :: _ => False | _ :: r => no_flush r end.

  (* an LZMA2Writer answers like an LZMAWriter without a declared size *)
  Lemma l2_results_l1 : forall ops cur, l2_results cur ops = l1_results None cur ops.
  Proof.
    induction ops as [|[n| |] r IH]; intros cur; cbn [l1_results l2_results]; rewrite ?IH; reflexivity.
  Qed.

  Lemma l2_run_spec p : wf_p p -> l2_hist_ok p -> forall ops s org acc,
    l2ok p org s -> ops_ok ops ->
    sum_fill (l2_tr _ s) + ops_total ops <= 4611686018427387904 ->
    okor (l2_run PS parse chunkc s ops acc) (fun r =>
      let '(s1, res) := r in
      let '(rs, c, fin) := l2_results (sum_fill (l2_tr _ s)) ops in
      res = rev acc ++ rs /\ sum_fill (l2_tr _ s1) = c /\
      (fin = true -> sum_chunk (l2_tr _ s1) = c /\ sum_sym (l2_tr _ s1) + sum_abs (l2_tr _ s1) = c /\
         (l2_chunk _ s = None -> no_flush ops -> reaches (istep2 p (c - org)) (est2 (l2_e _ s) (l2_ps _ s)) (rsyms (l2_tr _ s)) (c - org, -1, l2_ps _ s1, 0, false) (rsyms (l2_tr _ s1))))).
  Proof.
    intros W HH. induction ops as [|op r IH]; intros s org acc Lok Hok Hcap.
    - cbn [l2_run l2_results okor]. rewrite frev_rev, app_nil_r. split; [reflexivity|]. split; [reflexivity|discriminate].
    - destruct op as [n| |]; cbn [l2_run l2_results ops_total ops_ok no_flush] in *.
      + destruct Hok as [Hn Hok]. pose proof (ops_total_nonneg _ Hok).
        eapply okor_bind; [apply (l2_write_spec p org s n W HH Lok Hn); lia|].
        intros [s1 res] (org1 & Lok1 & E2 & C1 & F1 & ZI). cbn [fst snd] in *. subst res.
        pose proof (l1_results_mono None r (sum_fill (l2_tr PS s) + n) Hok) as Hmono. rewrite <- l2_results_l1 in Hmono.
        eapply okor_weaken; [apply (IH s1 org1 (RWrote n :: acc) Lok1 Hok); lia|].
        intros [s2 res2]. rewrite F1. destruct (l2_results (sum_fill (l2_tr PS s) + n) r) as [[rs c] fin].
        cbn [fst snd] in Hmono.
        intros (R1 & R2 & R3). split; [|split; [assumption|]].
        { rewrite R1. cbn [rev]. rewrite <- app_assoc. reflexivity. }
        intros Hfin. destruct (R3 Hfin) as (R4 & R5 & R6). split; [exact R4|]. split; [exact R5|].
        intros Hn0 Hnf. destruct (ZI Hn0) as [Eo ZI']. subst org1.
        eapply reaches_trans; [apply ZI'; lia|exact (R6 ltac:(congruence) Hnf)].
      + eapply okor_bind; [apply (l2_flush_spec p org s W HH Lok)|].
        intros [s1 res] (Lok1 & E2 & C1 & F1). cbn [fst snd] in *. subst res.
        eapply okor_weaken; [apply (IH s1 org (RDone :: acc) Lok1 Hok); lia|].
        intros [s2 res2]. rewrite F1. destruct (l2_results (sum_fill (l2_tr PS s)) r) as [[rs c] fin].
        intros (R1 & R2 & R3). split; [|split; [assumption|]].
        { rewrite R1. cbn [rev]. rewrite <- app_assoc. reflexivity. }
        intros Hfin. destruct (R3 Hfin) as (R4 & R5 & _). split; [exact R4|]. split; [exact R5|].
        intros _ Hnf. contradiction.
      + eapply okor_bind; [apply (l2_finish_spec p org s W HH Lok)|].
        intros [s1 res] (E1 & E2 & E3 & E4 & ZI). cbn [fst snd okor] in *. subst res. rewrite frev_rev. cbn [rev].
        split; [reflexivity|]. split; [exact E2|]. intros _. split; [lia|]. split; [lia|].
        intros _ _. exact ZI.
  Qed.

  Lemma l2_new_spec normal bt4 dict nice preset chunk ps0 : opts_ok dict nice ->
    (match preset with Some plen => 0 <= plen | None => True end) ->
    okor (l2_new_repaired PS normal bt4 dict nice preset chunk ps0) (fun s =>
      exists p org, wf_p p /\ l2_hist_ok p /\ l2ok p org s /\ sum_fill (l2_tr _ s) = 0 /\
        l2_chunk _ s = (match chunk with Some c => Some (Z.max c dict) | None => None end)).
  Proof.
    intros Ho Hpl. pose proof Ho as [[Hd1 Hd2] [Hn1 Hn2]].
    unfold l2_new_repaired, l2_new_with, enc_new, extra_before_sum, get_extra_size_before, COMPRESSED_SIZE_MAX.
    pose proof (mode_extra_before_bounds normal) as Hmb.
    rewrite ck_u32_ok by lia. cbn [obind].
    destruct (enc_new_with_spec (Z.max 0 (65536 - dict) + mode_extra_before normal) normal bt4 dict nice Ho)
      as (p & E & W & Kb & Ds & Mb & Ea & Ml & Ka & Hbuf); [lia|].
    rewrite E. cbn [obind].
    assert (HH : l2_hist_ok p) by (unfold l2_hist_ok, COMPRESSED_SIZE_MAX; lia).
    assert (Hub0 : 0 <= UNC_BOUND p).
    { unfold UNC_BOUND, SYM_MAX, LZMA2_UNCOMPRESSED_LIMIT. pose proof (wf_ea W). lia. }
    destruct preset as [plen|].
    - eapply okor_bind; [apply (preset_spec p dict plen W Ds Hbuf Hpl)|].
      intros [d1 tr1]. cbn [fst snd okor]. intros (I & F & Q & Acc). injection Acc as E1 E2 E3 E4 E5.
      cbn [sum_sym sum_fill sum_abs sum_chunk rsyms] in *.
      exists p, (- Z.min plen dict). split; [exact W|]. split; [exact HH|]. split.
      { split.
        - constructor; cbn [l2_p l2_new l2_e l2_tr l2_pending l2_unc]; try assumption; try reflexivity; try lia.
        - split; [exact F|]. split; [reflexivity|]. exact Hub0. }
      cbn [l2_tr l2_chunk]. repeat split; try assumption; try reflexivity; lia.
    - cbn [okor]. destruct (enc0_einv p W) as (I & F & Q).
      exists p, 0. split; [exact W|]. split; [exact HH|]. split.
      { split.
        - constructor; cbn [l2_p l2_new l2_e l2_tr l2_pending l2_unc sum_fill sum_chunk]; try assumption; try reflexivity; try lia.
        - split; [exact F|]. split; [reflexivity|]. exact Hub0. }
      cbn [l2_tr l2_chunk sum_fill]. repeat split; try assumption; try reflexivity; lia.
  Qed.


  (* lookahead_clamped: while the window holds the full look-ahead (not flushing, not finishing:
     read_limit = write_pos - keep_size_after) the parser observes the same thing whatever amount
     of further data the caller has already supplied: two states with the same read_ahead that both
     hold the full look-ahead lead the same strategy to the same decision (same len, full, parser
     state and read_ahead) *)
  Lemma run_strat_frame p s e e' tr tr' : wf_p p -> minv p e -> minv p e' ->
    read_ahead e = read_ahead e' ->
    match_len_max p + extra_after p - read_ahead e <= write_pos (e_lz e) - read_pos (e_lz e) ->
    match_len_max p + extra_after p - read_ahead e' <= write_pos (e_lz e') - read_pos (e_lz e') ->
    forall e1 len full ps1 tr1 e1' len' full' ps1' tr1',
    run_strat PS p s e tr = Ok (e1, len, full, ps1, tr1) ->
    run_strat PS p s e' tr' = Ok (e1', len', full', ps1', tr1') ->
    len = len' /\ full = full' /\ ps1 = ps1' /\ read_ahead e1 = read_ahead e1'.
  Proof.
    intros W M M' Hra Hs Hs' e1 len full ps1 tr1 e1' len' full' ps1' tr1' E E'.
    pose proof (run_strat_spec p W s e tr M) as R. pose proof (run_strat_spec p W s e' tr' M') as R'.
    rewrite E in R. rewrite E' in R'. cbn [okor] in R, R'.
    destruct R as (_ & _ & _ & _ & _ & _ & _ & _ & _ & _ & _ & _ & RI).
    destruct R' as (_ & _ & _ & _ & _ & _ & _ & _ & _ & _ & _ & _ & RI').
    set (A := Z.max (write_pos (e_lz e) - read_pos (e_lz e)) (write_pos (e_lz e') - read_pos (e_lz e'))).
    assert (H1 : irun p s A (read_ahead e) = Some (read_ahead e1, len, full, ps1)).
    { apply RI. unfold view_ok. cbv zeta. right. split; [exact Hs|unfold A; lia]. }
    assert (H2 : irun p s A (read_ahead e') = Some (read_ahead e1', len', full', ps1')).
    { apply RI'. unfold view_ok. cbv zeta. right. split; [exact Hs'|unfold A; lia]. }
    rewrite <- Hra in H2. rewrite H1 in H2. injection H2 as <- <- <- <-. repeat split; reflexivity.
  Qed.

End Oracle.
Arguments l1ok : clear implicits.
Arguments l2inv : clear implicits.


(* LZMAWriter under EVERY call history, parser strategy and option vector in range: no panic (in
   particular every buffer index is in range), the fuel of the model loops suffices, every write
   returns the whole slice or is rejected as a whole by the declared-size check, and when finish
   succeeds the symbols coded cover exactly the bytes accepted. *)
Theorem lzma1_run_exact : forall (PS : Type) (parse : PS -> Z -> Z -> strat PS) (ps0 : PS)
    normal bt4 dict nice preset expected ops,
  opts_ok dict nice ->
  (match preset with Some plen => 0 <= plen | None => True end) ->
  ops_ok ops ->
  (match preset with Some plen => Z.min plen dict | None => 0 end) + ops_total ops <= U32_MAX ->
  okor (do s <- l1_new PS normal bt4 dict nice preset expected ps0; l1_run PS parse s ops [])
       (fun r =>
          let '(s1, res) := r in
          let '(rs, c, fin) := l1_results expected 0 ops in
          res = rs /\ sum_fill (l1_tr _ s1) = c /\
          (fin = true -> sum_sym (l1_tr _ s1) = c /\ sum_abs (l1_tr _ s1) = 0)).
Proof.
  intros PS parse ps0 normal bt4 dict nice preset expected ops Ho Hpl Hok Hcap.
  eapply okor_bind; [apply (l1_new_spec PS normal bt4 dict nice preset expected ps0 Ho Hpl)|].
  intros s (p & W & L & F0 & Ex & C0).
  eapply okor_weaken.
  { apply (l1_run_spec PS parse p _ expected W ops s [] L Ex Hok). rewrite F0. lia. }
  intros [s1 res]. rewrite C0. destruct (l1_results expected 0 ops) as [[rs c] fin]. cbn [rev app].
  intros (R1 & R2 & R3). split; [exact R1|]. split; [exact R2|].
  intros Hf. destruct (R3 Hf) as (R4 & R5 & _). split; assumption.
Qed.

(* a call history before the final finish() *)
Fixpoint no_finish (ops : list wop) : Prop :=
  match ops with [] => True | WoFinish :: _ => False | _ :: r => no_finish r end.

Lemma l1_results_body exp : forall body cur, no_finish body -> ops_ok body ->
  (match exp with Some ex => ex = cur + ops_total body | None => True end) ->
  snd (fst (l1_results exp cur (body ++ [WoFinish]))) = cur + ops_total body /\
  snd (l1_results exp cur (body ++ [WoFinish])) = true.
Proof.
  induction body as [|[n| |] r IH]; intros cur Hnf Hok Hex; cbn [app l1_results ops_total no_finish ops_ok] in *.
  - assert (E : (match exp with Some ex => negb (ex =? cur) | None => false end) = false).
    { destruct exp as [ex|]; [|reflexivity]. subst ex. rewrite Z.add_0_r, Z.eqb_refl. reflexivity. }
    rewrite E. cbn. split; [lia|reflexivity].
  - destruct Hok as [Hn Hok]. pose proof (ops_total_nonneg _ Hok).
    assert (E : (match exp with Some ex => ex <? cur + n | None => false end) = false).
    { destruct exp as [ex|]; [|reflexivity]. subst ex. apply Z.ltb_ge. lia. }
    rewrite E. specialize (IH (cur + n) Hnf Hok).
    destruct (l1_results exp (cur + n) (r ++ [WoFinish])) as [[rs c] f]. cbn [fst snd] in *.
    destruct IH as [I1 I2]; [destruct exp; [lia|exact I]|]. split; [lia|exact I2].
  - specialize (IH cur Hnf Hok Hex). destruct (l1_results exp cur (r ++ [WoFinish])) as [[rs c] f]. exact IH.
  - contradiction.
Qed.

Lemma ops_ok_app a b : ops_ok a -> ops_ok b -> ops_ok (a ++ b).
Proof. induction a as [|[n| |] r IH]; cbn; intros Ha Hb; auto. destruct Ha; split; auto. Qed.
Lemma ops_total_app a b : ops_total (a ++ b) = ops_total a + ops_total b.
Proof. induction a as [|[n| |] r IH]; cbn; lia. Qed.

(* A history that ends with a successful finish() has led the parser along the run of the data-only
   machine from the fresh state to its end state (all bytes coded, nothing read ahead). *)
Lemma l1_finished_run PS parse p org exp s0 body s1 res : wf_p p -> l1ok PS s0 p org -> l1_exp _ s0 = exp ->
  l1_cur _ s0 = 0 -> sum_fill (l1_tr _ s0) = 0 -> ops_ok body -> no_finish body ->
  (match exp with Some ex => ex = ops_total body | None => True end) -> ops_total body - org <= U32_MAX ->
  l1_run PS parse s0 (body ++ [WoFinish]) [] = Ok (s1, res) ->
  reaches (istep PS parse p (ops_total body - org)) (est PS (l1_e _ s0) (l1_ps _ s0)) (rsyms (l1_tr _ s0))
          (ops_total body - org, -1, l1_ps _ s1) (rsyms (l1_tr _ s1)).
Proof.
  intros W L Ex C0 F0 Hok Hnf Hex Hcap Erun.
  pose proof (l1_run_spec PS parse p org exp W (body ++ [WoFinish]) s0 [] L Ex (ops_ok_app body [WoFinish] Hok I)) as R.
  rewrite Erun, C0 in R. cbn [okor] in R.
  destruct (l1_results_body exp body 0 Hnf Hok) as [B1 B2]; [destruct exp; [lia|exact I]|].
  destruct (l1_results exp 0 (body ++ [WoFinish])) as [[rs c] fin]. cbn [fst snd] in *. subst fin c.
  destruct R as (_ & _ & R); [rewrite F0, ops_total_app; cbn [ops_total]; lia|].
  exact (proj2 (proj2 (R eq_refl))).
Qed.

(* For LZMAWriter, under every parser strategy [parse] (an arbitrary function of the logical
   position, the read-ahead, its own state and the clamped observations), two call histories
   over the same amount of data — any partitions into write() calls, empty writes, flush() calls
   anywhere — lead the parser through the same consultations: the same symbol lengths in the same
   order and the same final parser state (a parser state may record whatever the parser decided:
   kinds, distances, literals).  Together with Codec/LzmaWriters.v, where the output is a function
   [lzma1_write] of options, data and that symbol sequence, the compressed bytes are equal. *)
Theorem enc_partition_independent_lzma1 : forall (PS : Type) (parse : PS -> Z -> Z -> strat PS) (ps0 : PS)
    normal bt4 dict nice preset expected body body' s0 s1 res s1' res',
  opts_ok dict nice ->
  (match preset with Some plen => 0 <= plen | None => True end) ->
  ops_ok body -> ops_ok body' -> no_finish body -> no_finish body' ->
  ops_total body = ops_total body' ->
  (match expected with Some ex => ex = ops_total body | None => True end) ->
  (match preset with Some plen => Z.min plen dict | None => 0 end) + ops_total body <= U32_MAX ->
  l1_new PS normal bt4 dict nice preset expected ps0 = Ok s0 ->
  l1_run PS parse s0 (body ++ [WoFinish]) [] = Ok (s1, res) ->
  l1_run PS parse s0 (body' ++ [WoFinish]) [] = Ok (s1', res') ->
  rsyms (l1_tr _ s1) = rsyms (l1_tr _ s1') /\ l1_ps _ s1 = l1_ps _ s1'.
Proof.
  intros PS parse ps0 normal bt4 dict nice preset expected body body' s0 s1 res s1' res'
         Ho Hpl Hok Hok' Hnf Hnf' Htot Hex Hcap Enew Erun Erun'.
  pose proof (l1_new_spec PS normal bt4 dict nice preset expected ps0 Ho Hpl) as Hnew.
  rewrite Enew in Hnew. destruct Hnew as (p & W & L & F0 & Ex & C0).
  pose proof (l1_finished_run PS parse p _ expected s0 body s1 res W L Ex C0 F0 Hok Hnf Hex ltac:(lia) Erun) as RI.
  pose proof (l1_finished_run PS parse p _ expected s0 body' s1' res' W L Ex C0 F0 Hok' Hnf' ltac:(rewrite <- Htot; exact Hex) ltac:(lia) Erun') as RI'.
  rewrite <- Htot in RI'.
  destruct (reaches_stuck_det _ _ _ _ _ _ _ RI RI' (istep_end _ _ _ _ _) (istep_end _ _ _ _ _)) as [E1 E2].
  split; [exact E2|]. injection E1 as E1. exact E1.
Qed.


(* LZMA2Writer (repaired history policy) under EVERY call history with flushes, chunk_size or not,
   EVERY parser strategy and range-coder oracle: no panic — every buffer index is in range, in
   particular the slices write_uncompressed copies out of the window (uncompressed fallback) —,
   the fuel of the loops suffices, every write returns the whole slice, and when finish succeeds
   every accepted byte is in exactly one chunk and the symbols coded plus the bytes the fallback
   took over from the parser's read-ahead cover exactly the bytes accepted. *)
Theorem lzma2_run_exact : forall (PS : Type) (parse : PS -> Z -> Z -> strat PS) (chunkc : PS -> Z -> Z * PS) (ps0 : PS)
    normal bt4 dict nice preset chunk ops,
  opts_ok dict nice ->
  (match preset with Some plen => 0 <= plen | None => True end) ->
  ops_ok ops -> ops_total ops <= 4611686018427387904 ->
  okor (do s <- l2_new_repaired PS normal bt4 dict nice preset chunk ps0; l2_run PS parse chunkc s ops [])
       (fun r =>
          let '(s1, res) := r in
          let '(rs, c, fin) := l2_results 0 ops in
          res = rs /\ sum_fill (l2_tr _ s1) = c /\
          (fin = true -> sum_chunk (l2_tr _ s1) = c /\ sum_sym (l2_tr _ s1) + sum_abs (l2_tr _ s1) = c)).
Proof.
  intros PS parse chunkc ps0 normal bt4 dict nice preset chunk ops Ho Hpl Hok Hcap.
  eapply okor_bind; [apply (l2_new_spec PS normal bt4 dict nice preset chunk ps0 Ho Hpl)|].
  intros s (p & org & W & HH & L & F0 & _).
  eapply okor_weaken.
  { apply (l2_run_spec PS parse chunkc p W HH ops s org [] L Hok). rewrite F0. lia. }
  intros [s1 res]. rewrite F0. destruct (l2_results 0 ops) as [[rs c] fin]. cbn [rev app].
  intros (R1 & R2 & R3). split; [exact R1|]. split; [exact R2|].
  intros Hf. destruct (R3 Hf) as (R4 & R5 & _). split; assumption.
Qed.

Lemma no_flush_app a b : no_flush a -> no_flush b -> no_flush (a ++ b).
Proof. induction a as [|[n| |] r IH]; cbn; intros Ha Hb; auto. Qed.

Lemma istep2_end PS parse chunkc p T ps : istep2 PS parse chunkc p T (T, -1, ps, 0, false) = None.
Proof.
  unfold istep2. destruct (Z.eqb_spec T 0) as [->|_]; [reflexivity|].
  cbn [Z.leb andb negb]. destruct (Z.ltb_spec T T); [lia|]. reflexivity.
Qed.

Lemma l2_finished_run PS parse chunkc p org s0 body s1 res : wf_p p -> l2_hist_ok p -> l2ok PS p org s0 ->
  l2_chunk _ s0 = None -> sum_fill (l2_tr _ s0) = 0 -> ops_ok body -> no_finish body -> no_flush body ->
  ops_total body <= 4611686018427387904 ->
  l2_run PS parse chunkc s0 (body ++ [WoFinish]) [] = Ok (s1, res) ->
  reaches (istep2 PS parse chunkc p (0 + ops_total body - org)) (est2 PS (l2_e _ s0) (l2_ps _ s0)) (rsyms (l2_tr _ s0))
          (0 + ops_total body - org, -1, l2_ps _ s1, 0, false) (rsyms (l2_tr _ s1)).
Proof.
  intros W HH L Hch F0 Hok Hnf Hnfl Hcap Erun.
  pose proof (l2_run_spec PS parse chunkc p W HH (body ++ [WoFinish]) s0 org [] L (ops_ok_app body [WoFinish] Hok I)) as R.
  rewrite Erun, F0 in R. cbn [okor] in R.
  destruct (l1_results_body None body 0 Hnf Hok I) as [B1 B2]. rewrite <- l2_results_l1 in B1, B2.
  destruct (l2_results 0 (body ++ [WoFinish])) as [[rs c] fin]. cbn [fst snd] in *. subst fin c.
  destruct R as (_ & _ & R); [rewrite ops_total_app; cbn [ops_total]; lia|].
  exact (proj2 (proj2 (R eq_refl)) Hch (no_flush_app body [WoFinish] Hnfl I)).
Qed.

(* LZMA2Writer without chunk_size and without flush (XZWriter without block size forwards to one
   LZMA2Writer): same statement as for LZMAWriter, with the range coder's chunk decisions included: the two
   histories lead every parser strategy and every range-coder oracle through the same
   consultations and the same chunk decisions. *)
Theorem enc_partition_independent_lzma2 : forall (PS : Type) (parse : PS -> Z -> Z -> strat PS) (chunkc : PS -> Z -> Z * PS) (ps0 : PS)
    normal bt4 dict nice preset body body' s0 s1 res s1' res',
  opts_ok dict nice ->
  (match preset with Some plen => 0 <= plen | None => True end) ->
  ops_ok body -> ops_ok body' -> no_finish body -> no_finish body' -> no_flush body -> no_flush body' ->
  ops_total body = ops_total body' -> ops_total body <= 4611686018427387904 ->
  l2_new_repaired PS normal bt4 dict nice preset None ps0 = Ok s0 ->
  l2_run PS parse chunkc s0 (body ++ [WoFinish]) [] = Ok (s1, res) ->
  l2_run PS parse chunkc s0 (body' ++ [WoFinish]) [] = Ok (s1', res') ->
  rsyms (l2_tr _ s1) = rsyms (l2_tr _ s1') /\ l2_ps _ s1 = l2_ps _ s1'.
Proof.
  intros PS parse chunkc ps0 normal bt4 dict nice preset body body' s0 s1 res s1' res'
         Ho Hpl Hok Hok' Hnf Hnf' Hnfl Hnfl' Htot Hcap Enew Erun Erun'.
  pose proof (l2_new_spec PS normal bt4 dict nice preset None ps0 Ho Hpl) as Hnew.
  rewrite Enew in Hnew. destruct Hnew as (p & org & W & HH & L & F0 & Hch).
  pose proof (l2_finished_run PS parse chunkc p org s0 body s1 res W HH L Hch F0 Hok Hnf Hnfl Hcap Erun) as RI.
  pose proof (l2_finished_run PS parse chunkc p org s0 body' s1' res' W HH L Hch F0 Hok' Hnf' Hnfl' ltac:(lia) Erun') as RI'.
  rewrite <- Htot in RI'.
  destruct (reaches_stuck_det _ _ _ _ _ _ _ RI RI' (istep2_end _ _ _ _ _ _) (istep2_end _ _ _ _ _ _)) as [E1 E2].
  split; [exact E2|]. injection E1 as E1. exact E1.
Qed.

(* history_kept: a window move shifts by a multiple of 64 (so buffer positions and logical
   positions agree modulo 64: pos_mask and the literal position mask are unaffected) and keeps
   keep_size_before bytes before read_pos + 1, together with everything after them *)
Theorem history_kept : forall p d tr, wf_p p -> lzinv p d ->
  buf_size p - keep_after p <= read_pos d ->
  exists off, move_window p d tr =
    Ok (mkLzd (read_pos d - off) (read_limit d - off) (finishing d) (write_pos d - off) (pending_size d),
        EvMove off (write_pos d - off) :: tr) /\
    64 <= off /\ off mod 64 = 0 /\ keep_before p <= (read_pos d - off) + 1 /\ (read_pos d - off) + 1 < keep_before p + 64.
Proof.
  intros p d tr W I Hl. destruct (move_window_spec p d tr W I Hl) as (off & E & O1 & O2 & O3).
  exists off. repeat split; try assumption; lia.
Qed.

(* Runs under the replaying oracle.  A consultation [DSym m len full] makes m match-finder moves;
   while every move sees at least required_for_flushing bytes they only advance read_pos and
   read_ahead, so the consultation can be taken in one step.  The witnesses below (some 334 000
   and 268 000 moves) are run that way: per consultation one test [sym_ok], and evaluation only of the
   window fills, the chunk decisions and the loop control. *)

(* k match-finder moves that all see at least required_for_flushing bytes: read_pos and read_ahead
   advance by k, nothing becomes pending *)
Definition moved (e : encd) (k : Z) : encd :=
  let d := e_lz e in
  mkEncd (mkLzd (read_pos d + k) (read_limit d) (finishing d) (write_pos d) (pending_size d))
         (read_ahead e + k) (unc_size e) (rc_full e) (g_base e).

Lemma run_moves PS p (s : strat PS) : REQ_FINISH <= req_flush p -> extra_after p < 2147483647 ->
  forall k e tr,
  -1 <= read_pos (e_lz e) -> write_pos (e_lz e) <= 2147483647 -> 0 <= pending_size (e_lz e) <= 2147483647 ->
  -1 <= read_ahead e -> read_ahead e + Z.of_nat k <= extra_after p ->
  req_flush p <= write_pos (e_lz e) - (read_pos (e_lz e) + Z.of_nat k) ->
  exists tr1, run_strat PS p (moves_then k s) e tr = run_strat PS p s (moved e (Z.of_nat k)) tr1.
Proof.
  intros Hrf Hea. unfold REQ_FINISH in Hrf. induction k as [|k IH]; intros e tr H1 H2 H3 H4 H5 H6.
  - exists tr. cbn [moves_then]. unfold moved. cbn [Z.of_nat]. rewrite !Z.add_0_r. destruct e as [[] ? ? ? ?]. reflexivity.
  - rewrite Nat2Z.inj_succ in *. cbn [moves_then run_strat].
    rewrite ck_i32_ok by lia. cbn [obind].
    rewrite move_pos_eq by (unfold REQ_FINISH; lia). cbv zeta.
    destruct (Z.ltb_spec (write_pos (e_lz e) - (read_pos (e_lz e) + 1)) (req_flush p)); [lia|]. cbn [andb obind read_pos write_pos].
    destruct (Z.ltb_spec (write_pos (e_lz e) - (read_pos (e_lz e) + 1)) 1); [lia|].
    destruct (Z.ltb_spec (extra_after p) (read_ahead e + 1)); [lia|]. cbn [orb].
    edestruct (IH (mkEncd (mkLzd (read_pos (e_lz e) + 1) (read_limit (e_lz e)) (finishing (e_lz e)) (write_pos (e_lz e)) (pending_size (e_lz e)))
                          (read_ahead e + 1) (unc_size e) (rc_full e) (g_base e))) as [tr1 E];
      cbn [e_lz read_pos write_pos pending_size read_ahead]; try lia.
    exists tr1. rewrite E. unfold moved. cbn [e_lz read_pos write_pos pending_size read_ahead read_limit finishing unc_size rc_full g_base].
    replace (read_pos (e_lz e) + 1 + Z.of_nat k) with (read_pos (e_lz e) + Z.succ (Z.of_nat k)) by lia.
    replace (read_ahead e + 1 + Z.of_nat k) with (read_ahead e + Z.succ (Z.of_nat k)) by lia. reflexivity.
Qed.

(* one consultation of the replayed parser whose m moves stay in that regime *)
Definition sym_ok (p : lzp) (m len : Z) (e : encd) : bool :=
  let d := e_lz e in
  (-1 <=? read_pos d) && (write_pos d <=? I32_MAX) && (0 <=? pending_size d) && (pending_size d <=? I32_MAX) &&
  (-1 <=? read_ahead e) && (read_pos d - (read_ahead e + 1) <? read_limit d) &&
  (0 <=? m) && (read_ahead e + m <=? extra_after p) && (req_flush p <=? write_pos d - (read_pos d + m)) &&
  (1 <=? len) && (len <=? read_ahead e + m + 1) && (read_ahead e + m - len <? mode_before p) &&
  (1 <=? read_pos d - read_ahead e) && (read_pos d - read_ahead e <? buf_size p) &&
  ((g_base e =? 0) || (dict_size p <=? read_pos d - read_ahead e)) &&
  (0 <=? unc_size e) && (unc_size e + len <=? U32_MAX).

Definition after_sym (m len : Z) (full : bool) (e : encd) : encd :=
  let e1 := moved e m in mkEncd (e_lz e1) (read_ahead e1 - len) (unc_size e + len) full (g_base e).

Lemma replay_symbol p m len full r e tr : REQ_FINISH <= req_flush p -> extra_after p < I32_MAX ->
  sym_ok p m len e = true ->
  exists tr1, encode_symbol _ replay_parse p (DSym m len full :: r) e tr = Ok (Some (after_sym m len full e, r, tr1)).
Proof.
  intros Hrf Hea Hok. unfold sym_ok in Hok. cbv zeta in Hok.
  repeat (apply andb_true_iff in Hok as [Hok ?]).
  repeat match goal with H : (_ <=? _) = true |- _ => apply Z.leb_le in H | H : (_ <? _) = true |- _ => apply Z.ltb_lt in H end.
  unfold I32_MAX, U32_MAX in *. pose proof Hrf as Hrf'. unfold REQ_FINISH in Hrf'.
  unfold encode_symbol, has_enough_data.
  rewrite ck_i32_ok by lia. cbn [obind].
  rewrite ck_i32_ok by lia. cbn [obind].
  destruct (Z.ltb_spec (read_pos (e_lz e) - (read_ahead e + 1)) (read_limit (e_lz e))); [|lia]. cbn [negb].
  unfold replay_parse. destruct (Z.ltb_spec m 0); [lia|].
  edestruct (run_moves (list ditem) p (SEmit len full r) Hrf Hea (Z.to_nat m) e) as [tr1 E];
    rewrite ?Z2Nat.id by lia; unfold I32_MAX; try lia.
  rewrite E. rewrite Z2Nat.id by lia. cbn [run_strat obind].
  unfold moved. cbn [e_lz read_ahead read_pos g_base unc_size].
  destruct (Z.ltb_spec len 1); [lia|]. destruct (Z.ltb_spec (read_ahead e + m + 1) len); [lia|].
  destruct (Z.leb_spec (mode_before p) (read_ahead e + m - len)); [lia|]. cbn [orb obind e_lz read_ahead read_pos g_base unc_size].
  destruct (Z.ltb_spec (read_ahead e + m) 0); [lia|].
  replace (read_pos (e_lz e) + m - (read_ahead e + m)) with (read_pos (e_lz e) - read_ahead e) by lia.
  destruct (Z.ltb_spec (read_pos (e_lz e) - read_ahead e - 1) 0); [lia|].
  destruct (Z.leb_spec (buf_size p) (read_pos (e_lz e) - read_ahead e)); [lia|]. cbn [orb].
  (* H1 : (g_base e =? 0) || (dict_size p <=? read_pos (e_lz e) - read_ahead e) = true, from sym_ok *)
  rewrite H1. cbn [negb].
  rewrite as_i32_id by lia.
  rewrite ck_i32_ok by lia. cbn [obind].
  rewrite ck_u32_ok by lia. cbn [obind].
  eexists. reflexivity.
Qed.

(* the symbol loop under the replayed parser, one step per symbol *)
Fixpoint replay_loop2 (fuel : nat) (p : lzp) (ds : list ditem) (e : encd) : option (bool * encd * list ditem) :=
  match fuel with
  | O => None
  | S f =>
      if loop2_cond e then
        if read_pos (e_lz e) - (read_ahead e + 1) <? read_limit (e_lz e) then
          match ds with
          | DSym m len full :: r => if sym_ok p m len e then replay_loop2 f p r (after_sym m len full e) else None
          | _ => None
          end
        else if (-1 <=? read_ahead e) && (read_ahead e <? I32_MAX) && (-1 <=? read_pos (e_lz e)) && (read_pos (e_lz e) <=? I32_MAX)
             then Some (false, e, ds) else None
      else Some (true, e, ds)
  end.

Lemma replay_loop2_ok p : REQ_FINISH <= req_flush p -> extra_after p < I32_MAX -> forall fuel ds e tr b e1 ds1,
  replay_loop2 fuel p ds e = Some (b, e1, ds1) ->
  exists tr1, enc_loop2 _ replay_parse fuel p ds e tr = Ok (b, e1, ds1, tr1).
Proof.
  intros Hrf Hea. induction fuel as [|f IH]; intros ds e tr b e1 ds1 H; [discriminate|].
  cbn [replay_loop2 enc_loop2] in *. fold (loop2_cond e). destruct (loop2_cond e).
  2:{ injection H as <- <- <-. exists tr. reflexivity. }
  destruct (Z.ltb_spec (read_pos (e_lz e) - (read_ahead e + 1)) (read_limit (e_lz e))) as [Hq|Hq].
  - destruct ds as [|[m len full|] r]; try discriminate.
    destruct (sym_ok p m len e) eqn:Hok; [|discriminate].
    destruct (replay_symbol p m len full r e tr Hrf Hea Hok) as [tr1 E]. rewrite E. cbn [obind].
    apply IH. exact H.
  - destruct (_ && _) eqn:Hr in H; [|discriminate]. injection H as <- <- <-.
    repeat (apply andb_true_iff in Hr as [Hr ?]).
    repeat match goal with H : (_ <=? _) = true |- _ => apply Z.leb_le in H | H : (_ <? _) = true |- _ => apply Z.ltb_lt in H end.
    unfold encode_symbol, has_enough_data. unfold I32_MAX in *.
    rewrite ck_i32_ok by lia. cbn [obind].
    rewrite ck_i32_ok by lia. cbn [obind].
    destruct (Z.ltb_spec (read_pos (e_lz e) - (read_ahead e + 1)) (read_limit (e_lz e))); [lia|].
    exists tr. reflexivity.
Qed.

Lemma to_nat_S z : 0 < z -> Z.to_nat z = S (Z.to_nat (z - 1)).
Proof. intros H. rewrite <- Z2Nat.inj_succ by lia. f_equal. lia. Qed.

Ltac evaluate t := let v := eval vm_compute in t in change t with v.

(* the steps of a replayed run: entering write(); one iteration of its loop up to the call of the
   encoder; the encoder's symbol loop by replay_loop2_ok; write_chunk; leaving the loop *)
Ltac write_call := unfold l2_write at 1; unfold write_fuel2; cbn [l2_p buf_size].
Ltac write_iteration :=
  rewrite to_nat_S by lia; cbn [l2_write_loop];
  match goal with |- context [?a <=? 0] => evaluate (a <=? 0) end;
  cbn [l2_chunk obind l2_p l2_e l2_tr l2_ps l2_pending l2_unc l2_new];
  match goal with |- context [fill_window ?a ?b ?c ?d] => evaluate (fill_window a b c d) end;
  cbn [obind l2_pending l2_e read_ahead unc_size rc_full g_base e_lz read_pos];
  match goal with |- context [ck_u32 ?a] => evaluate (ck_u32 a) end; cbn [obind].
Ltac symbols :=
  unfold encode_for_lzma2 at 1;
  match goal with |- context [is_started ?d] => evaluate (is_started d) end; cbn [negb];
  try (match goal with |- context [encode_init ?a ?b ?c] => evaluate (encode_init a b c) end; cbn [obind negb]);
  match goal with |- context [enc_loop2 _ _ ?f ?p ?ds ?e ?tr] =>
    let tr1 := fresh "tr" in let E := fresh in
    edestruct (replay_loop2_ok p ltac:(unfold REQ_FINISH; cbn; lia) ltac:(unfold I32_MAX; cbn; lia) f ds e tr) as [tr1 E];
    [vm_compute; reflexivity|rewrite E; clear E; cbn [obind]] end.
Ltac chunk :=
  match goal with |- context [write_chunk ?a ?b ?c] => evaluate (write_chunk a b c) end; cbn [obind].
Ltac write_done :=
  rewrite to_nat_S by lia; cbn [l2_write_loop];
  match goal with |- context [?a <=? 0] => evaluate (a <=? 0) end; cbn [obind fst snd].

(* The two earlier history policies are refuted: the uncompressed fallback reads before the start
   of the buffer (copy_uncompressed: Panic P_INDEX) *)

(* extra_size_before = max(64 KiB - dict_size, mode's) (repo commit fa095d0), normal mode,
   dict_size 4096: a 65465-byte incompressible chunk whose last consultation left 4094 bytes read
   ahead, with a window move in between *)
Definition old_max_witness_ops : list wop := [WoWrite 334097; WoWrite 100; WoFinish].
Definition old_max_witness_ds : list ditem :=
  repeat (DSym 273 273 false) 967 ++ [DSym 273 273 true; DChunk 65511] ++
  repeat (DSym 273 273 false) 239 ++ [DSym 216 216 false; DSym 4096 1 false; DSym 0 1 true; DChunk 65511].

Lemma uncompressed_fallback_in_window_max_refuted :
  l2_replay 1 true false 4096 273 None None old_max_witness_ops old_max_witness_ds = Panic P_INDEX.
Proof.
  unfold l2_replay, old_max_witness_ops.
  match goal with |- context [l2_new_with ?a ?b ?c ?d ?e ?f] => evaluate (l2_new_with a b c d e f) end.
  cbn [obind l2_run].
  (* the first write fills the window; the symbols up to the first chunk are coded *)
  write_call. write_iteration. symbols. chunk. write_done.
  (* the second write finds no room and no move due: symbols are coded until the look-ahead runs
     out; then the window moves, one more symbol fills the chunk, and the fallback reaches back
     beyond what the move kept *)
  write_call. write_iteration. symbols. write_iteration. symbols. chunk.
  reflexivity.
Qed.

(* the same history and decisions on the repaired policy: no panic, by lzma2_run_exact *)
Lemma old_max_witness_repaired :
  match l2_replay 0 true false 4096 273 None None old_max_witness_ops old_max_witness_ds with
  | Panic _ => False | _ => True end.
Proof.
  assert (H : okor (do s <- l2_new_repaired (list ditem) true false 4096 273 None None old_max_witness_ds;
                    l2_run _ replay_parse replay_chunkc s old_max_witness_ops []) (fun _ => True)).
  { eapply okor_weaken; [apply lzma2_run_exact|exact (fun _ _ => I)].
    - unfold opts_ok. lia.
    - exact I.
    - cbn. lia.
    - cbn. lia. }
  unfold l2_replay, l2_newenc. cbn [Z.eqb].
  fold (l2_new_repaired (list ditem) true false 4096 273 None None old_max_witness_ds).
  destruct (l2_new_repaired _ _ _ _ _ _ _ _) as [s| | |]; cbn [obind okor] in *; try tauto.
  destruct (l2_run _ _ _ _ _ _); cbn [obind okor] in *; tauto.
Qed.

(* extra_size_before = the mode's own (before fa095d0), fast mode, dict_size 4096 *)
Definition old_mode_witness_ops : list wop := [WoWrite 268834; WoWrite 100; WoFinish].
Definition old_mode_witness_ds : list ditem :=
  repeat (DSym 273 273 false) 759 ++ [DSym 273 273 true; DChunk 65511] ++
  repeat (DSym 273 273 false) 223 ++ [DSym 1 1 true; DChunk 65511].

Lemma uncompressed_fallback_in_window_old_refuted :
  l2_replay 2 false false 4096 273 None None old_mode_witness_ops old_mode_witness_ds = Panic P_INDEX.
Proof.
  unfold l2_replay, old_mode_witness_ops.
  match goal with |- context [l2_new_with ?a ?b ?c ?d ?e ?f] => evaluate (l2_new_with a b c d e f) end.
  cbn [obind l2_run].
  (* the first write fills the window; the symbols up to the first chunk are coded *)
  write_call. write_iteration. symbols. chunk. write_done.
  (* the second write finds no room and no move due: symbols are coded until the look-ahead runs
     out; then the window moves, one more symbol fills the chunk, and the fallback reaches back
     beyond what the move kept *)
  write_call. write_iteration. symbols. write_iteration. symbols. chunk.
  reflexivity.
Qed.

(* lookahead_clamped, top level: see run_strat_frame.  The hypothesis on write_pos - read_pos is
   what has_enough_data guarantees in the steady phase: pidx <= read_limit = write_pos -
   keep_size_after and keep_size_after = EXTRA_SIZE_AFTER + MATCH_LEN_MAX (phi_consult_nopend +
   the contract read_ahead <= EXTRA_SIZE_AFTER), so every clamp the parsers apply — min(avail,
   MATCH_LEN_MAX), min(avail, nice_len), min(get_avail(), OPTS - 1) — returns the clamp. *)
Theorem lookahead_clamped : forall (PS : Type) p (s : strat PS) e e' tr tr',
  wf_p p -> minv p e -> minv p e' ->
  read_ahead e = read_ahead e' ->
  match_len_max p + extra_after p - read_ahead e <= write_pos (e_lz e) - read_pos (e_lz e) ->
  match_len_max p + extra_after p - read_ahead e' <= write_pos (e_lz e') - read_pos (e_lz e') ->
  forall e1 len full ps1 tr1 e1' len' full' ps1' tr1',
  run_strat PS p s e tr = Ok (e1, len, full, ps1, tr1) ->
  run_strat PS p s e' tr' = Ok (e1', len', full', ps1', tr1') ->
  len = len' /\ full = full' /\ ps1 = ps1' /\ read_ahead e1 = read_ahead e1'.
Proof.
  intros PS p s e e' tr tr'.
  exact (run_strat_frame PS p s e e' tr tr').
Qed.

Lemma l1_results_finished exp : forall ops cur rs c,
  l1_results exp cur ops = (rs, c, true) -> match exp with Some ex => c = ex | None => True end.
Proof.
  induction ops as [|[n| |] r IH]; intros cur rs c H; cbn [l1_results] in H.
  - discriminate.
  - destruct (match exp with Some ex => ex <? cur + n | None => false end).
    + destruct (l1_results exp cur r) as [[rs' c'] f'] eqn:E. injection H as _ <- ->. eapply IH; exact E.
    + destruct (l1_results exp (cur + n) r) as [[rs' c'] f'] eqn:E. injection H as _ <- ->. eapply IH; exact E.
  - destruct (l1_results exp cur r) as [[rs' c'] f'] eqn:E. injection H as _ <- ->. eapply IH; exact E.
  - destruct exp as [ex|]; [|exact I].
    destruct (Z.eqb_spec ex cur) as [Heq|Hne]; cbn [negb] in H; [injection H as _ <-; exact (eq_sym Heq)|discriminate].
Qed.

(* An LZMAWriter that was given an expected size [ex]: for every call history and parser, what the
   calls return is [l1_results (Some ex) 0 ops] — a write() of n bytes is rejected (InvalidInput,
   nothing accepted, the writer stays usable) exactly when the bytes accepted so far plus n exceed
   ex; finish() is rejected exactly when the bytes accepted differ from ex — and when finish()
   succeeds the header's size field (ex, written by the constructor) equals the number of bytes
   accepted, which equals the sum of the coded symbol lengths. *)
Theorem lzma_expected_size : forall (PS : Type) (parse : PS -> Z -> Z -> strat PS) (ps0 : PS)
    normal bt4 dict nice ex ops,
  opts_ok dict nice -> ops_ok ops -> ops_total ops <= U32_MAX ->
  okor (do s <- l1_new PS normal bt4 dict nice None (Some ex) ps0; l1_run PS parse s ops [])
       (fun r =>
          let '(s1, res) := r in
          let '(rs, c, fin) := l1_results (Some ex) 0 ops in
          res = rs /\ sum_fill (l1_tr _ s1) = c /\
          (fin = true -> ex = c /\ sum_sym (l1_tr _ s1) = ex)).
Proof.
  intros PS parse ps0 normal bt4 dict nice ex ops Ho Hok Hcap.
  eapply okor_weaken.
  { apply (lzma1_run_exact PS parse ps0 normal bt4 dict nice None (Some ex) ops Ho I Hok). lia. }
  intros [s1 res]. destruct (l1_results (Some ex) 0 ops) as [[rs c] fin] eqn:E.
  intros (R1 & R2 & R3). split; [exact R1|]. split; [exact R2|].
  intros Hf. subst fin. pose proof (l1_results_finished _ _ _ _ _ E) as Hc. cbn in Hc.
  destruct (R3 eq_refl) as [R4 _]. split; [symmetry; exact Hc|]. rewrite R4. exact Hc.
Qed.

(* fill_window before the repair "write() of a slice of 2 GiB or more panics in fill_window":
   for a slice of 2^31 bytes the number of bytes to copy came out as the whole slice length,
   whatever the room left in the window (655906 = buf_size of preset 0's window): the slice
   buf[write_pos .. write_pos + len] is then out of range. *)
Lemma fill_window_huge_slice_old_refuted :
  fill_len_old 655906 2147483648 = 2147483648 /\ 655906 < fill_len_old 655906 2147483648.
Proof. vm_compute. split; reflexivity. Qed.

(* The debug assertion of process_pending_bytes as it was (`pending_size < old_pending`) fails in
   a reachable state: fast mode / HC4, one byte of preset dictionary pending, one more byte
   written, finish(): the pending position still sees fewer than 4 bytes. *)
Lemma process_pending_strict_assert_refuted :
  match enc_new false false 4096 0 32 with
  | Ok (p, _) =>
      let d := mkLzd 0 1 true 2 1 in
      match process_pending p d [] with
      | Ok (d1, _) => pending_assert_old (pending_size d) (pending_size d1) = false
      | _ => False
      end
  | _ => False
  end.
Proof. vm_compute. reflexivity. Qed.
