(* Codec/TruncLzma1Proofs.v — C05 for the LZMAReader model (Codec/Lzma1.v) under TRUNCATION of its
   source.
   (A) Input monotonicity of the reader, for ANY input (no assumption on where it came from): a
       construction / read() / read history that succeeds over an input succeeds identically over
       every extension of that input, and leaves the additional bytes unread.
   (B) For every stream the writer model produces and every proper prefix of it: the construction
       fails with UnexpectedEof, or the reader - driven with any history of positive destination
       sizes - returns a prefix of the data and then fails with UnexpectedEof.  It never panics,
       never runs out of the model's fuel and never reports the end of the stream.
   (B) rests on (A), on lzma_decode_total (LzmaTotalProofs.v: the decoder survives the zero bytes
   the range decoder substitutes past the end of its source), on the reader invariant of
   Total1Proofs.v, which every iteration keeps over any source, and on the round trip over the
   complete stream (Lzma1ReadProofs.v), which ends with nothing left unread. *)
From LzVerif Require Import Base.Bytes Codec.Store Codec.Range Codec.ProbProofs
  Codec.LzWindow Codec.LzmaDec Codec.LzmaEnc Codec.LzmaAbs Codec.LzWindowProofs Codec.LzmaAbsProofs
  Codec.RangeEncProofs Codec.RangeDecProofs Codec.RangeProofs Codec.LzmaRoundtrip
  Codec.LzmaChunkProofs Codec.LzmaReadProofs Codec.LzmaTotalProofs Codec.LzmaWriters Codec.Lzma1
  Codec.Lzma1LoopProofs Codec.Lzma1ReadProofs Codec.TruncProofs Codec.TotalCoreProofs Codec.Total1Proofs.

(* the reader with [tl] appended to what its source still holds *)
Definition l1_app (s : lzma1) (tl : list Z) : lzma1 :=
  mkLzma1 (l_coder s) (l_win s) (rd_app (l_rc s) tl) (l_probs s) (l_end_reached s) (l_remaining s).

Definition l1_res_app (tl : list Z) (r : list Z * lzma1) : list Z * lzma1 := (fst r, l1_app (snd r) tl).

(* a whole read history that also reports the bytes handed out before a failing call: the same
   calls as lzma1_read_all (Lzma1.v), result (bytes of the successful calls, how it ended) *)
Fixpoint lzma1_read_obs (fuel : nat) (s : lzma1) (sizes all : list Z) (acc : list Z) : list Z * outcome lzma1 :=
  match fuel with
  | O => (frev acc, Fuel)
  | S f =>
      let '(sz, rest) := match sizes with [] => (4096, all) | x :: r => (x, r) end in
      match lzma1_read s sz with
      | Ok (out, s1) =>
          if (0 <? sz) && (zlen out =? 0) then (frev acc, Ok s1)
          else lzma1_read_obs f s1 (match rest with [] => all | _ => rest end) all (rev_append out acc)
      | Err e => (frev acc, Err e)
      | Panic e => (frev acc, Panic e)
      | Fuel => (frev acc, Fuel)
      end
  end.

(* lzma1_read_obs refines lzma1_read_all *)
Lemma read_obs_all fuel : forall s sizes all acc,
  lzma1_read_all fuel s sizes all acc =
  match snd (lzma1_read_obs fuel s sizes all acc) with
  | Ok s1 => Ok (fst (lzma1_read_obs fuel s sizes all acc), s1)
  | Err e => Err e
  | Panic e => Panic e
  | Fuel => Fuel
  end.
Proof.
  induction fuel as [|f IH]; intros s sizes all acc; cbn [lzma1_read_all lzma1_read_obs]; [reflexivity|].
  destruct (match sizes with [] => (4096, all) | x :: r => (x, r) end) as [sz rest].
  destruct (lzma1_read s sz) as [[out s1]|e|e|]; cbn [obind fst snd]; try reflexivity.
  destruct ((0 <? sz) && (zlen out =? 0)); [reflexivity | apply IH].
Qed.

(* construction over p and over p ++ tl: UnexpectedEof over p, or the same outcome with [tl] unread *)
Lemma rdec_init_tr p tl : rdec_init p = Err E_UNEXPECTED_EOF \/
  (rdec_init (p ++ tl) = omap (fun d => rd_app d tl) (rdec_init p) /\ forall d, rdec_init p = Ok d -> rd_over d = 0).
Proof.
  destruct p as [|b0 [|b1 [|b2 [|b3 [|b4 r]]]]]; cbn [app rdec_init]; try (left; reflexivity);
    destruct (negb (b0 =? 0)); try (left; reflexivity); right; (split; [reflexivity|]); intros d H; try discriminate H.
  apply Ok_inj in H. subst d. reflexivity.
Qed.

Lemma construct2_tr p tl u lc lp pb dict popt :
  lzma1_construct2 p u lc lp pb dict popt = Err E_UNEXPECTED_EOF \/
  (lzma1_construct2 (p ++ tl) u lc lp pb dict popt = omap (fun s => l1_app s tl) (lzma1_construct2 p u lc lp pb dict popt) /\
   forall st, lzma1_construct2 p u lc lp pb dict popt = Ok st -> rd_over (l_rc st) = 0).
Proof.
  unfold lzma1_construct2. destruct ((8 <? lc) || (4 <? lp) || (4 <? pb)); [right; split; [reflexivity | discriminate]|].
  destruct (lzma1_get_dict_size dict) as [ds|e|e|]; cbn [obind]; try (right; split; [reflexivity | discriminate]).
  match goal with |- context [if ?c then lzma1_get_dict_size (wrap32 u) else Ok ds] =>
    destruct (if c then lzma1_get_dict_size (wrap32 u) else Ok ds) as [ds1|e|e|] end; cbn [obind];
    try (right; split; [reflexivity | discriminate]).
  destruct (rdec_init_tr p tl) as [->|(-> & Ho)]; [left; reflexivity|]. right.
  destruct (rdec_init p) as [dt|e|e|]; cbn [omap obind]; try (split; [reflexivity | discriminate]).
  destruct (lzma1_get_dict_size ds1) as [ds2|e|e|]; cbn [obind omap]; try (split; [reflexivity | discriminate]).
  split; [reflexivity|]. intros st H. apply Ok_inj in H. subst st. exact (Ho dt eq_refl).
Qed.

Lemma construct2_mono p tl u lc lp pb dict popt st :
  lzma1_construct2 p u lc lp pb dict popt = Ok st ->
  lzma1_construct2 (p ++ tl) u lc lp pb dict popt = Ok (l1_app st tl) /\ rd_over (l_rc st) = 0.
Proof.
  intros H. destruct (construct2_tr p tl u lc lp pb dict popt) as [E|(E & Ho)]; [congruence|].
  rewrite E, H. split; [reflexivity | exact (Ho st H)].
Qed.

Lemma construct2_trunc p tl u lc lp pb dict popt sf :
  lzma1_construct2 (p ++ tl) u lc lp pb dict popt = Ok sf ->
  lzma1_construct2 p u lc lp pb dict popt = Err E_UNEXPECTED_EOF \/
  exists st, lzma1_construct2 p u lc lp pb dict popt = Ok st /\ sf = l1_app st tl /\ rd_over (l_rc st) = 0.
Proof.
  intros H. destruct (construct2_tr p tl u lc lp pb dict popt) as [E|(E & Ho)]; [left; exact E|]. right.
  rewrite E in H. destruct (lzma1_construct2 p u lc lp pb dict popt) as [st|e|e|]; try discriminate H.
  apply Ok_inj in H. exists st. split; [reflexivity|]. split; [symmetry; exact H | exact (Ho st eq_refl)].
Qed.

Lemma iter_mono s len tl out s1 : rd_over (l_rc s) = 0 -> lzma1_iter s len = Ok (out, s1) ->
  lzma1_iter (l1_app s tl) len = Ok (out, l1_app s1 tl) /\ rd_over (l_rc s1) = 0.
Proof.
  destruct s as [c w d t e r]. unfold l1_app, lzma1_iter; cbn [l_coder l_win l_rc l_probs l_end_reached l_remaining].
  intros Hd0 H.
  destruct (lzma_decode c _ d t) as [[[[[c1 w1] st] d1] t1]|x|x|] eqn:Ed; cbn [obind] in H; try discriminate.
  destruct (0 <? rd_over d1) eqn:Eo; [discriminate|]. apply Z.ltb_ge in Eo.
  pose proof (lzma_decode_over_mono _ _ _ _ _ _ _ _ _ Ed) as Hm.
  assert (Hd1 : rd_over d1 = 0) by lia.
  rewrite (lzma_decode_mono _ _ _ _ tl _ _ _ _ _ Ed ltac:(lia)). cbn [obind].
  rewrite rd_app_over. destruct (Z.ltb_spec 0 (rd_over d1)); [lia|].
  destruct st as [u|x|x|].
  - cbn [obind] in *. destruct (lzwin_flush w1) as [o w2].
    destruct (_ && lzwin_has_pending w2); [discriminate|].
    apply Ok_inj in H. apply pair_inj in H as [<- <-]. split; [reflexivity | exact Hd1].
  - destruct (negb (r =? U64_MAX) || negb (c_rep0 c1 =? 4294967295)); cbn [obind] in *; [discriminate|].
    destruct (0 <? rd_over (rdec_normalize d1)) eqn:En; cbn [obind] in *; [discriminate|]. apply Z.ltb_ge in En.
    pose proof (normalize_over_mono d1) as Hn.
    rewrite (normalize_app d1 tl ltac:(lia)). rewrite rd_app_over.
    destruct (Z.ltb_spec 0 (rd_over (rdec_normalize d1))); [lia|]. cbn [obind].
    destruct (lzwin_flush w1) as [o w2].
    destruct (_ && lzwin_has_pending w2); [discriminate|].
    apply Ok_inj in H. apply pair_inj in H as [<- <-]. split; [reflexivity | cbn [l_rc]; lia].
  - cbn [obind] in H. discriminate.
  - cbn [obind] in H. discriminate.
Qed.

Lemma l1_app_end s tl : l_end_reached (l1_app s tl) = l_end_reached s.
Proof. reflexivity. Qed.

Lemma loop_mono fuel tl : forall s len acc out s1, rd_over (l_rc s) = 0 ->
  lzma1_read_loop fuel s len acc = Ok (out, s1) ->
  lzma1_read_loop fuel (l1_app s tl) len acc = Ok (out, l1_app s1 tl) /\ rd_over (l_rc s1) = 0.
Proof.
  induction fuel as [|f IH]; intros s len acc out s1 Hd0 H; cbn [lzma1_read_loop] in *.
  - destruct (len <=? 0); [|discriminate]. apply Ok_inj in H. apply pair_inj in H as [<- <-]. split; [reflexivity | exact Hd0].
  - destruct (len <=? 0).
    + apply Ok_inj in H. apply pair_inj in H as [<- <-]. split; [reflexivity | exact Hd0].
    + destruct (lzma1_iter s len) as [[o s2]|x|x|] eqn:Ei; cbn [obind] in H; try discriminate.
      destruct (iter_mono s len tl o s2 Hd0 Ei) as (Hf & Ho). rewrite Hf. cbn [obind]. rewrite l1_app_end.
      destruct (l_end_reached s2).
      * apply Ok_inj in H. apply pair_inj in H as [<- <-]. split; [reflexivity | exact Ho].
      * apply IH; assumption.
Qed.

Theorem lzma1_read_mono s buflen tl out s1 : rd_over (l_rc s) = 0 -> lzma1_read s buflen = Ok (out, s1) ->
  lzma1_read (l1_app s tl) buflen = Ok (out, l1_app s1 tl) /\ rd_over (l_rc s1) = 0.
Proof.
  unfold lzma1_read. intros Hd0 H. rewrite l1_app_end.
  destruct (buflen <=? 0); [apply Ok_inj in H; apply pair_inj in H as [<- <-]; split; [reflexivity | exact Hd0]|].
  destruct (l_end_reached s); [apply Ok_inj in H; apply pair_inj in H as [<- <-]; split; [reflexivity | exact Hd0]|].
  apply loop_mono; assumption.
Qed.

Theorem lzma1_read_all_mono fuel tl : forall s sizes all acc out s1, rd_over (l_rc s) = 0 ->
  lzma1_read_all fuel s sizes all acc = Ok (out, s1) ->
  lzma1_read_all fuel (l1_app s tl) sizes all acc = Ok (out, l1_app s1 tl).
Proof.
  induction fuel as [|f IH]; intros s sizes all acc out s1 Hd0 H; cbn [lzma1_read_all] in *; [discriminate|].
  destruct (match sizes with [] => (4096, all) | x :: r => (x, r) end) as [sz rest].
  destruct (lzma1_read s sz) as [[o s2]|x|x|] eqn:Er; cbn [obind] in H; try discriminate.
  destruct (lzma1_read_mono s sz tl o s2 Hd0 Er) as (Hf & Ho). rewrite Hf. cbn [obind].
  destruct ((0 <? sz) && (zlen o =? 0)).
  - apply Ok_inj in H. apply pair_inj in H as [<- <-]. reflexivity.
  - apply IH; assumption.
Qed.

(* (B) one iteration over a truncated source: the decoder survives, the iteration reports
   UnexpectedEof or returns Ok (that it then agrees with the run over the complete source is
   iter_cut, by iter_mono) *)
Lemma iter_trunc s len tl r : inv1 s -> 0 <= csm s len ->
  lzma1_iter (l1_app s tl) len = Ok r ->
  lzma1_iter s len = Err E_UNEXPECTED_EOF \/ exists out s1, lzma1_iter s len = Ok (out, s1).
Proof.
  intros (hist & R & Hhb & Hco & Hpd & Hpr & Hwf & Hd0 & _) Hcsm.
  destruct (set_limit_rel (l_win s) hist (csm s len) R Hcsm) as (R' & Hpl').
  destruct (lzma_decode_total (l_coder s) (lzwin_set_limit (l_win s) (csm s len)) hist (l_rc s) (l_probs s)
              R' Hhb Hco Hpl' Hpd Hpr Hwf) as (c1 & w1 & st & d1 & t1 & Hdec & Hst & _).
  pose proof (lzma_decode_over_mono _ _ _ _ _ _ _ _ _ Hdec) as Hm.
  unfold lzma1_iter. fold (csm s len). fold (csm (l1_app s tl) len).
  change (csm (l1_app s tl) len) with (csm s len).
  cbn [l1_app l_coder l_win l_rc l_probs l_end_reached l_remaining].
  rewrite Hdec. cbn [obind].
  destruct (Z.ltb_spec 0 (rd_over d1)) as [Hov|Hnov]; [intros _; left; reflexivity|].
  rewrite (lzma_decode_mono _ _ _ _ tl _ _ _ _ _ Hdec ltac:(lia)). cbn [obind]. rewrite rd_app_over.
  destruct (Z.ltb_spec 0 (rd_over d1)); [lia|].
  destruct Hst as [->|(e & ->)].
  - cbn [obind]. destruct (lzwin_flush w1) as [o w2].
    destruct (_ && lzwin_has_pending w2); [discriminate|]. intros _. right. eexists. eexists. reflexivity.
  - destruct (negb (l_remaining s =? U64_MAX) || negb (c_rep0 c1 =? 4294967295)); cbn [obind]; [discriminate|].
    destruct (Z.ltb_spec 0 (rd_over (rdec_normalize d1))) as [Hov2|Hnov2]; cbn [obind]; [intros _; left; reflexivity|].
    pose proof (normalize_over_mono d1) as Hn.
    rewrite (normalize_app d1 tl ltac:(lia)). rewrite rd_app_over.
    destruct (Z.ltb_spec 0 (rd_over (rdec_normalize d1))); [lia|]. cbn [obind].
    destruct (lzwin_flush w1) as [o w2].
    destruct (_ && lzwin_has_pending w2); [discriminate|]. intros _. right. eexists. eexists. reflexivity.
Qed.

(* the read loops over the truncated source [s], given that they succeed over the complete one
   [l1_app s tl]: UnexpectedEof, or the same bytes and the same state short of [tl].  The
   invariant of Total1Proofs.v keeps the decoder alive over the truncated source. *)
Section Cut.
Variable tl : list Z.
Notation EOF := (Err E_UNEXPECTED_EOF).

Lemma iter_cut s len out sf : inv1 s -> l_end_reached s = false -> 0 < len ->
  lzma1_iter (l1_app s tl) len = Ok (out, sf) ->
  lzma1_iter s len = EOF \/ exists s1, lzma1_iter s len = Ok (out, s1) /\ sf = l1_app s1 tl /\ rinv1 s1.
Proof.
  intros Hi He Hlen Hf.
  pose proof Hi as (_ & _ & _ & _ & _ & _ & _ & Ho & _ & Hrem).
  destruct (iter_trunc s len tl _ Hi (proj1 (proj1 (csm_range s len Hrem Hlen))) Hf) as [E|(o & s1 & E)]; [left; exact E|].
  right. destruct (iter_mono s len tl o s1 Ho E) as (Hm & _). rewrite Hm in Hf.
  apply Ok_inj in Hf. apply pair_inj in Hf as [<- <-]. exists s1. split; [exact E|]. split; [reflexivity|].
  destruct (iter1_total s len Hi He Hlen) as [(e & X)|(o' & s1' & X & Hr & _)]; rewrite E in X; [discriminate|].
  apply Ok_inj in X. apply pair_inj in X as [_ <-]. exact Hr.
Qed.

Lemma loop_cut fuel : forall s len acc out sf, inv1 s -> l_end_reached s = false ->
  lzma1_read_loop fuel (l1_app s tl) len acc = Ok (out, sf) ->
  lzma1_read_loop fuel s len acc = EOF \/
  exists s1, lzma1_read_loop fuel s len acc = Ok (out, s1) /\ sf = l1_app s1 tl /\ rinv1 s1.
Proof.
  assert (Hstop : forall s (acc out : list Z) sf, inv1 s -> Ok (frev acc, l1_app s tl) = Ok (out, sf) ->
            exists s1, Ok (frev acc, s) = Ok (out, s1) /\ sf = l1_app s1 tl /\ rinv1 s1).
  { intros s acc out sf Hi H. apply Ok_inj in H. apply pair_inj in H as [<- <-].
    exists s. split; [reflexivity|]. split; [reflexivity | right; exact Hi]. }
  induction fuel as [|f IH]; intros s len acc out sf Hi He H; cbn [lzma1_read_loop] in *.
  - destruct (len <=? 0); [right; apply Hstop; assumption | discriminate].
  - destruct (Z.leb_spec len 0) as [Hz|Hpos]; [right; apply Hstop; assumption|].
    destruct (lzma1_iter (l1_app s tl) len) as [[o sf2]|x|x|] eqn:Ei; cbn [obind] in H; try discriminate.
    destruct (iter_cut s len o sf2 Hi He Hpos Ei) as [E|(s2 & E & -> & Hr)]; rewrite E; cbn [obind]; [left; reflexivity|].
    rewrite l1_app_end in H. destruct (l_end_reached s2) eqn:Ee.
    + right. apply Ok_inj in H. apply pair_inj in H as [<- <-].
      exists s2. split; [reflexivity|]. split; [reflexivity | exact Hr].
    + apply IH; [destruct Hr as [X|X]; [congruence | exact X] | exact Ee | exact H].
Qed.

Lemma read_cut s n out sf : rinv1 s -> lzma1_read (l1_app s tl) n = Ok (out, sf) ->
  lzma1_read s n = EOF \/ exists s1, lzma1_read s n = Ok (out, s1) /\ sf = l1_app s1 tl /\ rinv1 s1.
Proof.
  unfold lzma1_read. intros Hr H. rewrite l1_app_end in H.
  assert (Hstop : Ok ([], l1_app s tl) = Ok (out, sf) ->
            exists s1, Ok ([], s) = Ok (out, s1) /\ sf = l1_app s1 tl /\ rinv1 s1).
  { intros X. apply Ok_inj in X. apply pair_inj in X as [<- <-]. exists s. auto. }
  destruct (n <=? 0); [right; exact (Hstop H)|].
  destruct (l_end_reached s) eqn:Ee; [right; exact (Hstop H)|].
  apply loop_cut; [destruct Hr as [X|X]; [congruence | exact X] | exact Ee | exact H].
Qed.

Lemma read_all_acc fuel : forall s cur all acc out sf,
  lzma1_read_all fuel s cur all acc = Ok (out, sf) -> exists new, out = rev acc ++ new.
Proof.
  induction fuel as [|f IH]; intros s cur all acc out sf H; cbn [lzma1_read_all] in H; [discriminate|].
  destruct (match cur with [] => (4096, all) | x :: r => (x, r) end) as [sz rest].
  destruct (lzma1_read s sz) as [[o s2]|x|x|]; cbn [obind] in H; try discriminate.
  destruct ((0 <? sz) && (zlen o =? 0)).
  - apply Ok_inj in H. apply pair_inj in H as [<- _]. exists []. rewrite frev_rev, app_nil_r. reflexivity.
  - apply IH in H as (new & ->). exists (o ++ new).
    rewrite rev_append_rev, rev_app_distr, rev_involutive, <- app_assoc. reflexivity.
Qed.

(* a whole read history: UnexpectedEof after a prefix of the output, or the end of the complete
   run with [tl] still unread *)
Lemma read_all_cut fuel : forall s cur all acc out sf, rinv1 s ->
  lzma1_read_all fuel (l1_app s tl) cur all acc = Ok (out, sf) ->
  (exists m, lzma1_read_obs fuel s cur all acc = (firstn m out, EOF)) \/ exists s1, sf = l1_app s1 tl.
Proof.
  induction fuel as [|f IH]; intros s cur all acc out sf Hr H; [discriminate|].
  destruct (read_all_acc _ _ _ _ _ _ _ H) as (new & Hout).
  cbn [lzma1_read_all lzma1_read_obs] in *.
  destruct (match cur with [] => (4096, all) | x :: r => (x, r) end) as [sz rest].
  destruct (lzma1_read (l1_app s tl) sz) as [[o sf2]|x|x|] eqn:Er; cbn [obind] in H; try discriminate.
  destruct (read_cut s sz o sf2 Hr Er) as [E|(s2 & E & -> & Hr2)]; rewrite E.
  - left. exists (length (rev acc)). rewrite Hout, firstn_app, Nat.sub_diag, firstn_all, firstn_O, app_nil_r, frev_rev.
    reflexivity.
  - destruct ((0 <? sz) && (zlen o =? 0)).
    + right. apply Ok_inj in H. apply pair_inj in H as [_ <-]. exists s2. reflexivity.
    + apply IH; assumption.
Qed.

End Cut.

(* TRUNCATED STREAM, general form: optional header / preset dictionary, the part of the source
   behind the header is a proper prefix [p] of the coded stream [body] *)
Theorem lzma1_truncated_body : forall lc lp pb dict popt data syms use_header use_end_marker expected stream sizes,
  0 <= lc <= 8 -> 0 <= lp <= 4 -> 0 <= pb <= 4 -> 4096 <= dict <= 2147483648 ->
  let preset := preset_list popt in
  bytes_ok preset = true -> bytes_ok data = true -> no_end syms ->
  preset_hyps dict preset data use_end_marker ->
  lzma1_write lc lp pb dict preset data syms use_header use_end_marker expected = Ok stream ->
  (forall E c' h', enc_syms (coder_new lc lp pb) (ehist_new dict preset data) (syms ++ end_syms use_end_marker) = Ok (E, c', h') ->
     events_bits E <= RC_MAX_BITS) ->
  Forall (fun z => 0 < z) sizes ->
  let uncomp := if use_end_marker then U64_MAX else zlen data in
  exists body,
    stream = (if use_header then lzma1_header lc lp pb dict expected else []) ++ body /\
    forall p tl, body = p ++ tl -> tl <> [] ->
      lzma1_construct2 p uncomp lc lp pb dict popt = Err E_UNEXPECTED_EOF \/
      exists s0, lzma1_construct2 p uncomp lc lp pb dict popt = Ok s0 /\
        forall fuel, zlen data + 2 <= Z.of_nat fuel ->
        exists m, lzma1_read_obs fuel s0 sizes sizes [] = (firstn m data, Err E_UNEXPECTED_EOF).
Proof.
  intros lc lp pb dict popt data syms use_header marker expected stream sizes Hlc Hlp Hpb Hdict preset
         Hbp Hbd Hne HP Hw Hbits Hsizes uncomp.
  destruct (lzma1_roundtrip_body lc lp pb dict popt data syms use_header marker expected stream [] sizes Hlc Hlp Hpb Hdict
              Hbp Hbd Hne HP Hw Hbits Hsizes) as (body & sf & Hst & Hc2 & _ & Hread).
  rewrite app_nil_r in Hc2.
  exists body. split; [exact Hst|]. intros p tl Hbody Htl. subst body.
  destruct (construct2_trunc p tl _ _ _ _ _ _ _ Hc2) as [He|(s0 & Hc & -> & Ho)]; [left; exact He|].
  right. exists s0. split; [exact Hc|]. intros fuel Hfuel.
  assert (Hu : 0 <= uncomp) by (unfold uncomp, U64_MAX; destruct marker; [lia | apply zlen_nonneg]).
  pose proof (construct2_inv p uncomp lc lp pb dict popt ltac:(lia) ltac:(lia) ltac:(lia) Hu
                ltac:(destruct popt; [exact Hbp | exact I])) as HC.
  fold uncomp in Hc. rewrite Hc in HC. destruct HC as (Hi & _).
  destruct (Hread fuel Hfuel) as (s_end & Hra & Hun).
  destruct (read_all_cut tl fuel s0 sizes sizes [] data s_end (or_intror Hi) Hra) as [Hm|(s1 & ->)]; [exact Hm|].
  exfalso. unfold lzma1_unconsumed in Hun. cbn [l1_app l_rc rd_app rd_in] in Hun.
  apply app_eq_nil in Hun as [_ Hun]. exact (Htl Hun).
Qed.

(* raw stream (no header, no preset dictionary): every proper prefix of what the writer produced *)
Theorem lzma1_truncated_raw : forall lc lp pb dict data syms use_end_marker stream sizes k,
  0 <= lc <= 8 -> 0 <= lp <= 4 -> 0 <= pb <= 4 -> 4096 <= dict <= 2147483648 ->
  bytes_ok data = true -> no_end syms ->
  lzma1_write lc lp pb dict [] data syms false use_end_marker None = Ok stream ->
  (forall E c' h', enc_syms (coder_new lc lp pb) (ehist_new dict [] data) (syms ++ end_syms use_end_marker) = Ok (E, c', h') ->
     events_bits E <= RC_MAX_BITS) ->
  Forall (fun z => 0 < z) sizes ->
  (k < length stream)%nat ->
  let uncomp := if use_end_marker then U64_MAX else zlen data in
  lzma1_construct2 (firstn k stream) uncomp lc lp pb dict None = Err E_UNEXPECTED_EOF \/
  exists s0, lzma1_construct2 (firstn k stream) uncomp lc lp pb dict None = Ok s0 /\
    forall fuel, zlen data + 2 <= Z.of_nat fuel ->
    exists m, lzma1_read_obs fuel s0 sizes sizes [] = (firstn m data, Err E_UNEXPECTED_EOF) /\
              lzma1_read_all fuel s0 sizes sizes [] = Err E_UNEXPECTED_EOF.
Proof.
  intros lc lp pb dict data syms marker stream sizes k Hlc Hlp Hpb Hdict Hbd Hne Hw Hbits Hsizes Hk uncomp.
  destruct (lzma1_truncated_body lc lp pb dict None data syms false marker None stream sizes Hlc Hlp Hpb Hdict
              eq_refl Hbd Hne (preset_hyps_none dict data marker ltac:(lia)) Hw Hbits Hsizes)
    as (body & Hst & Htr).
  cbn [app] in Hst. subst body.
  assert (Htl : skipn k stream <> []).
  { intros Hnil. pose proof (skipn_length k stream) as Hl. rewrite Hnil in Hl. cbn [length] in Hl. lia. }
  destruct (Htr (firstn k stream) (skipn k stream) (eq_sym (firstn_skipn k stream)) Htl) as [He|(s0 & Hc & Hread)];
    [left; exact He|].
  right. exists s0. split; [exact Hc|]. intros fuel Hfuel. destruct (Hread fuel Hfuel) as (m & Hobs).
  exists m. split; [exact Hobs|]. rewrite read_obs_all, Hobs. reflexivity.
Qed.

(* the .lzma file (13-byte header, optional preset dictionary): every proper prefix *)
Lemma new_mem_limit_short input mem popt : (length input < 13)%nat ->
  lzma1_new_mem_limit input mem popt = Err E_UNEXPECTED_EOF.
Proof.
  intros H. unfold lzma1_new_mem_limit.
  do 13 (destruct input as [|? input]; [reflexivity|]). cbn [length] in H. lia.
Qed.

Theorem lzma1_truncated_header : forall lc lp pb dict popt data syms use_end_marker stream sizes mem_limit_kb need k,
  0 <= lc <= 8 -> 0 <= lp <= 4 -> 0 <= pb <= 4 -> 4096 <= dict <= 2147483648 ->
  let preset := preset_list popt in
  bytes_ok preset = true -> bytes_ok data = true -> no_end syms ->
  preset_hyps dict preset data use_end_marker ->
  lzma1_write lc lp pb dict preset data syms true use_end_marker
              (if use_end_marker then None else Some (zlen data)) = Ok stream ->
  (forall E c' h', enc_syms (coder_new lc lp pb) (ehist_new dict preset data) (syms ++ end_syms use_end_marker) = Ok (E, c', h') ->
     events_bits E <= RC_MAX_BITS) ->
  Forall (fun z => 0 < z) sizes ->
  lzma1_memory_usage dict lc lp = Ok need -> need <= mem_limit_kb ->
  (k < length stream)%nat ->
  lzma1_new_mem_limit (firstn k stream) mem_limit_kb popt = Err E_UNEXPECTED_EOF \/
  exists s0, lzma1_new_mem_limit (firstn k stream) mem_limit_kb popt = Ok s0 /\
    forall fuel, zlen data + 2 <= Z.of_nat fuel ->
    exists m, lzma1_read_obs fuel s0 sizes sizes [] = (firstn m data, Err E_UNEXPECTED_EOF) /\
              lzma1_read_all fuel s0 sizes sizes [] = Err E_UNEXPECTED_EOF.
Proof.
  intros lc lp pb dict popt data syms marker stream sizes mem need k Hlc Hlp Hpb Hdict preset Hbp Hbd Hne HP Hw Hbits
         Hsizes Hmem Hneed Hk.
  destruct (lzma1_roundtrip_body lc lp pb dict popt data syms true marker _ stream [] sizes Hlc Hlp Hpb Hdict
              Hbp Hbd Hne HP Hw Hbits Hsizes) as (_ & _ & _ & _ & Hsmall & _).
  destruct (lzma1_truncated_body lc lp pb dict popt data syms true marker _ stream sizes Hlc Hlp Hpb Hdict
              Hbp Hbd Hne HP Hw Hbits Hsizes) as (body & Hst & Htr).
  set (hdr := lzma1_header lc lp pb dict (if marker then None else Some (zlen data))) in *.
  assert (Hhl : length hdr = 13%nat) by reflexivity.
  destruct (le_lt_dec 13 k) as [Hge|Hlt].
  - (* the header is complete *)
    assert (Hp : firstn k stream = hdr ++ firstn (k - 13) body).
    { rewrite Hst, firstn_app, Hhl. rewrite firstn_all2 by lia. reflexivity. }
    assert (Htl : skipn (k - 13) body <> []).
    { intros Hnil. pose proof (skipn_length (k - 13) body) as Hl. rewrite Hnil in Hl. cbn [length] in Hl.
      rewrite Hst, app_length, Hhl in Hk. lia. }
    pose proof (zlen_nonneg data) as Hd0.
    rewrite Hp. unfold hdr.
    rewrite (header_parse lc lp pb dict _ (firstn (k - 13) body) mem popt need Hlc Hlp Hpb ltac:(lia));
      [| destruct marker; [lia | unfold U64_HALF in Hsmall; lia] | exact Hmem | exact Hneed].
    destruct (Htr (firstn (k - 13) body) (skipn (k - 13) body) (eq_sym (firstn_skipn _ body)) Htl) as [He|(s0 & Hc & Hread)].
    + left. rewrite <- He. destruct marker; reflexivity.
    + right. exists s0. split; [rewrite <- Hc; destruct marker; reflexivity|].
      intros fuel Hfuel. destruct (Hread fuel Hfuel) as (m & Hobs).
      exists m. split; [exact Hobs|]. rewrite read_obs_all, Hobs. reflexivity.
  - left. apply new_mem_limit_short. rewrite firstn_length. lia.
Qed.

(* non-vacuity: the statement evaluated at every proper prefix of a written stream *)
Definition trunc_run (marker : bool) (k : nat) (sizes : list Z) : outcome (list Z * outcome lzma1) :=
  do stream <- lzma1_write 3 0 2 4096 [] ex_data ex_syms false marker None;
  match lzma1_construct2 (firstn k stream) (if marker then U64_MAX else zlen ex_data) 3 0 2 4096 None with
  | Ok s0 => Ok (lzma1_read_obs 20 s0 sizes sizes [])
  | Err e => Ok ([], Err e)
  | Panic e => Panic e
  | Fuel => Fuel
  end.

Fixpoint is_prefix (a b : list Z) : bool :=
  match a, b with
  | [], _ => true
  | x :: a', y :: b' => (x =? y) && is_prefix a' b'
  | _ :: _, [] => false
  end.

Definition is_eof_prefix (r : outcome (list Z * outcome lzma1)) : bool :=
  match r with
  | Ok (out, Err e) => (e =? E_UNEXPECTED_EOF) && is_prefix out ex_data
  | _ => false
  end.

Definition all_cuts (marker : bool) (sizes : list Z) : bool :=
  match lzma1_write 3 0 2 4096 [] ex_data ex_syms false marker None with
  | Ok stream => (5 <? length stream)%nat && forallb (fun k => is_eof_prefix (trunc_run marker k sizes)) (seq 0 (length stream))
  | _ => false
  end.

Lemma is_prefix_firstn m : forall l, is_prefix (firstn m l) l = true.
Proof.
  induction m as [|m IH]; intros [|x l]; cbn [firstn is_prefix]; try reflexivity.
  rewrite Z.eqb_refl. apply IH.
Qed.

(* lzma1_truncated_raw at every cut point of the example stream; only the stream's length is computed *)
Lemma all_cuts_truncated marker sizes : Forall (fun z => 0 < z) sizes -> all_cuts marker sizes = true.
Proof.
  intros Hsizes. unfold all_cuts.
  destruct (lzma1_roundtrip_raw_hyps marker) as (Hbd & Hne & _ & Hbits & _).
  assert (Hlen : match lzma1_write 3 0 2 4096 [] ex_data ex_syms false marker None with
                 | Ok stream => (5 <? length stream)%nat
                 | _ => false
                 end = true) by (destruct marker; vm_compute; reflexivity).
  revert Hlen.
  destruct (lzma1_write 3 0 2 4096 [] ex_data ex_syms false marker None) as [stream|e|e|] eqn:Hw;
    intros Hlen; [|discriminate Hlen..].
  rewrite Hlen. apply forallb_forall. intros k Hk. apply in_seq in Hk.
  unfold trunc_run. rewrite Hw. cbn [obind].
  destruct (lzma1_truncated_raw 3 0 2 4096 ex_data ex_syms marker stream sizes k ltac:(lia) ltac:(lia) ltac:(lia)
              ltac:(lia) Hbd Hne Hw Hbits Hsizes ltac:(lia)) as [He|(s0 & Hc & Hread)].
  - rewrite He. reflexivity.
  - rewrite Hc. destruct (Hread 20%nat ltac:(vm_compute; discriminate)) as (m & Hobs & _). rewrite Hobs.
    apply is_prefix_firstn.
Qed.

(* end marker / declared size; read histories [1; 3], [4096], [2] *)
Example lzma1_truncated_all_cuts :
  all_cuts true [1; 3] = true /\ all_cuts false [1; 3] = true /\ all_cuts true [4096] = true /\ all_cuts false [2] = true.
Proof. split; [|split; [|split]]; apply all_cuts_truncated; repeat constructor. Qed.

Print Assumptions run_rc_mono.
Print Assumptions lzma1_read_all_mono.
Print Assumptions lzma1_truncated_raw.
Print Assumptions lzma1_truncated_header.
