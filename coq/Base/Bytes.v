(* Base/Bytes.v — fixed-width arithmetic over Z with the wrap written out (wrap8..wrap64), byte strings
   (is_byte, bytes_ok, zlen, zth, zupd, little-endian le_bytes/le_value), the result type [outcome] with
   its bind and the error kinds, and the list and byte lemmas every other file needs. *)
From Coq Require Export ZArith List Lia Bool.
Export ListNotations.
Open Scope Z_scope.

(* A byte is a Z in [0,256).  Wrapping operations carry their [mod] explicitly. *)
Definition wrap8  (x : Z) : Z := x mod 256.
Definition wrap16 (x : Z) : Z := x mod 65536.
Definition wrap32 (x : Z) : Z := x mod 4294967296.
Definition wrap64 (x : Z) : Z := x mod 18446744073709551616.

Definition is_byte (x : Z) : bool := (0 <=? x) && (x <? 256).
Definition bytes_ok (l : list Z) : bool := forallb is_byte l.

(* Outcome of a model function: the result, an error returned to the caller (Err of the crate),
   or a Rust panic (checked arithmetic, index out of bounds, ...).  [Fuel] marks exhaustion of
   explicit recursion fuel and is always excluded by the theorems. *)
Inductive outcome (A : Type) : Type :=
| Ok (a : A)
| Err (code : Z)
| Panic (code : Z)
| Fuel.
Arguments Ok {A} a.
Arguments Err {A} code.
Arguments Panic {A} code.
Arguments Fuel {A}.

Definition obind {A B} (x : outcome A) (f : A -> outcome B) : outcome B :=
  match x with
  | Ok a => f a
  | Err c => Err c
  | Panic c => Panic c
  | Fuel => Fuel
  end.
Notation "'do' x <- e ; f" := (obind e (fun x => f))
  (at level 200, x pattern, e at level 100, f at level 200, right associativity).

(* Error kinds, as the small enum the correspondence compares. *)
Definition E_INVALID_DATA : Z := 1.
Definition E_INVALID_INPUT : Z := 2.
Definition E_UNEXPECTED_EOF : Z := 3.
Definition E_OUT_OF_MEMORY : Z := 4.
Definition E_UNSUPPORTED : Z := 5.
Definition E_OTHER : Z := 6.
Definition E_WRITE_ZERO : Z := 7.
Definition E_INTERRUPTED : Z := 8.

(* Total list access returning option; no defaults. *)
Fixpoint nth_opt {A} (l : list A) (n : nat) : option A :=
  match l, n with
  | [], _ => None
  | x :: _, O => Some x
  | _ :: t, S k => nth_opt t k
  end.
Definition zth {A} (l : list A) (i : Z) : option A :=
  if i <? 0 then None else nth_opt l (Z.to_nat i).

Fixpoint upd_nat {A} (l : list A) (n : nat) (v : A) : list A :=
  match l, n with
  | [], _ => []
  | _ :: t, O => v :: t
  | x :: t, S k => x :: upd_nat t k v
  end.
Definition zupd {A} (l : list A) (i : Z) (v : A) : list A :=
  if i <? 0 then l else upd_nat l (Z.to_nat i) v.

Definition zlen {A} (l : list A) : Z := Z.of_nat (length l).

Fixpoint repeatn {A} (x : A) (n : nat) : list A :=
  match n with O => [] | S k => x :: repeatn x k end.

Fixpoint le_bytes (n : nat) (v : Z) : list Z :=
  match n with
  | O => []
  | S k => (v mod 256) :: le_bytes k (v / 256)
  end.
Fixpoint le_value (l : list Z) : Z :=
  match l with
  | [] => 0
  | b :: t => b + 256 * le_value t
  end.

Lemma wrap8_range x : 0 <= wrap8 x < 256.
Proof. unfold wrap8. apply Z.mod_pos_bound. lia. Qed.

Lemma wrap32_range x : 0 <= wrap32 x < 4294967296.
Proof. unfold wrap32. apply Z.mod_pos_bound. lia. Qed.

Lemma is_byte_iff x : is_byte x = true <-> 0 <= x < 256.
Proof. unfold is_byte. rewrite andb_true_iff, Z.leb_le, Z.ltb_lt. tauto. Qed.

Lemma bytes_ok_cons b l : bytes_ok (b :: l) = true <-> 0 <= b < 256 /\ bytes_ok l = true.
Proof. unfold bytes_ok. cbn [forallb]. rewrite andb_true_iff, is_byte_iff. tauto. Qed.

Lemma bytes_ok_app a b : bytes_ok (a ++ b) = true <-> bytes_ok a = true /\ bytes_ok b = true.
Proof. unfold bytes_ok. rewrite forallb_app, andb_true_iff. tauto. Qed.

Lemma bytes_ok_rev l : bytes_ok (rev l) = bytes_ok l.
Proof.
  induction l as [|b t IH]; [reflexivity|].
  cbn [rev]. unfold bytes_ok in *. rewrite forallb_app, IH. cbn [forallb]. rewrite andb_true_r. apply andb_comm.
Qed.

Lemma bytes_ok_in l x : bytes_ok l = true -> In x l -> 0 <= x < 256.
Proof. unfold bytes_ok. rewrite forallb_forall. intros H Hx. apply is_byte_iff, H, Hx. Qed.

Lemma bytes_ok_firstn n l : bytes_ok l = true -> bytes_ok (firstn n l) = true.
Proof. intros H. rewrite <- (firstn_skipn n l) in H. apply bytes_ok_app in H. apply H. Qed.

Lemma bytes_ok_skipn n l : bytes_ok l = true -> bytes_ok (skipn n l) = true.
Proof. intros H. rewrite <- (firstn_skipn n l) in H. apply bytes_ok_app in H. apply H. Qed.

Lemma obind_ok {A B} (x : outcome A) (f : A -> outcome B) b :
  obind x f = Ok b -> exists a, x = Ok a /\ f a = Ok b.
Proof. destruct x; cbn [obind]; intros H; try discriminate. eauto. Qed.

Lemma Ok_inj {A} (a b : A) : Ok a = Ok b -> a = b.
Proof. congruence. Qed.

Lemma pair_inj {A B} (a a' : A) (b b' : B) : (a, b) = (a', b') -> a = a' /\ b = b'.
Proof. intros H; split; congruence. Qed.

Lemma zlen_nil {A} : zlen (@nil A) = 0.
Proof. reflexivity. Qed.

Lemma zlen_cons {A} (x : A) l : zlen (x :: l) = zlen l + 1.
Proof. unfold zlen. cbn [length]. lia. Qed.

Lemma zlen_app {A} (a b : list A) : zlen (a ++ b) = zlen a + zlen b.
Proof. unfold zlen. rewrite app_length. lia. Qed.

Lemma zlen_rev {A} (l : list A) : zlen (rev l) = zlen l.
Proof. unfold zlen. rewrite rev_length. reflexivity. Qed.

Lemma zlen_rev_append {A} (a b : list A) : zlen (rev_append a b) = zlen a + zlen b.
Proof. rewrite rev_append_rev, zlen_app, zlen_rev. reflexivity. Qed.

Lemma zlen_nonneg {A} (l : list A) : 0 <= zlen l.
Proof. unfold zlen. lia. Qed.

Lemma zlen_zero_nil {A} (l : list A) : zlen l = 0 -> l = [].
Proof. destruct l as [|x t]; [reflexivity|]. unfold zlen. cbn [length]. lia. Qed.

Lemma zlen_firstn {A} n (l : list A) : 0 <= n <= zlen l -> zlen (firstn (Z.to_nat n) l) = n.
Proof. unfold zlen. intros H. rewrite firstn_length. lia. Qed.

Lemma zlen_skipn {A} n (l : list A) : 0 <= n <= zlen l -> zlen (skipn (Z.to_nat n) l) = zlen l - n.
Proof. unfold zlen. intros H. rewrite skipn_length. lia. Qed.

Lemma repeatn_length {A} (x : A) n : length (repeatn x n) = n.
Proof. induction n; cbn [repeatn length]; auto. Qed.

Lemma zlen_repeatn {A} (x : A) n : zlen (repeatn x n) = Z.of_nat n.
Proof. unfold zlen. rewrite repeatn_length. reflexivity. Qed.

Lemma rev_rev_append {A} (out acc : list A) : rev (rev_append out acc) = rev acc ++ out.
Proof. rewrite rev_append_rev, rev_app_distr, rev_involutive. reflexivity. Qed.

Lemma firstn_app_exact {A} (a b : list A) n : n = length a -> firstn n (a ++ b) = a.
Proof. intros ->. rewrite firstn_app, Nat.sub_diag, firstn_all, firstn_O, app_nil_r. reflexivity. Qed.

Lemma skipn_app_exact {A} (a b : list A) n : n = length a -> skipn n (a ++ b) = b.
Proof. intros ->. rewrite skipn_app, Nat.sub_diag, skipn_all. reflexivity. Qed.

Lemma skipn_skipn {A} a : forall b (l : list A), skipn a (skipn b l) = skipn (b + a) l.
Proof.
  induction b as [|b IH]; intros l; [reflexivity|].
  destruct l as [|x t]; [cbn [skipn Nat.add]; apply skipn_nil|]. cbn [skipn Nat.add]. apply IH.
Qed.

Lemma In_skipn {A} (x : A) n l : In x (skipn n l) -> In x l.
Proof. intros H. rewrite <- (firstn_skipn n l). apply in_or_app. right. exact H. Qed.

Lemma app_eq_len {A} : forall (a b c d : list A), a ++ b = c ++ d -> length a = length c -> a = c /\ b = d.
Proof.
  induction a as [|x a IH]; intros b c d He Hl; destruct c as [|y c]; cbn [length] in Hl; try lia.
  - split; [reflexivity | exact He].
  - cbn [app] in He. inversion He; subst. destruct (IH b c d) as [-> ->]; [assumption | lia |]. split; reflexivity.
Qed.

Lemma upd_nat_length {A} (l : list A) n v : length (upd_nat l n v) = length l.
Proof. revert n; induction l as [|x t IH]; intros [|k]; simpl; auto. Qed.

Lemma zupd_length {A} (l : list A) i v : length (zupd l i v) = length l.
Proof. unfold zupd; destruct (i <? 0); auto using upd_nat_length. Qed.

Lemma nth_opt_some {A} (l : list A) n : (n < length l)%nat -> exists x, nth_opt l n = Some x.
Proof.
  revert n; induction l as [|x t IH]; intros n Hn; simpl in *; [lia|].
  destruct n as [|k]; [eauto|]. apply IH; lia.
Qed.

Lemma zth_some {A} (l : list A) i : 0 <= i < zlen l -> exists x, zth l i = Some x.
Proof.
  unfold zth, zlen; intros [H0 H1].
  destruct (Z.ltb_spec i 0); [lia|]. apply nth_opt_some; lia.
Qed.

Lemma nth_opt_upd_same {A} (l : list A) n v : (n < length l)%nat -> nth_opt (upd_nat l n v) n = Some v.
Proof.
  revert n; induction l as [|x t IH]; intros [|k] H; simpl in *; try lia; auto. apply IH; lia.
Qed.

Lemma nth_opt_upd_other {A} (l : list A) n m v : n <> m -> nth_opt (upd_nat l n v) m = nth_opt l m.
Proof.
  revert n m; induction l as [|x t IH]; intros [|k] [|j] H; simpl; auto; try congruence.
Qed.

Lemma le_bytes_length n v : length (le_bytes n v) = n.
Proof. revert v; induction n; simpl; auto. Qed.

Lemma le_value_bytes n v : 0 <= v < 256 ^ Z.of_nat n -> le_value (le_bytes n v) = v.
Proof.
  revert v; induction n as [|k IH]; intros v Hv.
  - simpl in *. lia.
  - cbn [le_bytes le_value].
    rewrite IH.
    + pose proof (Z.div_mod v 256 ltac:(lia)). lia.
    + rewrite Nat2Z.inj_succ, Z.pow_succ_r in Hv by lia.
      split; [apply Z.div_pos; lia|]. apply Z.div_lt_upper_bound; lia.
Qed.

Lemma zlen_le_bytes n v : zlen (le_bytes n v) = Z.of_nat n.
Proof. unfold zlen. rewrite le_bytes_length. reflexivity. Qed.

Lemma bytes_ok_le_bytes n v : bytes_ok (le_bytes n v) = true.
Proof.
  revert v; induction n as [|k IH]; intros v; [reflexivity|].
  cbn [le_bytes]. apply bytes_ok_cons. split; [apply Z.mod_pos_bound; lia | apply IH].
Qed.

Lemma le_value_app a b : le_value (a ++ b) = le_value a + 256 ^ zlen a * le_value b.
Proof.
  induction a as [|x t IH]; [cbn [app le_value]; change (zlen (@nil Z)) with 0; lia|].
  cbn [app le_value]. rewrite IH, zlen_cons, Z.pow_add_r by (pose proof (zlen_nonneg t); lia). lia.
Qed.

Lemma le_value_bound l : bytes_ok l = true -> 0 <= le_value l < 256 ^ zlen l.
Proof.
  induction l as [|x t IH]; intros Hb; [cbn; lia|].
  apply bytes_ok_cons in Hb as [Hx Ht]. specialize (IH Ht).
  cbn [le_value]. rewrite zlen_cons, Z.pow_add_r by (pose proof (zlen_nonneg t); lia). lia.
Qed.

Lemma le_value_inj : forall a b, length a = length b -> bytes_ok a = true -> bytes_ok b = true ->
  le_value a = le_value b -> a = b.
Proof.
  induction a as [|x a IH]; intros [|y b] Hl Ha Hb He; cbn [length] in Hl; try discriminate; [reflexivity|].
  apply bytes_ok_cons in Ha as [Hx Ha]. apply bytes_ok_cons in Hb as [Hy Hb]. cbn [le_value] in He.
  assert (x = y) by lia. subst y. f_equal. apply IH; auto; lia.
Qed.

(* linear-time list reversal (List.rev is quadratic); equal to rev *)
Definition frev {A} (l : list A) : list A := rev_append l [].
Lemma frev_rev {A} (l : list A) : frev l = rev l.
Proof. unfold frev. rewrite rev_append_rev, app_nil_r. reflexivity. Qed.
