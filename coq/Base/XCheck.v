(* Base/XCheck.v — comparison helpers of the extraction cross-check (lib/framework.py: xcheck).
   On every check a sample of the very cases the extracted OCaml driver answered is evaluated
   again INSIDE Coq by [vm_compute] on the same Gallina definitions, and the two answers are
   compared by the boolean functions below.  This takes extraction (ExtrOcamlBasic,
   ExtrOcamlZBigInt, ExtrOcamlNatBigInt), zarith and the OCaml compiler out of the trusted base
   for the sampled cases: a disagreement means the program that was run against the
   implementation is not the model the theorems are about.  Definitions, and the lemmas saying
   that an answer counted as "agreed" is an equality of values. *)
From LzVerif Require Import Base.Bytes.

(* What the driver printed: "OK v" / "ERR c" / "PANIC" (the panic code is not printed) / "FUEL". *)
Inductive xout (A : Type) : Type :=
| XOk (a : A)
| XErr (code : Z)
| XPanic
| XFuel.
Arguments XOk {A} a.
Arguments XErr {A} code.
Arguments XPanic {A}.
Arguments XFuel {A}.

Fixpoint zlist_eqb (a b : list Z) : bool :=
  match a, b with
  | [], [] => true
  | x :: a', y :: b' => (x =? y) && zlist_eqb a' b'
  | _, _ => false
  end.

Definition zpair_eqb (a b : Z * Z) : bool := (fst a =? fst b) && (snd a =? snd b).

Definition ztriple_eqb (a b : Z * Z * Z) : bool :=
  (fst (fst a) =? fst (fst b)) && (snd (fst a) =? snd (fst b)) && (snd a =? snd b).

Definition x_outcome {A} (eqb : A -> A -> bool) (o : outcome A) (e : xout A) : bool :=
  match o, e with
  | Ok a, XOk b => eqb a b
  | Err c, XErr d => c =? d
  | Panic _, XPanic => true
  | Fuel, XFuel => true
  | _, _ => false
  end.

Definition x_option {A} (eqb : A -> A -> bool) (o e : option A) : bool :=
  match o, e with
  | Some a, Some b => eqb a b
  | None, None => true
  | _, _ => false
  end.

(* identifiers of the sampled cases whose in-Coq value differs from the driver's answer *)
Definition x_failed (l : list (Z * bool)) : list Z :=
  map fst (filter (fun p => negb (snd p)) l).

Lemma zlist_eqb_eq a b : zlist_eqb a b = true <-> a = b.
Proof.
  revert b; induction a as [|x a IH]; intros [|y b]; cbn [zlist_eqb]; split; intro H;
    try reflexivity; try discriminate.
  - apply andb_true_iff in H as [H1 H2]. apply Z.eqb_eq in H1. apply IH in H2. congruence.
  - injection H as -> ->. apply andb_true_iff; split; [apply Z.eqb_refl | apply IH; reflexivity].
Qed.

Lemma zpair_eqb_eq a b : zpair_eqb a b = true <-> a = b.
Proof.
  destruct a as [a1 a2], b as [b1 b2]; unfold zpair_eqb; cbn [fst snd]. rewrite andb_true_iff, !Z.eqb_eq.
  split; [intros [-> ->]; reflexivity | intros H; injection H as -> ->; split; reflexivity].
Qed.

Lemma x_outcome_ok {A} (eqb : A -> A -> bool) (o : outcome A) (b : A) :
  (forall x y, eqb x y = true -> x = y) -> x_outcome eqb o (XOk b) = true -> o = Ok b.
Proof. intros Heq; destruct o as [a|c|c|]; cbn [x_outcome]; intros H; try discriminate. f_equal; apply Heq, H. Qed.

Lemma x_outcome_err {A} (eqb : A -> A -> bool) (o : outcome A) (c : Z) :
  x_outcome eqb o (XErr c) = true -> o = Err c.
Proof. destruct o as [a|d|d|]; cbn [x_outcome]; intros H; try discriminate. apply Z.eqb_eq in H; congruence. Qed.

Lemma x_outcome_panic {A} (eqb : A -> A -> bool) (o : outcome A) :
  x_outcome eqb o XPanic = true -> exists c, o = Panic c.
Proof. destruct o as [a|d|d|]; cbn [x_outcome]; intros H; try discriminate. eexists; reflexivity. Qed.

Lemma x_option_eq (o e : option (list Z)) : x_option zlist_eqb o e = true -> o = e.
Proof.
  destruct o as [a|], e as [b|]; cbn [x_option]; intros H; try discriminate; [|reflexivity].
  f_equal; apply zlist_eqb_eq, H.
Qed.

Lemma x_failed_nil (l : list (Z * bool)) : x_failed l = [] -> forall k b, In (k, b) l -> b = true.
Proof.
  unfold x_failed; induction l as [|[k0 b0] l IH]; intros H k b Hin; [destruct Hin|].
  cbn [filter snd] in H. destruct b0; cbn [negb] in H.
  - destruct Hin as [E|Hin]; [congruence | eapply IH; eauto].
  - discriminate.
Qed.

Lemma ztriple_eqb_eq a b : ztriple_eqb a b = true <-> a = b.
Proof.
  destruct a as [[a1 a2] a3], b as [[b1 b2] b3]; unfold ztriple_eqb; cbn [fst snd].
  rewrite !andb_true_iff, !Z.eqb_eq.
  split; [intros [[-> ->] ->]; reflexivity | intros H; injection H as -> -> ->; repeat split].
Qed.
