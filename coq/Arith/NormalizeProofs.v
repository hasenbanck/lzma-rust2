(* Arith/NormalizeProofs.v — scalar, SIMD and dispatching renormalisation agree with the XZ for Java
   rule on the whole domain the callers use; the historical saturating_sub variant is refuted. *)
From LzVerif Require Import Base.Bytes Arith.Normalize.
From Coq Require Import ZifyClasses.

#[global] Instance zify_I32_MIN : CstOp I32_MIN := { TCst := -2147483648; TCstInj := eq_refl }.
Add Zify CstOp zify_I32_MIN.
#[global] Instance zify_I32_MAX : CstOp I32_MAX := { TCst := 2147483647; TCstInj := eq_refl }.
Add Zify CstOp zify_I32_MAX.

Lemma is_i32_spec x : is_i32 x = true <-> I32_MIN <= x <= I32_MAX.
Proof. unfold is_i32. rewrite andb_true_iff, !Z.leb_le. tauto. Qed.

Lemma to_i32_id x : I32_MIN <= x <= I32_MAX -> to_i32 x = x.
Proof. unfold to_i32. intros H. rewrite Z.mod_small by lia. lia. Qed.

Lemma norm_twins_lane off p :
  0 <= off <= I32_MAX -> is_i32 p = true ->
  norm_scalar off p = Ok (norm_spec off p) /\ norm_simd off p = norm_spec off p.
Proof.
  intros Hoff Hp%is_i32_spec. unfold norm_scalar, norm_simd.
  assert (E : Z.max p off - off = norm_spec off p) by (unfold norm_spec; destruct (Z.leb_spec p off); lia).
  assert (R : I32_MIN <= norm_spec off p <= I32_MAX) by lia.
  rewrite E, (proj2 (is_i32_spec _) R), to_i32_id by exact R. split; reflexivity.
Qed.

Lemma omap_outcome_ok {A B} (f : A -> outcome B) (g : A -> B) l :
  (forall x, In x l -> f x = Ok (g x)) -> omap_outcome f l = Ok (map g l).
Proof.
  induction l as [|x t IH]; intros H; cbn [omap_outcome map]; [reflexivity|].
  rewrite (H x (or_introl eq_refl)). cbn [obind]. rewrite IH by (intros y Hy; apply H; right; exact Hy).
  reflexivity.
Qed.

Lemma forallb_firstn {A} (f : A -> bool) n l : forallb f l = true -> forallb f (firstn n l) = true.
Proof.
  revert n; induction l as [|x t IH]; intros [|n] H; cbn in *; auto.
  apply andb_true_iff in H as [Hx Ht]. rewrite Hx, IH; auto.
Qed.

Lemma forallb_skipn {A} (f : A -> bool) n l : forallb f l = true -> forallb f (skipn n l) = true.
Proof.
  revert n; induction l as [|x t IH]; intros [|n] H; cbn in *; auto.
  apply andb_true_iff in H as [Hx Ht]. auto.
Qed.

Lemma normalize_scalar_spec l off :
  0 <= off <= I32_MAX -> forallb is_i32 l = true -> normalize_scalar l off = Ok (normalize_spec l off).
Proof.
  intros Hoff Hl. unfold normalize_scalar, normalize_spec. apply omap_outcome_ok.
  intros x Hx. rewrite forallb_forall in Hl. apply (norm_twins_lane off x Hoff (Hl x Hx)).
Qed.

Lemma map_simd_spec l off :
  0 <= off <= I32_MAX -> forallb is_i32 l = true -> map (norm_simd off) l = map (norm_spec off) l.
Proof.
  intros Hoff Hl. apply map_ext_in. intros x Hx. rewrite forallb_forall in Hl.
  apply (norm_twins_lane off x Hoff (Hl x Hx)).
Qed.

Lemma normalize_split_spec lanes pre l off :
  0 <= off <= I32_MAX -> forallb is_i32 l = true ->
  normalize_split normalize_scalar lanes pre l off = Ok (normalize_spec l off).
Proof.
  intros Hoff Hl. unfold normalize_split.
  set (n1 := Z.to_nat (Z.min (Z.max pre 0) (zlen l))).
  set (n2 := Z.to_nat _).
  rewrite (normalize_scalar_spec (firstn n1 l)) by (auto using forallb_firstn). cbn [obind].
  rewrite (normalize_scalar_spec (skipn n2 (skipn n1 l))) by (auto using forallb_skipn). cbn [obind].
  rewrite map_simd_spec by (auto using forallb_firstn, forallb_skipn).
  unfold normalize_spec. rewrite <- !map_app. rewrite (firstn_skipn n2), (firstn_skipn n1). reflexivity.
Qed.

(* C14: on every i32 array and every offset 0 <= off <= i32::MAX (the callers pass
   off = 0x7FFFFFFF - cyclic_size with 1 <= cyclic_size, see [norm_offset_of_range]) the scalar
   function, the SIMD variants with ANY alignment split and lane count, and hence the dispatching
   LZEncoder::normalize under every feature configuration, return the XZ for Java result, without
   a panic. *)
Theorem normalize_twins : forall simd lanes pre l off,
  0 <= off <= I32_MAX -> forallb is_i32 l = true ->
  normalize_dispatch simd lanes pre l off = Ok (normalize_spec l off).
Proof.
  intros simd lanes pre l off Hoff Hl. unfold normalize_dispatch. destruct simd.
  - apply normalize_split_spec; assumption.
  - apply normalize_scalar_spec; assumption.
Qed.

Lemma norm_offset_of_range cyc : 1 <= cyc <= I32_MAX -> 0 <= norm_offset_of cyc <= I32_MAX.
Proof. unfold norm_offset_of. lia. Qed.

(* Outside that domain (negative offsets, which no caller produces) the lanes wrap where the
   checked scalar subtraction panics: the domain of the twins theorem is exact in this sense. *)
Theorem normalize_negative_offset_diverges :
  exists off p, off < 0 /\ is_i32 off = true /\ is_i32 p = true /\
    norm_scalar off p = Panic PANIC_NORM_OVERFLOW /\ norm_simd off p = I32_MIN.
Proof.
  exists (-1), I32_MAX. vm_compute.
  split; [reflexivity|]. split; [reflexivity|]. split; [reflexivity|]. split; reflexivity.
Qed.

(* What the rule means for the match finders: at the renormalisation (lz_pos = i32::MAX,
   off = i32::MAX - cyclic_size) an entry inside the window keeps its distance to lz_pos, every
   older entry becomes 0 = "empty", and an empty entry is never followed afterwards. *)
Theorem normalize_keeps_window : forall cyc p,
  1 <= cyc <= I32_MAX -> I32_MIN <= p <= I32_MAX ->
  let off := norm_offset_of cyc in
  (I32_MAX - p < cyc -> cyc - norm_spec off p = I32_MAX - p) /\
  (cyc <= I32_MAX - p -> norm_spec off p = 0) /\
  (forall lz_pos, cyc <= lz_pos <= I32_MAX -> candidate_followed cyc lz_pos 0 = false).
Proof.
  intros cyc p Hc Hp off. subst off. unfold norm_offset_of, norm_spec.
  repeat split.
  - intros Hin. destruct (Z.leb_spec p (I32_MAX - cyc)); lia.
  - intros Hout. destruct (Z.leb_spec p (I32_MAX - cyc)); lia.
  - intros lz Hlz. unfold candidate_followed, delta_wrapping. rewrite Z.sub_0_r.
    rewrite to_i32_id by lia. apply Z.ltb_ge. lia.
Qed.

(* (a) scalar and SIMD builds leave different tables, (b) inside one SIMD build the unaligned
   prefix differs from the aligned middle, (c) the stale entry left negative by saturating_sub is
   followed as a match candidate afterwards (delta wraps to a negative number < cyclic_size) where
   the rule of the format's reference implementation rejects it. *)
Theorem normalize_scalar_old_refuted :
  exists cyc l lz_pos,
    let off := norm_offset_of cyc in
    1 <= cyc <= I32_MAX /\ forallb is_i32 l = true /\ cyc <= lz_pos <= I32_MAX /\
    normalize_dispatch_old false 8 0 l off <> normalize_dispatch_old true 8 0 l off /\
    normalize_dispatch_old true 8 1 l off <> normalize_dispatch_old true 8 0 l off /\
    normalize_dispatch_old false 8 0 l off <> Ok (normalize_spec l off) /\
    (exists e, In e (normalize_scalar_old l off) /\ e < 0 /\ candidate_followed cyc lz_pos e = true) /\
    (forall e, In e (normalize_spec l off) -> candidate_followed cyc lz_pos e = false).
Proof.
  exists 4097, [0; 0; 0; 0; 0; 0; 0; 0; 0], 4098.
  cbv zeta.
  split; [vm_compute; split; discriminate|].
  split; [vm_compute; reflexivity|].
  split; [vm_compute; split; discriminate|].
  split; [vm_compute; intro H; discriminate H|].
  split; [vm_compute; intro H; discriminate H|].
  split; [vm_compute; intro H; discriminate H|].
  split.
  - exists (-2147479550). vm_compute. split; [left; reflexivity|]. split; reflexivity.
  - intros e H.
    assert (L : normalize_spec [0; 0; 0; 0; 0; 0; 0; 0; 0] (norm_offset_of 4097) = [0; 0; 0; 0; 0; 0; 0; 0; 0])
      by (vm_compute; reflexivity).
    rewrite L in H. clear L. cbn [In] in H.
    repeat (destruct H as [H|H]; [subst e; vm_compute; reflexivity|]). destruct H.
Qed.

(* After a second renormalisation the stale entry saturates at i32::MIN. *)
Theorem normalize_scalar_old_saturates :
  exists cyc, 1 <= cyc <= I32_MAX /\
    norm_scalar_old (norm_offset_of cyc) (norm_scalar_old (norm_offset_of cyc) 0) = I32_MIN /\
    norm_spec (norm_offset_of cyc) (norm_spec (norm_offset_of cyc) 0) = 0.
Proof. exists 4097. vm_compute. split; [split; discriminate|]. split; reflexivity. Qed.
