(* Arith/WordFacts.v — Z as machine words: bounds of powers of two, or, shifts and masks; and the
   rewrite base [word_ok].  Each model's proofs add to it the lemmas "in range, the checked or
   wrapping operation returns the mathematical value"; [autorewrite with word_ok] then runs through
   a chain of binds, discharging the range conditions by lia. *)
From LzVerif Require Import Base.Bytes.

Lemma obind_Ok_l {A B} (a : A) (f : A -> outcome B) : obind (Ok a) f = f a.
Proof. reflexivity. Qed.
Global Hint Rewrite @obind_Ok_l : word_ok.

Lemma pow2_bounds k n : 0 <= k <= n -> 1 <= 2 ^ k <= 2 ^ n.
Proof.
  intros Hk. pose proof (Z.pow_pos_nonneg 2 k ltac:(lia) ltac:(lia)).
  pose proof (Z.pow_le_mono_r 2 k n ltac:(lia) ltac:(lia)). lia.
Qed.

Lemma land_mask_mod a n : 0 <= n -> Z.land a (2 ^ n - 1) = a mod 2 ^ n.
Proof. intros Hn. rewrite <- Z.land_ones by exact Hn. f_equal. rewrite Z.ones_equiv. lia. Qed.

Lemma lor_bound n a b : 0 <= n -> 0 <= a < 2 ^ n -> 0 <= b < 2 ^ n -> 0 <= Z.lor a b < 2 ^ n.
Proof.
  intros Hn Ha Hb. split; [apply Z.lor_nonneg; lia|].
  destruct (Z.eq_dec a 0) as [->|Ha0]; [rewrite Z.lor_0_l; lia|].
  destruct (Z.eq_dec b 0) as [->|Hb0]; [rewrite Z.lor_0_r; lia|].
  assert (Hl : 0 < Z.lor a b).
  { assert (0 <= Z.lor a b) by (apply Z.lor_nonneg; lia).
    assert (Z.lor a b <> 0) by (intro E; apply Z.lor_eq_0_iff in E; lia). lia. }
  apply Z.log2_lt_pow2; [exact Hl|].
  rewrite Z.log2_lor by lia.
  assert (Z.log2 a < n) by (apply Z.log2_lt_pow2; lia).
  assert (Z.log2 b < n) by (apply Z.log2_lt_pow2; lia). lia.
Qed.

Lemma shiftr_bound a k : 0 <= a -> 0 <= k -> 0 <= Z.shiftr a k <= a.
Proof.
  intros Ha Hk. rewrite Z.shiftr_div_pow2 by exact Hk.
  assert (0 < 2 ^ k) by (apply Z.pow_pos_nonneg; lia).
  split; [apply Z.div_pos; lia|]. apply Z.div_le_upper_bound; nia.
Qed.

Lemma lor_shiftr_bound n a k : 0 <= n -> 0 <= k -> 0 <= a < 2 ^ n -> 0 <= Z.lor a (Z.shiftr a k) < 2 ^ n.
Proof. intros Hn Hk Ha. pose proof (shiftr_bound a k ltac:(lia) Hk). apply lor_bound; lia. Qed.

Lemma land1_bound a : 0 <= Z.land a 1 <= 1.
Proof.
  change 1 with (Z.ones 1) at 1 2. rewrite Z.land_ones by lia.
  change (2 ^ 1) with 2. pose proof (Z.mod_pos_bound a 2 ltac:(lia)). lia.
Qed.
