(* Arith/ExtendWordsProofs.v — the word-at-a-time extend_match_safe (compare 8-byte little-endian
   words, on a difference use trailing_zeros(w1 ^ w2) / 8) returns the length of the common prefix
   of its two arguments, i.e. what the byte-wise loop returns. *)
From LzVerif Require Import Base.Bytes Arith.Normalize Arith.NormalizeProofs Arith.UnsafeBounds.

Lemma odd_lxor x y : Z.odd (Z.lxor x y) = xorb (Z.odd x) (Z.odd y).
Proof. rewrite <- !Z.bit0_odd. apply Z.lxor_spec. Qed.

Lemma half_lxor x y : Z.lxor x y / 2 = Z.lxor (x / 2) (y / 2).
Proof. rewrite <- !Z.div2_div, !Z.div2_spec. apply Z.shiftr_lxor. Qed.

Lemma tz_fuel_nonneg f x : 0 <= tz_fuel f x.
Proof. revert x; induction f as [|f IH]; intros x; cbn [tz_fuel]; [lia|]. destruct (Z.odd x); [lia|]. specialize (IH (x / 2)). lia. Qed.

Lemma odd_low a m A : Z.odd (a + 2 * m * A) = Z.odd a.
Proof. replace (2 * m * A) with (2 * (m * A)) by lia. apply Z.odd_add_mul_2. Qed.

Lemma odd_eq_half_eq a b : Z.odd a = Z.odd b -> a / 2 = b / 2 -> a = b.
Proof.
  intros Ho Hh. pose proof (Zmod_odd a) as Ha. pose proof (Zmod_odd b) as Hb.
  rewrite Ho in Ha. destruct (Z.odd b); Z.div_mod_to_equations; lia.
Qed.

(* low k bits a, b below the rest A, B: a difference in the low bits is found within k steps,
   otherwise the count continues in the rest *)
Lemma tz_low_bits : forall (k : nat) a b A B f,
  0 <= a < 2 ^ Z.of_nat k -> 0 <= b < 2 ^ Z.of_nat k ->
  let x := a + 2 ^ Z.of_nat k * A in
  let y := b + 2 ^ Z.of_nat k * B in
  (a <> b -> tz_fuel (k + f) (Z.lxor x y) < Z.of_nat k) /\
  (a = b -> tz_fuel (k + f) (Z.lxor x y) = Z.of_nat k + tz_fuel f (Z.lxor A B)).
Proof.
  induction k as [|k IH]; intros a b A B f Ha Hb x y.
  - change (2 ^ Z.of_nat 0) with 1 in *. assert (a = 0) by lia. assert (b = 0) by lia. subst a b.
    split; [intros H; lia|]. intros _. subst x y. cbn [Nat.add Z.of_nat]. rewrite !Z.add_0_l, !Z.mul_1_l. lia.
  - subst x y. rewrite Nat2Z.inj_succ, Z.pow_succ_r in * by lia.
    set (m := 2 ^ Z.of_nat k) in *.
    assert (Hm : 0 < m) by (apply Z.pow_pos_nonneg; lia).
    cbn [Nat.add tz_fuel]. rewrite odd_lxor. rewrite !odd_low, half_lxor.
    assert (Hx : (a + 2 * m * A) / 2 = a / 2 + m * A) by (Z.div_mod_to_equations; lia).
    assert (Hy : (b + 2 * m * B) / 2 = b / 2 + m * B) by (Z.div_mod_to_equations; lia).
    rewrite Hx, Hy.
    destruct (IH (a / 2) (b / 2) A B f ltac:(Z.div_mod_to_equations; lia) ltac:(Z.div_mod_to_equations; lia)) as [IH1 IH2].
    destruct (Bool.bool_dec (Z.odd a) (Z.odd b)) as [Eo|Eo].
    + rewrite Eo, xorb_nilpotent. split; intros H.
      * assert (Hne : a / 2 <> b / 2) by (intro E; apply H, odd_eq_half_eq; congruence). specialize (IH1 Hne). lia.
      * subst b. rewrite IH2 by reflexivity. lia.
    + replace (xorb (Z.odd a) (Z.odd b)) with true by (revert Eo; destruct (Z.odd a), (Z.odd b); cbn [xorb]; congruence).
      split; intros H; [lia | congruence].
Qed.

Lemma cpl_nonneg a b : 0 <= cpl a b.
Proof. revert b; induction a as [|x a IH]; intros [|y b]; cbn [cpl]; try lia. destruct (x =? y); [specialize (IH b)|]; lia. Qed.

Lemma cpl_le_len a b : cpl a b <= zlen a /\ cpl a b <= zlen b.
Proof.
  unfold zlen. revert b; induction a as [|x a IH]; intros [|y b]; cbn [cpl length]; try lia.
  destruct (x =? y); [specialize (IH b)|]; lia.
Qed.

Lemma cpl_app_same p a b : cpl (p ++ a) (p ++ b) = zlen p + cpl a b.
Proof.
  unfold zlen. induction p as [|x p IH]; cbn [app cpl length]; [lia|]. rewrite Z.eqb_refl, IH. lia.
Qed.

Lemma cpl_app_diff : forall p q a b, length p = length q -> p <> q -> cpl (p ++ a) (q ++ b) = cpl p q.
Proof.
  induction p as [|x p IH]; intros [|y q] a b Hl Hd; cbn [length] in Hl; try discriminate; [congruence|].
  cbn [app cpl]. destruct (Z.eqb_spec x y); [|reflexivity]. subst y.
  rewrite IH; [reflexivity|lia|congruence].
Qed.

(* the xor of two different words of n bytes: trailing zeros / 8 = common prefix length *)
Lemma tz_words : forall a b f,
  length a = length b -> bytes_ok a = true -> bytes_ok b = true -> a <> b ->
  let t := tz_fuel (8 * length a + f) (Z.lxor (le_value a) (le_value b)) in
  t / 8 = cpl a b /\ 0 <= t < 8 * zlen a.
Proof.
  induction a as [|x a IH]; intros [|y b] f Hl Ha Hb Hd; cbn [length] in Hl; try discriminate; [congruence|].
  cbn [bytes_ok forallb] in Ha, Hb. apply andb_true_iff in Ha as [Hx Ha]. apply andb_true_iff in Hb as [Hy Hb].
  apply is_byte_iff in Hx. apply is_byte_iff in Hy.
  cbn [le_value cpl length]. cbv zeta.
  replace (8 * S (length a) + f)%nat with (8 + (8 * length a + f))%nat by lia.
  destruct (tz_low_bits 8 x y (le_value a) (le_value b) (8 * length a + f)
              ltac:(change (2 ^ Z.of_nat 8) with 256; lia) ltac:(change (2 ^ Z.of_nat 8) with 256; lia)) as [T1 T2].
  change (2 ^ Z.of_nat 8) with 256 in T1, T2. change (Z.of_nat 8) with 8 in T1, T2.
  pose proof (tz_fuel_nonneg (8 + (8 * length a + f)) (Z.lxor (x + 256 * le_value a) (y + 256 * le_value b))) as Hnn.
  unfold zlen. cbn [length]. rewrite Nat2Z.inj_succ.
  destruct (Z.eqb_spec x y) as [E|E].
  - subst y. specialize (T2 eq_refl).
    assert (Hd' : a <> b) by congruence.
    destruct (IH b f ltac:(lia) Ha Hb Hd') as [I1 I2]. unfold zlen in I2.
    rewrite T2. split; [|lia].
    replace (8 + tz_fuel (8 * length a + f) (Z.lxor (le_value a) (le_value b)))
      with (tz_fuel (8 * length a + f) (Z.lxor (le_value a) (le_value b)) + 1 * 8) by lia.
    rewrite Z.div_add by lia. lia.
  - specialize (T1 E). split; [|lia]. apply Z.div_small. lia.
Qed.

Lemma em_words_cpl : forall fuel a b m,
  bytes_ok a = true -> bytes_ok b = true -> em_words fuel a b m = m + cpl a b.
Proof.
  induction fuel as [|f IH]; intros a b m Ha Hb; cbn [em_words]; [reflexivity|].
  destruct (Z.leb_spec 8 (zlen a)) as [La|La]; cbn [andb]; [|reflexivity].
  destruct (Z.leb_spec 8 (zlen b)) as [Lb|Lb]; [|reflexivity].
  unfold zlen in La, Lb.
  assert (Hfa : length (firstn 8 a) = 8%nat) by (rewrite firstn_length; lia).
  assert (Hfb : length (firstn 8 b) = 8%nat) by (rewrite firstn_length; lia).
  replace (cpl a b) with (cpl (firstn 8 a ++ skipn 8 a) (firstn 8 b ++ skipn 8 b))
    by (rewrite !firstn_skipn; reflexivity).
  destruct (Z.eqb_spec (le_value (firstn 8 a)) (le_value (firstn 8 b))) as [E|E].
  - apply le_value_inj in E; auto using bytes_ok_firstn; [|congruence].
    rewrite IH by auto using bytes_ok_skipn. rewrite E, cpl_app_same. unfold zlen. rewrite Hfb. lia.
  - assert (Hd : firstn 8 a <> firstn 8 b) by congruence.
    rewrite cpl_app_diff by (congruence || assumption).
    destruct (tz_words (firstn 8 a) (firstn 8 b) 0 ltac:(congruence) ltac:(auto using bytes_ok_firstn)
                ltac:(auto using bytes_ok_firstn) Hd) as [T _].
    rewrite Hfa in T. unfold trailing_zeros64. change (8 * 8 + 0)%nat with 64%nat in T. rewrite T. reflexivity.
Qed.

(* C14: word-at-a-time = byte-wise = length of the common prefix *)
Theorem extend_match_safe_cpl : forall a b,
  bytes_ok a = true -> bytes_ok b = true -> extend_match_safe a b = cpl a b.
Proof. intros a b Ha Hb. unfold extend_match_safe. rewrite em_words_cpl by assumption. lia. Qed.
