(* Arith/OptionsProofs.v — C19 at the level of option / constructor / index arithmetic:
   in-range options never panic and keep every table index inside its table; every out-of-range
   class is rejected by the repaired writers; the unchecked arithmetic is refuted class by class. *)
From LzVerif Require Import Base.Bytes Arith.WordFacts Arith.MemUsage Arith.MemUsageProofs Arith.Options Format.LzipDict Format.LzipDictProofs.
From Coq Require Import ZifyClasses.

#[global] Instance zify_U64 : CstOp U64 := { TCst := 18446744073709551616; TCstInj := eq_refl }.
Add Zify CstOp zify_U64.
#[global] Instance zify_ISIZE_MAX : CstOp ISIZE_MAX := { TCst := 9223372036854775807; TCstInj := eq_refl }.
Add Zify CstOp zify_ISIZE_MAX.
#[global] Instance zify_NICE_LEN_MIN : CstOp NICE_LEN_MIN := { TCst := 8; TCstInj := eq_refl }.
Add Zify CstOp zify_NICE_LEN_MIN.
#[global] Instance zify_NICE_LEN_MAX : CstOp NICE_LEN_MAX := { TCst := 273; TCstInj := eq_refl }.
Add Zify CstOp zify_NICE_LEN_MAX.

Lemma mul32_ok ck a b : a * b < U32 -> mul32 ck a b = Ok (a * b).
Proof. intros H. unfold mul32. destruct (Z.ltb_spec (a * b) U32); [reflexivity | lia]. Qed.

Lemma shr32_ok ck a s : 0 <= s < 32 -> shr32 ck a s = Ok (a / 2 ^ s).
Proof. intros Hs. unfold shr32. destruct (Z.ltb_spec s 32); [reflexivity | lia]. Qed.

Lemma shl_usize_ok ck a s : 0 <= s < 64 -> 0 <= a * 2 ^ s < U64 -> shl_usize ck a s = Ok (a * 2 ^ s).
Proof.
  intros Hs Hv. unfold shl_usize. destruct (Z.ltb_spec s 64); [|lia].
  rewrite Z.mod_small by exact Hv. reflexivity.
Qed.

Lemma sub_usize_ok ck a b : 0 <= a - b -> sub_usize ck a b = Ok (a - b).
Proof. intros H. unfold sub_usize. destruct (Z.leb_spec 0 (a - b)); [reflexivity | lia]. Qed.

Lemma add_usize_ok ck a b : a + b < U64 -> add_usize ck a b = Ok (a + b).
Proof. intros H. unfold add_usize. destruct (Z.ltb_spec (a + b) U64); [reflexivity | lia]. Qed.

Lemma vec_alloc_ok count elem : count * elem <= ISIZE_MAX -> vec_alloc count elem = Ok count.
Proof. intros H. unfold vec_alloc. destruct (Z.ltb_spec ISIZE_MAX (count * elem)); [lia | reflexivity]. Qed.

(* buf_size.checked_sub(2).unwrap() *)
Lemma unwrap_sub2_ok b : 2 <= b -> (if b <? 2 then Panic P_UNWRAP else Ok (b - 2)) = Ok (b - 2).
Proof. intros H. destruct (Z.ltb_spec b 2); [lia | reflexivity]. Qed.

Global Hint Rewrite mul32_ok shr32_ok shl_usize_ok sub_usize_ok add_usize_ok vec_alloc_ok unwrap_sub2_ok using lia : word_ok.

Theorem props_roundtrip : forall ck lc lp pb, 0 <= lc <= 8 -> 0 <= lp <= 4 -> 0 <= pb <= 4 ->
  exists b, props_byte ck lc lp pb = Ok b /\ 0 <= b <= 224 /\ b = (pb * 5 + lp) * 9 + lc /\
            lzma_decode_props b = Ok (lc, lp, pb) /\
            (lc + lp <= 4 -> lzma2_decode_props b = Ok (lc, lp, pb)) /\
            (4 < lc + lp -> lzma2_decode_props b = Err E_INVALID_INPUT).
Proof.
  intros ck lc lp pb Hlc Hlp Hpb. exists ((pb * 5 + lp) * 9 + lc).
  unfold props_byte. autorewrite with word_ok. unfold wrap8. rewrite Z.mod_small by lia.
  split; [reflexivity|]. split; [lia|]. split; [reflexivity|].
  set (b := (pb * 5 + lp) * 9 + lc).
  assert (Hpb' : b / 45 = pb) by (subst b; Z.div_mod_to_equations; lia).
  assert (Hlp' : (b - pb * 45) / 9 = lp) by (subst b; Z.div_mod_to_equations; lia).
  assert (Hlc' : b - pb * 45 - lp * 9 = lc) by (subst b; lia).
  unfold lzma_decode_props, lzma2_decode_props.
  destruct (Z.ltb_spec 224 b); [subst b; lia|].
  rewrite Hpb', Hlp', Hlc'.
  destruct (Z.ltb_spec 8 lc); [lia|]. destruct (Z.ltb_spec 4 lp); [lia|]. destruct (Z.ltb_spec 4 pb); [lia|].
  cbn [orb]. split; [reflexivity|].
  split; intros H'; destruct (Z.ltb_spec 4 (lc + lp)); try lia; reflexivity.
Qed.

Lemma lzma_opts_ok_spec lzma2 o : lzma_opts_ok lzma2 o = true ->
  0 <= o_lc o <= 8 /\ 0 <= o_lp o <= 4 /\ 0 <= o_pb o <= 4 /\ (lzma2 = true -> o_lc o + o_lp o <= 4) /\
  DICT_SIZE_MIN <= o_dict o <= ENC_DICT_SIZE_MAX /\ NICE_LEN_MIN <= o_nice o <= NICE_LEN_MAX.
Proof.
  unfold lzma_opts_ok. destruct lzma2; rewrite !andb_true_iff, !Z.leb_le; intros H; repeat split; try lia; discriminate.
Qed.

(* validate tests the negation of each conjunct of lzma_opts_ok, except that it leaves the sign of the
   unsigned fields to their type. *)
Lemma validate_eq lzma2 o : 0 <= o_lc o -> 0 <= o_lp o -> 0 <= o_pb o ->
  validate lzma2 o = if lzma_opts_ok lzma2 o then Ok tt else Err E_INVALID_INPUT.
Proof.
  intros Hlc Hlp Hpb. unfold validate, lzma_opts_ok. rewrite !Z.ltb_antisym.
  rewrite (proj2 (Z.leb_le 0 _) Hlc), (proj2 (Z.leb_le 0 _) Hlp), (proj2 (Z.leb_le 0 _) Hpb).
  destruct (o_lc o <=? 8), (o_lp o <=? 4), (o_pb o <=? 4); try reflexivity.
  destruct lzma2; [destruct (o_lc o + o_lp o <=? 4); [|reflexivity]|];
    destruct (DICT_SIZE_MIN <=? o_dict o), (o_dict o <=? ENC_DICT_SIZE_MAX); try reflexivity;
    destruct (NICE_LEN_MIN <=? o_nice o), (o_nice o <=? NICE_LEN_MAX); reflexivity.
Qed.

Lemma validate_ok lzma2 o : lzma_opts_ok lzma2 o = true -> validate lzma2 o = Ok tt.
Proof.
  intros Hok. destruct (lzma_opts_ok_spec lzma2 o Hok) as (Hlc & Hlp & Hpb & _).
  rewrite validate_eq, Hok by lia. reflexivity.
Qed.

Definition tables_of (o : lzma_opts) (slots : Z) : enc_tables :=
  {| t_pos_mask := 2 ^ o_pb o - 1; t_lit_pos_mask := 2 ^ o_lp o - 1; t_lc := o_lc o;
     t_lit_count := 2 ^ (o_lc o + o_lp o); t_len_pos_states := 2 ^ o_pb o;
     t_len_symbols := Z.max (o_nice o - 1) 16; t_matches := o_nice o - 1; t_dist_slots := slots;
     t_depth := effective_depth (o_mf o) (o_depth o) (o_nice o) |}.

(* No constructor-time panic for in-range options, in either build profile, and the table sizes
   in closed form. depth_limit is any i32 (<= 0 selects the default): the depth actually used is
   positive. *)
Theorem encoder_new_ok : forall lzma2 o, lzma_opts_ok lzma2 o = true ->
  exists slots, (forall ck extra, 0 <= extra <= 65536 -> encoder_new ck extra o = Ok (tables_of o slots)) /\ 1 <= slots <= 64 /\
                (-2147483648 <= o_depth o <= 2147483647 -> 0 < effective_depth (o_mf o) (o_depth o) (o_nice o)).
Proof.
  intros lzma2 o Hok.
  destruct (lzma_opts_ok_spec lzma2 o Hok) as (Hlc & Hlp & Hpb & _ & Hd & Hn).
  pose proof (dist_slot_bound (o_dict o - 1) ltac:(lia)) as Hs.
  exists (get_dist_slot (o_dict o - 1) + 1). split; [|split; [lia|]].
  - intros ck extra Hex. unfold encoder_new, as_i32.
    destruct (Z.ltb_spec (o_dict o) 2147483648); [|lia].
    destruct (Z.ltb_spec 2147483647 (o_dict o + 1)); [lia|].
    rewrite (proj1 (hash4_spec ck (o_dict o) ltac:(lia))).
    pose proof (pow2_bounds (o_lp o) 4 ltac:(lia)) as Blp. change (2 ^ 4) with 16 in Blp.
    pose proof (pow2_bounds (o_pb o) 4 ltac:(lia)) as Bpb. change (2 ^ 4) with 16 in Bpb.
    pose proof (pow2_bounds (o_lc o + o_lp o) 12 ltac:(lia)) as Bll. change (2 ^ 12) with 4096 in Bll.
    pose proof (Z.div_pos (o_dict o) 2 ltac:(lia) ltac:(lia)) as Bhalf.
    unfold enc_extra_after.
    destruct (o_mode o); autorewrite with word_ok; unfold tables_of; rewrite !Z.mul_1_l;
      replace (o_nice o - 2 + 1) with (o_nice o - 1) by lia; reflexivity.
  - intros Hdep. unfold effective_depth, as_i32.
    destruct (Z.ltb_spec 0 (o_depth o)); [lia|].
    destruct (Z.ltb_spec (o_nice o) 2147483648); [|lia].
    pose proof (Z.quot_pos (o_nice o) 4 ltac:(lia) ltac:(lia)).
    pose proof (Z.quot_pos (o_nice o) 2 ltac:(lia) ltac:(lia)).
    destruct (o_mf o); lia.
Qed.

Lemma pos_state_tables o s pos : 0 <= o_pb o -> pos_state (tables_of o s) pos = pos mod 2 ^ o_pb o.
Proof. apply land_mask_mod. Qed.

Lemma two_digits_lt A B low m : 0 <= low < A -> 0 <= m < B -> 0 <= low + m * A < A * B.
Proof.
  intros Hl Hm.
  assert (0 <= m * A <= (B - 1) * A) by (split; [apply Z.mul_nonneg_nonneg | apply Z.mul_le_mono_nonneg_r]; lia).
  lia.
Qed.

(* The sub-coder index has the top lc bits of the previous byte as its low digit (base 2^lc) and the
   low lp bits of the position as its high digit (base 2^lp). *)
Lemma literal_index_ok ck o s prev pos : 0 <= o_lc o <= 8 -> 0 <= o_lp o <= 4 -> 0 <= prev < 256 ->
  exists i, literal_index ck (tables_of o s) prev pos = Ok i /\ 0 <= i < 2 ^ (o_lc o + o_lp o).
Proof.
  intros Hlc Hlp Hprev.
  pose proof (pow2_bounds (o_lc o) 8 ltac:(lia)) as BA.
  pose proof (pow2_bounds (o_lc o + o_lp o) 12 ltac:(lia)) as BAB. rewrite Z.pow_add_r in * by lia.
  assert (Hlow : 0 <= prev / 2 ^ (8 - o_lc o) < 2 ^ o_lc o).
  { pose proof (Z.pow_pos_nonneg 2 (8 - o_lc o) ltac:(lia) ltac:(lia)).
    split; [apply Z.div_pos; lia|]. apply Z.div_lt_upper_bound; [lia|].
    rewrite <- Z.pow_add_r by lia. replace (8 - o_lc o + o_lc o) with 8 by lia. apply Hprev. }
  pose proof (Z.mod_pos_bound pos (2 ^ o_lp o) ltac:(lia)) as Hm.
  pose proof (two_digits_lt _ _ _ _ Hlow Hm) as Hi.
  exists (prev / 2 ^ (8 - o_lc o) + pos mod 2 ^ o_lp o * 2 ^ o_lc o). split; [|exact Hi].
  unfold literal_index, tables_of. cbn [t_lc t_lit_pos_mask t_lit_count].
  rewrite land_mask_mod, Z.pow_add_r by lia.
  set (low := prev / _) in *. set (m := pos mod _) in *. set (A := 2 ^ o_lc o) in *. set (B := 2 ^ o_lp o) in *.
  change (2 ^ 12) with 4096 in BAB.
  rewrite sub32_ok by lia. cbn [obind]. rewrite shr32_ok by lia. cbn [obind]. fold low.
  rewrite shl32_ok by (fold A; unfold U32; lia). cbn [obind]. fold A.
  rewrite add32_ok by (unfold U32; lia). cbn [obind].
  destruct (Z.ltb_spec (low + m * A) (A * B)); [reflexivity|lia].
Qed.

Theorem ctx_index_bounds : forall lzma2 o slots ck pos prev state,
  lzma_opts_ok lzma2 o = true -> 0 <= pos < U32 -> 0 <= prev < 256 -> 0 <= state < 12 ->
  let t := tables_of o slots in
  0 <= pos_state t pos < 2 ^ o_pb o /\ 2 ^ o_pb o <= 16 /\
  is_match_index t state pos = Ok (state, pos_state t pos) /\
  (exists i, literal_index ck t prev pos = Ok i /\ 0 <= i < t_lit_count t) /\
  (forall len, 2 <= len <= o_nice o -> len_index t pos len = Ok (pos_state t pos, len - 2)) /\
  (forall k, 0 <= k < o_nice o - 1 -> matches_index t k = Ok k).
Proof.
  intros lzma2 o slots ck pos prev state Hok Hpos Hprev Hstate t.
  destruct (lzma_opts_ok_spec lzma2 o Hok) as (Hlc & Hlp & Hpb & _ & Hd & Hn).
  unfold NICE_LEN_MIN, NICE_LEN_MAX in *.
  pose proof (pow2_bounds (o_pb o) 4 ltac:(lia)) as Bpb. change (2 ^ 4) with 16 in Bpb.
  pose proof (Z.mod_pos_bound pos (2 ^ o_pb o) ltac:(lia)) as Hm.
  unfold is_match_index, len_index, matches_index. subst t. rewrite pos_state_tables by lia.
  cbn [tables_of t_len_pos_states t_len_symbols t_matches t_lit_count].
  set (ps := pos mod 2 ^ o_pb o) in *.
  split; [exact Hm|]. split; [lia|]. split; [|split; [|split]].
  - destruct (Z.leb_spec 0 state); [|lia]. destruct (Z.ltb_spec state 12); [|lia].
    destruct (Z.ltb_spec ps 16); [reflexivity|lia].
  - apply literal_index_ok; assumption.
  - intros len Hlen.
    destruct (Z.ltb_spec ps (2 ^ o_pb o)); [|lia]. destruct (Z.ltb_spec ps 16); [|lia].
    destruct (Z.leb_spec 0 (len - 2)); [|lia].
    destruct (Z.ltb_spec (len - 2) (Z.max (o_nice o - 1) 16)); [reflexivity|lia].
  - intros k Hk. destruct (Z.leb_spec 0 k); [|lia]. destruct (Z.ltb_spec k (o_nice o - 1)); [reflexivity|lia].
Qed.

(* XZ: the dictionary property announces at least the dictionary the encoder uses *)
Theorem xz_dict_prop_ok : forall d, DICT_SIZE_MIN <= d <= ENC_DICT_SIZE_MAX ->
  exists p ds, xz_encode_dict_size d = Ok p /\ xz_reader_dict_size p = Ok ds /\ d <= ds.
Proof.
  intros d Hd. unfold xz_encode_dict_size.
  destruct (Z.ltb_spec d 4096); [lia|]. destruct (Z.eqb_spec d 4294967295); [lia|].
  destruct (find (fun p => d <=? xz_dict_of_prop p) props40) as [p|] eqn:Ef.
  - apply find_some in Ef. destruct Ef as [Hin Hle]. apply Z.leb_le in Hle.
    exists p, (xz_dict_of_prop p). split; [reflexivity|]. split; [|exact Hle].
    unfold xz_reader_dict_size.
    assert (Hp : 0 <= p < 40).
    { unfold props40 in Hin. apply in_map_iff in Hin. destruct Hin as (kk & <- & Hkk). apply in_seq in Hkk. lia. }
    destruct (Z.ltb_spec 40 p); [lia|]. destruct (Z.eqb_spec p 40); [lia|]. reflexivity.
  - exfalso. pose proof (find_none _ _ Ef 39) as Hn.
    assert (Hin : In 39 props40).
    { unfold props40. apply in_map_iff. exists 39%nat. split; [reflexivity|]. apply in_seq. lia. }
    specialize (Hn Hin). cbn beta in Hn. change (xz_dict_of_prop 39) with 3221225472 in Hn. apply Z.leb_gt in Hn. lia.
Qed.

(* XZ: a validated delta distance survives the header encoding, and is the distance DeltaWriter uses *)
Theorem xz_delta_prop_ok : forall ck dist, 1 <= dist <= 256 ->
  exists b, xz_delta_prop ck dist = Ok b /\ 0 <= b < 256 /\ xz_reader_delta_distance b = dist /\
            delta_effective_distance dist = dist.
Proof.
  intros ck dist Hd. exists (dist - 1). unfold xz_delta_prop. autorewrite with word_ok.
  unfold wrap8. rewrite Z.mod_small by lia. split; [reflexivity|]. split; [lia|].
  split; [unfold xz_reader_delta_distance; lia|].
  unfold delta_effective_distance. destruct (Z.eqb_spec (dist mod 256) 0); Z.div_mod_to_equations; lia.
Qed.

(* XZ: a validated BCJ start offset passes the reader's alignment check *)
Theorem xz_bcj_offset_ok : forall f, filter_ok f = true -> f_kind f <> FDelta ->
  xz_reader_bcj_check (f_kind f) (f_prop f) = Ok (f_prop f).
Proof.
  intros [k p] Hok Hk. unfold filter_ok, xz_reader_bcj_check in *. cbn [f_kind f_prop] in *.
  destruct k; try congruence; try discriminate; rewrite Hok; reflexivity.
Qed.

(* LZIP: the clamped dictionary size always has a header byte, announcing at least that size
   (Format/LzipDictProofs.v) *)
Theorem lzip_dict_ok_for_every_request : forall o,
  exists dd, lzip_header_dict (o_dict o) = Ok dd /\ o_dict (lzip_effective o) <= dd.
Proof.
  intros o. destruct (lzip_header_dict_ok (o_dict o)) as (dd & E & Hle). exists dd. split; [exact E|].
  unfold lzip_effective, lzip_clamp_dict, LZIP_MIN_DICT_SIZE, LZIP_MAX_DICT_SIZE, LZIP_MIN_DICT, LZIP_MAX_DICT in *.
  cbn [o_dict]. destruct (Z.ltb_spec (o_dict o) 4096); destruct (Z.ltb_spec 536870912 (o_dict o)); lia.
Qed.

(* The writers pass 0 (LZMAWriter) or get_extra_size_before (LZMA2Writer) as extra_size_before. *)
Lemma obs_encoder_ok lzma2 ck extra o st : lzma_opts_ok lzma2 o = true ->
  extra = 0 \/ extra = get_extra_size_before (o_dict o) -> obs_of_encoder_new ck extra o st = ObsOk.
Proof.
  intros Hok Hex. destruct (encoder_new_ok lzma2 o Hok) as (slots & He & _).
  destruct (lzma_opts_ok_spec lzma2 o Hok) as (_ & _ & _ & _ & Hd & _).
  unfold obs_of_encoder_new. rewrite He; [reflexivity|]. rewrite esb_max in Hex. lia.
Qed.

Lemma lzma_opts_ok_weaken o : lzma_opts_ok true o = true -> lzma_opts_ok false o = true.
Proof.
  unfold lzma_opts_ok. intros H.
  repeat (apply andb_prop in H; destruct H as [H ?]).
  repeat (apply andb_true_intro; split); auto.
Qed.

Lemma validate_pre_filter_eq f : validate_pre_filter f = if filter_ok f then Ok tt else Err E_INVALID_INPUT.
Proof.
  destruct f as [k p]. unfold validate_pre_filter, filter_ok. cbn [f_kind f_prop].
  destruct k; try reflexivity. rewrite !Z.ltb_antisym. destruct (1 <=? p), (p <=? 256); reflexivity.
Qed.

Lemma validate_filters_eq fs :
  validate_filters fs = if forallb filter_ok fs then Ok tt else Err E_INVALID_INPUT.
Proof.
  induction fs as [|f t IH]; [reflexivity|]. cbn [validate_filters forallb]. rewrite validate_pre_filter_eq.
  destruct (filter_ok f); [exact IH | reflexivity].
Qed.

(* In-range options (the documented domain of each writer kind): construct, write and finish all
   succeed - no error, no panic - in both build profiles. *)
Theorem C19_in_model : forall ck k o fs len, opts_ok k o fs = true -> 0 <= len ->
  writer_outcome ck k o fs len = ObsOk.
Proof.
  intros ck k o fs len Hok Hlen. unfold opts_ok in Hok. unfold writer_outcome.
  destruct k; rewrite ?andb_true_iff in Hok.
  - destruct Hok as [Ho Hp]. rewrite (validate_ok _ _ Ho), (obs_encoder_ok false) by auto.
    destruct (o_preset o); [discriminate|reflexivity].
  - rewrite (validate_ok _ _ Hok). apply (obs_encoder_ok false); auto.
  - rewrite (validate_ok _ _ Hok). apply (obs_encoder_ok true); auto.
  - destruct Hok as [[[Ho Hp] Hn%Z.leb_le] Hf]. rewrite (validate_ok _ _ Ho), validate_filters_eq, Hf.
    destruct (o_preset o); [discriminate|]. destruct (Z.ltb_spec 3 (Z.of_nat (length fs))); [lia|].
    destruct (0 <? len); [apply (obs_encoder_ok true); auto | reflexivity].
  - destruct Hok as [Ho Hp]. change (o_preset (lzip_effective o)) with (o_preset o).
    destruct (o_preset o); [discriminate|]. rewrite (validate_ok _ _ Ho). apply (obs_encoder_ok false); auto.
Qed.

(* Out-of-range options: every class is rejected with an error - InvalidInput, or Unsupported for
   a preset dictionary the container cannot carry - by the constructor where it can fail, by the
   first write()/finish() where it cannot (LZMA2Writer, LZIPWriter).  Never a panic, never a
   success.  (What each writer normalises itself - LZIPWriter's lc/lp/pb/dict_size, LZMA2Writer's
   empty preset dictionary, any depth_limit - is inside opts_ok.) *)
Theorem C19_out_model : forall ck k o fs len, opts_typed o fs -> opts_ok k o fs = false -> 0 <= len ->
  exists c st, writer_outcome ck k o fs len = ObsErr c st /\
               (c = E_INVALID_INPUT \/ c = E_UNSUPPORTED) /\
               (match k with WLzma2 | WLzip => st = deferred len | _ => st = SNew end).
Proof.
  intros ck k o fs len (Hd & Hlc & Hlp & Hpb & _) Hbad Hlen.
  unfold opts_ok in Hbad. unfold writer_outcome.
  destruct k; rewrite validate_eq by (cbn [lzip_effective o_lc o_lp o_pb]; lia).
  (* options the validator rejects, more than three filters or a filter it rejects: InvalidInput; a preset
     dictionary the container cannot carry: Unsupported *)
  - destruct (lzma_opts_ok false o) eqn:Ho; [|exists E_INVALID_INPUT, SNew; auto].
    rewrite (obs_encoder_ok false) by auto.
    destruct (o_preset o); cbn [is_some]; [exists E_UNSUPPORTED, SNew; auto|discriminate].
  - rewrite Hbad. exists E_INVALID_INPUT, SNew; auto.
  - rewrite Hbad. exists E_INVALID_INPUT, (deferred len); auto.
  - destruct (lzma_opts_ok true o); [|exists E_INVALID_INPUT, SNew; auto].
    destruct (o_preset o); cbn [is_some negb andb] in *; [exists E_UNSUPPORTED, SNew; auto|].
    destruct (Z.ltb_spec 3 (Z.of_nat (length fs))); [exists E_INVALID_INPUT, SNew; auto|].
    destruct (Z.leb_spec (Z.of_nat (length fs)) 3); [|lia].
    cbn [andb] in Hbad. rewrite validate_filters_eq, Hbad. exists E_INVALID_INPUT, SNew; auto.
  - change (o_preset (lzip_effective o)) with (o_preset o) in *.
    destruct (o_preset o); cbn [is_some negb] in *; [exists E_UNSUPPORTED, (deferred len); auto|].
    rewrite andb_true_r in Hbad. rewrite Hbad. exists E_INVALID_INPUT, (deferred len); auto.
Qed.

(* What LZIPWriter ignores cannot matter *)
Theorem lzip_ignores_lc_lp_pb : forall ck o lc lp pb fs len,
  writer_outcome ck WLzip o fs len =
  writer_outcome ck WLzip {| o_dict := o_dict o; o_lc := lc; o_lp := lp; o_pb := pb; o_mode := o_mode o; o_mf := o_mf o;
                             o_nice := o_nice o; o_depth := o_depth o; o_preset := o_preset o |} fs len.
Proof. intros. reflexivity. Qed.

(* depth_limit: every i32 value is harmless (it only bounds a search loop; <= 0 selects the default) *)
Definition set_depth (o : lzma_opts) (d : Z) : lzma_opts :=
  {| o_dict := o_dict o; o_lc := o_lc o; o_lp := o_lp o; o_pb := o_pb o; o_mode := o_mode o; o_mf := o_mf o;
     o_nice := o_nice o; o_depth := d; o_preset := o_preset o |}.

(* The class of an outcome at stage [st], as [obs_of_encoder_new] reports it. *)
Definition outcome_class {A} (st : stage) (r : outcome A) : obs :=
  match r with Ok _ => ObsOk | Err c => ObsErr c st | Panic _ => ObsPanic st | Fuel => ObsPanic st end.

Lemma outcome_class_bind {A B} st (x : outcome A) (f g : A -> outcome B) :
  (forall a, outcome_class st (f a) = outcome_class st (g a)) ->
  outcome_class st (obind x f) = outcome_class st (obind x g).
Proof. intros H. destruct x; [apply H | reflexivity ..]. Qed.

(* o_depth reaches only the t_depth field of the tables, and the observation forgets the tables. *)
Lemma obs_encoder_depth_irrelevant ck extra o d st :
  obs_of_encoder_new ck extra (set_depth o d) st = obs_of_encoder_new ck extra o st.
Proof.
  change (outcome_class st (encoder_new ck extra (set_depth o d)) = outcome_class st (encoder_new ck extra o)).
  unfold encoder_new, set_depth. cbn [o_dict o_lc o_lp o_pb o_mode o_mf o_nice o_depth o_preset]. cbv zeta.
  repeat (apply outcome_class_bind; intros ?). reflexivity.
Qed.

Theorem depth_limit_any_value_ok : forall ck k o fs len d,
  writer_outcome ck k (set_depth o d) fs len = writer_outcome ck k o fs len.
Proof.
  intros ck k o fs len d.
  assert (Hl : lzip_effective (set_depth o d) = set_depth (lzip_effective o) d) by reflexivity.
  destruct k; unfold writer_outcome; try rewrite Hl; rewrite !obs_encoder_depth_irrelevant; reflexivity.
Qed.

(* The unchecked arithmetic, class by class (the behaviour before repo-patches/03..07) *)
Definition wit (d lc lp pb nice : Z) : lzma_opts :=
  {| o_dict := d; o_lc := lc; o_lp := lp; o_pb := pb; o_mode := Fast; o_mf := HC4; o_nice := nice; o_depth := 0; o_preset := None |}.

(* "the constructor returns tables t, and P t" *)
Definition with_tables (r : outcome enc_tables) (P : enc_tables -> Prop) : Prop :=
  match r with Ok t => P t | _ => False end.

(* pb = 5: the constructor succeeds, position 16 indexes past [u16; 16]; the properties byte is > 224 *)
Theorem unchecked_pb5_refuted :
  with_tables (encoder_new false 0 (wit 65536 3 0 5 32)) (fun t => is_match_index t 0 16 = Panic P_INDEX) /\
  with_tables (encoder_new true 0 (wit 65536 3 0 5 32)) (fun t => is_match_index t 0 16 = Panic P_INDEX) /\
  props_byte true 3 0 5 = Ok 228 /\ lzma_decode_props 228 = Err E_INVALID_INPUT.
Proof. vm_compute. repeat split; reflexivity. Qed.

(* lc = 9: the properties byte is that of (lc,lp,pb) = (0,1,2); `8 - lc` underflows *)
Theorem unchecked_lc9_refuted :
  props_byte true 9 0 2 = Ok 99 /\ lzma_decode_props 99 = Ok (0, 1, 2) /\
  with_tables (encoder_new true 0 (wit 65536 9 0 2 32)) (fun t => literal_index true t 65 0 = Panic P_OVERFLOW).
Proof. vm_compute. repeat split; reflexivity. Qed.

(* lc + lp = 5: a valid LZMA properties byte that every LZMA2 decoder rejects *)
Theorem unchecked_lclp_lzma2_refuted :
  with_tables (encoder_new true 61440 (wit 4096 4 1 2 32)) (fun _ => True) /\
  props_byte true 4 1 2 = Ok 103 /\ lzma_decode_props 103 = Ok (4, 1, 2) /\
  lzma2_decode_props 103 = Err E_INVALID_INPUT.
Proof. vm_compute. repeat split; reflexivity. Qed.

(* huge lc: the literal table size overflows (release: 1 << (lc & 63) entries of 1536 bytes) *)
Theorem unchecked_huge_lc_refuted :
  encoder_new true 0 (wit 65536 4294967295 0 2 32) = Panic P_OVERFLOW /\
  encoder_new false 0 (wit 65536 4294967295 0 2 32) = Panic P_CAPACITY.
Proof. vm_compute. split; reflexivity. Qed.

(* dict_size = 0: `dict_size - 1` *)
Theorem unchecked_dict0_refuted :
  encoder_new true 0 (wit 0 3 0 2 32) = Panic P_OVERFLOW /\
  with_tables (encoder_new false 0 (wit 0 3 0 2 32)) (fun t => t_dist_slots t = 64).
Proof. vm_compute. split; reflexivity. Qed.

(* nice_len = 0, 1, 2: Matches::new(nice_len - 1) *)
Theorem unchecked_nice_len_refuted :
  encoder_new true 0 (wit 65536 3 0 2 0) = Panic P_OVERFLOW /\
  encoder_new false 0 (wit 65536 3 0 2 0) = Panic P_CAPACITY /\
  encoder_new true 0 (wit 65536 3 0 2 1) = Panic P_OVERFLOW /\
  with_tables (encoder_new false 0 (wit 65536 3 0 2 1)) (fun t => matches_index t 0 = Panic P_INDEX) /\
  with_tables (encoder_new true 0 (wit 65536 3 0 2 2)) (fun t => matches_index t 1 = Panic P_INDEX).
Proof. vm_compute. repeat split; reflexivity. Qed.

(* nice_len = u32::MAX: three tables of 16 GiB and more are requested and cleared *)
Theorem unchecked_huge_nice_len_refuted :
  with_tables (encoder_new true 0 (wit 65536 3 0 2 4294967295))
              (fun t => t_matches t = 4294967294 /\ t_len_symbols t = 4294967294).
Proof. vm_compute. split; reflexivity. Qed.

(* XZ delta distance 0: `(distance - 1) as u8`; in a release build the wrapped byte happens to be
   what DeltaWriter does with 0 *)
Theorem unchecked_delta0_refuted :
  xz_delta_prop true 0 = Panic P_OVERFLOW /\
  xz_delta_prop false 0 = Ok 255 /\ xz_reader_delta_distance 255 = delta_effective_distance 0.
Proof. vm_compute. repeat split; reflexivity. Qed.

(* XZ: an unaligned BCJ start offset is written but refused by the reader *)
Theorem unchecked_bcj_offset_refuted : xz_reader_bcj_check FARM 2 = Err E_INVALID_DATA.
Proof. vm_compute. reflexivity. Qed.

Theorem witnesses_rejected :
  validate false (wit 65536 3 0 5 32) = Err E_INVALID_INPUT /\ validate false (wit 65536 9 0 2 32) = Err E_INVALID_INPUT /\
  validate true (wit 65536 4 1 2 32) = Err E_INVALID_INPUT /\ validate false (wit 65536 4294967295 0 2 32) = Err E_INVALID_INPUT /\
  validate false (wit 0 3 0 2 32) = Err E_INVALID_INPUT /\ validate false (wit 65536 3 0 2 0) = Err E_INVALID_INPUT /\
  validate false (wit 65536 3 0 2 2) = Err E_INVALID_INPUT /\ validate false (wit 65536 3 0 2 4294967295) = Err E_INVALID_INPUT /\
  validate_pre_filter {| f_kind := FDelta; f_prop := 0 |} = Err E_INVALID_INPUT /\
  validate_pre_filter {| f_kind := FARM; f_prop := 2 |} = Err E_INVALID_INPUT.
Proof. vm_compute. repeat split; reflexivity. Qed.
