(* Arith/DirectBitsAsmProofs.v — the transcribed x86-64 assembly of decode_direct_bits equals the
   portable per-bit loop of Codec/Range.v as long as the run stays inside the buffer, never loads
   outside the buffer in any state, differs from the portable loop beyond the end (historical
   dispatch refuted), and the repaired dispatch equals the portable loop in every state. *)
From LzVerif Require Import Base.Bytes Codec.Store Codec.Range Arith.DirectBitsAsm.
From Coq Require Import ZifyClasses.

#[global] Instance zify_P2_63 : CstOp P2_63 := { TCst := 9223372036854775808; TCstInj := eq_refl }.
Add Zify CstOp zify_P2_63.

Lemma nth_opt_skipn {A} (l : list A) n :
  (n < length l)%nat -> exists b, nth_opt l n = Some b /\ skipn n l = b :: skipn (S n) l.
Proof.
  revert n; induction l as [|x t IH]; intros n Hn; cbn [length] in Hn; [lia|].
  destruct n as [|k].
  - exists x. split; reflexivity.
  - destruct (IH k ltac:(lia)) as (b & E1 & E2). exists b. split; [exact E1|]. exact E2.
Qed.

Lemma zth_skipn {A} (buf : list A) p :
  0 <= p < zlen buf ->
  exists b, zth buf p = Some b /\ skipn (Z.to_nat p) buf = b :: skipn (Z.to_nat (p + 1)) buf.
Proof.
  unfold zlen, zth. intros [H0 H1]. destruct (Z.ltb_spec p 0); [lia|].
  destruct (nth_opt_skipn buf (Z.to_nat p) ltac:(lia)) as (b & E1 & E2).
  exists b. split; [exact E1|]. rewrite E2. replace (Z.to_nat (p + 1)) with (S (Z.to_nat p)) by lia. reflexivity.
Qed.

Lemma skipn_beyond {A} (buf : list A) p : zlen buf <= p -> skipn (Z.to_nat p) buf = [].
Proof. unfold zlen. intros H. apply skipn_all2. lia. Qed.

Lemma wrap64_small x : 0 <= x < P2_63 -> wrap64 x = x.
Proof. intros H. apply Z.mod_small. lia. Qed.

(* The compare is signed (cmovg): it is a minimum only below 2^63.  That holds in the loop because
   pos starts at most at len and grows by at most one per bit. *)
Lemma asm_clamp_min limit pos : 0 <= limit < P2_63 -> 0 <= pos < P2_63 -> asm_clamp limit pos = Z.min limit pos.
Proof.
  unfold asm_clamp, s64. intros Hl Hp.
  destruct (Z.ltb_spec limit P2_63); [|lia]. destruct (Z.ltb_spec pos P2_63); [|lia].
  destruct (Z.ltb_spec limit pos); lia.
Qed.

Lemma asm_clamp_bounds_lemma len pos :
  1 <= len < P2_63 -> 0 <= pos < P2_63 -> 0 <= asm_clamp (len - 1) pos <= len - 1.
Proof. intros Hl Hp. rewrite asm_clamp_min; lia. Qed.

(* with pos >= 2^63 (as an unsigned register) the signed compare does not clamp *)
Lemma asm_clamp_signed_hole :
  exists len pos, 1 <= len < P2_63 /\ P2_63 <= pos < P2_64 /\ asm_clamp (len - 1) pos = pos.
Proof. exists 1, P2_63. vm_compute. repeat split; congruence. Qed.

Lemma asm_loop_S buf limit n s :
  asm_loop buf limit (S n) s = match asm_iter buf limit s with None => None | Some s1 => asm_loop buf limit n s1 end.
Proof. reflexivity. Qed.

Lemma asm_iters_pos count : 1 <= count -> asm_iters count = Z.to_nat count.
Proof. intros H. unfold asm_iters. destruct (Z.eqb_spec count 0); [lia|reflexivity]. Qed.

Lemma asm_iter_some buf s :
  1 <= zlen buf < P2_63 -> 0 <= a_pos s < P2_63 - 1 ->
  exists s1, asm_iter buf (zlen buf - 1) s = Some s1 /\ a_pos s <= a_pos s1 <= a_pos s + 1.
Proof.
  intros Hl Hp. unfold asm_iter, asm_iter_gen.
  destruct (a_range s <? P2_24).
  - pose proof (asm_clamp_bounds_lemma (zlen buf) (a_pos s) Hl ltac:(lia)) as Hc.
    destruct (zth_some buf (asm_clamp (zlen buf - 1) (a_pos s)) ltac:(lia)) as (b & Eb).
    rewrite Eb. eexists. split; [reflexivity|]. cbn [a_pos]. rewrite wrap64_small; lia.
  - eexists. split; [reflexivity|]. cbn [a_pos]. lia.
Qed.

Lemma asm_loop_some buf n : forall s,
  1 <= zlen buf < P2_63 -> 0 <= a_pos s -> a_pos s + Z.of_nat n < P2_63 ->
  exists s', asm_loop buf (zlen buf - 1) n s = Some s' /\ a_pos s <= a_pos s' <= a_pos s + Z.of_nat n.
Proof.
  induction n as [|k IH]; intros s Hl Hp Hn.
  - exists s. split; [reflexivity|]. lia.
  - destruct (asm_iter_some buf s Hl ltac:(lia)) as (s1 & E1 & Hp1).
    destruct (IH s1 Hl ltac:(lia) ltac:(lia)) as (s' & E' & Hp').
    exists s'. rewrite asm_loop_S, E1. split; [exact E'|lia].
Qed.

(* C15: in EVERY state of the decoder (any range/code, pos inside, at or beyond the end of the
   buffer, any count a u32 can hold) the assembly loads only bytes of the buffer, and the position
   it stores is inside the buffer or at its end. *)
Theorem asm_loads_in_bounds : forall buf pos range code count,
  1 <= zlen buf < 2 ^ 62 -> 0 <= pos < 2 ^ 62 -> 0 <= count < 2 ^ 32 ->
  exists v r c p, direct_bits_asm buf pos range code count = Ok (v, r, c, p) /\ 0 <= p <= zlen buf.
Proof.
  intros buf pos range code count Hl Hp Hc.
  change (2 ^ 62) with 4611686018427387904 in *. change (2 ^ 32) with 4294967296 in *.
  unfold direct_bits_asm, direct_bits_asm_gen.
  destruct (Z.eqb_spec (zlen buf) 0); [lia|].
  assert (Hn : Z.of_nat (asm_iters count) <= 4294967296).
  { unfold asm_iters, P2_32. destruct (Z.eqb_spec count 0); lia. }
  destruct (asm_loop_some buf (asm_iters count) (mkAreg 0 range code pos)) as (s' & E & Hs'); cbn [a_pos] in *; try lia.
  unfold asm_loop in E. rewrite E. do 4 eexists. split; [reflexivity|]. lia.
Qed.

Definition port_step (d : rdec) (acc : Z) : rdec * Z :=
  let d1 := rdec_normalize d in
  let range := Z.shiftr (rd_range d1) 1 in
  let t := Z.shiftr (wrap32 (rd_code d1 - range)) 31 in
  let code := if t =? 0 then wrap32 (rd_code d1 - range) else rd_code d1 in
  (mkRdec range code (rd_in d1) (rd_over d1), wrap32 (acc * 2 + (1 - t))).

Lemma ddb_S d c acc :
  decode_direct_bits d (S c) acc = decode_direct_bits (fst (port_step d acc)) c (snd (port_step d acc)).
Proof. reflexivity. Qed.

Definition twin_rel (buf : list Z) (s : areg) (d : rdec) : Prop :=
  rd_range d = a_range s /\ rd_code d = a_code s /\
  rd_in d = skipn (Z.to_nat (a_pos s)) buf /\ 0 <= a_pos s.

(* The bit after the normalisation: the portable loop shifts the sign bit of code - range down and
   branches on it, the assembly selects on the sign flag. *)
Lemma bit_twins result range code :
  let diff := wrap32 (code - range) in
  let t := Z.shiftr diff 31 in
  let sf := P2_31 <=? diff in
  (if t =? 0 then diff else code) = (if sf then code else diff) /\
  wrap32 (result * 2 + (1 - t)) = (if sf then wrap32 (result * 2) else wrap32 (wrap32 (result * 2) + 1)).
Proof.
  cbv zeta. set (diff := wrap32 (code - range)).
  assert (Hd : 0 <= diff < 4294967296) by (apply Z.mod_pos_bound; lia).
  rewrite Z.shiftr_div_pow2 by lia. change (2 ^ 31) with 2147483648. unfold P2_31.
  destruct (Z.leb_spec 2147483648 diff).
  - replace (diff / 2147483648) with 1 by (Z.div_mod_to_equations; lia). rewrite Z.add_0_r. split; reflexivity.
  - replace (diff / 2147483648) with 0 by (Z.div_mod_to_equations; lia). split; [reflexivity|].
    unfold wrap32. rewrite Zplus_mod_idemp_l. reflexivity.
Qed.

Lemma step_twins buf s d :
  twin_rel buf s d -> a_pos s < zlen buf -> zlen buf < P2_63 ->
  exists s1, asm_iter buf (zlen buf - 1) s = Some s1 /\
    twin_rel buf s1 (fst (port_step d (a_result s))) /\
    snd (port_step d (a_result s)) = a_result s1 /\
    rd_over (fst (port_step d (a_result s))) = rd_over d /\
    a_pos s <= a_pos s1 <= a_pos s + 1.
Proof.
  intros (Hr & Hc & Hi & Hp) Hlt Hlen.
  unfold asm_iter, asm_iter_gen, port_step, rdec_normalize, twin_rel. rewrite Hr, Hc.
  destruct (a_range s <? P2_24).
  - rewrite asm_clamp_min, Z.min_r by lia.
    destruct (zth_skipn buf (a_pos s) ltac:(lia)) as (b & Eb & Es).
    rewrite Eb. unfold rdec_read. rewrite Hi, Es, wrap64_small by lia. cbn [rd_range rd_code rd_in rd_over].
    destruct (bit_twins (a_result s) (Z.shiftr (wrap32 (a_range s * 256)) 1) (Z.lor (wrap32 (a_code s * 256)) b)) as [Ec Er].
    eexists. split; [reflexivity|]. cbn [fst snd a_result a_range a_code a_pos rd_range rd_code rd_in rd_over].
    rewrite Ec, Er. repeat split; lia.
  - cbn [rd_range rd_code rd_in rd_over]. rewrite Hr, Hc.
    destruct (bit_twins (a_result s) (Z.shiftr (a_range s) 1) (a_code s)) as [Ec Er].
    eexists. split; [reflexivity|]. cbn [fst snd a_result a_range a_code a_pos rd_range rd_code rd_in rd_over].
    rewrite Ec, Er. repeat split; assumption || lia.
Qed.

Lemma loop_twins buf : zlen buf < P2_63 -> forall n s d,
  twin_rel buf s d -> a_pos s + Z.of_nat n <= zlen buf ->
  exists s', asm_loop buf (zlen buf - 1) n s = Some s' /\
    fst (decode_direct_bits d n (a_result s)) = a_result s' /\
    twin_rel buf s' (snd (decode_direct_bits d n (a_result s))) /\
    rd_over (snd (decode_direct_bits d n (a_result s))) = rd_over d /\
    a_pos s' <= zlen buf.
Proof.
  intros Hlen. induction n as [|k IH]; intros s d HR Hn.
  - exists s. cbn [decode_direct_bits fst snd].
    split; [reflexivity|]. split; [reflexivity|]. split; [exact HR|]. split; [reflexivity|]. lia.
  - destruct (step_twins buf s d HR ltac:(lia) Hlen) as (s1 & E1 & HR1 & Hacc & Hov & Hp1).
    destruct (IH s1 _ HR1 ltac:(lia)) as (s' & E' & Hv & HR' & Hov' & Hp').
    exists s'. rewrite ddb_S, Hacc, asm_loop_S, E1.
    split; [exact E'|]. split; [exact Hv|]. split; [exact HR'|]. split; [congruence|exact Hp'].
Qed.

(* C14 (F18, positive half): whenever the direct-bit run cannot reach the end of the buffer -
   pos + count <= len, since each bit consumes at most one byte - the x86-64 assembly returns the
   same value and leaves the same (range, code, pos) as the portable loop, for every u32 range and
   code (valid or not) and every buffer content. *)
Theorem direct_bits_twins : forall buf pos range code count,
  0 <= pos -> 1 <= count -> pos + count <= zlen buf -> zlen buf < P2_63 ->
  direct_bits_asm buf pos range code count = Ok (direct_bits_portable buf pos range code count).
Proof.
  intros buf pos range code count Hp Hc Hfit Hlen.
  unfold direct_bits_asm, direct_bits_asm_gen, direct_bits_portable.
  destruct (Z.eqb_spec (zlen buf) 0); [lia|]. rewrite asm_iters_pos by exact Hc.
  assert (HR : twin_rel buf (mkAreg 0 range code pos) (rdec_of_buf buf pos range code)) by (repeat split; assumption).
  destruct (loop_twins buf Hlen (Z.to_nat count) _ _ HR ltac:(cbn [a_pos]; lia)) as (s' & E & Hv & HR' & Hov & Hp').
  unfold asm_loop in E. rewrite E. cbn [a_result] in *.
  destruct (decode_direct_bits (rdec_of_buf buf pos range code) (Z.to_nat count) 0) as [v d'].
  cbn [fst snd] in *. destruct HR' as (Hr & Hcd & Hin & Hpos).
  unfold rdec_pos. rewrite Hin, zlen_skipn, Hov, Hv, Hr, Hcd by lia. cbn [rdec_of_buf rd_over]. do 2 f_equal. lia.
Qed.

(* C14 (F18, negative half): at the end of the buffer the two paths differ.  First witness: the
   buffer is exhausted and one more byte is needed - both read "0", but the assembly leaves
   pos = len (so is_finished() says true with code = 0) while the portable path counts the
   over-read (is_finished() = false).  Second witness: the assembly re-reads buf[len-1] = 0xFF
   where the portable path reads 0, so [code] differs as well. *)
Theorem direct_bits_overrun_refuted :
  (exists buf pos range code count,
     bytes_ok buf = true /\ 0 <= pos /\ 0 <= range < P2_32 /\ 0 <= code < P2_32 /\ 1 <= count /\
     exists v r c p1 p2,
       direct_bits_dispatch_old true buf pos range code count = Ok (v, r, c, p1) /\
       direct_bits_dispatch_old false buf pos range code count = Ok (v, r, c, p2) /\
       buffer_is_finished (zlen buf) p1 c = true /\ buffer_is_finished (zlen buf) p2 c = false) /\
  (exists buf pos range code count,
     bytes_ok buf = true /\ 0 <= pos /\ 0 <= range < P2_32 /\ 0 <= code < P2_32 /\ 1 <= count /\
     exists v r c1 c2 p1 p2,
       direct_bits_dispatch_old true buf pos range code count = Ok (v, r, c1, p1) /\
       direct_bits_dispatch_old false buf pos range code count = Ok (v, r, c2, p2) /\ c1 <> c2).
Proof.
  split.
  - exists [0], 1, 8388608, 0, 1.
    split; [reflexivity|]. split; [lia|]. split; [unfold P2_32; lia|]. split; [unfold P2_32; lia|]. split; [lia|].
    exists 0, 1073741824, 0, 1, 2. vm_compute. repeat split; reflexivity.
  - exists [255], 1, 8388608, 0, 1.
    split; [reflexivity|]. split; [lia|]. split; [unfold P2_32; lia|]. split; [unfold P2_32; lia|]. split; [lia|].
    exists 0, 1073741824, 255, 0, 1, 2. vm_compute. repeat split; try reflexivity. discriminate.
Qed.

Lemma shiftr1_range r : 16777216 <= r < 4294967296 -> 65536 <= Z.shiftr r 1 < P2_32.
Proof. intros H. rewrite Z.shiftr_div_pow2 by lia. change (2 ^ 1) with 2. unfold P2_32. Z.div_mod_to_equations; lia. Qed.

Lemma direct_bits_loop_eq_gen : forall n d acc fuel,
  65536 <= rd_range d < P2_32 -> (5 * n + 1 <= fuel)%nat ->
  direct_bits_loop fuel d (Z.of_nat n) acc = Ok (decode_direct_bits d n acc).
Proof.
  induction n as [|k IH]; intros d acc fuel Hr Hf.
  - destruct fuel as [|f]; [lia|]. reflexivity.
  - destruct fuel as [|f]; [lia|]. cbn [direct_bits_loop].
    destruct (Z.leb_spec (Z.of_nat (S k)) 0); [lia|].
    rewrite ddb_S. unfold port_step, rdec_normalize.
    replace (Z.of_nat (S k) - 1) with (Z.of_nat k) by lia.
    unfold P2_24, P2_32 in *.
    destruct (Z.leb_spec 16777216 (rd_range d)); destruct (Z.ltb_spec (rd_range d) 16777216); try lia.
    + apply IH; [|lia]. apply shiftr1_range. lia.
    + destruct f as [|f2]; [lia|].
      destruct (rdec_read d) as [b d1].
      assert (Hw : wrap32 (rd_range d * 256) = rd_range d * 256) by (apply Z.mod_small; lia).
      cbn [direct_bits_loop rd_range rd_code rd_in rd_over fst snd].
      destruct (Z.leb_spec (Z.of_nat (S k)) 0); [lia|].
      rewrite Hw. unfold P2_24. destruct (Z.leb_spec 16777216 (rd_range d * 256)); [|lia].
      replace (Z.of_nat (S k) - 1) with (Z.of_nat k) by lia.
      apply IH; [|lia]. apply shiftr1_range. lia.
Qed.

(* For every state whose range is at least 2^16 the loop in the Rust source computes exactly the
   per-bit function of Codec/Range.v within 5*count+1 steps.  (A decoder never has a smaller range:
   decode_bit leaves at least (2^24 >> 11) * 31 before its next normalize, direct bits leave at
   least 2^23.) *)
Theorem direct_bits_loop_eq : forall buf pos range code count,
  65536 <= range < P2_32 -> 0 <= count ->
  direct_bits_rust_loop buf pos range code count = Ok (direct_bits_portable buf pos range code count).
Proof.
  intros buf pos range code count Hr Hc. unfold direct_bits_rust_loop, direct_bits_portable.
  rewrite <- (Z2Nat.id count Hc) at 2.
  rewrite direct_bits_loop_eq_gen by (cbn [rdec_of_buf rd_range]; lia).
  cbn [obind]. destruct (decode_direct_bits _ _ _) as [v d]. reflexivity.
Qed.

(* C14 (F18, after the repair): in every state a decoder can be in (range >= 2^16 is an invariant:
   decode_bit leaves range >= 2^13 * 31 and direct bits leave range >= 2^23, see
   [direct_bits_loop_eq]; code, pos, count and the buffer are arbitrary - valid or corrupt input,
   inside, at or beyond the end of the chunk) the dispatching decode_direct_bits computes the
   per-bit function of Codec/Range.v in BOTH feature configurations: the assembly is only a
   faster way to compute it, and the portable loop alone defines what happens at the end of
   the buffer. *)
Theorem direct_bits_dispatch_eq : forall opt buf pos range code count,
  0 <= pos -> zlen buf < P2_63 -> 65536 <= range < P2_32 -> 0 <= count ->
  direct_bits_dispatch opt buf pos range code count = Ok (direct_bits_portable buf pos range code count).
Proof.
  intros opt buf pos range code count Hp Hlen Hr Hc. unfold direct_bits_dispatch.
  destruct opt; cbn [andb]; [|apply direct_bits_loop_eq; assumption].
  destruct (Z.ltb_spec 0 count); cbn [andb]; [|apply direct_bits_loop_eq; assumption].
  destruct (Z.leb_spec count (Z.max 0 (zlen buf - pos))); [|apply direct_bits_loop_eq; assumption].
  apply direct_bits_twins; lia.
Qed.

Corollary direct_bits_configurations_agree : forall buf pos range code count,
  0 <= pos -> zlen buf < P2_63 -> 65536 <= range < P2_32 -> 0 <= count ->
  direct_bits_dispatch true buf pos range code count = direct_bits_dispatch false buf pos range code count.
Proof. intros. rewrite !direct_bits_dispatch_eq by assumption. reflexivity. Qed.

(* The hypothesis on range is needed: for range < 2^16 (never reached by a decoder) the loop in
   the Rust source normalises more than once per bit, the assembly exactly once. *)
Theorem direct_bits_small_range_diverges :
  exists buf pos range code count,
    0 <= pos /\ pos + count <= zlen buf /\ 0 < range < 65536 /\ 1 <= count /\
    (direct_bits_dispatch true buf pos range code count <> direct_bits_dispatch false buf pos range code count).
Proof.
  exists [0; 0; 0; 0], 0, 1, 0, 1. split; [lia|]. split; [vm_compute; discriminate|]. split; [lia|]. split; [lia|].
  vm_compute. intro H. discriminate H.
Qed.

(* The aarch64 assembly selects on the carry flag (code >= range, unsigned), the portable loop and
   the x86-64 assembly on the sign bit of code - range.  They differ as soon as
   code - range >= 2^31, e.g. two direct bits from the valid state range = 2^25-1,
   code = range-1 with next byte 0x80, all inside the buffer. *)
Theorem direct_bits_aarch64_refuted :
  exists buf pos range code count,
    bytes_ok buf = true /\ 0 <= pos /\ pos + count <= zlen buf /\ 0 <= code < range /\ range < P2_32 /\ 1 <= count /\
    direct_bits_asm_aarch64 buf pos range code count <> Ok (direct_bits_portable buf pos range code count) /\
    direct_bits_asm buf pos range code count = Ok (direct_bits_portable buf pos range code count).
Proof.
  exists [128; 0], 0, 33554431, 33554430, 2.
  split; [reflexivity|]. split; [lia|]. split; [vm_compute; discriminate|].
  split; [lia|]. split; [reflexivity|]. split; [lia|].
  split; [vm_compute; intro H; discriminate H|vm_compute; reflexivity].
Qed.
