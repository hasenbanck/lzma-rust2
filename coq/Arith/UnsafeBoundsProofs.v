(* Arith/UnsafeBoundsProofs.v — C15: the indices of the unchecked accesses stay inside the buffer
   under the stated preconditions; C14: the safe and unsafe twins return the same value. *)
From LzVerif Require Import Base.Bytes Arith.WordFacts Arith.Normalize Arith.NormalizeProofs Arith.UnsafeBounds Arith.ExtendWordsProofs.
From Coq Require Import ZifyClasses.

#[global] Instance zify_usize_U64 : CstOp U64 := { TCst := 18446744073709551616; TCstInj := eq_refl }.
Add Zify CstOp zify_usize_U64.
#[global] Instance zify_usize_ISIZE_MAX : CstOp ISIZE_MAX := { TCst := 9223372036854775807; TCstInj := eq_refl }.
Add Zify CstOp zify_usize_ISIZE_MAX.

Lemma i32_add_ok checked a b : I32_MIN <= a + b <= I32_MAX -> i32_add checked a b = Ok (a + b).
Proof. intros H. unfold i32_add. rewrite (proj2 (is_i32_spec _) H). reflexivity. Qed.

Lemma i32_sub_ok checked a b : I32_MIN <= a - b <= I32_MAX -> i32_sub checked a b = Ok (a - b).
Proof. intros H. unfold i32_sub. rewrite (proj2 (is_i32_spec _) H). reflexivity. Qed.

Lemma usize_of_i32_id x : 0 <= x <= I32_MAX -> usize_of_i32 x = x.
Proof. intros H. apply Z.mod_small. lia. Qed.

Lemma usize_add_ok checked a b : a + b < U64 -> usize_add checked a b = Ok (a + b).
Proof. intros H. unfold usize_add. destruct (Z.ltb_spec (a + b) U64); [reflexivity | lia]. Qed.

Lemma usize_sub_ok checked a b : b <= a -> usize_sub checked a b = Ok (a - b).
Proof. intros H. unfold usize_sub. destruct (Z.leb_spec b a); [reflexivity | lia]. Qed.

Lemma usize_mul_ok checked a b : a * b < U64 -> usize_mul checked a b = Ok (a * b).
Proof. intros H. unfold usize_mul. destruct (Z.ltb_spec (a * b) U64); [reflexivity | lia]. Qed.

Global Hint Rewrite i32_add_ok i32_sub_ok usize_of_i32_id usize_add_ok usize_sub_ok usize_mul_ok using lia : word_ok.

Lemma usize_sub_nonneg checked a b r : usize_sub checked a b = Ok r -> 0 <= r.
Proof.
  unfold usize_sub. destruct (Z.leb_spec b a); [|destruct checked; [discriminate|]]; intros [= <-];
    [lia | apply Z.mod_pos_bound; lia].
Qed.

(* a usize subtraction below zero: a panic with overflow checks, a wrap by 2^64 without *)
Lemma usize_sub_wraps a b : a < b <= a + U64 ->
  usize_sub true a b = Panic PANIC_ARITH /\ usize_sub false a b = Ok (a - b + U64).
Proof.
  intros H. unfold usize_sub. destruct (Z.leb_spec b a); [lia|]. split; [reflexivity|].
  f_equal. symmetry. apply Z.mod_unique_pos with (q := -1); lia.
Qed.

(* Preconditions: the arguments are i32 values with 0 <= current_len <= limit, the position
   start1 = read_pos + current_len is inside the buffer, the candidate lies inside the buffer
   (distance <= start1: OWNED BY THE MATCH FINDERS, delta < cyclic_size <= retained history -
   assumed here, asserted at run time by hook H6), and - for the safe twin only - the caller's
   limit does not exceed the bytes available (read_pos + limit <= buf.len()).
   Conclusion: no arithmetic panic, both ranges lie inside [0, buf.len()], have the same length,
   and that length is min(limit - current_len, buf.len() - start1). *)
Theorem extend_match_bounds : forall checked opt len read_pos current_len distance limit,
  0 <= len < 2 ^ 63 ->
  0 <= read_pos -> 0 <= current_len <= limit -> limit <= I32_MAX ->
  read_pos + current_len <= I32_MAX -> read_pos + current_len <= len ->
  0 <= distance <= read_pos + current_len ->
  (opt = false -> read_pos + limit <= len) ->
  let start1 := read_pos + current_len in
  let ext := Z.min (limit - current_len) (len - start1) in
  extend_match_ranges checked opt len read_pos current_len distance limit
    = Ok (start1, start1 + ext, start1 - distance, start1 - distance + ext) /\
  range_in len start1 (start1 + ext) = true /\
  range_in len (start1 - distance) (start1 - distance + ext) = true.
Proof.
  intros checked opt len rp cl dist lim Hlen Hrp Hcl Hlim Hsum Hin Hd Hsafe start1 ext.
  change (2 ^ 63) with 9223372036854775808 in Hlen.
  assert (He : (if opt then Z.min (lim - cl) (Z.max 0 (len - (rp + cl))) else lim - cl) = ext).
  { subst ext start1. destruct opt; [lia|]. specialize (Hsafe eq_refl). lia. }
  assert (0 <= ext <= len) by (subst ext start1; lia).
  unfold extend_match_ranges. cbv zeta. autorewrite with word_ok. rewrite He. autorewrite with word_ok.
  subst start1. split; [reflexivity|]. unfold range_in.
  split; repeat (apply andb_true_iff; split); apply Z.leb_le; subst ext; lia.
Qed.

(* What happens when the match finder hands over a distance beyond the start of the buffer
   (distance > start1), all other preconditions kept: with overflow checks (debug) the usize
   subtraction panics; without them (release) start2 wraps to >= 2^64 - 2^31, so the safe twin
   panics on the slice index and the unsafe twin performs an out-of-bounds access. *)
Theorem extend_match_far_distance : forall opt buf read_pos current_len distance limit,
  zlen buf < 2 ^ 63 ->
  0 <= read_pos -> 0 <= current_len <= limit -> limit <= I32_MAX ->
  read_pos + current_len <= I32_MAX -> read_pos + current_len <= zlen buf ->
  read_pos + current_len < distance <= I32_MAX ->
  extend_match true opt buf read_pos current_len distance limit = Panic PANIC_ARITH /\
  extend_match false opt buf read_pos current_len distance limit
    = Panic (if opt then UB_OOB_ACCESS else PANIC_SLICE_INDEX).
Proof.
  intros opt buf rp cl dist lim Hlen Hrp Hcl Hlim Hsum Hin Hd.
  change (2 ^ 63) with 9223372036854775808 in Hlen.
  destruct (usize_sub_wraps (rp + cl) dist ltac:(lia)) as [Ep Ew].
  unfold extend_match, extend_match_ranges. cbv zeta. autorewrite with word_ok.
  split; [rewrite Ep; reflexivity|]. rewrite Ew. autorewrite with word_ok.
  set (ext := if opt then _ else _).
  assert (Hext : 0 <= ext <= I32_MAX) by (subst ext; destruct opt; lia).
  autorewrite with word_ok.
  assert (Hr : forall e2, range_in (zlen buf) (rp + cl - dist + U64) e2 = false).
  { intros e2. unfold range_in. destruct (Z.leb_spec (rp + cl - dist + U64) e2); [|rewrite andb_false_r; reflexivity].
    destruct (Z.leb_spec e2 (zlen buf)); [lia|]. apply andb_false_r. }
  unfold usize_add. destruct (_ <? U64); cbn [obind]; rewrite Hr, andb_false_r; reflexivity.
Qed.

Lemma zlen_slice buf a b : 0 <= a <= b -> b <= zlen buf -> zlen (slice buf a b) = b - a.
Proof. unfold zlen, slice. intros H1 H2. rewrite firstn_length, skipn_length. lia. Qed.

Lemma bytes_ok_slice buf a b : bytes_ok buf = true -> bytes_ok (slice buf a b) = true.
Proof. intros H. unfold slice. apply bytes_ok_firstn, bytes_ok_skipn, H. Qed.

(* C14: under the preconditions of [extend_match_bounds] (safe-twin version) the function
   returns, in all four build flavours (overflow checks on/off x optimization on/off), without
   panic, current_len + the length of the common prefix of buf[start1 .. start1+ext) and
   buf[start2 .. start2+ext), ext = limit - current_len: word-at-a-time, byte-wise and clamped
   variants agree, and the result is bounded by the limit (hence by the buffer). *)
Theorem extend_match_twins : forall checked opt buf read_pos current_len distance limit,
  bytes_ok buf = true -> zlen buf < 2 ^ 63 ->
  0 <= read_pos -> 0 <= current_len <= limit -> limit <= I32_MAX ->
  read_pos + limit <= zlen buf -> read_pos + limit <= I32_MAX ->
  0 <= distance <= read_pos + current_len ->
  let start1 := read_pos + current_len in
  let ext := limit - current_len in
  let r := current_len + cpl (slice buf start1 (start1 + ext)) (slice buf (start1 - distance) (start1 - distance + ext)) in
  extend_match checked opt buf read_pos current_len distance limit = Ok r /\ current_len <= r <= limit.
Proof.
  intros checked opt buf rp cl dist lim Hb Hlen Hrp Hcl Hlim Hav Hav2 Hd start1 ext r.
  pose proof (extend_match_bounds checked opt (zlen buf) rp cl dist lim) as HB.
  assert (Hl0 : 0 <= zlen buf) by (unfold zlen; lia).
  specialize (HB ltac:(lia) Hrp Hcl Hlim ltac:(lia) ltac:(lia) Hd ltac:(intros; lia)).
  cbv zeta in HB. replace (Z.min (lim - cl) (zlen buf - (rp + cl))) with ext in HB by (subst ext; lia).
  destruct HB as (E & R1 & R2). unfold extend_match. rewrite E. cbn [obind]. rewrite R1, R2. cbn [andb].
  rewrite extend_match_safe_cpl by (apply bytes_ok_slice; exact Hb).
  fold start1. fold r.
  pose proof (cpl_nonneg (slice buf start1 (start1 + ext)) (slice buf (start1 - dist) (start1 - dist + ext))) as C0.
  pose proof (cpl_le_len (slice buf start1 (start1 + ext)) (slice buf (start1 - dist) (start1 - dist + ext))) as [C1 _].
  rewrite zlen_slice in C1 by (subst start1 ext; lia).
  set (c := cpl _ _) in *.
  rewrite to_i32_id, i32_add_ok by (subst ext; lia).
  split; [reflexivity|]. subst r ext. lia.
Qed.

(* C15: for a buffer of at least two bytes (LZEncoder::new: buf_size.checked_sub(2).unwrap()) BOTH
   clamped 2-byte reads lie inside the buffer, for EVERY read_pos and match_dist (any usize / i32),
   whenever the offsets are computed at all. *)
Theorem fast_reject_bounds : forall checked len read_pos match_dist c0 c1,
  2 <= len -> 0 <= read_pos ->
  fast_reject_offsets checked len read_pos match_dist = Ok (c0, c1) ->
  0 <= c0 /\ c0 + 2 <= len /\ 0 <= c1 /\ c1 + 2 <= len.
Proof.
  intros checked len rp md c0 c1 Hl Hr. unfold fast_reject_offsets.
  destruct (usize_sub checked rp (usize_of_i32 md)) as [back| | |] eqn:Eb; try discriminate.
  apply usize_sub_nonneg in Eb. cbn [obind]. intros [= <- <-]. lia.
Qed.

(* read_pos < match_dist (a candidate before the start of the buffer): a panic with overflow
   checks; without them the back offset wraps to a huge value and is clamped to len - 2 - an
   in-bounds read of the wrong bytes (so a bogus "no reject" goes on to extend_match, see
   [extend_match_far_distance]). *)
Theorem fast_reject_far_distance : forall len read_pos match_dist,
  2 <= len < 2 ^ 63 -> 0 <= read_pos < match_dist -> match_dist <= I32_MAX ->
  fast_reject_offsets true len read_pos match_dist = Panic PANIC_ARITH /\
  fast_reject_offsets false len read_pos match_dist = Ok (Z.min read_pos (len - 2), len - 2).
Proof.
  intros len rp md Hl Hr Hm. change (2 ^ 63) with 9223372036854775808 in Hl.
  destruct (usize_sub_wraps rp md ltac:(lia)) as [Ep Ew].
  unfold fast_reject_offsets. rewrite usize_of_i32_id, Ep, Ew by lia. split; [reflexivity|].
  cbn [obind]. do 2 f_equal. lia.
Qed.

Lemma read_u16_some buf c : 0 <= c -> c + 2 <= zlen buf -> exists x y, read_u16 buf c = Some (x, y) /\ zth buf c = Some x /\ zth buf (c + 1) = Some y.
Proof.
  intros H0 H1. destruct (zth_some buf c ltac:(lia)) as (x & Ex). destruct (zth_some buf (c + 1) ltac:(lia)) as (y & Ey).
  exists x, y. unfold read_u16. rewrite Ex, Ey. auto.
Qed.

(* C14: with the candidate inside the buffer and two bytes available the clamps are the identity
   and the unsafe 2-byte comparison equals the four checked byte reads. *)
Theorem fast_reject_twins : forall checked buf read_pos match_dist,
  zlen buf < 2 ^ 63 -> 0 <= match_dist <= read_pos -> match_dist <= I32_MAX -> read_pos + 2 <= zlen buf ->
  exists r, fast_reject checked true buf read_pos match_dist = Ok r /\
            fast_reject checked false buf read_pos match_dist = Ok r.
Proof.
  intros checked buf rp md Hlen Hm Hm2 Hr. change (2 ^ 63) with 9223372036854775808 in Hlen.
  unfold fast_reject, fast_reject_offsets. autorewrite with word_ok. cbn [fst snd].
  replace (Z.min rp (zlen buf - 2)) with rp by lia. replace (Z.min (rp - md) (zlen buf - 2)) with (rp - md) by lia.
  destruct (read_u16_some buf rp ltac:(lia) ltac:(lia)) as (x0 & x1 & E1 & Ex0 & Ex1).
  destruct (read_u16_some buf (rp - md) ltac:(lia) ltac:(lia)) as (y0 & y1 & E2 & Ey0 & Ey1).
  rewrite E1, E2, Ex0, Ey0. replace (rp + 1 - md) with (rp - md + 1) by lia. rewrite Ex1, Ey1.
  destruct (x0 =? y0); cbn [negb andb]; eexists; split; reflexivity.
Qed.

(* For 1 <= min_length < 2^60 (the callers pass dict_size + 1, 2 * (dict_size + 1), 2^10, 2^16 and
   hash4_size <= 2^25) no step panics, the layout is valid and non-empty (alloc_zeroed must not
   be called with size 0), the size is a multiple of the 64-byte alignment, the slice handed
   out (target_length i32s) covers exactly the allocation and has at least min_length entries. *)
Theorem aligned_alloc_ok : forall checked min_length,
  1 <= min_length < 2 ^ 60 ->
  exists required target_length,
    aligned_alloc checked min_length = Ok (required, target_length) /\
    required mod 64 = 0 /\ 64 <= required <= ISIZE_MAX - 63 /\
    4 * min_length <= required < 4 * min_length + 64 /\
    target_length * 4 = required /\ min_length <= target_length.
Proof.
  intros checked n Hn. change (2 ^ 60) with 1152921504606846976 in Hn.
  unfold aligned_alloc. autorewrite with word_ok.
  set (units := if 0 <? n * 4 mod 64 then n * 4 / 64 + 1 else n * 4 / 64).
  assert (Hu : 64 * units - 64 < n * 4 <= 64 * units)
    by (subst units; destruct (Z.ltb_spec 0 (n * 4 mod 64)); Z.div_mod_to_equations; lia).
  clearbody units. autorewrite with word_ok.
  destruct (Z.ltb_spec (ISIZE_MAX - 63) (units * 64)); [lia|].
  exists (units * 64), (units * 64 / 4). split; [reflexivity|]. Z.div_mod_to_equations; lia.
Qed.
