(* Arith/MemUsageProofs.v — C17: the (repaired) estimators never overflow on the documented range,
   bound the allocation model from above and exceed it by a constant only; the limit check of
   LZMAReader::new_mem_limit precedes every allocation; the historical estimators are refuted.
   Each estimator gets a closed form ([est_closed], [dec_closed], [dec2_closed]), equal to it in both
   build profiles; soundness and tightness are arithmetic about the closed forms. *)
From LzVerif Require Import Base.Bytes Arith.WordFacts Arith.MemUsage.
From Coq Require Import ZifyClasses.

(* The model's constants, made known to lia. *)
#[global] Instance zify_U32 : CstOp U32 := { TCst := 4294967296; TCstInj := eq_refl }.
Add Zify CstOp zify_U32.
#[global] Instance zify_DICT_SIZE_MIN : CstOp DICT_SIZE_MIN := { TCst := 4096; TCstInj := eq_refl }.
Add Zify CstOp zify_DICT_SIZE_MIN.
#[global] Instance zify_DICT_SIZE_MAX : CstOp DICT_SIZE_MAX := { TCst := 4294967280; TCstInj := eq_refl }.
Add Zify CstOp zify_DICT_SIZE_MAX.
#[global] Instance zify_ENC_DICT_SIZE_MAX : CstOp ENC_DICT_SIZE_MAX := { TCst := 805306368; TCstInj := eq_refl }.
Add Zify CstOp zify_ENC_DICT_SIZE_MAX.
#[global] Instance zify_COMPRESSED_SIZE_MAX : CstOp COMPRESSED_SIZE_MAX := { TCst := 65536; TCstInj := eq_refl }.
Add Zify CstOp zify_COMPRESSED_SIZE_MAX.
#[global] Instance zify_MATCH_LEN_MAX : CstOp MATCH_LEN_MAX := { TCst := 273; TCstInj := eq_refl }.
Add Zify CstOp zify_MATCH_LEN_MAX.
#[global] Instance zify_OPTS : CstOp OPTS := { TCst := 4096; TCstInj := eq_refl }.
Add Zify CstOp zify_OPTS.
#[global] Instance zify_ENC_TIGHT_C : CstOp ENC_TIGHT_C := { TCst := 327680; TCstInj := eq_refl }.
Add Zify CstOp zify_ENC_TIGHT_C.
#[global] Instance zify_DEC_TIGHT_C : CstOp DEC_TIGHT_C := { TCst := 10240; TCstInj := eq_refl }.
Add Zify CstOp zify_DEC_TIGHT_C.
#[global] Instance zify_DEC2_TIGHT_C : CstOp DEC2_TIGHT_C := { TCst := 40965; TCstInj := eq_refl }.
Add Zify CstOp zify_DEC2_TIGHT_C.

Lemma add32_ok ck a b : a + b < U32 -> add32 ck a b = Ok (a + b).
Proof. intros H. unfold add32. destruct (Z.ltb_spec (a + b) U32); [reflexivity | lia]. Qed.

Lemma sub32_ok ck a b : 0 <= a - b -> sub32 ck a b = Ok (a - b).
Proof. intros H. unfold sub32. destruct (Z.leb_spec 0 (a - b)); [reflexivity | lia]. Qed.

Lemma shl32_ok ck a s : 0 <= s < 32 -> 0 <= a * 2 ^ s < U32 -> shl32 ck a s = Ok (a * 2 ^ s).
Proof.
  intros Hs Hv. unfold shl32. destruct (Z.ltb_spec s 32); [|lia].
  rewrite Z.mod_small by exact Hv. reflexivity.
Qed.

Global Hint Rewrite add32_ok sub32_ok shl32_ok using (Z.div_mod_to_equations; lia) : word_ok.

Lemma hash4_spec ck d : 1 <= d < U32 ->
  get_hash4_size ck d = Ok (hash4_size_pure d) /\ 1 <= hash4_size_pure d <= 2147483648.
Proof.
  intros Hd. unfold hash4_size_pure, get_hash4_size. rewrite !sub32_ok by lia. cbn [obind]. cbv zeta.
  set (h4 := Z.lor _ (Z.shiftr _ 8)).
  assert (B4 : 0 <= h4 < 2 ^ 32) by (do 4 (apply lor_shiftr_bound; [lia|lia|]); lia).
  assert (B5 : 0 <= Z.shiftr h4 1 < 2 ^ 31).
  { rewrite Z.shiftr_div_pow2 by lia. change (2 ^ 1) with 2. (Z.div_mod_to_equations; lia). }
  set (h6 := Z.lor (Z.shiftr h4 1) 65535).
  assert (B6 : 0 <= h6 < 2 ^ 31) by (apply lor_bound; lia).
  set (h7 := if 16777216 <? h6 then Z.shiftr h6 1 else h6).
  assert (B7 : 0 <= h7 < 2 ^ 31).
  { pose proof (shiftr_bound h6 1). subst h7. destruct (16777216 <? h6); lia. }
  rewrite !add32_ok by lia. split; [reflexivity|lia].
Qed.

(* The result is 2 * i + one bit, where i starts at 31 or 15 and loses 8, 4, 2, 1 along the cascade. *)
Lemma dist_slot_bound x : 0 <= x -> 0 <= get_dist_slot x <= 63.
Proof.
  assert (Hs : forall i b, 0 <= i <= 31 -> 0 <= i * 2 + Z.land b 1 <= 63) by (intros i b Hi; pose proof (land1_bound b); lia).
  intros Hx. unfold get_dist_slot. destruct (Z.leb_spec x 4); [lia|].
  destruct (Z.land x 4294901760 =? 0); cbv beta iota zeta;
    (destruct (Z.land _ 4278190080 =? 0)); cbv beta iota zeta;
    (destruct (Z.land _ 4026531840 =? 0)); cbv beta iota zeta;
    (destruct (Z.land _ 3221225472 =? 0)); cbv beta iota zeta;
    (destruct (Z.land _ 2147483648 =? 0)); apply Hs; lia.
Qed.

Definition buf_ideal (d eb ea : Z) : Z := (eb + d) + (ea + 273) + Z.min (d / 2 + 262144) 536870912.

Definition mf_kib (mf : mf_type) (d h4 : Z) : Z :=
  ((66560 + h4) / 256 + 4) + (match mf with HC4 => d / 256 | BT4 => d / 128 end) + 10.

Definition est_ideal (p : enc_params) (h4 : Z) : Z :=
  let d := ep_dict p in
  let eb := get_extra_size_before d in
  70 + (80 + match ep_mode p with
             | Fast => buf_ideal d (eb + 1) 272 / 1024 + 10 + mf_kib (ep_mf p) d h4
             | Normal => buf_ideal d (eb + 4096) 4096 / 1024 + 10 + mf_kib (ep_mf p) d h4 + 256
             end)
  + literal_bytes (Z.min (ep_lc p) 8 + Z.min (ep_lp p) 4) / 1024.

Definition est_closed (p : enc_params) : Z := est_ideal p (hash4_size_pure (ep_dict p)).

Lemma esb_max d : get_extra_size_before d = Z.max 0 (65536 - d).
Proof. unfold get_extra_size_before. destruct (Z.leb_spec COMPRESSED_SIZE_MAX d); lia. Qed.

Lemma literal_bytes_bound k n : 0 <= k <= n -> 1536 <= literal_bytes k <= 1536 * 2 ^ n.
Proof.
  intros Hk. unfold literal_bytes.
  pose proof (Z.pow_pos_nonneg 2 k ltac:(lia) ltac:(lia)). pose proof (Z.pow_le_mono_r 2 k n ltac:(lia) ltac:(lia)). lia.
Qed.

Lemma enc_params_ok_spec k p : enc_params_ok k p = true ->
  DICT_SIZE_MIN <= ep_dict p <= ENC_DICT_SIZE_MAX /\ 0 <= ep_lc p <= 8 /\ 0 <= ep_lp p <= 4 /\
  (k = KLzma2 -> ep_lc p + ep_lp p <= 4) /\ 0 <= ep_pb p <= 4 /\ 8 <= ep_nice p <= 273.
Proof.
  unfold enc_params_ok. destruct k; rewrite !andb_true_iff, !Z.leb_le; intros H; repeat split; try lia; discriminate.
Qed.

Lemma get_buf_size_ok ck d eb ea mlm :
  0 <= d -> 0 <= eb -> 0 <= ea + mlm -> eb + d + (ea + mlm) + 536870912 < U32 ->
  get_buf_size ck d eb ea mlm = Ok ((eb + d) + (ea + mlm) + Z.min (d / 2 + 262144) 536870912).
Proof. intros. unfold get_buf_size. autorewrite with word_ok. reflexivity. Qed.
Global Hint Rewrite get_buf_size_ok using lia : word_ok.

Lemma mf_mem_eq ck mf d : DICT_SIZE_MIN <= d <= ENC_DICT_SIZE_MAX ->
  let m := mf_kib mf d (hash4_size_pure d) in mf_mem_gen false ck mf d = Ok m /\ 0 <= m < 16777216.
Proof.
  intros Hd. destruct (hash4_spec ck d ltac:(lia)) as [Hh Hh4].
  unfold mf_mem_gen, hash234_mem_gen, mf_kib, HASH2_SIZE, HASH3_SIZE. rewrite Hh.
  set (q := match mf with HC4 => d / 256 | BT4 => d / 128 end).
  assert (0 <= q <= d / 128) by (subst q; destruct mf; (Z.div_mod_to_equations; lia)). clearbody q.
  autorewrite with word_ok. split; [reflexivity|(Z.div_mod_to_equations; lia)].
Qed.

Lemma enc_estimate_eq ck p :
  DICT_SIZE_MIN <= ep_dict p <= ENC_DICT_SIZE_MAX -> 0 <= ep_lc p -> 0 <= ep_lp p ->
  enc_estimate ck p = Ok (est_closed p).
Proof.
  intros Hd Hlc Hlp. set (d := ep_dict p) in *.
  pose proof (literal_bytes_bound (Z.min (ep_lc p) 8 + Z.min (ep_lp p) 4) 12 ltac:(lia)) as HL.
  change (2 ^ 12) with 4096 in HL.
  destruct (mf_mem_eq ck (ep_mf p) d Hd) as [Em Hm].
  unfold enc_estimate, enc_estimate_gen, est_closed, est_ideal, buf_ideal, encoder_mem_gen, mode_mem_gen, lzenc_mem_gen.
  fold d. rewrite esb_max, Em.
  destruct (ep_mode p); autorewrite with word_ok; f_equal; lia.
Qed.

Lemma ceil64_bound x : 0 <= x -> x <= ceil64 x <= x + 63.
Proof. intros Hx. unfold ceil64. (Z.div_mod_to_equations; lia). Qed.

Lemma length_encoder_bytes_bound pb nice : 0 <= pb <= 4 -> 8 <= nice <= 273 ->
  0 <= length_encoder_bytes pb nice <= 17856.
Proof.
  intros Hpb Hn. unfold length_encoder_bytes, len_symbols, VEC_HEADER.
  pose proof (Z.pow_pos_nonneg 2 pb ltac:(lia) ltac:(lia)). pose proof (Z.pow_le_mono_r 2 pb 4 ltac:(lia) ltac:(lia)).
  change (2 ^ 4) with 16 in *. nia.
Qed.

Lemma hash_bytes_bound d : 1 <= d < U32 ->
  266240 + 4 * hash4_size_pure d <= hash_bytes d <= 266303 + 4 * hash4_size_pure d.
Proof.
  intros Hd. destruct (hash4_spec false d Hd) as [_ Hh]. unfold hash_bytes.
  pose proof (ceil64_bound (4 * hash4_size_pure d) ltac:(lia)).
  change (ceil64 (4 * HASH2_SIZE)) with 4096. change (ceil64 (4 * HASH3_SIZE)) with 262144. lia.
Qed.

(* Window, hash tables, match finder array and literal tables occur on both sides, up to rounding to
   64 bytes there and to 1 KiB here; the flat 174 KiB (430 KiB in Normal mode) of the estimate cover
   the remaining tables, whose sizes are bounded above. *)
Lemma enc_bounds k p : enc_params_ok k p = true ->
  enc_alloc k p <= 1024 * est_closed p <= enc_alloc k p + ENC_TIGHT_C /\ ENC_TIGHT_C <= enc_alloc k p.
Proof.
  intros Hok. destruct (enc_params_ok_spec k p Hok) as (Hd & Hlc & Hlp & Hk & Hpb & Hn).
  unfold enc_alloc, est_closed, est_ideal. set (d := ep_dict p) in *.
  replace (Z.min (ep_lc p) 8 + Z.min (ep_lp p) 4) with (ep_lc p + ep_lp p) by lia.
  pose proof (literal_bytes_bound (ep_lc p + ep_lp p) 12 ltac:(lia)) as HL. change (2 ^ 12) with 4096 in HL.
  pose proof (length_encoder_bytes_bound _ _ Hpb Hn) as HE.
  pose proof (hash_bytes_bound d ltac:(lia)) as HH. destruct (hash4_spec false d ltac:(lia)) as [_ Hh].
  pose proof (dist_slot_bound (d - 1) ltac:(lia)) as HS.
  unfold dist_slot_prices_bytes, enc_buf_bytes, enc_extra_before, caller_extra_before, enc_extra_after, opts_bytes,
    matches_bytes, buf_ideal, mf_kib, mf_bytes, ceil64, SIZEOF_OPTIMUM, VEC_HEADER. rewrite esb_max.
  set (L := literal_bytes _) in *. set (E := length_encoder_bytes _ _) in *. set (H := hash_bytes d) in *.
  set (h4 := hash4_size_pure d) in *. set (s := get_dist_slot _) in *.
  destruct (ep_mf p), (ep_mode p), k; (Z.div_mod_to_equations; lia).
Qed.

Lemma est_closed_range p : DICT_SIZE_MIN <= ep_dict p <= ENC_DICT_SIZE_MAX -> 0 <= ep_lc p -> 0 <= ep_lp p ->
  0 <= est_closed p < U32.
Proof.
  intros Hd Hlc Hlp.
  pose proof (literal_bytes_bound (Z.min (ep_lc p) 8 + Z.min (ep_lp p) 4) 12 ltac:(lia)) as HL.
  change (2 ^ 12) with 4096 in HL.
  destruct (mf_mem_eq false (ep_mf p) (ep_dict p) Hd) as [_ Hm].
  unfold est_closed, est_ideal, buf_ideal. rewrite esb_max. destruct (ep_mode p); (Z.div_mod_to_equations; lia).
Qed.

Theorem enc_estimate_spec k p : enc_params_ok k p = true ->
  (forall ck, enc_estimate ck p = Ok (est_closed p)) /\ 0 <= est_closed p < U32 /\
  enc_alloc k p <= 1024 * est_closed p <= enc_alloc k p + ENC_TIGHT_C /\ ENC_TIGHT_C <= enc_alloc k p.
Proof.
  intros Hok. destruct (enc_params_ok_spec k p Hok) as (Hd & Hlc & Hlp & _).
  split; [intros ck; apply enc_estimate_eq; lia|]. split; [apply est_closed_range; lia|]. apply enc_bounds, Hok.
Qed.

Theorem enc_estimate_no_overflow : forall k p, enc_params_ok k p = true ->
  exists e, (forall ck, enc_estimate ck p = Ok e) /\ 0 <= e < U32.
Proof. intros k p Hok. destruct (enc_estimate_spec k p Hok) as (E & R & _). eauto. Qed.

Theorem enc_estimate_sound : forall k p ck, enc_params_ok k p = true ->
  exists e, enc_estimate ck p = Ok e /\ enc_alloc k p <= 1024 * e.
Proof. intros k p ck Hok. destruct (enc_estimate_spec k p Hok) as (E & _ & B & _). exists (est_closed p). split; [apply E|apply B]. Qed.

Theorem enc_estimate_tight : forall k p ck, enc_params_ok k p = true ->
  exists e, enc_estimate ck p = Ok e /\ 1024 * e <= enc_alloc k p + ENC_TIGHT_C.
Proof. intros k p ck Hok. destruct (enc_estimate_spec k p Hok) as (E & _ & B & _). exists (est_closed p). split; [apply E|apply B]. Qed.

Theorem enc_estimate_factor2 : forall k p ck, enc_params_ok k p = true ->
  exists e, enc_estimate ck p = Ok e /\ 1024 * e <= 2 * enc_alloc k p.
Proof. intros k p ck Hok. destruct (enc_estimate_spec k p Hok) as (E & _ & B & M). exists (est_closed p). split; [apply E|lia]. Qed.

(* Before the fix: the figure for preset 6 is 12 935 868 "KiB" for 97 283 913 bytes. *)
Theorem enc_estimate_old_refuted :
  exists p e, enc_params_ok KLzma2 p = true /\ enc_estimate_old true p = Ok e /\
              enc_estimate_old false p = Ok e /\ e = 12935868 /\ enc_alloc KLzma2 p = 97283913 /\
              ~ (1024 * e <= 100 * enc_alloc KLzma2 p + ENC_TIGHT_C).
Proof.
  exists {| ep_dict := 8388608; ep_lc := 3; ep_lp := 0; ep_pb := 2; ep_mode := Normal; ep_mf := BT4; ep_nice := 64 |}.
  exists 12935868. vm_compute. repeat split; try reflexivity. intro H; apply H; reflexivity.
Qed.

(* The estimate without its literal-table term is too small for LZMAWriter.  Witness: lc = 8, lp = 4
   (6 MiB of literal tables). *)
Definition enc_estimate_java_like (p : enc_params) : Z :=
  match get_hash4_size false (ep_dict p) with
  | Ok h4 => est_ideal p h4 - literal_bytes (Z.min (ep_lc p) 8 + Z.min (ep_lp p) 4) / 1024
  | _ => 0
  end.
Theorem enc_estimate_without_literal_term_refuted :
  exists p, enc_params_ok KLzma p = true /\ 1024 * enc_estimate_java_like p < enc_alloc KLzma p.
Proof.
  exists {| ep_dict := 4096; ep_lc := 8; ep_lp := 4; ep_pb := 4; ep_mode := Fast; ep_mf := HC4; ep_nice := 273 |}.
  vm_compute. split; reflexivity.
Qed.

(* LZMA2Writer with chunk_size: at a chunk restart two encoders coexist; the estimate does not
   cover that (known finding C17/lzma2-chunk-restart). *)
Theorem enc_restart_exceeds_estimate :
  exists p e, enc_params_ok KLzma2 p = true /\ enc_estimate true p = Ok e /\ 1024 * e < enc_alloc_restart p.
Proof.
  exists {| ep_dict := 4096; ep_lc := 3; ep_lp := 0; ep_pb := 2; ep_mode := Fast; ep_mf := HC4; ep_nice := 64 |}.
  exists 1040. vm_compute. repeat split; reflexivity.
Qed.

Lemma and_not15_bound x : 0 <= x -> x - 15 <= and_not15 x <= x.
Proof. intros. unfold and_not15. (Z.div_mod_to_equations; lia). Qed.

(* get_dict_size of lzma_reader.rs on an accepted argument: at least 4 KiB, rounded up to 16 *)
Definition dict_round (d : Z) : Z := and_not15 (Z.max d 4096 + 15).

Lemma lzma_dict_size_eq d : d <= DICT_SIZE_MAX -> lzma_dict_size d = Ok (dict_round d).
Proof. intros Hd. unfold lzma_dict_size. destruct (Z.ltb_spec DICT_SIZE_MAX d); [lia|reflexivity]. Qed.

Lemma dict_round_spec d : Z.max d 4096 <= dict_round d <= Z.max d 4096 + 15 /\ dict_round d mod 16 = 0.
Proof. unfold dict_round, and_not15. (Z.div_mod_to_equations; lia). Qed.

Lemma dict_round_fix x : 4096 <= x -> x mod 16 = 0 -> dict_round x = x.
Proof. unfold dict_round, and_not15. (Z.div_mod_to_equations; lia). Qed.

(* The window LZMAReader allocates: the rounded dictionary, or the rounded declared size when that is smaller. *)
Lemma dec_window_eq d us : 0 <= d <= DICT_SIZE_MAX -> 0 <= us ->
  dec_window d us = Ok (if (us <=? U64_HALF) && (us <? dict_round d) then dict_round us else dict_round d).
Proof.
  intros Hd Hus. pose proof (dict_round_spec d) as [Hds Hm]. unfold dec_window.
  rewrite lzma_dict_size_eq by lia. cbn [obind].
  destruct ((us <=? U64_HALF) && (us <? dict_round d)) eqn:Esh; cbn [obind].
  - apply andb_prop in Esh as [_ Hlt%Z.ltb_lt]. rewrite Z.mod_small by lia.
    pose proof (dict_round_spec us) as [Hus' Hm'].
    rewrite lzma_dict_size_eq by (Z.div_mod_to_equations; lia). cbn [obind]. rewrite lzma_dict_size_eq, dict_round_fix by (Z.div_mod_to_equations; lia). reflexivity.
  - rewrite lzma_dict_size_eq, dict_round_fix by (Z.div_mod_to_equations; lia). reflexivity.
Qed.

Definition dec_closed (d lc lp : Z) : Z := 10 + dict_round d / 1024 + literal_bytes (lc + lp) / 1024.

Lemma dec_estimate_eq ck d lc lp : 0 <= d <= DICT_SIZE_MAX -> 0 <= lc <= 8 -> 0 <= lp <= 4 ->
  dec_estimate ck d lc lp = Ok (dec_closed d lc lp) /\ 0 <= dec_closed d lc lp < U32.
Proof.
  intros Hd Hlc Hlp. pose proof (dict_round_spec d) as [Hds _].
  pose proof (literal_bytes_bound (lc + lp) 12 ltac:(lia)) as HL. change (2 ^ 12) with 4096 in HL.
  unfold dec_estimate, dec_closed, literal_bytes in *.
  destruct (Z.ltb_spec 8 lc); [lia|]. destruct (Z.ltb_spec 4 lp); [lia|]. cbn [orb].
  rewrite lzma_dict_size_eq by lia. autorewrite with word_ok. split; [reflexivity|(Z.div_mod_to_equations; lia)].
Qed.

Theorem dec_estimate_spec d lc lp us : 0 <= d <= DICT_SIZE_MAX -> 0 <= lc <= 8 -> 0 <= lp <= 4 -> 0 <= us ->
  exists a, dec_peak d lc lp us = Ok a /\ a <= 1024 * dec_closed d lc lp /\
            (Z.max d 4096 + 15 <= us -> 1024 * dec_closed d lc lp <= a + DEC_TIGHT_C).
Proof.
  intros Hd Hlc Hlp Hus. pose proof (dict_round_spec d) as [Hds _]. pose proof (dict_round_spec us) as [Hdu _].
  pose proof (literal_bytes_bound (lc + lp) 12 ltac:(lia)) as HL. change (2 ^ 12) with 4096 in HL.
  unfold dec_peak, dec_alloc, dec_closed, END_MARKER_ERROR_BYTES. rewrite dec_window_eq by assumption. cbn [obind].
  eexists. split; [reflexivity|].
  destruct (us =? U64_MAX); (destruct (Z.leb_spec us U64_HALF), (Z.ltb_spec us (dict_round d))); cbn [andb]; (Z.div_mod_to_equations; lia).
Qed.

Theorem dec_estimate_no_overflow : forall d lc lp, 0 <= d <= DICT_SIZE_MAX -> 0 <= lc <= 8 -> 0 <= lp <= 4 ->
  exists e, (forall ck, dec_estimate ck d lc lp = Ok e) /\ 0 <= e < U32 /\
            exists ds, lzma_dict_size d = Ok ds /\ e = 10 + ds / 1024 + literal_bytes (lc + lp) / 1024.
Proof.
  intros d lc lp Hd Hlc Hlp. exists (dec_closed d lc lp).
  split; [intros ck; apply dec_estimate_eq; assumption|]. split; [apply (dec_estimate_eq false); assumption|].
  exists (dict_round d). split; [apply lzma_dict_size_eq; lia | reflexivity].
Qed.

Theorem dec_estimate_sound : forall d lc lp us ck,
  0 <= d <= DICT_SIZE_MAX -> 0 <= lc <= 8 -> 0 <= lp <= 4 -> 0 <= us ->
  exists e a, dec_estimate ck d lc lp = Ok e /\ dec_peak d lc lp us = Ok a /\ a <= 1024 * e.
Proof.
  intros d lc lp us ck Hd Hlc Hlp Hus. destruct (dec_estimate_spec d lc lp us Hd Hlc Hlp Hus) as (a & Ea & Hs & _).
  exists (dec_closed d lc lp), a. split; [apply dec_estimate_eq; assumption|]. split; assumption.
Qed.

Theorem dec_estimate_tight : forall d lc lp us ck,
  0 <= d <= DICT_SIZE_MAX -> 0 <= lc <= 8 -> 0 <= lp <= 4 -> Z.max d 4096 + 15 <= us ->
  exists e a, dec_estimate ck d lc lp = Ok e /\ dec_peak d lc lp us = Ok a /\ 1024 * e <= a + DEC_TIGHT_C.
Proof.
  intros d lc lp us ck Hd Hlc Hlp Hus. destruct (dec_estimate_spec d lc lp us Hd Hlc Hlp ltac:(lia)) as (a & Ea & _ & Ht).
  exists (dec_closed d lc lp), a. split; [apply dec_estimate_eq; assumption|]. split; [exact Ea | exact (Ht Hus)].
Qed.

Theorem dec_estimate_by_props_spec : forall ck d props, 0 <= d <= DICT_SIZE_MAX -> 0 <= props <= 224 ->
  let pr := props mod 45 in
  dec_estimate_by_props ck d props = dec_estimate ck d (pr - pr / 9 * 9) (pr / 9) /\
  0 <= pr - pr / 9 * 9 <= 8 /\ 0 <= pr / 9 <= 4.
Proof.
  intros ck d props Hd Hp pr. unfold dec_estimate_by_props.
  destruct (Z.ltb_spec DICT_SIZE_MAX d); [lia|]. destruct (Z.ltb_spec 224 props); [lia|].
  split; [reflexivity|]. subst pr. (Z.div_mod_to_equations; lia).
Qed.

(* lzma2_reader.rs get_dict_size: clamped into the decoders' range, then rounded up to 16 *)
Definition dict2_round (d : Z) : Z := and_not15 (Z.min (Z.max d DICT_SIZE_MIN) DICT_SIZE_MAX + 15).
Definition dec2_closed (d : Z) : Z := 104 + dict2_round d / 1024.

Lemma dict2_round_spec d :
  Z.max 4096 (Z.min d DICT_SIZE_MAX) <= dict2_round d <= Z.max 4096 (Z.min d DICT_SIZE_MAX) + 15.
Proof. unfold dict2_round, and_not15. (Z.div_mod_to_equations; lia). Qed.

Lemma dec2_estimate_eq ck d : dec2_estimate ck d = Ok (dec2_closed d) /\ 0 <= dec2_closed d < U32.
Proof.
  pose proof (dict2_round_spec d). unfold dec2_estimate, dec2_estimate_gen, lzma2_dict_size_gen, dec2_closed.
  fold (dict2_round d). autorewrite with word_ok. split; [f_equal|]; (Z.div_mod_to_equations; lia).
Qed.

Theorem dec2_estimate_spec d lclp nprops : 0 <= lclp <= 4 ->
  exists a, dec2_alloc d lclp nprops = Ok a /\ a <= 1024 * dec2_closed d <= a + DEC2_TIGHT_C.
Proof.
  intros Hl. pose proof (dict2_round_spec d).
  pose proof (literal_bytes_bound lclp 4 Hl) as HL. change (2 ^ 4) with 16 in HL.
  eexists. split; [reflexivity|]. unfold dec2_closed. fold (dict2_round d). cbn [andb]. destruct (nprops <=? 0); (Z.div_mod_to_equations; lia).
Qed.

Theorem dec2_estimate_no_overflow : forall d, 0 <= d < U32 ->
  exists e, (forall ck, dec2_estimate ck d = Ok e) /\ 0 <= e < U32 /\
            exists ds, lzma2_dict_size_gen false false d = Ok ds /\ e = 104 + ds / 1024 /\
                       Z.max 4096 (Z.min d DICT_SIZE_MAX) <= ds <= Z.max 4096 (Z.min d DICT_SIZE_MAX) + 15.
Proof.
  intros d _. exists (dec2_closed d). split; [intros ck; apply dec2_estimate_eq|]. split; [apply (dec2_estimate_eq false)|].
  exists (dict2_round d). split; [reflexivity|]. split; [reflexivity | apply dict2_round_spec].
Qed.

Theorem dec2_estimate_sound : forall d lclp nprops ck, 0 <= d < U32 -> 0 <= lclp <= 4 ->
  exists e a, dec2_estimate ck d = Ok e /\ dec2_alloc d lclp nprops = Ok a /\ a <= 1024 * e.
Proof.
  intros d lclp np ck _ Hl. destruct (dec2_estimate_spec d lclp np Hl) as (a & Ea & B).
  exists (dec2_closed d), a. split; [apply dec2_estimate_eq|]. split; [exact Ea | apply B].
Qed.

Theorem dec2_estimate_tight : forall d lclp nprops ck, 0 <= d < U32 -> 0 <= lclp <= 4 ->
  exists e a, dec2_estimate ck d = Ok e /\ dec2_alloc d lclp nprops = Ok a /\ 1024 * e <= a + DEC2_TIGHT_C.
Proof.
  intros d lclp np ck _ Hl. destruct (dec2_estimate_spec d lclp np Hl) as (a & Ea & B).
  exists (dec2_closed d), a. split; [apply dec2_estimate_eq|]. split; [exact Ea | apply B].
Qed.

(* Before the fix (F12): the rounding overflows for dict_size > 0xFFFFFFF0 - a panic with overflow
   checks, and a wrapped "104 KiB" without - and a second properties reset with lc + lp = 4 pushed
   the real peak above the estimate. *)
Theorem dec2_estimate_old_refuted :
  dec2_estimate_old true 4294967295 = Panic P_OVERFLOW /\
  dec2_estimate_old false 4294967295 = Ok 104 /\
  (exists e a, dec2_estimate_old true 4096 = Ok e /\ dec2_alloc_old 4096 4 2 = Ok a /\ 1024 * e < a).
Proof.
  split; [vm_compute; reflexivity|]. split; [vm_compute; reflexivity|].
  exists 108, 118779. vm_compute. repeat split; reflexivity.
Qed.

Theorem mem_limit_enforced : forall ck props d us limit rest need,
  dec_estimate_by_props ck d props = Ok need -> limit < need ->
  new_mem_limit ck props d us limit rest = {| tr_allocs := []; tr_result := Err E_OUT_OF_MEMORY |}.
Proof.
  intros ck props d us limit rest need E Hl. unfold new_mem_limit. rewrite E.
  destruct (Z.ltb_spec limit need); [reflexivity | lia].
Qed.

(* Either nothing was allocated and the call failed, or every check passed and the two tables were allocated. *)
Lemma new_mem_limit_cases ck props d us limit rest :
  let t := new_mem_limit ck props d us limit rest in
  let pr := props - props / 45 * 45 in
  (tr_allocs t = [] /\ forall u, tr_result t <> Ok u) \/
  (exists need w, dec_estimate_by_props ck d props = Ok need /\ need <= limit /\ props <= 224 /\ d <= DICT_SIZE_MAX /\
     dec_window d us = Ok w /\ t = {| tr_allocs := [w; literal_bytes (pr - pr / 9 * 9 + pr / 9)]; tr_result := Ok tt |}).
Proof.
  cbv zeta. unfold new_mem_limit.
  destruct (dec_estimate_by_props ck d props) as [need| | |]; try now left.
  destruct (Z.ltb_spec limit need); [now left|].
  destruct (Z.ltb_spec 224 props); [now left|].
  destruct (Z.ltb_spec DICT_SIZE_MAX d); [now left|].
  destruct (_ || _); [now left|].
  destruct (dec_window d us) as [w| | |]; try now left.
  destruct (range_decoder_new_stream rest) as [[]| | |]; try now left.
  right. exists need, w. repeat split; assumption || reflexivity.
Qed.

Theorem mem_limit_check_precedes_allocation : forall ck props d us limit rest,
  (forall u, tr_result (new_mem_limit ck props d us limit rest) <> Ok u) ->
  tr_allocs (new_mem_limit ck props d us limit rest) = [].
Proof.
  intros ck props d us limit rest H.
  destruct (new_mem_limit_cases ck props d us limit rest) as [[A _]|(need & w & _ & _ & _ & _ & _ & E)]; [exact A|].
  rewrite E in H. destruct (H tt). reflexivity.
Qed.

Theorem mem_limit_success_within_limit : forall ck props d us limit rest,
  0 <= d < U32 -> 0 <= props < 256 -> 0 <= us ->
  tr_result (new_mem_limit ck props d us limit rest) = Ok tt ->
  exists need, dec_estimate_by_props ck d props = Ok need /\ need <= limit /\
               sumZ (tr_allocs (new_mem_limit ck props d us limit rest)) <= 1024 * need.
Proof.
  intros ck props d us limit rest Hd Hp Hus Hok.
  destruct (new_mem_limit_cases ck props d us limit rest) as [[_ N]|(need & w & En & Hl & Hp' & Hd' & Ew & E)];
    [destruct (N tt Hok)|].
  exists need. split; [exact En|]. split; [exact Hl|]. rewrite E. cbn [tr_allocs sumZ fold_right].
  destruct (dec_estimate_by_props_spec ck d props ltac:(lia) ltac:(lia)) as (Espec & Hlc & Hlp).
  replace (props - props / 45 * 45) with (props mod 45) by (Z.div_mod_to_equations; lia). set (pr := props mod 45) in *.
  rewrite Espec, (proj1 (dec_estimate_eq ck d _ _ ltac:(lia) Hlc Hlp)) in En. injection En as <-.
  destruct (dec_estimate_spec d _ _ us ltac:(lia) Hlc Hlp Hus) as (a & Ea & Hs & _).
  unfold dec_peak, dec_alloc, END_MARKER_ERROR_BYTES in Ea. rewrite Ew in Ea. injection Ea as <-. destruct (us =? U64_MAX); lia.
Qed.

