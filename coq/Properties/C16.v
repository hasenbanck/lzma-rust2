(* Properties/C16.v — readers consume exactly the bytes of their stream.
   Only theorem statements, each closed by [exact] of a lemma proved elsewhere.
   This file: the level where the question is decided - the range decoder (lazy normalisation one
   step behind the encoder's eager one, trailing normalize) and the LZMA2 chunk payload read.  The
   readers around them (LZMAReader, LZMA2Reader, single-stream XZReader, every history of
   destination sizes) are Properties/C16Readers.v, with the concrete codecs
   C16_xz_single_stream_lzma2 / _delta in C02Compose.v; the correspondence run also compares the
   source position after end-of-stream with the model's unconsumed count on every run. *)
From LzVerif Require Import Base.Bytes Codec.Store Codec.Range Codec.ProbProofs Codec.LzWindow Codec.LzmaDec
  Codec.LzmaEnc Codec.LzmaAbs Codec.LzWindowProofs Codec.LzmaAbsProofs Codec.RangeEncProofs Codec.RangeProofs
  Codec.LzmaRoundtrip Codec.LzmaChunkProofs Codec.Lzma2Dec Codec.Lzma2FrameProofs.

(* Whatever follows the range-coded bytes ([tail], arbitrary) is left untouched: after the
   trailing normalize the unread input is exactly [tail], no byte beyond the end was requested
   (rd_over = 0) and code = 0 (is_finished / is_stream_finished accept). *)
Theorem C16_range_decoder_consumes_exactly :
  forall (A : Type) (p : prog A) (evs : list event) (a : A) (tail : list Z) (t0 : probs),
  probs_ok t0 -> forallb RangeEncProofs.ev_ok evs = true -> events_bits evs <= RC_MAX_BITS ->
  run_trace p evs = Some (Ok a, []) ->
  let '(e, t1) := renc_events renc_init t0 evs in
  let bytes := renc_bytes (renc_finish e) in
  exists d0 d1, rdec_init (bytes ++ tail) = Ok d0 /\ run_rc p d0 t0 = Ok (a, d1, t1) /\ probs_ok t1 /\
    rd_in (rdec_normalize d1) = tail /\ rd_code (rdec_normalize d1) = 0 /\ rd_over (rdec_normalize d1) = 0.
Proof. exact rc_roundtrip. Qed.
Print Assumptions C16_range_decoder_consumes_exactly.

(* The same through LZMADecoder::decode over the window, for any validated symbol run. *)
Theorem C16_decode_leaves_tail :
  forall c h hist w syms evs c' h' t0 tail n,
  no_end syms -> hist_rel h hist -> data_ok h -> reps_nonneg c ->
  h_dict h <= 2147483648 -> (h_dict h <= w_size w \/ h_total h - h_base h <= w_size w) ->
  enc_syms c h syms = Ok (evs, c', h') ->
  probs_ok t0 -> events_bits evs <= RC_MAX_BITS ->
  Rel w hist -> coder_ok c (w_full w) -> w_pending_len w = 0 ->
  Z.of_nat n = h_pos h' - h_pos h -> w_limit w = w_pos w + Z.of_nat n ->
  let bytes := renc_bytes (renc_finish (fst (renc_events renc_init t0 evs))) in
  exists d0 w1 d1 hist',
    rdec_init (bytes ++ tail) = Ok d0 /\
    lzma_decode c w d0 t0 = Ok (c', w1, Ok tt, d1, snd (renc_events renc_init t0 evs)) /\
    Rel w1 hist' /\ hist_rel h' hist' /\ zlen hist' = zlen hist + Z.of_nat n /\
    w_pending_len w1 = 0 /\ w_start w1 = w_start w /\ w_pos w1 = w_pos w + Z.of_nat n /\
    rd_in d1 = tail /\ rd_code d1 = 0 /\ rd_over d1 = 0.
Proof. exact chunk_roundtrip. Qed.
Print Assumptions C16_decode_leaves_tail.

(* An LZMA2 chunk's payload read takes exactly compressed_size bytes from the source. *)
Theorem C16_lzma2_payload_exact : forall input csize rc rest,
  rdec_prepare input csize = Ok (rc, rest) ->
  exists b1 b2 b3 b4 payload,
    input = 0 :: b1 :: b2 :: b3 :: b4 :: payload ++ rest /\
    length payload = Z.to_nat (csize - 5) /\ 5 <= csize /\
    rd_in rc = payload /\ rd_over rc = 0 /\ rd_range rc = 4294967295 /\
    rd_code rc = ((b1 * 256 + b2) * 256 + b3) * 256 + b4.
Proof. exact rdec_prepare_exact. Qed.
Print Assumptions C16_lzma2_payload_exact.
