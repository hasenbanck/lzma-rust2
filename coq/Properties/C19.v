(* Properties/C19.v — a writer that reports success has produced a decodable stream; out-of-range
   options are rejected, never accepted silently and never a panic.
   Only theorem statements, each closed by [exact] of a lemma of Arith/OptionsProofs.v.
   Model: Arith/Options.v - (1) the arithmetic the public option fields feed (LZMAEncoder::new table
   sizes, per-symbol table indices, properties byte, XZ/LZIP header properties) with wrap / Panic
   explicit in both build profiles [ck]; (2) the validation of the repaired constructors
   (repo-patches/03..07) and the outcome class of construct / write / finish per writer kind.
   That a stream produced from in-range options DECODES to the input is the round-trip theorem of
   C01/C02 (codec/container models, not part of this file); here it is covered by the
   implementation oracle of the correspondence run. *)
From LzVerif Require Import Base.Bytes Arith.MemUsage Arith.Options Arith.OptionsProofs Format.LzipDict.

(* C19_in: the documented domain *)
(* construct, write and finish succeed (no Err, no Panic), both build profiles, every writer kind *)
Theorem C19_in : forall ck k o fs len, opts_ok k o fs = true -> 0 <= len ->
  writer_outcome ck k o fs len = ObsOk.
Proof. exact C19_in_model. Qed.
Print Assumptions C19_in.

(* no constructor-time panic: LZMAEncoder::new returns its tables, of the stated sizes, in both
   profiles; any i32 depth_limit yields a positive search depth *)
Theorem C19_encoder_new_ok : forall lzma2 o, lzma_opts_ok lzma2 o = true ->
  exists slots, (forall ck extra, 0 <= extra <= 65536 -> encoder_new ck extra o = Ok (tables_of o slots)) /\ 1 <= slots <= 64 /\
                (-2147483648 <= o_depth o <= 2147483647 -> 0 < effective_depth (o_mf o) (o_depth o) (o_nice o)).
Proof. exact encoder_new_ok. Qed.
Print Assumptions C19_encoder_new_ok.

(* every table index computed from (lc, lp, pb, position, previous byte, state, length) is inside
   its table: is_match/is_rep0_long [12][16], the 2^(lc+lp) literal coders, the length coder's
   2^pb rows of max(nice_len-1,16) prices, the nice_len-1 match slots *)
Theorem C19_ctx_index_bounds : forall lzma2 o slots ck pos prev state,
  lzma_opts_ok lzma2 o = true -> 0 <= pos < U32 -> 0 <= prev < 256 -> 0 <= state < 12 ->
  let t := tables_of o slots in
  0 <= pos_state t pos < 2 ^ o_pb o /\ 2 ^ o_pb o <= 16 /\
  is_match_index t state pos = Ok (state, pos_state t pos) /\
  (exists i, literal_index ck t prev pos = Ok i /\ 0 <= i < t_lit_count t) /\
  (forall len, 2 <= len <= o_nice o -> len_index t pos len = Ok (pos_state t pos, len - 2)) /\
  (forall k, 0 <= k < o_nice o - 1 -> matches_index t k = Ok k).
Proof. exact ctx_index_bounds. Qed.
Print Assumptions C19_ctx_index_bounds.

(* the properties byte (pb*5+lp)*9+lc does not wrap and means the same (lc,lp,pb) to the LZMA
   decoder; the LZMA2 decoder accepts it iff lc+lp <= 4 *)
Theorem C19_props_roundtrip : forall ck lc lp pb, 0 <= lc <= 8 -> 0 <= lp <= 4 -> 0 <= pb <= 4 ->
  exists b, props_byte ck lc lp pb = Ok b /\ 0 <= b <= 224 /\ b = (pb * 5 + lp) * 9 + lc /\
            lzma_decode_props b = Ok (lc, lp, pb) /\
            (lc + lp <= 4 -> lzma2_decode_props b = Ok (lc, lp, pb)) /\
            (4 < lc + lp -> lzma2_decode_props b = Err E_INVALID_INPUT).
Proof. exact props_roundtrip. Qed.
Print Assumptions C19_props_roundtrip.

(* container header properties derived from the options announce what the encoder uses *)
Theorem C19_xz_dict_prop_ok : forall d, DICT_SIZE_MIN <= d <= ENC_DICT_SIZE_MAX ->
  exists p ds, xz_encode_dict_size d = Ok p /\ xz_reader_dict_size p = Ok ds /\ d <= ds.
Proof. exact xz_dict_prop_ok. Qed.
Print Assumptions C19_xz_dict_prop_ok.

Theorem C19_xz_delta_prop_ok : forall ck dist, 1 <= dist <= 256 ->
  exists b, xz_delta_prop ck dist = Ok b /\ 0 <= b < 256 /\ xz_reader_delta_distance b = dist /\
            delta_effective_distance dist = dist.
Proof. exact xz_delta_prop_ok. Qed.
Print Assumptions C19_xz_delta_prop_ok.

Theorem C19_xz_bcj_offset_ok : forall f, filter_ok f = true -> f_kind f <> FDelta ->
  xz_reader_bcj_check (f_kind f) (f_prop f) = Ok (f_prop f).
Proof. exact xz_bcj_offset_ok. Qed.
Print Assumptions C19_xz_bcj_offset_ok.

Theorem C19_lzip_dict_ok_for_every_request : forall o,
  exists dd, lzip_header_dict (o_dict o) = Ok dd /\ o_dict (lzip_effective o) <= dd.
Proof. exact lzip_dict_ok_for_every_request. Qed.
Print Assumptions C19_lzip_dict_ok_for_every_request.

(* C19_out: everything outside the documented domain *)
(* Classification.  For every value of every public field (any u32 / i32 / preset / filter list):
   - harmless by construction, hence inside opts_ok: every depth_limit (C19_depth_limit_any_value_ok), the
     lc/lp/pb/dict_size LZIPWriter overwrites or clamps (opts_ok WLzip looks at lzip_effective only),
     an empty-but-Some preset dictionary for LZMAWriter-without-header and LZMA2Writer (the
     repaired LZMA2Writer treats it as None, as LZMA2Reader does);
   - every other out-of-range class is REJECTED: InvalidInput (lc/lp/pb, lc+lp > 4 with LZMA2/XZ,
     dict_size, nice_len, delta distance, BCJ alignment, LZMA2 as pre-filter, > 3 pre-filters) or
     Unsupported (preset dictionary with a .lzma header, XZ or LZIP), by the constructor where it
     returns Result, by the first write()/finish() for LZMA2Writer and LZIPWriter.
   No class is left that panics or yields an undecodable success (genuine defects of the unchanged
   tree: refuted below, repaired by repo-patches/03..07). *)
Theorem C19_out : forall ck k o fs len, opts_typed o fs -> opts_ok k o fs = false -> 0 <= len ->
  exists c st, writer_outcome ck k o fs len = ObsErr c st /\
               (c = E_INVALID_INPUT \/ c = E_UNSUPPORTED) /\
               (match k with WLzma2 | WLzip => st = deferred len | _ => st = SNew end).
Proof. exact C19_out_model. Qed.
Print Assumptions C19_out.

Theorem C19_depth_limit_any_value_ok : forall ck k o fs len d,
  writer_outcome ck k (set_depth o d) fs len = writer_outcome ck k o fs len.
Proof. exact depth_limit_any_value_ok. Qed.
Print Assumptions C19_depth_limit_any_value_ok.

Theorem C19_lzip_ignores_lc_lp_pb : forall ck o lc lp pb fs len,
  writer_outcome ck WLzip o fs len =
  writer_outcome ck WLzip {| o_dict := o_dict o; o_lc := lc; o_lp := lp; o_pb := pb; o_mode := o_mode o; o_mf := o_mf o;
                             o_nice := o_nice o; o_depth := o_depth o; o_preset := o_preset o |} fs len.
Proof. exact lzip_ignores_lc_lp_pb. Qed.
Print Assumptions C19_lzip_ignores_lc_lp_pb.

(* the unchecked arithmetic (unchanged tree) refuted, class by class (F21) *)
Theorem C19_unchecked_pb5_refuted :
  with_tables (encoder_new false 0 (wit 65536 3 0 5 32)) (fun t => is_match_index t 0 16 = Panic P_INDEX) /\
  with_tables (encoder_new true 0 (wit 65536 3 0 5 32)) (fun t => is_match_index t 0 16 = Panic P_INDEX) /\
  props_byte true 3 0 5 = Ok 228 /\ lzma_decode_props 228 = Err E_INVALID_INPUT.
Proof. exact unchecked_pb5_refuted. Qed.
Print Assumptions C19_unchecked_pb5_refuted.

Theorem C19_unchecked_lc9_refuted :
  props_byte true 9 0 2 = Ok 99 /\ lzma_decode_props 99 = Ok (0, 1, 2) /\
  with_tables (encoder_new true 0 (wit 65536 9 0 2 32)) (fun t => literal_index true t 65 0 = Panic P_OVERFLOW).
Proof. exact unchecked_lc9_refuted. Qed.
Print Assumptions C19_unchecked_lc9_refuted.

Theorem C19_unchecked_lclp_lzma2_refuted :
  with_tables (encoder_new true 61440 (wit 4096 4 1 2 32)) (fun _ => True) /\
  props_byte true 4 1 2 = Ok 103 /\ lzma_decode_props 103 = Ok (4, 1, 2) /\
  lzma2_decode_props 103 = Err E_INVALID_INPUT.
Proof. exact unchecked_lclp_lzma2_refuted. Qed.
Print Assumptions C19_unchecked_lclp_lzma2_refuted.

Theorem C19_unchecked_huge_lc_refuted :
  encoder_new true 0 (wit 65536 4294967295 0 2 32) = Panic P_OVERFLOW /\
  encoder_new false 0 (wit 65536 4294967295 0 2 32) = Panic P_CAPACITY.
Proof. exact unchecked_huge_lc_refuted. Qed.
Print Assumptions C19_unchecked_huge_lc_refuted.

Theorem C19_unchecked_dict0_refuted :
  encoder_new true 0 (wit 0 3 0 2 32) = Panic P_OVERFLOW /\
  with_tables (encoder_new false 0 (wit 0 3 0 2 32)) (fun t => t_dist_slots t = 64).
Proof. exact unchecked_dict0_refuted. Qed.
Print Assumptions C19_unchecked_dict0_refuted.

Theorem C19_unchecked_nice_len_refuted :
  encoder_new true 0 (wit 65536 3 0 2 0) = Panic P_OVERFLOW /\
  encoder_new false 0 (wit 65536 3 0 2 0) = Panic P_CAPACITY /\
  encoder_new true 0 (wit 65536 3 0 2 1) = Panic P_OVERFLOW /\
  with_tables (encoder_new false 0 (wit 65536 3 0 2 1)) (fun t => matches_index t 0 = Panic P_INDEX) /\
  with_tables (encoder_new true 0 (wit 65536 3 0 2 2)) (fun t => matches_index t 1 = Panic P_INDEX).
Proof. exact unchecked_nice_len_refuted. Qed.
Print Assumptions C19_unchecked_nice_len_refuted.

Theorem C19_unchecked_huge_nice_len_refuted :
  with_tables (encoder_new true 0 (wit 65536 3 0 2 4294967295))
              (fun t => t_matches t = 4294967294 /\ t_len_symbols t = 4294967294).
Proof. exact unchecked_huge_nice_len_refuted. Qed.
Print Assumptions C19_unchecked_huge_nice_len_refuted.

Theorem C19_unchecked_delta0_refuted :
  xz_delta_prop true 0 = Panic P_OVERFLOW /\
  xz_delta_prop false 0 = Ok 255 /\ xz_reader_delta_distance 255 = delta_effective_distance 0.
Proof. exact unchecked_delta0_refuted. Qed.
Print Assumptions C19_unchecked_delta0_refuted.

Theorem C19_unchecked_bcj_offset_refuted : xz_reader_bcj_check FARM 2 = Err E_INVALID_DATA.
Proof. exact unchecked_bcj_offset_refuted. Qed.
Print Assumptions C19_unchecked_bcj_offset_refuted.

Theorem C19_witnesses_rejected :
  validate false (wit 65536 3 0 5 32) = Err E_INVALID_INPUT /\ validate false (wit 65536 9 0 2 32) = Err E_INVALID_INPUT /\
  validate true (wit 65536 4 1 2 32) = Err E_INVALID_INPUT /\ validate false (wit 65536 4294967295 0 2 32) = Err E_INVALID_INPUT /\
  validate false (wit 0 3 0 2 32) = Err E_INVALID_INPUT /\ validate false (wit 65536 3 0 2 0) = Err E_INVALID_INPUT /\
  validate false (wit 65536 3 0 2 2) = Err E_INVALID_INPUT /\ validate false (wit 65536 3 0 2 4294967295) = Err E_INVALID_INPUT /\
  validate_pre_filter {| f_kind := FDelta; f_prop := 0 |} = Err E_INVALID_INPUT /\
  validate_pre_filter {| f_kind := FARM; f_prop := 2 |} = Err E_INVALID_INPUT.
Proof. exact witnesses_rejected. Qed.
Print Assumptions C19_witnesses_rejected.

Definition ex_opts : lzma_opts :=
  {| o_dict := 8388608; o_lc := 3; o_lp := 0; o_pb := 2; o_mode := Normal; o_mf := BT4; o_nice := 64; o_depth := 0; o_preset := None |}.
Example C19_example_in :
  opts_ok WXz ex_opts [{| f_kind := FX86; f_prop := 0 |}; {| f_kind := FDelta; f_prop := 4 |}] = true /\
  opts_ok WLzma2 ex_opts [] = true /\ opts_ok WLzip ex_opts [] = true /\ opts_ok WLzmaHeader ex_opts [] = true /\
  writer_outcome true WXz ex_opts [{| f_kind := FX86; f_prop := 0 |}; {| f_kind := FDelta; f_prop := 4 |}] 100 = ObsOk.
Proof. vm_compute. repeat split; reflexivity. Qed.

Example C19_example_out :
  opts_ok WLzma2 (wit 65536 4 1 2 32) [] = false /\
  writer_outcome true WLzma2 (wit 65536 4 1 2 32) [] 100 = ObsErr E_INVALID_INPUT SWrite /\
  writer_outcome true WLzma2 (wit 65536 4 1 2 32) [] 0 = ObsErr E_INVALID_INPUT SFinish /\
  writer_outcome true WLzmaRaw (wit 65536 4 1 2 32) [] 100 = ObsOk /\
  writer_outcome true WXz (wit 65536 3 0 2 32) [{| f_kind := FARM; f_prop := 2 |}] 100 = ObsErr E_INVALID_INPUT SNew /\
  writer_outcome true WLzip (wit 0 9 9 9 32) [] 100 = ObsOk.
Proof. vm_compute. repeat split; reflexivity. Qed.
