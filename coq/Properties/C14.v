(* Properties/C14.v — feature configurations (optimization on/off, SIMD/scalar, assembly/portable)
   behave identically.  Only theorem statements, each closed by [exact] of a lemma proved in
   Arith/*Proofs.v.  The whole-codec part of C14 (both configurations produce the bytes / decode
   outcomes of ONE model) is the correspondence run of ./check C14, not a theorem. *)
From LzVerif Require Import Base.Bytes Codec.Store Codec.Range
  Arith.Normalize Arith.NormalizeProofs Arith.DirectBitsAsm Arith.DirectBitsAsmProofs
  Arith.UnsafeBounds Arith.ExtendWordsProofs Arith.UnsafeBoundsProofs.

(* position renormalisation (F17) *)
(* Domain: every i32 table content and every offset 0 <= off <= i32::MAX; the callers pass
   off = 0x7FFFFFFF - cyclic_size with 1 <= cyclic_size.  [simd]/[lanes]/[pre] range over all
   dispatch decisions, vector widths and alignment splits: scalar build = AVX2 = SSE4.1 = NEON
   = unaligned prefix/suffix = the rule of XZ for Java, and nothing panics. *)
Theorem C14_normalize_twins : forall simd lanes pre l off,
  0 <= off <= I32_MAX -> forallb is_i32 l = true ->
  normalize_dispatch simd lanes pre l off = Ok (normalize_spec l off).
Proof. exact normalize_twins. Qed.
Print Assumptions C14_normalize_twins.

Theorem C14_normalize_keeps_window : forall cyc p,
  1 <= cyc <= I32_MAX -> I32_MIN <= p <= I32_MAX ->
  let off := norm_offset_of cyc in
  (I32_MAX - p < cyc -> cyc - norm_spec off p = I32_MAX - p) /\
  (cyc <= I32_MAX - p -> norm_spec off p = 0) /\
  (forall lz_pos, cyc <= lz_pos <= I32_MAX -> candidate_followed cyc lz_pos 0 = false).
Proof. exact normalize_keeps_window. Qed.
Print Assumptions C14_normalize_keeps_window.

(* the behaviour before the fix (i32::saturating_sub) *)
Theorem C14_normalize_scalar_old_refuted :
  exists cyc l lz_pos,
    let off := norm_offset_of cyc in
    1 <= cyc <= I32_MAX /\ forallb is_i32 l = true /\ cyc <= lz_pos <= I32_MAX /\
    normalize_dispatch_old false 8 0 l off <> normalize_dispatch_old true 8 0 l off /\
    normalize_dispatch_old true 8 1 l off <> normalize_dispatch_old true 8 0 l off /\
    normalize_dispatch_old false 8 0 l off <> Ok (normalize_spec l off) /\
    (exists e, In e (normalize_scalar_old l off) /\ e < 0 /\ candidate_followed cyc lz_pos e = true) /\
    (forall e, In e (normalize_spec l off) -> candidate_followed cyc lz_pos e = false).
Proof. exact normalize_scalar_old_refuted. Qed.
Print Assumptions C14_normalize_scalar_old_refuted.

(* decode_direct_bits (F18) *)
Theorem C14_direct_bits_twins : forall buf pos range code count,
  0 <= pos -> 1 <= count -> pos + count <= zlen buf -> zlen buf < P2_63 ->
  direct_bits_asm buf pos range code count = Ok (direct_bits_portable buf pos range code count).
Proof. exact direct_bits_twins. Qed.
Print Assumptions C14_direct_bits_twins.

(* the dispatch before the fix: assembly whenever count > 0 *)
Theorem C14_direct_bits_overrun_refuted :
  (exists buf pos range code count,
     bytes_ok buf = true /\ 0 <= pos /\ 0 <= range < P2_32 /\ 0 <= code < P2_32 /\ 1 <= count /\
     exists v r c p1 p2,
       direct_bits_dispatch_old true buf pos range code count = Ok (v, r, c, p1) /\
       direct_bits_dispatch_old false buf pos range code count = Ok (v, r, c, p2) /\
       buffer_is_finished (zlen buf) p1 c = true /\ buffer_is_finished (zlen buf) p2 c = false) /\
  (exists buf pos range code count,
     bytes_ok buf = true /\ 0 <= pos /\ 0 <= range < P2_32 /\ 0 <= code < P2_32 /\ 1 <= count /\
     exists v r c1 c2 p1 p2,
       direct_bits_dispatch_old true buf pos range code count = Ok (v, r, c1, p1) /\
       direct_bits_dispatch_old false buf pos range code count = Ok (v, r, c2, p2) /\ c1 <> c2).
Proof. exact direct_bits_overrun_refuted. Qed.
Print Assumptions C14_direct_bits_overrun_refuted.

(* the repaired dispatch: both configurations compute the per-bit loop of Codec/Range.v in
   every state with range >= 2^16 (an invariant of the decoder), inside, at and beyond the end
   of the chunk buffer *)
Theorem C14_direct_bits_dispatch_eq : forall opt buf pos range code count,
  0 <= pos -> zlen buf < P2_63 -> 65536 <= range < P2_32 -> 0 <= count ->
  direct_bits_dispatch opt buf pos range code count = Ok (direct_bits_portable buf pos range code count).
Proof. exact direct_bits_dispatch_eq. Qed.
Print Assumptions C14_direct_bits_dispatch_eq.

Theorem C14_direct_bits_loop_eq : forall buf pos range code count,
  65536 <= range < P2_32 -> 0 <= count ->
  direct_bits_rust_loop buf pos range code count = Ok (direct_bits_portable buf pos range code count).
Proof. exact direct_bits_loop_eq. Qed.
Print Assumptions C14_direct_bits_loop_eq.

(* aarch64 assembly: modelled by transcription only (cannot be executed on this x86-64 machine);
   it selects on the carry flag where the others use the sign bit. *)
Theorem C14_direct_bits_aarch64_refuted :
  exists buf pos range code count,
    bytes_ok buf = true /\ 0 <= pos /\ pos + count <= zlen buf /\ 0 <= code < range /\ range < P2_32 /\ 1 <= count /\
    direct_bits_asm_aarch64 buf pos range code count <> Ok (direct_bits_portable buf pos range code count) /\
    direct_bits_asm buf pos range code count = Ok (direct_bits_portable buf pos range code count).
Proof. exact direct_bits_aarch64_refuted. Qed.
Print Assumptions C14_direct_bits_aarch64_refuted.

(* extend_match / extend_match_safe / fast reject *)
Theorem C14_extend_match_safe_cpl : forall a b,
  bytes_ok a = true -> bytes_ok b = true -> extend_match_safe a b = cpl a b.
Proof. exact extend_match_safe_cpl. Qed.
Print Assumptions C14_extend_match_safe_cpl.

Theorem C14_extend_match_twins : forall checked opt buf read_pos current_len distance limit,
  bytes_ok buf = true -> zlen buf < 2 ^ 63 ->
  0 <= read_pos -> 0 <= current_len <= limit -> limit <= I32_MAX ->
  read_pos + limit <= zlen buf -> read_pos + limit <= I32_MAX ->
  0 <= distance <= read_pos + current_len ->
  let start1 := read_pos + current_len in
  let ext := limit - current_len in
  let r := current_len + cpl (slice buf start1 (start1 + ext)) (slice buf (start1 - distance) (start1 - distance + ext)) in
  extend_match checked opt buf read_pos current_len distance limit = Ok r /\ current_len <= r <= limit.
Proof. exact extend_match_twins. Qed.
Print Assumptions C14_extend_match_twins.

Theorem C14_fast_reject_twins : forall checked buf read_pos match_dist,
  zlen buf < 2 ^ 63 -> 0 <= match_dist <= read_pos -> match_dist <= I32_MAX -> read_pos + 2 <= zlen buf ->
  exists r, fast_reject checked true buf read_pos match_dist = Ok r /\
            fast_reject checked false buf read_pos match_dist = Ok r.
Proof. exact fast_reject_twins. Qed.
Print Assumptions C14_fast_reject_twins.

Example C14_normalize_example :
  normalize_dispatch true 8 3 [0; 5; 2147479551; 2147483647; -7; 2147479550; 2147479552; 1; 2; 3; 4; 5; 6]
                     (norm_offset_of 4097)
  = Ok [0; 0; 1; 4097; 0; 0; 2; 0; 0; 0; 0; 0; 0].
Proof. vm_compute. reflexivity. Qed.

(* 26 direct bits (the longest run LZMA uses) from a valid state with pos + count <= len: four
   bytes are consumed *)
Example C14_direct_bits_example :
  let b := [18; 52; 86; 120; 154; 1; 2; 3; 4; 5; 6; 7; 8; 9; 10; 11; 12; 13; 14; 15; 16; 17; 18; 19; 20; 21; 22; 23; 24; 25] in
  1 + 26 <= zlen b /\
  direct_bits_asm b 1 16777215 11259375 26 = Ok (45037503, 1073741760, 539256922, 5) /\
  direct_bits_portable b 1 16777215 11259375 26 = (45037503, 1073741760, 539256922, 5) /\
  direct_bits_dispatch true b 1 16777215 11259375 26 = Ok (45037503, 1073741760, 539256922, 5).
Proof. vm_compute. repeat split; try reflexivity. discriminate. Qed.

Example C14_extend_match_example :
  extend_match false true [1; 2; 3; 1; 2; 3; 1; 2; 9] 3 0 3 6 = Ok 5 /\
  extend_match true false [1; 2; 3; 1; 2; 3; 1; 2; 9] 3 0 3 6 = Ok 5.
Proof. vm_compute. split; reflexivity. Qed.
