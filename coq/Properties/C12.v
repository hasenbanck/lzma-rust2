(* Properties/C12.v — concatenated XZ streams and LZIP members decode to the concatenated data.
   Only theorem statements, each closed by [exact] of a lemma proved in Format/*Proofs.v.
   Models and conventions as in Properties/C02.v ([xz_fixed] includes the fixes of F16: inverted
   magic test, and of the unchecked stream padding at the end of the input). *)
From LzVerif Require Import Base.Bytes Format.XzFormat Format.LzipFormat Format.LzipDict
  Format.XzHeaderProofs Format.XzBlockHeaderProofs Format.XzProofs Format.LzipProofs
  Format.ContainerRefutations Format.RoundTripExamples.

(* A file = one or more streams, each exactly as the writer produces it for some legal
   options / data / partition of its own (check types and options may differ from stream to stream,
   empty streams included: [st_ok]), each followed by stream padding of [st_pad] null bytes.  If every
   padding is a multiple of four bytes (0 included), the reader with multi-stream decoding enabled
   returns the concatenation of the contents and consumes the whole file. *)
Theorem C12_xz_multi :
  forall (penc : Z -> list Z -> list Z) (pdec : Z -> list Z -> outcome (list Z * list Z)),
  (forall d dd x tail, d <= dd -> pdec dd (penc d x ++ tail) = Ok (x, tail)) ->
  forall (fenc fdec : fkind -> Z -> list Z -> list Z),
  (forall k p x, fdec k p (fenc k p x) = x) ->
  forall (s : xzstream) (t : list xzstream),
    Forall (st_ok penc fenc) (s :: t) ->
    Forall (fun x => st_pad x mod 4 = 0) (s :: t) ->
    xz_decode xz_check_bytes (blockdec pdec fdec) xz_fixed true (xz_file (s :: t))
    = Ok (xz_content (s :: t), []).
Proof. exact xz_multi_thm. Qed.
Print Assumptions C12_xz_multi.

(* malformed padding is rejected: a padding whose length is not a multiple of four, at the end of
   the file or before a further stream; and any byte that is neither padding nor a stream start *)
Theorem C12_xz_bad_padding :
  forall (penc : Z -> list Z -> list Z) (pdec : Z -> list Z -> outcome (list Z * list Z)),
  (forall d dd x tail, d <= dd -> pdec dd (penc d x ++ tail) = Ok (x, tail)) ->
  forall (fenc fdec : fkind -> Z -> list Z -> list Z),
  (forall k p x, fdec k p (fenc k p x) = x) ->
  forall (s : xzstream) (rest : list Z),
    st_ok penc fenc s -> st_pad s mod 4 <> 0 ->
    (rest = [] \/ exists ct X, check_known ct = true /\ rest = xz_stream_header ct ++ X) ->
    xz_decode xz_check_bytes (blockdec pdec fdec) xz_fixed true (st_bytes s ++ rest) = Err E_INVALID_DATA.
Proof. exact xz_multi_bad_padding. Qed.
Print Assumptions C12_xz_bad_padding.

Theorem C12_xz_garbage_after_stream :
  forall (penc : Z -> list Z -> list Z) (pdec : Z -> list Z -> outcome (list Z * list Z)),
  (forall d dd x tail, d <= dd -> pdec dd (penc d x ++ tail) = Ok (x, tail)) ->
  forall (fenc fdec : fkind -> Z -> list Z -> list Z),
  (forall k p x, fdec k p (fenc k p x) = x) ->
  forall (s : xzstream) (b : Z) (X : list Z),
    st_ok penc fenc s -> b <> 0 -> b <> 253 ->
    xz_decode xz_check_bytes (blockdec pdec fdec) xz_fixed true (st_bytes s ++ b :: X) = Err E_INVALID_DATA.
Proof. exact xz_multi_garbage. Qed.
Print Assumptions C12_xz_garbage_after_stream.

(* with multi-stream decoding disabled the reader returns the first stream's content and leaves
   the source positioned at the first byte after that stream, whatever follows (also C16) *)
Theorem C12_xz_single_stream_stops :
  forall (penc : Z -> list Z -> list Z) (pdec : Z -> list Z -> outcome (list Z * list Z)),
  (forall d dd x tail, d <= dd -> pdec dd (penc d x ++ tail) = Ok (x, tail)) ->
  forall (fenc fdec : fkind -> Z -> list Z -> list Z),
  (forall k p x, fdec k p (fenc k p x) = x) ->
  forall o0 parts f rest, stream_ok o0 ->
    xz_encode penc fenc xz_fixed o0 parts = Ok f ->
    xz_decode xz_check_bytes (blockdec pdec fdec) xz_fixed false (f ++ rest) = Ok (concat parts, rest).
Proof. exact xz_single_stops. Qed.
Print Assumptions C12_xz_single_stream_stops.

(* F16: false on the code before the fix - two concatenated streams are rejected, and three null
   bytes of "padding" at the end of the input are accepted *)
Theorem C12_xz_concat_refuted : xz_decode_c xz_orig true (w_hello ++ w_hello) = Err E_INVALID_DATA.
Proof. exact xz_concat_refuted. Qed.
Print Assumptions C12_xz_concat_refuted.
Theorem C12_xz_trailing_padding_refuted : xz_decode_c xz_orig true (w_hello ++ [0; 0; 0]) = Ok (w_content, []).
Proof. exact xz_trailing_padding_refuted. Qed.
Print Assumptions C12_xz_trailing_padding_refuted.

(* A file = one or more members, each with its own header byte, dictionary and content
   ([lm_ok]: the header byte announces at least the dictionary in use, the content are bytes, fewer
   than 2^64 bytes); any such concatenation - members of one writer, or whole files appended to each
   other - decodes to the concatenation of the contents, wholly consumed. *)
Theorem C12_lzip_multi :
  forall (penc : Z -> list Z -> list Z) (pdec : Z -> list Z -> outcome (list Z * list Z)),
  (forall d dd x tail, d <= dd -> pdec dd (penc d x ++ tail) = Ok (x, tail)) ->
  forall (m : lzm) (ms : list lzm),
    Forall (lm_ok penc) (m :: ms) ->
    lz_decode pdec lz_fixed (lm_file penc (m :: ms)) = Ok (lm_data (m :: ms), []).
Proof. exact lzip_multi_thm. Qed.
Print Assumptions C12_lzip_multi.

(* trailing data (the tolerance the format defines): after at least one member, data whose first
   bytes are not (a prefix of) the member magic end the stream; up to four of them are read *)
Theorem C12_lzip_trailing_data :
  forall (penc : Z -> list Z -> list Z) (pdec : Z -> list Z -> outcome (list Z * list Z)),
  (forall d dd x tail, d <= dd -> pdec dd (penc d x ++ tail) = Ok (x, tail)) ->
  forall (m : lzm) (ms : list lzm) (t : list Z),
    Forall (lm_ok penc) (m :: ms) -> t <> [] ->
    lz_bytes_eqb (firstn 4 t) (firstn (length (firstn 4 t)) LZIP_MAGIC) = false ->
    lz_decode pdec lz_fixed (lm_file penc (m :: ms) ++ t) = Ok (lm_data (m :: ms), skipn 4 t).
Proof. exact lzip_trailing_thm. Qed.
Print Assumptions C12_lzip_trailing_data.

(* Non-vacuity: two real streams (CRC32, stored LZMA2 chunk) with four null bytes between them,
   decoded by the reader model with the LZMA2 decoder model as payload decoder. *)
Example C12_xz_instance :
  xz_decode_c xz_fixed true (w_hello ++ [0; 0; 0; 0] ++ w_hello) = Ok (w_content ++ w_content, []) /\
  xz_decode_c xz_fixed true (w_hello ++ [0; 0; 0]) = Err E_INVALID_DATA /\
  xz_decode_c xz_fixed false (w_hello ++ [0; 0; 0] ++ w_hello) = Ok (w_content, [0; 0; 0] ++ w_hello).
Proof. split; [exact xz_concat_fixed|]. split; [exact xz_trailing_padding_fixed|]. vm_compute. reflexivity. Qed.
Example C12_lzip_instance :
  Forall (lm_ok toy_penc) [mkLzm 12 4096 [1; 2; 3]; mkLzm 205 5000 []; mkLzm 12 4096 [4]] /\
  lz_decode toy_pdec lz_fixed (lm_file toy_penc [mkLzm 12 4096 [1; 2; 3]; mkLzm 205 5000 []; mkLzm 12 4096 [4]])
  = Ok ([1; 2; 3; 4], []).
Proof.
  split; [|vm_compute; reflexivity].
  repeat (apply Forall_cons; [unfold lm_ok; cbn [lm_byte lm_dict lm_content];
    split; [eexists; split; [vm_compute; reflexivity | vm_compute; congruence]|];
    split; [reflexivity|]; split; vm_compute; reflexivity|]).
  apply Forall_nil.
Qed.
