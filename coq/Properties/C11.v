(* Properties/C11.v — BCJ, Delta and BCJ2 filters are exact inverses and match the reference.
   Only theorem statements, each closed by [exact] of a lemma proved elsewhere. *)
From LzVerif Require Import Base.Bytes Filter.Delta Filter.DeltaProofs.
From LzVerif Require Import Filter.Bcj Filter.BcjStream Filter.BcjDefects
  Filter.BcjStreamProofs Filter.BcjX86InvProofs Filter.BcjAllProofs Filter.BcjDefectsProofs.
From LzVerif Require Import Filter.Bcj2 Filter.Bcj2Enc Filter.Bcj2Defects Filter.Bcj2SpecProofs Filter.Bcj2ReaderProofs
  Filter.Bcj2DefectsProofs.

(* Delta: for EVERY distance value (the whole usize range, in or out of 1..256) and every byte
   string, the encoder does not panic, keeps the length, and the decoder returns the input. *)
Theorem C11_delta_inverse : forall dist l,
  bytes_ok l = true ->
  exists o, delta_encode_bytes dist l = Some o /\ delta_decode_bytes dist o = Some l /\
            length o = length l.
Proof. exact delta_inverse. Qed.
Print Assumptions C11_delta_inverse.

(* Delta matches the reference semantics of the format: out[i] = in[i] - in[i - dist]. *)
Theorem C11_delta_matches_reference : forall dist l,
  1 <= dist <= 256 -> bytes_ok l = true ->
  delta_encode_bytes dist l = Some (delta_spec_enc dist [] l).
Proof. exact delta_refines_spec. Qed.
Print Assumptions C11_delta_matches_reference.

(* The result does not depend on how the data reaches the filter (C07 shares these). *)
Theorem C11_delta_write_partition : forall d parts,
  delta_write_calls d parts = delta_encode d (concat parts).
Proof. exact delta_write_partition. Qed.
Print Assumptions C11_delta_write_partition.

Theorem C11_delta_read_partition : forall d parts,
  delta_read_calls d parts = delta_decode d (concat parts).
Proof. exact delta_read_partition. Qed.
Print Assumptions C11_delta_read_partition.

(* Non-vacuity: a concrete non-trivial instance. *)
Example C11_delta_example :
  delta_encode_bytes 2 [10; 20; 30; 25; 5] = Some [10; 20; 20; 5; 231] /\
  delta_decode_bytes 2 [10; 20; 20; 5; 231] = Some [10; 20; 30; 25; 5].
Proof. vm_compute. split; reflexivity. Qed.

(* BCJ.  Models: Filter/Bcj.v (the eight `code` functions, after repo-patches/11), Filter/BcjStream.v
   (BCJReader::read after repo-patches/13, BCJWriter::write).  [bcj_code a enc st buf] returns the
   new filter state, the converted prefix and the untouched rest of the buffer. *)

(* exact inverses, word-aligned architectures.
   For EVERY start offset that is a multiple of the architecture's alignment (any Z: the
   constructor wraps at 2^64 like the repaired code) and every byte buffer: the encoder does not
   fail; the decoder applied to the encoder's output buffer (converted prefix ++ untouched rest)
   processes the same length, ends in the same filter state and gives the buffer back. *)
Theorem C11_bcj_inverse_arm : forall start buf, start mod 4 = 0 -> bytes_ok buf = true ->
  exists st' out rest,
    bcj_code ARM true (bcj_init ARM start) buf = Ok (st', out, rest) /\
    bcj_code ARM false (bcj_init ARM start) (out ++ rest) = Ok (st', firstn (length out) buf, rest) /\
    firstn (length out) buf ++ rest = buf /\ bytes_ok out = true.
Proof. exact (bcj_inverse_all ARM). Qed.
Print Assumptions C11_bcj_inverse_arm.

Theorem C11_bcj_inverse_armthumb : forall start buf, start mod 2 = 0 -> bytes_ok buf = true ->
  exists st' out rest,
    bcj_code ARMT true (bcj_init ARMT start) buf = Ok (st', out, rest) /\
    bcj_code ARMT false (bcj_init ARMT start) (out ++ rest) = Ok (st', firstn (length out) buf, rest) /\
    firstn (length out) buf ++ rest = buf /\ bytes_ok out = true.
Proof. exact (bcj_inverse_all ARMT). Qed.
Print Assumptions C11_bcj_inverse_armthumb.

Theorem C11_bcj_inverse_arm64 : forall start buf, start mod 4 = 0 -> bytes_ok buf = true ->
  exists st' out rest,
    bcj_code ARM64 true (bcj_init ARM64 start) buf = Ok (st', out, rest) /\
    bcj_code ARM64 false (bcj_init ARM64 start) (out ++ rest) = Ok (st', firstn (length out) buf, rest) /\
    firstn (length out) buf ++ rest = buf /\ bytes_ok out = true.
Proof. exact (bcj_inverse_all ARM64). Qed.
Print Assumptions C11_bcj_inverse_arm64.

Theorem C11_bcj_inverse_ppc : forall start buf, start mod 4 = 0 -> bytes_ok buf = true ->
  exists st' out rest,
    bcj_code PPC true (bcj_init PPC start) buf = Ok (st', out, rest) /\
    bcj_code PPC false (bcj_init PPC start) (out ++ rest) = Ok (st', firstn (length out) buf, rest) /\
    firstn (length out) buf ++ rest = buf /\ bytes_ok out = true.
Proof. exact (bcj_inverse_all PPC). Qed.
Print Assumptions C11_bcj_inverse_ppc.

Theorem C11_bcj_inverse_sparc : forall start buf, start mod 4 = 0 -> bytes_ok buf = true ->
  exists st' out rest,
    bcj_code SPARC true (bcj_init SPARC start) buf = Ok (st', out, rest) /\
    bcj_code SPARC false (bcj_init SPARC start) (out ++ rest) = Ok (st', firstn (length out) buf, rest) /\
    firstn (length out) buf ++ rest = buf /\ bytes_ok out = true.
Proof. exact (bcj_inverse_all SPARC). Qed.
Print Assumptions C11_bcj_inverse_sparc.

(* IA-64: bundles of 16 bytes, three 41-bit slots; start offset a multiple of 16 *)
Theorem C11_bcj_inverse_ia64 : forall start buf, start mod 16 = 0 -> bytes_ok buf = true ->
  exists st' out rest,
    bcj_code IA64 true (bcj_init IA64 start) buf = Ok (st', out, rest) /\
    bcj_code IA64 false (bcj_init IA64 start) (out ++ rest) = Ok (st', firstn (length out) buf, rest) /\
    firstn (length out) buf ++ rest = buf /\ bytes_ok out = true.
Proof. exact (bcj_inverse_all IA64). Qed.
Print Assumptions C11_bcj_inverse_ia64.

(* x86: every start offset (alignment 1); the prev_mask automaton of the decoder, fed with the
   converted bytes, takes the encoder's decisions *)
Theorem C11_bcj_inverse_x86 : forall start buf, bytes_ok buf = true ->
  exists st' out rest,
    bcj_code X86 true (bcj_init X86 start) buf = Ok (st', out, rest) /\
    bcj_code X86 false (bcj_init X86 start) (out ++ rest) = Ok (st', firstn (length out) buf, rest) /\
    firstn (length out) buf ++ rest = buf /\ bytes_ok out = true.
Proof. exact bcj_inverse_x86. Qed.
Print Assumptions C11_bcj_inverse_x86.

(* RISC-V: start offset even; JAL, AUIPC pairs and the escape of AUIPC x0/x2 look-alikes *)
Theorem C11_bcj_inverse_riscv : forall start buf, start mod 2 = 0 -> bytes_ok buf = true ->
  exists st' out rest,
    bcj_code RISCV true (bcj_init RISCV start) buf = Ok (st', out, rest) /\
    bcj_code RISCV false (bcj_init RISCV start) (out ++ rest) = Ok (st', firstn (length out) buf, rest) /\
    firstn (length out) buf ++ rest = buf /\ bytes_ok out = true.
Proof. exact (bcj_inverse_all RISCV). Qed.
Print Assumptions C11_bcj_inverse_riscv.

(* all eight at once ([bcj_align]: x86 1, ARM 4, ARM-Thumb 2, ARM64 4, PowerPC 4, SPARC 4, IA-64 16, RISC-V 2) *)
Theorem C11_bcj_inverse_all : forall a start buf, start mod bcj_align a = 0 -> bytes_ok buf = true ->
  exists st' out rest,
    bcj_code a true (bcj_init a start) buf = Ok (st', out, rest) /\
    bcj_code a false (bcj_init a start) (out ++ rest) = Ok (st', firstn (length out) buf, rest) /\
    firstn (length out) buf ++ rest = buf /\ bytes_ok out = true.
Proof. exact bcj_inverse_all. Qed.
Print Assumptions C11_bcj_inverse_all.

(* the round trip through the I/O adapters, every architecture: one BCJWriter::write of the
   data, then BCJReader over ANY chunking of the filtered stream and ANY history of destination
   sizes (zeros included) that asks for enough bytes. *)
Theorem C11_bcj_roundtrip : forall a start data, start mod bcj_align a = 0 -> bytes_ok data = true ->
  exists enc,
    bcj_enc_parts a start [data] = Ok enc /\ length enc = length data /\
    forall parts sizes, concat parts = enc -> Forall (fun n => 0 <= n) sizes ->
      Z.of_nat (length data) <= fold_right Z.add 0 sizes ->
      exists rs' inner',
        bcj_read_calls (bcj_read_fuel (data_script parts)) a (bcj_reader_new a start) (data_script parts) sizes =
          Ok (data, [], rs', inner').
Proof. exact bcj_roundtrip_all. Qed.
Print Assumptions C11_bcj_roundtrip.

(* BCJReader, all eight architectures (shared with C07): the bytes delivered do not depend
   on the inner reader's chunking nor on the destination sizes; they are `code` applied to the
   whole stream with the unconvertible tail passed through; no call fails; a zero-length read
   changes nothing. *)
Theorem C11_bcj_reader_any_sizes : forall a start parts sizes,
  bytes_ok (concat parts) = true -> Forall (fun n => 0 <= n) sizes ->
  exists F rs' inner',
    bcj_stream a false start (concat parts) = Ok F /\
    bcj_read_calls (bcj_read_fuel (data_script parts)) a (bcj_reader_new a start) (data_script parts) sizes =
      Ok (firstn (Z.to_nat (fold_right Z.add 0 sizes)) F, [], rs', inner').
Proof. exact bcj_reader_any_sizes. Qed.
Print Assumptions C11_bcj_reader_any_sizes.

Theorem C11_bcj_reader_zero_read : forall fuel a st inner, bcj_read fuel a st inner 0 = Ok ([], None, st, inner).
Proof. exact bcj_reader_zero_read. Qed.
Print Assumptions C11_bcj_reader_zero_read.

(* BCJReader over an inner reader that fails now and then (repaired by repo-patches/13), read by
   a loop with positive destination sizes that repeats a call failing with Interrupted: a prefix
   of the stream-level result is obtained; the loop ends normally only with the whole result; it
   ends with an error only with a non-transient error of the inner reader; if the inner reader
   only ever fails transiently the whole result is obtained. *)
Theorem C11_bcj_reader_retry : forall a start inner sizes,
  script_ok inner -> bytes_ok (script_data inner) = true -> Forall (fun s => 0 < s) sizes ->
  exists F out e,
    bcj_stream a false start (script_data inner) = Ok F /\
    bcj_dec_script a start inner sizes = Ok (out, e) /\
    (exists Y, F = out ++ Y) /\
    (e = None -> out = F) /\
    (forall c, e = Some c -> c <> E_INTERRUPTED /\ In c (script_errs inner)) /\
    (Forall (fun c => c = E_INTERRUPTED) (script_errs inner) -> e = None /\ out = F).
Proof. exact bcj_reader_retry. Qed.
Print Assumptions C11_bcj_reader_retry.

(* BCJWriter under a partition of the data into write calls.  FALSE in general (known
   finding bcj-writer-midstream-tail): [C11_bcj_writer_partition_refuted] exhibits a two-call
   history whose output is neither the filtered stream nor decodable to the data, while the
   one-call history is fine.  TRUE outside the known class: if no write call leaves an unconverted
   tail while more data follows, the sink receives exactly the filtered stream. *)
Theorem C11_bcj_writer_partition_refuted :
  exists a start parts,
    bytes_ok (concat parts) = true /\
    bcj_enc_parts a start parts <> bcj_stream a true start (concat parts) /\
    (exists out, bcj_enc_parts a start parts = Ok out /\ bcj_stream a false start out <> Ok (concat parts)) /\
    (exists out1, bcj_enc_parts a start [concat parts] = Ok out1 /\ bcj_stream a false start out1 = Ok (concat parts)) /\
    ~ no_midstream_tail a (bcj_init a start) parts.
Proof. exact bcj_writer_partition_refuted. Qed.
Print Assumptions C11_bcj_writer_partition_refuted.

Theorem C11_bcj_writer_partition_known : forall a start parts,
  bytes_ok (concat parts) = true -> no_midstream_tail a (bcj_init a start) parts ->
  exists F, bcj_stream a true start (concat parts) = Ok F /\ bcj_enc_parts a start parts = Ok F.
Proof. exact bcj_writer_partition_known. Qed.
Print Assumptions C11_bcj_writer_partition_known.

(* repaired by repo-patches/11: the `+`/`-` of the original code panicked in builds with
   overflow checks (witness: start offset 0x7FFFFFEC, word C1 09 0F EB; for the constructor's
   start_pos + 8 with start offset 2^64 - 4 see bcj_checked_start_refuted in BcjDefectsProofs.v). *)
Theorem C11_bcj_checked_add_refuted :
  exists start b0 b1 b2,
    start mod 4 = 0 /\ 0 <= start < 4294967296 /\
    arm_word_old true (start + 8) 0 b0 b1 b2 235 = Panic 1 /\
    (let '(c0, c1, c2, c3) := arm_word true (pc32 (start + 8) 0) b0 b1 b2 235 in
     arm_word false (pc32 (start + 8) 0) c0 c1 c2 c3 = (b0, b1, b2, 235)).
Proof. exact bcj_checked_add_refuted. Qed.
Print Assumptions C11_bcj_checked_add_refuted.

(* Non-vacuity: an aligned non-zero start offset near 2^31 and a buffer with a BL instruction, a
   chunked reader history in which the inner reader fails once with Interrupted, a write history
   outside the known class. *)
Example C11_bcj_example :
  bcj_enc_parts ARM 2147483632 [[255; 255; 255; 235; 7]] = Ok [253; 255; 255; 235; 7] /\
  bcj_dec_script ARM 2147483632 [IData [253; 255]; IErr 8; IData [255; 235; 7]] [1; 3] = Ok ([255; 255; 255; 235; 7], None) /\
  no_midstream_tail ARM (bcj_init ARM 0) [[0; 0; 0; 235]; []; [1; 2; 3; 235; 9]].
Proof. split; [vm_compute; reflexivity|]. split; [vm_compute; reflexivity|]. vm_compute. auto. Qed.

(* BCJ2.  Models: Filter/Bcj2.v (Bcj2Decoder::decode and BCJ2Reader::read, after repo-patches/15 and
   /16), Filter/Bcj2Enc.v (the format as a specification encoder: [bcj2_encode data ds] = the four
   streams MAIN, CALL, JUMP, RC of 7-Zip's Bcj2Enc for the data when the encoder's choices "convert
   this candidate or not" are the booleans [ds], one per E8 / E9 / 0F 8x candidate in stream order, a
   missing one = do not convert; a candidate with fewer than four bytes behind it is never converted).
   Every correctly encoded input is of that form for some [ds]. *)

(* one-shot decode: for EVERY byte string shorter than 2^32 - 6 (the bound of the range
   coder's pending-byte counter in the specification encoder) and EVERY decision list, one call of
   decode() on a fresh decoder with the four complete streams in its buffers and room for all the
   output returns true, has stored exactly the data, and stops in state MAIN with code = 0 (the two
   checks BCJ2Reader makes at the end) and all four buffers used up.  The fuel of the model's loop is
   the one decode's model computes itself (2 + bytes in the MAIN buffer); no Panic / Fuel. *)
Theorem C11_bcj2_decodes_spec : forall data ds,
  bytes_ok data = true -> Z.of_nat (length data) <= 4294967289 ->
  exists d',
    (let '(m, c, j, r) := bcj2_encode data ds in bcj2_decode_oneshot m c j r (zlen data)) = Ok (true, d', data) /\
    bd_state d' = BCJ2_STREAM_MAIN /\ bd_code d' = 0 /\
    sb_live (bd_main d') = [] /\ sb_live (bd_call d') = [] /\ sb_live (bd_jump d') = [] /\ sb_live (bd_rc d') = [].
Proof. exact bcj2_decodes_spec. Qed.
Print Assumptions C11_bcj2_decodes_spec.

(* BCJ2Reader::read: ANY chunking of each of the four streams by its inner reader (pieces of
   any length: 1, 2, 3, 5, ... bytes for CALL/JUMP too; empty pieces are dropped) and ANY history of
   destination sizes (zeros included): the calls return the first (sum of sizes) bytes of the data —
   the bytes of the one-shot decode above —, none returns an error.  Fuel per call:
   2 + bytes still in the four scripts. *)
Theorem C11_bcj2_reader_any_chunking : forall data ds pm pc pj pr sizes,
  bytes_ok data = true -> Z.of_nat (length data) <= 4294967289 ->
  (let '(m, c, j, r) := bcj2_encode data ds in concat pm = m /\ concat pc = c /\ concat pj = j /\ concat pr = r) ->
  Forall (fun n => 0 <= n) sizes ->
  let ins := (data_script pm, data_script pc, data_script pj, data_script pr) in
  exists r' ins',
    bcj2_read_calls (bcj2_read_fuel ins) (bcj2_reader_new (zlen data)) ins sizes =
      Ok (firstn (Z.to_nat (fold_right Z.add 0 sizes)) data, [], r', ins').
Proof. exact bcj2_reader_any_chunking. Qed.
Print Assumptions C11_bcj2_reader_any_chunking.

(* a zero-length read returns Ok(0) at once and changes nothing — in every reader state *)
Theorem C11_bcj2_reader_zero_read : forall fuel r ins, bcj2_read fuel r ins 0 = Ok ([], None, r, ins).
Proof. exact bcj2_reader_zero_read. Qed.
Print Assumptions C11_bcj2_reader_zero_read.

(* repaired by repo-patches/16: the reader before it lost decoded bytes when an inner reader
   failed transiently (witness: five literal bytes, MAIN reader fails once with Interrupted after
   delivering them; the retrying caller gets nothing and a normal end of stream), and forgot the first
   bytes of a CALL word when the failure came between them and the rest (witness: InvalidData for a
   correct input).  [bcj2_dec_script_old] is the retry loop over the old read(). *)
Theorem C11_bcj2_reader_interrupted_refuted :
  exists data ins sizes,
    (let '(m, c, j, r) := bcj2_encode data [] in
     fst (fst (fst ins)) = [IData m; IErr E_INTERRUPTED] /\ snd (fst (fst ins)) = data_script [c] /\
     snd (fst ins) = data_script [j] /\ snd ins = data_script [r]) /\
    bcj2_dec_script_old (zlen data) ins sizes = Ok ([], None) /\
    bcj2_dec_script (zlen data) ins sizes = Ok (data, None) /\ data <> [].
Proof. exact bcj2_reader_interrupted_drops_bytes_refuted. Qed.
Print Assumptions C11_bcj2_reader_interrupted_refuted.

Theorem C11_bcj2_reader_partial_word_refuted :
  exists data ds ins,
    (let '(m, c, j, r) := bcj2_encode data ds in
     fst (fst (fst ins)) = data_script [m] /\
     snd (fst (fst ins)) = [IData (firstn 2 c); IErr E_INTERRUPTED; IData (skipn 2 c)] /\
     snd (fst ins) = data_script [j] /\ snd ins = data_script [r]) /\
    bcj2_dec_script_old (zlen data) ins [] = Ok ([], Some E_INVALID_DATA) /\
    bcj2_dec_script (zlen data) ins [] = Ok (data, None).
Proof. exact bcj2_reader_partial_word_lost_refuted. Qed.
Print Assumptions C11_bcj2_reader_partial_word_refuted.

(* repaired by repo-patches/15: `self.ip += ...` panicked in a build with overflow checks at
   the first byte behind 4 GiB of output; the model (and a release build) wraps. *)
Theorem C11_bcj2_ip_checked_add_refuted :
  exists ip num, 0 <= ip < 4294967296 /\ 0 < num <= BUF_SIZE /\
    ip_add_checked ip num = Panic 2 /\ wrap32 (ip + wrap32 num) = 0.
Proof. exact bcj2_ip_checked_add_refuted. Qed.
Print Assumptions C11_bcj2_ip_checked_add_refuted.

(* Non-vacuity: 45 bytes with nine candidates (E8 twice, E9, 0F 85, an E8 that is kept and an E8
   inside its operand, 0F 8F, an E8 behind 0F 0F, an E8 with only two bytes behind it), decisions
   convert / keep / convert / convert / keep / convert / convert / convert / (ignored); targets wrap
   around 2^32.  The four streams, the
   one-shot decode, and the reader over 1-, 2-, 3- and 5-byte pieces with destination sizes 3, 0, 5, 1
   and a transient failure in the CALL reader. *)
Definition c11_bcj2_data : list Z :=
  [85; 232; 252; 255; 255; 255; 232; 1; 2; 3; 4; 144; 233; 16; 0; 0; 128; 15; 133; 255; 255; 255; 127;
   232; 232; 9; 9; 9; 9; 15; 143; 0; 0; 0; 0; 15; 15; 232; 5; 6; 7; 8; 232; 1; 2].
Definition c11_bcj2_ds : list bool := [true; false; true; true; false; true; true; true; true].

Example C11_bcj2_example :
  bytes_ok c11_bcj2_data = true /\ Z.of_nat (length c11_bcj2_data) <= 4294967289 /\
  bcj2_encode c11_bcj2_data c11_bcj2_ds =
    ([85; 232; 232; 1; 2; 3; 4; 144; 233; 15; 133; 232; 232; 15; 143; 15; 15; 232; 232; 1; 2],
     [0; 0; 0; 2; 9; 9; 9; 38; 8; 7; 6; 47],
     [128; 0; 0; 33; 128; 0; 0; 22; 0; 0; 0; 35],
     [0; 182; 247; 252; 0; 0]) /\
  (exists d', (let '(m, c, j, r) := bcj2_encode c11_bcj2_data c11_bcj2_ds in
               bcj2_decode_oneshot m c j r (zlen c11_bcj2_data)) = Ok (true, d', c11_bcj2_data)) /\
  (let '(m, c, j, r) := bcj2_encode c11_bcj2_data c11_bcj2_ds in
   bcj2_dec_script (zlen c11_bcj2_data)
     (data_script [firstn 5 m; skipn 5 m], [IData (firstn 3 c); IErr E_INTERRUPTED; IData (firstn 2 (skipn 3 c)); IData (skipn 5 c)],
      data_script [firstn 1 j; firstn 5 (skipn 1 j); skipn 6 j], data_script [firstn 2 r; skipn 2 r]) [3; 0; 5; 1]) =
    Ok (c11_bcj2_data, None).
Proof.
  split; [reflexivity|]. split; [vm_compute; discriminate|]. split; [vm_compute; reflexivity|].
  split; [eexists; vm_compute; reflexivity|]. vm_compute. reflexivity.
Qed.
