(* Properties/C03.v — interoperation with the reference implementation, XZ and LZIP containers
   (the .lzma and raw LZMA2 clauses are about the payload codecs, decided elsewhere).
   The reference stands behind Format/XzSpec.v: an independent, strict specification of the .xz
   and .lz file formats written from the format documents, itself tied to liblzma by the
   correspondence run of this check (same files - the crate's, liblzma's, damaged ones - through
   liblzma and through the specification: accept/reject and content must agree).
   Only theorem statements, each closed by [exact] of a lemma proved in Format/*Proofs.v. *)
From LzVerif Require Import Base.Bytes Format.XzFormat Format.LzipFormat Format.XzSpec Format.XzSpecExec
  Format.XzHeaderProofs Format.XzProofs Format.LzipProofs Format.XzSoundProofs Format.XzSpecProofs Format.LzipSpecProofs
  Format.ContainerRefutations Format.RoundTripExamples.

(* C03_out (XZ).  Every file the writer returns (legal options, any partition, any data, below
   16 GiB so that the 32-bit Backward Size field can hold the index size) is accepted by the format
   specification, which decodes it to the data written: in particular every Index Record equals the
   block's real Unpadded Size (header + compressed data + check) and Uncompressed Size, the
   Backward Size equals the real Index size, reserved bits are clear, multibyte integers minimal,
   LZMA2 is exactly the last filter, nothing follows the stream.  The specification's block decoder
   [sdec] is assumed to invert the writer's chain (C01 + C11 for the reference semantics). *)
Theorem C03_out_xz :
  forall (penc : Z -> list Z -> list Z) (fenc : fkind -> Z -> list Z -> list Z)
         (sdec : list sfilter -> list Z -> option (list Z * list Z)),
  (forall fs dict dd content tail, Forall filter_ok fs -> dict <= dd ->
     sdec (map spec_filter fs ++ [SLzma2 dd]) (penc dict (chain_enc fenc fs content) ++ tail) = Some (content, tail)) ->
  forall o0 parts f lenient, stream_ok o0 ->
    xz_encode penc fenc xz_fixed o0 parts = Ok f -> zlen f < 2 ^ 34 ->
    xz_spec_decode sdec lenient f = Some (concat parts).
Proof. exact C03_out_xz_thm. Qed.
Print Assumptions C03_out_xz.

(* F5: false on the code before the fix - the index record of every non-empty file omitted the
   block header size: the specification (and liblzma, xz -t) reject the file the crate's own reader
   accepts *)
Theorem C03_out_xz_refuted :
  exists f, xz_write xz_orig w_opts [w_content] [w_payload] = Ok f /\
            xz_decode_c xz_orig false f = Ok (w_content, []) /\
            xz_spec_decode_c true f = None.
Proof. exact xz_unpadded_size_refuted. Qed.
Print Assumptions C03_out_xz_refuted.

(* C03_out (LZIP): the file the writer returns is valid per the lzip specification, which decodes
   it to the data written, with no trailing data.  Of the three hypotheses on the payload codec the proof
   uses the first only (sdec1 inverts penc); the second (pdec computes what sdec1 does) and the third
   (sdec1 returns a suffix of its input) are not used. *)
Theorem C03_out_lzip :
  forall (penc : Z -> list Z -> list Z) (pdec : Z -> list Z -> outcome (list Z * list Z))
         (sdec1 : Z -> list Z -> option (list Z * list Z)),
  (forall d dd x tail, d <= dd -> sdec1 dd (penc d x ++ tail) = Some (x, tail)) ->
  (forall dd src r, sdec1 dd src = Some r -> pdec dd src = Ok r) ->
  (forall dd src x r, sdec1 dd src = Some (x, r) -> suffix r src) ->
  forall o0 parts f,
    bytes_ok (concat parts) = true ->
    (forall members, lz_members_of (lo_member_size (lzw_new o0)) parts = Ok members ->
                     lz_sizes_ok penc (lo_dict (lzw_new o0)) members) ->
    match lo_member_size o0 with Some m => 1 <= m | None => True end ->
    lz_encode penc o0 parts = Ok f ->
    lz_spec_decode sdec1 f = Some (concat parts, []).
Proof. intros penc pdec sdec1 H1 _ _. exact (C03_out_lzip_thm penc sdec1 H1). Qed.
Print Assumptions C03_out_lzip.

(* C03_in (LZIP).  Every byte string the lzip specification accepts - any number of version-1
   members from any encoder, followed by nothing or by trailing data - is accepted by the crate's
   reader with the same data, provided the trailing data is not a proper prefix of the member magic
   at the very end of the input (lzip(1) and the crate call that a truncated member header;
   liblzma ignores it).  Hypotheses: the crate's LZMA decoder decodes what the specification's does,
   and decoding only consumes input (the first hypothesis, that sdec1 inverts penc, is not used by the
   proof). *)
Theorem C03_in_lzip :
  forall (penc : Z -> list Z -> list Z) (pdec : Z -> list Z -> outcome (list Z * list Z))
         (sdec1 : Z -> list Z -> option (list Z * list Z)),
  (forall d dd x tail, d <= dd -> sdec1 dd (penc d x ++ tail) = Some (x, tail)) ->
  (forall dd src r, sdec1 dd src = Some r -> pdec dd src = Ok r) ->
  (forall dd src x r, sdec1 dd src = Some (x, r) -> suffix r src) ->
  forall l d t, bytes_ok l = true ->
    lz_spec_decode sdec1 l = Some (d, t) ->
    (t = [] \/ lz_bytes_eqb (firstn 4 t) (firstn (length (firstn 4 t)) LZIP_MAGIC) = false) ->
    lz_decode pdec lz_fixed l = Ok (d, skipn 4 t).
Proof. intros penc pdec sdec1 _ H2 H3. exact (C03_in_lzip_thm pdec sdec1 H2 H3). Qed.
Print Assumptions C03_in_lzip.

(* C03_in (XZ) is Properties/C03In.v (C03_in_xz, C03_in_xz_single, C03_in_xz_exec,
   C03_in_xz_exec_single): completeness of the reader for every file of the supported feature set
   that the specification accepts (optional block header sizes, multi-block, all filters, all four
   checks, dictionary properties 0-40, concatenated streams).  Beside it, the correspondence run of
   this check: the specification agrees with liblzma on accept/reject and content for every file fed
   (the crate's, liblzma's single-threaded, FullFlush multi-block and multi-threaded encoders with
   size fields in the block headers, presets 0-9/extreme, custom lc/lp/pb/dict/nice/mf/mode/depth,
   delta chains, all checks, damaged variants), and the crate's reader - whose call-by-call model is
   compared on every such file - decodes every file liblzma accepts to the same bytes (oracle). *)

(* Non-vacuity / tie of the specification to concrete bytes: the specification accepts the file the
   repaired writer produces for "hello world" and a two-stream file with stream padding, and
   rejects padding that is not a multiple of four. *)
Example C03_spec_instance :
  xz_spec_decode_c true w_hello = Some w_content /\
  xz_spec_decode_c true (w_hello ++ [0; 0; 0; 0] ++ w_hello) = Some (w_content ++ w_content) /\
  xz_spec_decode_c true (w_hello ++ [0; 0; 0]) = None.
Proof. split; [exact xz_unpadded_size_fixed|]. split; vm_compute; reflexivity. Qed.
