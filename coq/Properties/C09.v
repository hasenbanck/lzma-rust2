(* Properties/C09.v — multi-threaded I/O always terminates and reports worker failures.
   Theorem statements, each closed by [exact] of a lemma proved in Mt/*Proofs.v and Mt/Refuted.v; the
   non-vacuity Examples are proved in place.

   Positive theorems: for the REPAIRED protocol ([Fx c]: close() under the queue mutex, wake-up on
   the worker error path, empty-input guard, finish() guard — repo-patches 10..13), for all worker
   counts, unit functions, source scripts, caller programs and schedules.
   Refutations: for the PINNED code ([orig_cfg]), concrete schedules.

   FULL STATEMENT of the property, for reference: "every call returns after finitely many steps
   under every schedule and for every input; if a worker fails, the source fails or the input ends
   without its terminator, the caller receives an error; success is never reported with part of
   the data missing".  It is the conjunction of C09_mt_no_deadlock (some thread can always move
   while a call is unfinished), C09_mt_measure / C09_mt_terminates (every schedule is finite) and
   C09_mt_complete (the success value is only returned with all units returned, all successful).
   Claimed PARTIAL: termination is "no infinite schedule of the model" (OS-level starvation of a
   runnable thread is outside), the memory model is sequential consistency over the modelled
   operations, panics of the unit function are not modelled. *)
From LzVerif Require Import Base.Bytes Mt.Protocol Mt.ProtocolLemmas Mt.LiveInv Mt.LivenessProofs Mt.MeasureProofs
  Mt.Refuted.
Local Open Scope nat_scope.

(* No reachable state in which the caller has a call in progress (or an operation still to do) is
   stuck: some thread has an enabled step. *)
Theorem C09_mt_no_deadlock : forall (R : Type) (f : nat -> R + Z) c src p (s : state R),
  Fx c -> reachable f c src p s -> busy s = true -> stuck f c s = false.
Proof. exact @mt_no_deadlock. Qed.
Print Assumptions C09_mt_no_deadlock.

(* Every step of every thread strictly decreases [measure c] (Mt/MeasureProofs.v). *)
Theorem C09_mt_measure : forall (R : Type) (f : nat -> R + Z) c src p (s : state R) t s',
  Fx c -> reachable f c src p s -> step f c s t = Some s' -> measure c s' < measure c s.
Proof. exact @mt_measure. Qed.
Print Assumptions C09_mt_measure.

(* ... so every schedule is finite, with an explicit bound. *)
Theorem C09_mt_terminates : forall (R : Type) (f : nat -> R + Z) c src p (s : state R) sched s',
  Fx c -> reachable f c src p s -> run_strict f c s sched = Some s' ->
  length sched + measure c s' <= measure c s.
Proof. exact @mt_terminates. Qed.
Print Assumptions C09_mt_terminates.

(* Worker failures are reported: whenever a call returns the success-end value (reader: Ok(None); writer:
   finish() = Ok), every dispatched unit has been handed out, in order, and every one of them was
   a success of the unit function.  Hence if any dispatched unit fails (corrupt unit, unit without
   its terminator) success is never reported; with the two theorems above the call returns, so it
   returns Err. *)
Theorem C09_mt_complete : forall (R : Type) (f : nat -> R + Z) c src p (s : state R) t s',
  Fx c -> reachable f c src p s -> step f c s t = Some s' -> results s' = results s ++ [RNone] ->
  nr s' = nd s' /\ map inl (out s') = map f (seq 0 (nd s')) /\
  forall q, q < nd s' -> exists r, f q = inl r.
Proof. exact @mt_complete. Qed.
Print Assumptions C09_mt_complete.

(* State::Error is final: after an error was returned to the caller, the source failed or the input
   was empty (the coordinator is in State::Error), the phase never changes again and the
   success-end value is never returned. *)
Theorem C09_mt_error_sticky : forall (R : Type) (f : nat -> R + Z) c src p (s : state R) t s',
  Fx c -> reachable f c src p s -> ph s = PErr -> step f c s t = Some s' ->
  ph s' = PErr /\ results s' <> results s ++ [RNone].
Proof. exact @mt_error_sticky. Qed.
Print Assumptions C09_mt_error_sticky.

(* the pinned code violates the property (F14) *)
(* a worker fails while the coordinator waits in recv(): nothing can move, the call never returns *)
Theorem C09_mt_deadlock_refuted :
  exists sched s, run_strict f_bad0 rd0 (init rd0 [(true, SEnd)] [OpRead]) sched = Some s /\
                  deadlocked f_bad0 rd0 s = true /\ err s = Some E_INVALID_DATA /\ results s = [].
Proof. exact mt_deadlock_refuted. Qed.
Print Assumptions C09_mt_deadlock_refuted.

(* zero-length input *)
Theorem C09_mt_empty_input_refuted :
  exists sched s, run_strict f_ok rd0 (init rd0 [] [OpRead]) sched = Some s /\ deadlocked f_ok rd0 s = true.
Proof. exact mt_empty_input_deadlock. Qed.
Print Assumptions C09_mt_empty_input_refuted.

(* finish() after write() returned a worker error *)
Theorem C09_mt_finish_after_error_refuted :
  exists sched s, run_strict f_bad0 wr0 (init wr0 [] [OpWrite true; OpFinish]) sched = Some s /\
                  deadlocked f_bad0 wr0 s = true /\ results s = [RErr E_INVALID_DATA].
Proof. exact mt_finish_after_error_refuted. Qed.
Print Assumptions C09_mt_finish_after_error_refuted.

(* Non-vacuity: the hypotheses are satisfiable — the repaired reader on the very scenarios that
   deadlock the pinned code runs to completion and returns the error. *)
Example C09_repaired_examples :
  Fx rd1 /\
  (let '(s, maximal) := run_auto f_bad0 rd1 (init rd1 [(true, SEnd)] [OpRead; OpDrop]) true 200 in
   maximal = true /\ results s = [RErr E_INVALID_DATA] /\ all_exited s = true) /\
  (let '(s, maximal) := run_auto f_ok rd1 (init rd1 [] [OpRead; OpDrop]) true 200 in
   maximal = true /\ results s = [RErr E_UNEXPECTED_EOF] /\ all_exited s = true).
Proof. vm_compute. auto 10. Qed.
