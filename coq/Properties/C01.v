(* Properties/C01.v — LZMA/LZMA2 compress then decompress returns exactly the input.
   Theorem statements, each closed by [exact] of a lemma proved elsewhere; the non-vacuity Examples at
   the end are proved in place.

   Layers (DESIGN.md §4.1-4.3, §5 C01):
     range coder            C01_rc_roundtrip, C01_prob_update_twins
     symbol coding          C01_lit / C01_match / C01_rep / C01_len round trips, C01_dist_slot_spec
     LZ window              C01_window_decode_is_spec (the cyclic buffer with limits and pending
                            copies computes the specification decoder over a plain history list)
     composition            C01_chunk_roundtrip: symbols -> decisions -> range-coded bytes ->
                            LZMADecoder::decode over the window -> the described bytes, ending
                            exactly on the last byte with code = 0
   The composition here is for one run of symbols decoded by one decode call (any window contents,
   any probabilities, any trailing bytes); C01Lzma1.v and C01Lzma2.v lift it through the read loops
   of LZMAReader / LZMA2Reader (several calls, buffer wrap, chunk headers) for every history of
   destination sizes.  The parser and match finders are validated per run: [enc_syms] takes the
   symbol sequence as input and rejects it unless it describes the data. *)
From LzVerif Require Import Base.Bytes Codec.Store Codec.Range Codec.ProbProofs Codec.LzWindow Codec.LzmaDec
  Codec.LzmaEnc Codec.LzmaAbs Codec.LzWindowProofs Codec.ProgProofs Codec.LzmaAbsProofs
  Codec.RangeEncProofs Codec.RangeProofs Codec.LzmaSymProofs Codec.LzmaRoundtrip Codec.LzmaChunkProofs.

Theorem C01_prob_update_twins : forall p bit,
  prob_ok p = true -> (bit = 0 \/ bit = 1) ->
  prob_update_enc p bit = prob_update_dec p bit /\ prob_ok (prob_update_enc p bit) = true.
Proof. exact prob_update_twins. Qed.
Print Assumptions C01_prob_update_twins.

(* For ANY decision program whose questions are answered by a recorded list of decisions, running
   it against the range decoder over what the range encoder wrote for those decisions (followed by
   arbitrary bytes) gives the same result and the same adapted tables, consumes exactly the
   encoder's bytes and ends with code = 0.  (The bound on the number of coded bits excludes the
   u32 overflow of the encoder's pending-byte counter after 4 GiB of 0xFF bytes.) *)
Theorem C01_rc_roundtrip : forall (A : Type) (p : prog A) (evs : list event) (a : A) (tail : list Z) (t0 : probs),
  probs_ok t0 -> forallb RangeEncProofs.ev_ok evs = true ->
  events_bits evs <= RC_MAX_BITS ->
  run_trace p evs = Some (Ok a, []) ->
  let '(e, t1) := renc_events renc_init t0 evs in
  let bytes := renc_bytes (renc_finish e) in
  exists d0 d1, rdec_init (bytes ++ tail) = Ok d0 /\ run_rc p d0 t0 = Ok (a, d1, t1) /\ probs_ok t1 /\
    rd_in (rdec_normalize d1) = tail /\ rd_code (rdec_normalize d1) = 0 /\ rd_over (rdec_normalize d1) = 0.
Proof. exact rc_roundtrip. Qed.
Print Assumptions C01_rc_roundtrip.

Theorem C01_lit_roundtrip : forall lbase mb b rest,
  0 <= b < 256 -> (mb = None \/ exists m, mb = Some m /\ 0 <= m < 256) ->
  run_trace (lit_prog lbase mb) (lit_events lbase mb b ++ rest) = Some (Ok (256 + b), rest).
Proof. exact lit_roundtrip_strong. Qed.
Print Assumptions C01_lit_roundtrip.

Theorem C01_len_roundtrip : forall base len ps rest, 2 <= len <= 273 -> 0 <= ps < 16 ->
  exists evs, enc_len base len ps = Ok evs /\ run_trace (decode_len base ps) (evs ++ rest) = Some (Ok len, rest).
Proof. exact len_roundtrip. Qed.
Print Assumptions C01_len_roundtrip.

Theorem C01_dist_slot_spec : forall dist, 0 <= dist < 2 ^ 32 ->
  0 <= get_dist_slot dist < 64 /\
  (dist < 4 -> get_dist_slot dist = dist) /\
  (4 <= dist ->
     1 <= get_dist_slot dist / 2 - 1 <= 30 /\
     (2 + get_dist_slot dist mod 2) * 2 ^ (get_dist_slot dist / 2 - 1) <= dist
       < (2 + get_dist_slot dist mod 2 + 1) * 2 ^ (get_dist_slot dist / 2 - 1)).
Proof. exact dist_slot_spec. Qed.
Print Assumptions C01_dist_slot_spec.

Theorem C01_match_roundtrip : forall c ps dist len evs c' rest,
  0 <= dist < 2 ^ 32 -> 2 <= len <= 273 -> 0 <= ps < 16 ->
  enc_match_events c ps dist len = Ok (evs, c') ->
  run_trace (decode_match c ps) (evs ++ rest) = Some (Ok (c', len), rest).
Proof. exact match_roundtrip. Qed.
Print Assumptions C01_match_roundtrip.

Theorem C01_rep_roundtrip : forall c ps idx len evs c' rest,
  enc_rep_events c ps idx len = Ok (evs, c') ->
  run_trace (decode_rep_match c ps) (evs ++ rest) = Some (Ok (c', len), rest).
Proof. exact rep_roundtrip_of_ok. Qed.
Print Assumptions C01_rep_roundtrip.

(* LZMADecoder::decode over the cyclic dictionary buffer - resuming a pending copy, decoding
   symbols while there is room below the limit, leaving the rest of a match pending - computes,
   for EVERY limit, exactly the byte-granular specification decoder over a plain history list. *)
Theorem C01_window_decode_is_spec : forall c w hist d t n,
  Rel w hist -> coder_ok c (w_full w) -> w_pos w <= w_limit w ->
  Z.of_nat n = w_limit w - w_pos w ->
  (0 < w_pending_len w -> 0 <= w_pending_dist w < w_full w) ->
  match run_rc (aproduce n (mkAstate c hist (w_size w) (w_pending_len w) (w_pending_dist w))) d t with
  | Ok (s2, st2, d2, t2) =>
      exists w1, lzma_decode c w d t =
                 Ok (a_coder s2, w1, st2, match st2 with Ok _ => rdec_normalize d2 | _ => d2 end, t2) /\
                 loop_rel w hist (a_coder s2, w1, st2) (s2, st2)
  | Err e => lzma_decode c w d t = Err e
  | Panic e => lzma_decode c w d t = Panic e
  | Fuel => lzma_decode c w d t = Fuel
  end.
Proof. exact lzma_decode_abs. Qed.
Print Assumptions C01_window_decode_is_spec.

(* Any symbol sequence the validator accepts for the data ([enc_syms] = Ok), coded with any
   probability tables, followed by any bytes, is decoded by one call of LZMADecoder::decode over
   any window holding the same history into exactly the bytes the symbols describe ([hist_rel h'
   hist'] says the new history is the data up to the new position); the coder, the adapted tables
   and the range decoder end where the encoder ended: nothing of [tail] is consumed, code = 0. *)
Theorem C01_chunk_roundtrip :
  forall c h hist w syms evs c' h' t0 tail n,
  no_end syms -> hist_rel h hist -> data_ok h -> reps_nonneg c ->
  h_dict h <= 2147483648 -> (h_dict h <= w_size w \/ h_total h - h_base h <= w_size w) ->
  enc_syms c h syms = Ok (evs, c', h') ->
  probs_ok t0 -> events_bits evs <= RC_MAX_BITS ->
  Rel w hist -> coder_ok c (w_full w) -> w_pending_len w = 0 ->
  Z.of_nat n = h_pos h' - h_pos h -> w_limit w = w_pos w + Z.of_nat n ->
  let bytes := renc_bytes (renc_finish (fst (renc_events renc_init t0 evs))) in
  exists d0 w1 d1 hist',
    rdec_init (bytes ++ tail) = Ok d0 /\
    lzma_decode c w d0 t0 = Ok (c', w1, Ok tt, d1, snd (renc_events renc_init t0 evs)) /\
    Rel w1 hist' /\ hist_rel h' hist' /\ zlen hist' = zlen hist + Z.of_nat n /\
    w_pending_len w1 = 0 /\ w_start w1 = w_start w /\ w_pos w1 = w_pos w + Z.of_nat n /\
    rd_in d1 = tail /\ rd_code d1 = 0 /\ rd_over d1 = 0.
Proof. exact chunk_roundtrip. Qed.
Print Assumptions C01_chunk_roundtrip.

(* Non-vacuity: a concrete instance of every hypothesis of C01_chunk_roundtrip
   (data "abababa" parsed as two literals and a match of length 5 at distance 2). *)
Example C01_chunk_example :
  let h := LzmaWriters.ehist_new 4096 [] [97; 98; 97; 98; 97; 98; 97] in
  let c := coder_new 3 0 2 in
  let w := lzwin_set_limit (lzwin_new 4096 None) 7 in
  exists evs c' h',
    enc_syms c h [SLit 97; SLit 98; SMatch 1 5] = Ok (evs, c', h') /\
    no_end [SLit 97; SLit 98; SMatch 1 5] /\ hist_rel h [] /\ data_ok h /\ reps_nonneg c /\
    h_dict h <= 2147483648 /\ (h_dict h <= w_size w \/ h_total h - h_base h <= w_size w) /\ events_bits evs <= RC_MAX_BITS /\
    Rel w [] /\ coder_ok c (w_full w) /\ w_pending_len w = 0 /\
    Z.of_nat 7 = h_pos h' - h_pos h /\ w_limit w = w_pos w + Z.of_nat 7.
Proof.
  cbv zeta.
  destruct (enc_syms (coder_new 3 0 2) (LzmaWriters.ehist_new 4096 [] [97; 98; 97; 98; 97; 98; 97])
              [SLit 97; SLit 98; SMatch 1 5]) as [[[evs c'] h']|e|e|] eqn:E;
    try (vm_compute in E; discriminate).
  exists evs, c', h'. split; [reflexivity|].
  assert (Hpos : h_pos h' = 7 /\ events_bits evs <= RC_MAX_BITS).
  { vm_compute in E. inversion E; subst. vm_compute. split; [reflexivity | discriminate]. }
  destruct Hpos as (Hpos & Hbits).
  split; [intros s [<-|[<-|[<-|[]]]]; discriminate|].
  split; [split; [reflexivity|]; split; [vm_compute; discriminate|]; intros d Hd; unfold zlen in Hd; cbn [length Z.of_nat] in Hd; lia|].
  split; [apply data_ok_new; reflexivity|].
  split; [unfold reps_nonneg, coder_new; cbn; lia|].
  split; [vm_compute; discriminate|]. split; [left; vm_compute; discriminate|]. split; [exact Hbits|].
  destruct (set_limit_rel (lzwin_new 4096 None) [] 7 (lzwin_new_rel 4096 ltac:(reflexivity) ltac:(reflexivity)) ltac:(discriminate)) as (HR & _).
  split; [exact HR|].
  split; [unfold coder_ok, params_ok, reps_nonneg, coder_new; cbn [c_lc c_lp c_pb c_state c_rep0 c_rep1 c_rep2 c_rep3]; repeat split; try lia; intros X; vm_compute in X; discriminate|].
  split; [reflexivity|]. split; [rewrite Hpos; reflexivity | reflexivity].
Qed.
