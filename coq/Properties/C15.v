(* Properties/C15.v — the unsafe fast paths stay inside their buffers: index arithmetic only
   (memory safety of raw pointers, SIMD loads and inline assembly is a run-time fact; what is
   proved is that every index handed to an unchecked access is in range under the stated
   precondition).  Preconditions owned by the match finders (distance <= read_pos + current_len,
   i.e. delta < cyclic_size <= retained history) are ASSUMED here and asserted at run time by the
   shadow assertions of hook H6.  Only theorem statements. *)
From LzVerif Require Import Base.Bytes Codec.Store Codec.Range
  Arith.Normalize Arith.DirectBitsAsm Arith.DirectBitsAsmProofs
  Arith.UnsafeBounds Arith.UnsafeBoundsProofs.

(* extend_match (src/lz/mod.rs), get_unchecked twin [opt = true] and safe twin [opt = false] *)
Theorem C15_extend_match_bounds : forall checked opt len read_pos current_len distance limit,
  0 <= len < 2 ^ 63 ->
  0 <= read_pos -> 0 <= current_len <= limit -> limit <= I32_MAX ->
  read_pos + current_len <= I32_MAX -> read_pos + current_len <= len ->
  0 <= distance <= read_pos + current_len ->
  (opt = false -> read_pos + limit <= len) ->
  let start1 := read_pos + current_len in
  let ext := Z.min (limit - current_len) (len - start1) in
  extend_match_ranges checked opt len read_pos current_len distance limit
    = Ok (start1, start1 + ext, start1 - distance, start1 - distance + ext) /\
  range_in len start1 (start1 + ext) = true /\
  range_in len (start1 - distance) (start1 - distance + ext) = true.
Proof. exact extend_match_bounds. Qed.
Print Assumptions C15_extend_match_bounds.

(* distance > start1: debug builds panic on the usize subtraction; release builds wrap - the safe
   twin then panics on the slice index, the unsafe twin reads out of bounds.  This is why the
   precondition is asserted by H6 and not only assumed. *)
Theorem C15_extend_match_far_distance : forall opt buf read_pos current_len distance limit,
  zlen buf < 2 ^ 63 ->
  0 <= read_pos -> 0 <= current_len <= limit -> limit <= I32_MAX ->
  read_pos + current_len <= I32_MAX -> read_pos + current_len <= zlen buf ->
  read_pos + current_len < distance <= I32_MAX ->
  extend_match true opt buf read_pos current_len distance limit = Panic PANIC_ARITH /\
  extend_match false opt buf read_pos current_len distance limit
    = Panic (if opt then UB_OOB_ACCESS else PANIC_SLICE_INDEX).
Proof. exact extend_match_far_distance. Qed.
Print Assumptions C15_extend_match_far_distance.

(* get_match_len_fast_reject (src/lz/lz_encoder.rs): both clamped u16 reads, for every usize
   read_pos and every i32 match_dist *)
Theorem C15_fast_reject_bounds : forall checked len read_pos match_dist c0 c1,
  2 <= len -> 0 <= read_pos ->
  fast_reject_offsets checked len read_pos match_dist = Ok (c0, c1) ->
  0 <= c0 /\ c0 + 2 <= len /\ 0 <= c1 /\ c1 + 2 <= len.
Proof. exact fast_reject_bounds. Qed.
Print Assumptions C15_fast_reject_bounds.

Theorem C15_fast_reject_far_distance : forall len read_pos match_dist,
  2 <= len < 2 ^ 63 -> 0 <= read_pos < match_dist -> match_dist <= I32_MAX ->
  fast_reject_offsets true len read_pos match_dist = Panic PANIC_ARITH /\
  fast_reject_offsets false len read_pos match_dist = Ok (Z.min read_pos (len - 2), len - 2).
Proof. exact fast_reject_far_distance. Qed.
Print Assumptions C15_fast_reject_far_distance.

(* the cmp/cmovg clamp of decode_direct_bits_x86_64 (src/range_dec.rs): limit = len - 1 *)
Theorem C15_asm_clamp_bounds : forall len pos,
  1 <= len < P2_63 -> 0 <= pos < P2_63 -> 0 <= asm_clamp (len - 1) pos <= len - 1.
Proof. exact asm_clamp_bounds_lemma. Qed.
Print Assumptions C15_asm_clamp_bounds.

(* cmovg is a signed compare: the bound on pos is necessary *)
Theorem C15_asm_clamp_signed_hole :
  exists len pos, 1 <= len < P2_63 /\ P2_63 <= pos < P2_64 /\ asm_clamp (len - 1) pos = pos.
Proof. exact asm_clamp_signed_hole. Qed.
Print Assumptions C15_asm_clamp_signed_hole.

(* the whole assembly loop, in EVERY decoder state (any range/code, pos inside, at or beyond the
   end of the chunk buffer, any u32 count): every byte load is inside the buffer and the stored
   position is inside [0, len] *)
Theorem C15_asm_loads_in_bounds : forall buf pos range code count,
  1 <= zlen buf < 2 ^ 62 -> 0 <= pos < 2 ^ 62 -> 0 <= count < 2 ^ 32 ->
  exists v r c p, direct_bits_asm buf pos range code count = Ok (v, r, c, p) /\ 0 <= p <= zlen buf.
Proof. exact asm_loads_in_bounds. Qed.
Print Assumptions C15_asm_loads_in_bounds.

(* AlignedMemoryI32::new (src/lz/aligned_memory.rs) *)
Theorem C15_aligned_alloc_ok : forall checked min_length,
  1 <= min_length < 2 ^ 60 ->
  exists required target_length,
    aligned_alloc checked min_length = Ok (required, target_length) /\
    required mod 64 = 0 /\ 64 <= required <= ISIZE_MAX - 63 /\
    4 * min_length <= required < 4 * min_length + 64 /\
    target_length * 4 = required /\ min_length <= target_length.
Proof. exact aligned_alloc_ok. Qed.
Print Assumptions C15_aligned_alloc_ok.

(* a match touching both ends of a 9-byte buffer: candidate at index 0, extension up to the last byte *)
Example C15_extend_match_bounds_example :
  extend_match_ranges false true 9 3 0 3 6 = Ok (3, 9, 0, 6) /\
  range_in 9 3 9 = true /\ range_in 9 0 6 = true.
Proof. vm_compute. repeat split; reflexivity. Qed.

Example C15_fast_reject_example :
  fast_reject_offsets false 10 9 3 = Ok (8, 6) /\ fast_reject_offsets true 10 2 5 = Panic PANIC_ARITH.
Proof. vm_compute. split; reflexivity. Qed.

(* a run of 5 bits that starts beyond the end of a 2-byte buffer: loads clamped to index 1 *)
Example C15_asm_example :
  direct_bits_asm [7; 9] 4 65536 1 5 = Ok (0, 134217728, 67849, 2).
Proof. vm_compute. reflexivity. Qed.

Example C15_aligned_alloc_example :
  aligned_alloc true 4097 = Ok (16448, 4112).
Proof. vm_compute. reflexivity. Qed.
