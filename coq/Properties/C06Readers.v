(* Properties/C06Readers.v — C06 for the reader layer: the models of LZMAReader (Codec/Lzma1.v) and
   LZMA2Reader (Codec/Lzma2Dec.v) are TOTAL on arbitrary input, and with them the executable
   whole-file models of XZReader / LZIPReader with their concrete payload decoders.
   "Total": the result is Ok or Err - never Panic (no overflow, no index out of range, no unwrap on
   None), never Fuel (every loop ends within the budget the model gives it, and a whole read
   history ends within a number of read() calls that is a stated function of the input length and
   the requested sizes: [ra_fuel]).  The bytes returned are bounded by a constant times the input
   length (LZMA: 8000, LZMA2: 699051 = 2^21/3 per input byte).
   Only theorem statements, closed by [exact] of lemmas proved in Codec/TotalCoreProofs.v,
   Codec/Total1Proofs.v, Codec/Total2Proofs.v and Format/TotalClosedProofs.v, and Examples that
   evaluate the statements on hostile inputs (random bytes, a distance outside the dictionary,
   truncated streams, reserved control bytes, invalid properties, border dictionary sizes).

   The invariants ([inv1] / [inv2], defined in the proof files): the window represents a byte
   history (Rel), the coder state is in range and its rep0 inside the dictionary when it is used,
   the probability tables are valid, a pending copy lies inside the dictionary, the range register
   is 32-bit, the window is flushed (start = pos); for LZMAReader nothing was fetched past the end
   of the source; for LZMA2Reader the source is a byte string, a pending copy exists only inside a
   chunk, and an LZMA chunk is only entered with a coder (need_props = false).
   [rinv1 s] = end of stream reached or [inv1 s]; [rinv2 s] = no sticky error, source bytes, and
   (end reached or [inv2 s]).  After an error lzma1_read_all stops; lzma2_read_all records it
   (lzma2_set_error) and every later read returns it (C05: lzma2_error_sticky).

   Not theorems: the BCJ / BCJ2 readers (the executable XZ model answers Err for chains with
   BCJ filters), the allocation bound "dictionary + O(input)" of the real buffers, stack depth. *)
From LzVerif Require Import Base.Bytes Codec.Store Codec.Range Codec.ProbProofs Codec.LzWindow Codec.LzmaDec
  Codec.LzmaAbs Codec.LzWindowProofs Codec.ProgProofs Codec.LzmaAbsProofs Codec.LzmaTotalProofs
  Codec.Lzma1 Codec.Lzma2Dec Format.XzFormat Format.LzipFormat Format.XzProofs Format.ContainerRefutations
  Format.TotalProofs Codec.TotalCoreProofs Codec.Total1Proofs Codec.Total2Proofs Format.TotalClosedProofs
  Format.TotalExamplesProofs.

(* The decoding core, with everything a reader needs afterwards: from a consistent state and on
   ANY input LZMADecoder::decode returns; the window still represents a byte history, tables and
   registers stay valid, a pending copy stays inside the dictionary, on status Ok the window is
   filled exactly up to the limit, and - when no byte was fetched past the end of the source -
   bytes produced + bytes pending cost at least 1/20 bit each of the range decoder's potential
   (mu = 400 * bytes left + bits the current range can still take). *)
Theorem C06_decode_post : forall c w hist d t,
  Rel w hist -> hist_bytes hist -> coder_ok c (w_full w) -> w_pos w <= w_limit w ->
  (0 < w_pending_len w -> 0 <= w_pending_dist w < w_full w) ->
  probs_ok t -> rdec_wf d ->
  exists c1 w1 st d1 t1 hist1,
    lzma_decode c w d t = Ok (c1, w1, st, d1, t1) /\
    Rel w1 hist1 /\ hist_bytes hist1 /\ probs_ok t1 /\ rdec_wf d1 /\
    w_size w1 = w_size w /\ w_limit w1 = w_limit w /\ w_start w1 = w_start w /\
    w_pos w <= w_pos w1 <= w_limit w /\
    (0 < w_pending_len w1 -> 0 <= w_pending_dist w1 < w_full w1) /\
    ((st = Ok tt /\ coder_ok c1 (w_full w1) /\ w_pos w1 = w_limit w) \/ exists e, st = Err e) /\
    (length (rd_in d1) <= length (rd_in d))%nat /\ rd_over d <= rd_over d1 /\
    (0 <= rd_over d -> rd_over d1 = 0 ->
       20 * mu d1 + w_pending_len w1 + (w_pos w1 - w_pos w) <= 20 * mu d + w_pending_len w).
Proof. exact lzma_decode_post. Qed.
Print Assumptions C06_decode_post.

(* Bits decoded are paid for by source bytes: a program that asked for j - k bits and did not run
   past the end of the source lowered the potential by at least j - k. *)
Theorem C06_bits_cost_input : forall (A : Type) (Q : A -> Z -> Prop) (p : prog A) k,
  pbits Q p k -> forall d t a d' t', probs_ok t -> rdec_wf d -> 0 <= rd_over d ->
  run_rc p d t = Ok (a, d', t') -> rd_over d' = 0 ->
  exists j, Q a j /\ mu d' + (j - k) <= mu d.
Proof. exact @run_rc_pbits. Qed.
Print Assumptions C06_bits_cost_input.

(* construction (construct2: raw parameters; new_mem_limit: the 13-byte .lzma header) returns Ok or
   Err for every parameter vector of the Rust types, and establishes the invariant *)
Theorem C06_lzma1_construct_total : forall input uncomp lc lp pb dict preset,
  0 <= lc -> 0 <= lp -> 0 <= pb -> 0 <= uncomp -> preset_bytes preset ->
  match lzma1_construct2 input uncomp lc lp pb dict preset with
  | Ok s0 => inv1 s0 /\ l_end_reached s0 = false /\ pot1 s0 <= 8000 * zlen input /\
             (length (rd_in (l_rc s0)) <= length input)%nat
  | Err _ => True
  | _ => False
  end.
Proof. exact construct2_inv. Qed.
Print Assumptions C06_lzma1_construct_total.

Theorem C06_lzma1_header_total : forall input mem preset, bytes_ok input = true -> preset_bytes preset ->
  match lzma1_new_mem_limit input mem preset with
  | Ok s0 => inv1 s0 /\ l_end_reached s0 = false /\ pot1 s0 <= 8000 * zlen input /\
             (length (rd_in (l_rc s0)) <= length input)%nat
  | Err _ => True
  | _ => False
  end.
Proof. exact new_mem_limit_inv. Qed.
Print Assumptions C06_lzma1_header_total.

(* every read(): Ok or Err (the model's own budget of buflen + 2 loop iterations suffices), the
   invariant holds again, at most buflen bytes, the source only shrinks, and a call that neither
   fails nor reaches the end fills the buffer *)
Theorem C06_lzma1_read_total : forall s n, rinv1 s ->
  (exists e, lzma1_read s n = Err e) \/
  exists out s1, lzma1_read s n = Ok (out, s1) /\ rinv1 s1 /\
    zlen out <= Z.max 0 n /\ zlen out + pot1 s1 <= pot1 s /\
    (length (rd_in (l_rc s1)) <= length (rd_in (l_rc s)))%nat /\
    (l_end_reached s1 = false -> 0 < n -> zlen out = n).
Proof. exact read1_total. Qed.
Print Assumptions C06_lzma1_read_total.

(* a whole read history, any destination sizes (zero and negative sizes are no-ops; the cycled list
   must contain a positive size or be empty = 4096): ends with Ok (end of stream) or Err within
   ra_fuel sizes all (8000 * input length) calls; at most 8000 bytes per input byte *)
Theorem C06_lzma1_raw_total : forall input uncomp lc lp pb dict preset sizes all fuel,
  0 <= lc -> 0 <= lp -> 0 <= pb -> 0 <= uncomp -> preset_bytes preset -> sizes_ok all ->
  (ra_fuel sizes all (8000 * zlen input) <= fuel)%nat ->
  match lzma1_construct2 input uncomp lc lp pb dict preset with
  | Ok s0 => total1 (lzma1_read_all fuel s0 sizes all []) (8000 * zlen input)
  | Err _ => True
  | _ => False
  end.
Proof. exact lzma1_raw_total. Qed.
Print Assumptions C06_lzma1_raw_total.

(* new_with_props: any properties byte, any dict_size *)
Theorem C06_lzma1_props_total : forall input uncomp props dict preset sizes all fuel,
  0 <= props -> 0 <= uncomp -> preset_bytes preset -> sizes_ok all ->
  (ra_fuel sizes all (8000 * zlen input) <= fuel)%nat ->
  match lzma1_construct1 input uncomp props dict preset with
  | Ok s0 => total1 (lzma1_read_all fuel s0 sizes all []) (8000 * zlen input)
  | Err _ => True
  | _ => False
  end.
Proof. exact lzma1_props_total. Qed.
Print Assumptions C06_lzma1_props_total.

Theorem C06_lzma1_hdr_total : forall input mem preset sizes all fuel,
  bytes_ok input = true -> preset_bytes preset -> sizes_ok all ->
  (ra_fuel sizes all (8000 * zlen input) <= fuel)%nat ->
  match lzma1_new_mem_limit input mem preset with
  | Ok s0 => total1 (lzma1_read_all fuel s0 sizes all []) (8000 * zlen input)
  | Err _ => True
  | _ => False
  end.
Proof. exact lzma1_hdr_total. Qed.
Print Assumptions C06_lzma1_hdr_total.

(* the hypothesis [sizes_ok] is needed, and is about the driver of the read history, not about the
   reader: a history of zero-size buffers only never reaches a call that could report the end *)
Theorem C06_zero_sizes_need_fuel : forall fuel s acc, lzma1_read_all fuel s [0] [0] acc = Fuel.
Proof. exact read_all_zero_sizes_fuel. Qed.
Print Assumptions C06_zero_sizes_need_fuel.

(* LZMA2Reader::new never fails (any dict_size: clamped), and establishes the invariant *)
Theorem C06_lzma2_new_total : forall input dict preset, bytes_ok input = true -> preset_bytes preset ->
  exists s0, lzma2_new input dict preset = Ok s0 /\ rinv2 s0 /\ inv2 s0 /\ m_end_reached s0 = false /\
             m_in s0 = input /\ P2 s0 = 2097152 * zlen input.
Proof. exact lzma2_new_inv. Qed.
Print Assumptions C06_lzma2_new_total.

(* the chunk header: any control byte, sizes, properties byte *)
Theorem C06_lzma2_header_total : forall s, inv2 s -> m_uncompressed_size s = 0 ->
  (exists e, lzma2_chunk_header s = Err e) \/
  exists s1, lzma2_chunk_header s = Ok s1 /\ m_error s1 = m_error s /\
    (length (m_in s1) <= length (m_in s))%nat /\
    ((m_end_reached s1 = true /\ P2 s1 <= P2 s /\ 0 <= P2 s1 /\ bytes_ok (m_in s1) = true) \/
     (m_end_reached s1 = false /\ inv2 s1 /\ 0 < m_uncompressed_size s1 /\ P2 s1 <= P2 s /\
      w_size (m_win s1) = w_size (m_win s) /\
      (w_pos (m_win s1) = w_size (m_win s1) -> w_pos (m_win s) = w_size (m_win s)))).
Proof. exact header2_total. Qed.
Print Assumptions C06_lzma2_header_total.

(* every read(): Ok or Err within the model's budget of 2 * buflen + 4 loop iterations *)
Theorem C06_lzma2_read_total : forall s n, rinv2 s ->
  (exists e, lzma2_read s n = Err e) \/
  exists out s1, lzma2_read s n = Ok (out, s1) /\ rinv2 s1 /\
    zlen out <= Z.max 0 n /\ zlen out + pot2 s1 <= pot2 s /\
    (length (m_in s1) <= length (m_in s))%nat /\
    (m_end_reached s1 = false -> 0 < n -> zlen out = n).
Proof. exact read2_total. Qed.
Print Assumptions C06_lzma2_read_total.

(* a whole read history over ANY byte string: ends (status 0 = end of stream, otherwise the error
   kind) within ra_fuel sizes all (699051 * input length) calls *)
Theorem C06_lzma2_total : forall input dict preset sizes all fuel,
  bytes_ok input = true -> preset_bytes preset -> sizes_ok all ->
  (ra_fuel sizes all (699051 * zlen input) <= fuel)%nat ->
  exists s0, lzma2_new input dict preset = Ok s0 /\
    exists out st s1, lzma2_read_all fuel s0 sizes all [] = Ok (out, st, s1) /\ zlen out <= 699051 * zlen input.
Proof. exact lzma2_total. Qed.
Print Assumptions C06_lzma2_total.

(* the hypothesis of C06_lzip_decode_total holds for LZMAReader read in 4096-byte calls with the
   model's budget of 64 + 16 * (source length) calls - on any list of integers *)
Theorem C06_lzip_payload_dec_shr : forall d s, shrk 0 s (lzip_payload_dec d s).
Proof. exact lzip_payload_dec_shr. Qed.
Print Assumptions C06_lzip_payload_dec_shr.

(* any larger budget of read() calls does as well *)
Theorem C06_lzip_payload_dec_n_shr : forall calls d s, (64 + 16 * length s <= calls)%nat ->
  shrk 0 s (lzip_payload_dec_n calls d s).
Proof. exact lzip_payload_dec_n_shr. Qed.
Print Assumptions C06_lzip_payload_dec_n_shr.

Theorem C06_lzip_decode_c_total : forall fx f, total (lz_decode_c fx f).
Proof. exact lz_decode_c_total. Qed.
Print Assumptions C06_lzip_decode_c_total.

(* LZMA2Reader read in 4096-byte calls with the model's budget of 2 + 171 * (source length) calls,
   on every byte string; the unread rest is a byte string no longer than the source *)
Theorem C06_lzma2_payload_dec_shrb : forall d s, bytes_ok s = true -> shrkb s (lzma2_payload_dec d s).
Proof. exact lzma2_payload_dec_shrb. Qed.
Print Assumptions C06_lzma2_payload_dec_shrb.

Theorem C06_lzma2_payload_dec_n_shrb : forall calls d s, bytes_ok s = true -> (2 + 171 * length s <= calls)%nat ->
  shrkb s (lzma2_payload_dec_n calls d s).
Proof. exact lzma2_payload_dec_n_shrb. Qed.
Print Assumptions C06_lzma2_payload_dec_n_shrb.

(* XZReader (stream / block / index / footer / padding parsing, Delta readers, LZMA2Reader) on
   every byte string; fx11: the F11 repair, cf. C06_xz_index_alloc_refuted *)
Theorem C06_xz_decode_c_total : forall fx multi f, fx11 fx = true -> bytes_ok f = true -> total (xz_decode_c fx multi f).
Proof. exact xz_decode_c_total. Qed.
Print Assumptions C06_xz_decode_c_total.

(* random bytes, unknown / declared size; a distance outside the dictionary; a truncated stream; a
   preset dictionary with border parameters (lc=8, lp=4, pb=4, dict=0) and a zero-size read first *)
Example C06_lzma1_hostile_evaluated :
  show1 (lzma1_construct2 rnd U64_MAX 3 0 2 4096 None) 60 [7; 0; 3] = Err E_OTHER /\
  show1 (lzma1_construct2 rnd 20 3 0 2 4096 None) 60 [7; 0; 3] = Err E_OTHER /\
  show1 (lzma1_construct2 ones U64_MAX 3 0 2 4096 None) 60 [7; 0; 3] = Err E_OTHER /\
  show1 (lzma1_construct2 zeros5 U64_MAX 3 0 2 4096 None) 60 [7; 0; 3] = Err E_UNEXPECTED_EOF /\
  show1 (lzma1_construct2 zeros5 3 8 4 4 0 (Some [1; 2; 3])) 60 [0; 2] = Err E_UNEXPECTED_EOF /\
  show1 (lzma1_construct2 rnd U64_MAX 9 0 2 4096 None) 60 [7] = Err (100 + E_INVALID_INPUT) /\
  show1 (lzma1_construct2 rnd U64_MAX 3 0 2 4294967295 None) 60 [7] = Err (100 + E_INVALID_INPUT) /\
  show1 (lzma1_construct1 ones U64_MAX 224 0 None) 60 [7; 0; 3] = Err E_OTHER /\
  show1 (lzma1_construct1 ones U64_MAX 225 0 None) 60 [7; 0; 3] = Err (100 + E_INVALID_INPUT).
Proof. vm_compute. repeat split; reflexivity. Qed.

(* the .lzma header: random stream behind a valid header; props = 225; dict = 0xFFFFFFFF;
   dict = 0xFFFFFFF0 with a small declared size (the buffer shrinks) and with a preset (it does not) *)
Example C06_lzma1_header_hostile_evaluated :
  show1 (lzma1_new_mem_limit ([93; 0; 0; 16; 0; 255; 255; 255; 255; 255; 255; 255; 255] ++ rnd) 100000 None) 60 [7; 0; 3] = Err E_OTHER /\
  show1 (lzma1_new_mem_limit ([225; 0; 0; 16; 0; 255; 255; 255; 255; 255; 255; 255; 255] ++ rnd) 100000 None) 60 [7; 0; 3] = Err (100 + E_INVALID_INPUT) /\
  show1 (lzma1_new_mem_limit ([93; 255; 255; 255; 255; 5; 0; 0; 0; 0; 0; 0; 0] ++ rnd) 4294967295 None) 60 [7; 0; 3] = Err (100 + E_INVALID_INPUT) /\
  show1 (lzma1_new_mem_limit ([93; 240; 255; 255; 255; 5; 0; 0; 0; 0; 0; 0; 0] ++ rnd) 4294967295 None) 60 [7; 0; 3] = Err E_OTHER /\
  show1 (lzma1_new_mem_limit ([93; 240; 255; 255; 255; 5; 0; 0; 0; 0; 0; 0; 0] ++ rnd) 4294967295 (Some [1; 2; 3])) 60 [7; 0; 3] = Err E_INVALID_DATA /\
  show1 (lzma1_new_mem_limit ([93; 0; 0; 16; 0; 255; 255; 255; 255; 255; 255; 255; 255] ++ rnd) 10 None) 60 [7; 0; 3] = Err (100 + E_OUT_OF_MEMORY) /\
  show1 (lzma1_new_mem_limit [93; 0; 0; 16] 100000 None) 60 [7] = Err (100 + E_UNEXPECTED_EOF).
Proof. vm_compute. repeat split; reflexivity. Qed.

(* the theorems apply to these inputs (their hypotheses hold) *)
Example C06_lzma1_raw_instance : forall fuel, (ra_fuel [7; 0; 3]%Z [7; 0; 3]%Z (8000 * zlen rnd) <= fuel)%nat ->
  match lzma1_construct2 rnd 20 3 0 2 4096 None with
  | Ok s0 => total1 (lzma1_read_all fuel s0 [7; 0; 3] [7; 0; 3] []) (8000 * zlen rnd)
  | Err _ => True
  | _ => False
  end.
Proof.
  intros fuel Hf. apply C06_lzma1_raw_total; [lia | lia | lia | lia | exact I | exact sizes_703 | exact Hf].
Qed.

Example C06_lzma1_hdr_instance : forall fuel,
  let input := [93; 240; 255; 255; 255; 5; 0; 0; 0; 0; 0; 0; 0] ++ rnd in
  (ra_fuel [7; 0; 3]%Z [7; 0; 3]%Z (8000 * zlen input) <= fuel)%nat ->
  match lzma1_new_mem_limit input 4294967295 (Some [1; 2; 3]) with
  | Ok s0 => total1 (lzma1_read_all fuel s0 [7; 0; 3] [7; 0; 3] []) (8000 * zlen input)
  | Err _ => True
  | _ => False
  end.
Proof.
  intros fuel input Hf. apply C06_lzma1_hdr_total; [reflexivity | reflexivity | exact sizes_703 | exact Hf].
Qed.

Example C06_lzma1_props_instance : forall fuel, (ra_fuel [7; 0; 3]%Z [7; 0; 3]%Z (8000 * zlen ones) <= fuel)%nat ->
  match lzma1_construct1 ones U64_MAX 224 0 None with
  | Ok s0 => total1 (lzma1_read_all fuel s0 [7; 0; 3] [7; 0; 3] []) (8000 * zlen ones)
  | Err _ => True
  | _ => False
  end.
Proof.
  intros fuel Hf. apply C06_lzma1_props_total; [lia | unfold U64_MAX; lia | exact I | exact sizes_703 | exact Hf].
Qed.

(* the state after construction on random bytes satisfies the invariant, and the first read() on it
   is the distance error *)
Example C06_lzma1_read_instance :
  match lzma1_construct2 rnd U64_MAX 3 0 2 4096 None with
  | Ok s0 => rinv1 s0 /\ (match lzma1_read s0 7 with Err e => e =? E_OTHER | _ => false end) = true
  | _ => False
  end.
Proof.
  pose proof (C06_lzma1_construct_total rnd U64_MAX 3 0 2 4096 None ltac:(lia) ltac:(lia) ltac:(lia) ltac:(unfold U64_MAX; lia) I) as H.
  assert (Hc : (match lzma1_construct2 rnd U64_MAX 3 0 2 4096 None with
                | Ok s0 => match lzma1_read s0 7 with Err e => e =? E_OTHER | _ => false end
                | _ => false end) = true) by (vm_compute; reflexivity).
  destruct (lzma1_construct2 rnd U64_MAX 3 0 2 4096 None) as [s0|e|e|]; try discriminate.
  destruct H as (Hi & _). split; [right; exact Hi | exact Hc].
Qed.


(* LZMA2: random bytes with dict_size 0; an LZMA chunk whose first symbol is a match into the empty
   dictionary, dict_size 0xFFFFFFFF; properties byte 225; a stored chunk cut short; stored chunks
   followed by the reserved control byte 3; a chunk without the mandatory dictionary reset; the same
   allowed after a preset dictionary; an LZMA chunk without properties; an LZMA chunk whose coded
   data ends early (reads past the chunk buffer, then the end-of-chunk check) *)
Example C06_lzma2_hostile_evaluated :
  show2 (lzma2_new rnd 0 None) 60 [7; 0; 3] = Ok ([], 0) /\
  show2 (lzma2_new (224 :: 0 :: 9 :: 0 :: 11 :: 93 :: ones) 4294967295 None) 60 [7; 0; 3] = Ok ([], E_OTHER) /\
  show2 (lzma2_new (224 :: 0 :: 9 :: 0 :: 11 :: 225 :: ones) 4096 None) 60 [7; 0; 3] = Ok ([], E_INVALID_INPUT) /\
  show2 (lzma2_new [1; 0; 4; 10; 20; 30] 4096 None) 60 [2; 0] = Ok ([10; 20], E_UNEXPECTED_EOF) /\
  show2 (lzma2_new [1; 0; 2; 10; 20; 30; 2; 0; 1; 40; 50; 3] 4096 None) 60 [2; 0] = Ok ([10; 20; 30; 40], E_INVALID_INPUT) /\
  show2 (lzma2_new [2; 0; 2; 10; 20; 30; 0] 4096 None) 60 [2; 0] = Ok ([], E_INVALID_INPUT) /\
  show2 (lzma2_new [2; 0; 2; 10; 20; 30; 0] 4096 (Some [9; 9])) 60 [2; 0] = Ok ([10; 20; 30], 0) /\
  show2 (lzma2_new [128; 0; 2; 0; 5; 0; 0; 0; 0; 0] 4096 (Some [9; 9])) 60 [2; 0] = Ok ([], E_INVALID_INPUT) /\
  show2 (lzma2_new (192 :: 0 :: 2 :: 0 :: 4 :: 0 :: zeros5) 4096 (Some [9; 9])) 60 [2; 0] = Ok ([0; 0], E_INVALID_INPUT).
Proof. vm_compute. repeat split; reflexivity. Qed.

Example C06_lzma2_instance : forall fuel,
  let input := 224 :: 0 :: 9 :: 0 :: 11 :: 93 :: ones in
  (ra_fuel [2; 0]%Z [2; 0]%Z (699051 * zlen input) <= fuel)%nat ->
  exists s0, lzma2_new input 4294967295 (Some [9; 9]) = Ok s0 /\
    exists out st s1, lzma2_read_all fuel s0 [2; 0] [2; 0] [] = Ok (out, st, s1) /\ zlen out <= 699051 * zlen input.
Proof.
  intros fuel input Hf. apply C06_lzma2_total; [reflexivity | reflexivity | exact sizes_20 | exact Hf].
Qed.

(* the state after construction satisfies the invariant; the header of an LZMA chunk with invalid
   properties is an error, read() reports it *)
Example C06_lzma2_read_instance :
  exists s0, lzma2_new (224 :: 0 :: 9 :: 0 :: 11 :: 225 :: ones) 0 None = Ok s0 /\ rinv2 s0 /\ inv2 s0 /\
             m_uncompressed_size s0 = 0 /\
             lzma2_chunk_header s0 = Err E_INVALID_INPUT /\ lzma2_read s0 5 = Err E_INVALID_INPUT.
Proof.
  destruct (C06_lzma2_new_total (224 :: 0 :: 9 :: 0 :: 11 :: 225 :: ones) 0 None eq_refl I) as (s0 & Hn & Hr & Hi & _).
  exists s0. split; [exact Hn|]. split; [exact Hr|]. split; [exact Hi|].
  unfold lzma2_new, lzma2_get_dict_size in Hn. cbn [obind] in Hn. inversion Hn; subst s0.
  split; [reflexivity|]. split; vm_compute; reflexivity.
Qed.

(* why the LZMA2 statements ask for a byte string: the model copies source elements into the
   dictionary (stored chunk) and indexes the literal tables with them; an element 1000 - not a u8,
   impossible in the Rust code - lands outside the table (the model's Panic 21 = slice index) *)
Example C06_lzma2_model_needs_bytes :
  match lzma2_new [1; 0; 0; 1000; 192; 0; 0; 0; 4; 0; 0; 0; 0; 0; 0] 4096 None with
  | Ok s0 => match lzma2_read s0 5 with Panic e => e =? 21 | _ => false end
  | _ => false
  end = true.
Proof. vm_compute. reflexivity. Qed.

(* containers: LZIP header + hostile LZMA stream; XZ stream header + random bytes; the hostile index *)
Example C06_containers_hostile_evaluated :
  lz_decode_c lz_fixed ([76; 90; 73; 80; 1; 12] ++ ones ++ rnd) = Err E_OTHER /\
  lz_decode_c lz_fixed ([76; 90; 73; 80; 1; 12] ++ rnd) = Err E_OTHER /\
  lz_decode_c lz_fixed ([76; 90; 73; 80; 1; 12] ++ zeros5) = Err E_UNEXPECTED_EOF /\
  xz_decode_c xz_fixed true ([253; 55; 122; 88; 90; 0; 0; 1; 105; 34; 222; 54] ++ rnd) = Err E_UNEXPECTED_EOF /\
  bytes_ok w_huge_index = true /\ xz_decode_c xz_fixed false w_huge_index = Err E_INVALID_DATA.
Proof.
  split; [vm_compute; reflexivity|]. split; [vm_compute; reflexivity|]. split; [exact lz_zeros5_eof|].
  vm_compute. repeat split; reflexivity.
Qed.

Example C06_containers_instance :
  total (lz_decode_c lz_fixed ([76; 90; 73; 80; 1; 12] ++ ones ++ rnd)) /\
  total (xz_decode_c xz_fixed true ([253; 55; 122; 88; 90; 0; 0; 1; 105; 34; 222; 54] ++ rnd)) /\
  shrk 0 (ones ++ rnd) (lzip_payload_dec 4096 (ones ++ rnd)) /\
  shrkb (1 :: 0 :: 1 :: 7 :: 8 :: rnd) (lzma2_payload_dec 4096 (1 :: 0 :: 1 :: 7 :: 8 :: rnd)).
Proof.
  split; [apply C06_lzip_decode_c_total|]. split; [apply C06_xz_decode_c_total; reflexivity|].
  split; [apply C06_lzip_payload_dec_shr | apply C06_lzma2_payload_dec_shrb; reflexivity].
Qed.
