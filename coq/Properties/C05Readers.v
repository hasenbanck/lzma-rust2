(* Properties/C05Readers.v — C05 at the level of the READER MODELS: a source that ends before the
   compressed stream is complete.  Only theorem statements, each closed by [exact] of a lemma proved
   in Codec/TruncProofs.v, Codec/TruncLzma1Proofs.v, Codec/TruncLzma2Proofs.v,
   Format/TruncLzipProofs.v, Format/TruncXzProofs.v, Filter/BcjAllProofs.v, Filter/DeltaProofs.v.
   (Properties/C05.v has the retry layer read_exact / write_all.)

   How truncation is represented: the models take the bytes the source will deliver as a list; a
   fetch past its end is what read_exact -> UnexpectedEof is in the code.  The range decoder over
   a stream does not fail there: it substitutes a zero byte and counts the event ([rd_over]); the
   reader checks the count after each decode call (rc.take_error) and fails with UnexpectedEof. *)
From LzVerif Require Import Base.Bytes Codec.Store Codec.Range Codec.LzWindow Codec.LzmaDec Codec.LzmaEnc
  Codec.LzmaWriters Codec.Lzma1 Codec.RangeEncProofs Codec.RangeProofs Codec.LzmaRoundtrip
  Codec.Lzma1LoopProofs Codec.Lzma1ReadProofs
  Codec.Lzma2Dec Codec.Lzma2SpecProofs Codec.Lzma2FrameSyncProofs Codec.Lzma2ReadProofs
  Codec.TruncProofs Codec.TruncLzma1Proofs Codec.TruncLzma2Proofs
  Format.LzipFormat Format.LzipProofs Format.LzipSoundProofs Format.TruncLzipProofs
  Format.XzFormat Format.XzProofs Format.TruncXzProofs
  Filter.Delta Filter.DeltaProofs Filter.Bcj Filter.BcjStream Filter.BcjStreamProofs Filter.BcjAllProofs.

(* The range decoder under a decision program: INPUT MONOTONICITY.
   [rd_app d tl] = the decoder d with tl appended to its unread input; [run_rc_end p d t] = the
   decoder at the point where the run of program p stops (with a value or a failure);
   [res_app tl] appends tl to the unread input of a result.
   If the run over the shorter input never fetched past its end ([rd_over] unchanged), the run over
   the longer input is the same run - same answers, same result or failure, same tables - and tl
   is left unread behind what the shorter run left. *)
Theorem C05_run_rc_input_monotone : forall (A : Type) (p : prog A) d t tl,
  rd_over (run_rc_end p d t) = rd_over d ->
  run_rc p (rd_app d tl) t = omap (res_app tl) (run_rc p d t).
Proof. exact @run_rc_mono. Qed.
Print Assumptions C05_run_rc_input_monotone.

(* Read for a TRUNCATED input [firstn k full]: the run is exactly the run over the complete input
   (which leaves, in addition, the cut-off bytes unread), or it has fetched past the end. *)
Theorem C05_run_rc_truncated : forall (A : Type) (p : prog A) range code full over t k,
  let dt := mkRdec range code (firstn k full) over in
  let df := mkRdec range code full over in
  over < rd_over (run_rc_end p dt t) \/
  run_rc p df t = omap (res_app (skipn k full)) (run_rc p dt t).
Proof. exact @run_rc_truncated. Qed.
Print Assumptions C05_run_rc_truncated.

(* ... lifted through decode_loop / LZMADecoder::decode: one decode call *)
Theorem C05_lzma_decode_input_monotone : forall c w d t tl c1 w1 st d1 t1,
  lzma_decode c w d t = Ok (c1, w1, st, d1, t1) -> rd_over d1 = rd_over d ->
  lzma_decode c w (rd_app d tl) t = Ok (c1, w1, st, rd_app d1 tl, t1).
Proof. exact lzma_decode_mono. Qed.
Print Assumptions C05_lzma_decode_input_monotone.

Theorem C05_lzma_decode_truncated : forall c w range code full t k c1 w1 st d1 t1,
  lzma_decode c w (mkRdec range code (firstn k full) 0) t = Ok (c1, w1, st, d1, t1) ->
  0 < rd_over d1 \/
  lzma_decode c w (mkRdec range code full 0) t = Ok (c1, w1, st, rd_app d1 (skipn k full), t1).
Proof. exact lzma_decode_truncated. Qed.
Print Assumptions C05_lzma_decode_truncated.

(* LZMAReader.
   (a) for ANY input: a read history that succeeds over an input succeeds identically over every
       extension of it and leaves the extension unread ([l1_app s tl] = reader state s with tl
       appended to its source).  With C16 (the complete stream is consumed exactly) this already
       excludes "success on a truncated stream". *)
Theorem C05_lzma1_reader_input_monotone : forall fuel tl s sizes all acc out s1,
  rd_over (l_rc s) = 0 ->
  lzma1_read_all fuel s sizes all acc = Ok (out, s1) ->
  lzma1_read_all fuel (l1_app s tl) sizes all acc = Ok (out, l1_app s1 tl).
Proof. exact lzma1_read_all_mono. Qed.
Print Assumptions C05_lzma1_reader_input_monotone.

(* (b) every stream the writer model produces (end marker or declared size), every PROPER PREFIX
   [firstn k stream], every history of positive destination sizes: the construction fails with
   UnexpectedEof (fewer than the 5 bytes of the range-decoder start), or the reader hands out a
   prefix [firstn m data] of the data and then fails with UnexpectedEof.  [lzma1_read_obs] is the
   read history of lzma1_read_all that also reports the bytes of the calls before the failing
   one.  Never Ok/end of stream, never a panic, never out of fuel. *)
Theorem C05_lzma1_truncated_raw : forall lc lp pb dict data syms use_end_marker stream sizes k,
  0 <= lc <= 8 -> 0 <= lp <= 4 -> 0 <= pb <= 4 -> 4096 <= dict <= 2147483648 ->
  bytes_ok data = true -> no_end syms ->
  lzma1_write lc lp pb dict [] data syms false use_end_marker None = Ok stream ->
  (forall E c' h', enc_syms (coder_new lc lp pb) (ehist_new dict [] data) (syms ++ end_syms use_end_marker) = Ok (E, c', h') ->
     events_bits E <= RC_MAX_BITS) ->
  Forall (fun z => 0 < z) sizes ->
  (k < length stream)%nat ->
  let uncomp := if use_end_marker then U64_MAX else zlen data in
  lzma1_construct2 (firstn k stream) uncomp lc lp pb dict None = Err E_UNEXPECTED_EOF \/
  exists s0, lzma1_construct2 (firstn k stream) uncomp lc lp pb dict None = Ok s0 /\
    forall fuel, zlen data + 2 <= Z.of_nat fuel ->
    exists m, lzma1_read_obs fuel s0 sizes sizes [] = (firstn m data, Err E_UNEXPECTED_EOF) /\
              lzma1_read_all fuel s0 sizes sizes [] = Err E_UNEXPECTED_EOF.
Proof. exact lzma1_truncated_raw. Qed.
Print Assumptions C05_lzma1_truncated_raw.

(* the .lzma file (13-byte header; optional preset dictionary) through LZMAReader::new_mem_limit *)
Theorem C05_lzma1_truncated_header : forall lc lp pb dict popt data syms use_end_marker stream sizes mem_limit_kb need k,
  0 <= lc <= 8 -> 0 <= lp <= 4 -> 0 <= pb <= 4 -> 4096 <= dict <= 2147483648 ->
  let preset := preset_list popt in
  bytes_ok preset = true -> bytes_ok data = true -> no_end syms ->
  preset_hyps dict preset data use_end_marker ->
  lzma1_write lc lp pb dict preset data syms true use_end_marker
              (if use_end_marker then None else Some (zlen data)) = Ok stream ->
  (forall E c' h', enc_syms (coder_new lc lp pb) (ehist_new dict preset data) (syms ++ end_syms use_end_marker) = Ok (E, c', h') ->
     events_bits E <= RC_MAX_BITS) ->
  Forall (fun z => 0 < z) sizes ->
  lzma1_memory_usage dict lc lp = Ok need -> need <= mem_limit_kb ->
  (k < length stream)%nat ->
  lzma1_new_mem_limit (firstn k stream) mem_limit_kb popt = Err E_UNEXPECTED_EOF \/
  exists s0, lzma1_new_mem_limit (firstn k stream) mem_limit_kb popt = Ok s0 /\
    forall fuel, zlen data + 2 <= Z.of_nat fuel ->
    exists m, lzma1_read_obs fuel s0 sizes sizes [] = (firstn m data, Err E_UNEXPECTED_EOF) /\
              lzma1_read_all fuel s0 sizes sizes [] = Err E_UNEXPECTED_EOF.
Proof. exact lzma1_truncated_header. Qed.
Print Assumptions C05_lzma1_truncated_header.

(* [lzma1_read_obs] is the same read history as lzma1_read_all of the model file *)
Theorem C05_lzma1_read_obs_is_read_all : forall fuel s sizes all acc,
  lzma1_read_all fuel s sizes all acc =
  match snd (lzma1_read_obs fuel s sizes all acc) with
  | Ok s1 => Ok (fst (lzma1_read_obs fuel s sizes all acc), s1)
  | Err e => Err e
  | Panic e => Panic e
  | Fuel => Fuel
  end.
Proof. exact read_obs_all. Qed.
Print Assumptions C05_lzma1_read_obs_is_read_all.

(* non-vacuity: the example stream of Lzma1ReadProofs.v satisfies the hypotheses
   (lzma1_roundtrip_raw_hyps there); here every one of its cut points is evaluated, with end marker
   and with declared size, for several read histories: UnexpectedEof after a prefix of the data *)
Example C05_lzma1_truncated_example :
  all_cuts true [1; 3] = true /\ all_cuts false [1; 3] = true /\ all_cuts true [4096] = true /\ all_cuts false [2] = true.
Proof. exact lzma1_truncated_all_cuts. Qed.
(* the proof names Lzma1ReadProofs.lzma1_roundtrip_raw_hyps; the statement itself claims nothing *)
Example C05_lzma1_truncated_hyps_example : True.
Proof. pose proof lzma1_roundtrip_raw_hyps. exact I. Qed.

(* LZMA2Reader.
   (a) for ANY reader state and any bytes tl appended to its source ([m_app s tl]): a whole read
       history over the shorter source stops with UnexpectedEof after bytes that the history over
       the longer source returns as well, or it is that history ([l2_all_app tl] appends tl to the
       source of the final state). *)
Theorem C05_lzma2_reader_truncated_step : forall tl fuel s sizes all acc,
  (exists out st, lzma2_read_all fuel s sizes all acc = Ok (out, E_UNEXPECTED_EOF, st) /\
     forall outf ef sf, lzma2_read_all fuel (m_app s tl) sizes all acc = Ok (outf, ef, sf) -> exists rest, outf = out ++ rest) \/
  lzma2_read_all fuel (m_app s tl) sizes all acc = omap (l2_all_app tl) (lzma2_read_all fuel s sizes all acc).
Proof. exact lzma2_read_all_tr. Qed.
Print Assumptions C05_lzma2_reader_truncated_step.

(* (b) every stream of the writer model, every proper prefix, every history of positive sizes: the
   history ends with status UnexpectedEof (lzma2_read_all keeps the bytes of the earlier calls)
   after a prefix of the data *)
Theorem C05_lzma2_truncated : forall lc lp pb dict data evs stream sizes k,
  0 <= lc -> 0 <= lp -> lc + lp <= 4 -> 0 <= pb <= 4 -> dict <= 2147483648 ->
  bytes_ok data = true ->
  l2_no_end evs ->
  lzma2_write lc lp pb dict None data evs = Ok stream ->
  Forall (fun z => 0 < z) sizes ->
  (k < length stream)%nat ->
  exists s0, lzma2_new (firstn k stream) dict None = Ok s0 /\
    forall fuel, (length data + 2 <= fuel)%nat ->
    exists out st, lzma2_read_all fuel s0 sizes sizes [] = Ok (out, E_UNEXPECTED_EOF, st) /\
                   exists rest, data = out ++ rest.
Proof. exact lzma2_truncated. Qed.
Print Assumptions C05_lzma2_truncated.

Theorem C05_lzma2_truncated_preset : forall lc lp pb dict p data evs stream sizes k,
  0 <= lc -> 0 <= lp -> lc + lp <= 4 -> 0 <= pb <= 4 -> dict <= 2147483648 ->
  p <> [] -> (zlen p <= dict \/ l2_window_size dict = dict) ->
  bytes_ok p = true -> bytes_ok data = true ->
  l2_no_end evs ->
  lzma2_write lc lp pb dict (Some p) data evs = Ok stream ->
  Forall (fun z => 0 < z) sizes ->
  (k < length stream)%nat ->
  exists s0, lzma2_new (firstn k stream) dict (Some p) = Ok s0 /\
    forall fuel, (length data + 2 <= fuel)%nat ->
    exists out st, lzma2_read_all fuel s0 sizes sizes [] = Ok (out, E_UNEXPECTED_EOF, st) /\
                   exists rest, data = out ++ rest.
Proof. exact lzma2_truncated_preset. Qed.
Print Assumptions C05_lzma2_truncated_preset.

(* the recorded error is sticky *)
Theorem C05_lzma2_error_sticky : forall s e buflen, 0 < buflen -> lzma2_read (lzma2_set_error s e) buflen = Err e.
Proof. exact lzma2_error_sticky. Qed.
Print Assumptions C05_lzma2_error_sticky.

(* non-vacuity: the stream of Lzma2ExamplesProofs.v (LZMA chunk, stored chunk, restart, LZMA
   chunk) satisfies the hypotheses; all 33 cut points evaluated for two read histories *)
Example C05_lzma2_truncated_example :
  length Lzma2ExamplesProofs.ex_stream = 33%nat /\
  forallb (l2_cut [3; 1]) (seq 0 (length Lzma2ExamplesProofs.ex_stream)) = true /\
  forallb (l2_cut [4096]) (seq 0 (length Lzma2ExamplesProofs.ex_stream)) = true.
Proof. exact lzma2_truncated_all_cuts. Qed.
(* the proof names Lzma2ExamplesProofs.lzma2_roundtrip_hyps and TruncLzma2Proofs.lzma2_truncated_instance
   (C05_lzma2_truncated on that stream, every cut point, every history); the statement itself
   claims nothing *)
Example C05_lzma2_truncated_hyps_example : True.
Proof. pose proof Lzma2ExamplesProofs.lzma2_roundtrip_hyps. pose proof lzma2_truncated_instance. exact I. Qed.

(* LZIP container (whole-file reader model lz_decode with the fix patches), payload codec
   abstract: hypotheses are its round trip with exact consumption (C01 + C16) and that it rejects
   a truncated payload.  The second is an assumption here: C05_lzma1_truncated_raw above is the
   corresponding fact about LZMAReader under lzma1_read_all; it is not carried over to the payload
   decoder lzip_payload_dec of lz_decode_c.
   A file is a sequence of members.  Every proper prefix p of it either is rejected with an error
   or ends exactly between two members - then p is itself a complete LZIP file (the format has no
   end-of-file record) and the members it contains are returned; p = [] is the known finding. *)
Theorem C05_lzip_truncated :
  forall (penc : Z -> list Z -> list Z) (pdec : Z -> list Z -> outcome (list Z * list Z)),
  (forall d dd x tail, d <= dd -> pdec dd (penc d x ++ tail) = Ok (x, tail)) ->
  (forall d dd x p tl, d <= dd -> penc d x = p ++ tl -> tl <> [] -> exists e, pdec dd p = Err e) ->
  forall ms p tl, Forall (lm_ok penc) ms -> lm_file penc ms = p ++ tl -> tl <> [] ->
    (exists e, lz_decode pdec lz_fixed p = Err e) \/
    (exists ms1 ms2, ms = ms1 ++ ms2 /\ ms2 <> [] /\ p = lm_file penc ms1 /\
                     lz_decode pdec lz_fixed p = Ok (lm_data ms1, [])).
Proof. exact lzip_truncated_thm. Qed.
Print Assumptions C05_lzip_truncated.

(* what LZIPWriter returned for any options and write() calls, cut anywhere (p <> []) *)
Theorem C05_lzip_truncated_written :
  forall (penc : Z -> list Z -> list Z) (pdec : Z -> list Z -> outcome (list Z * list Z)),
  (forall d dd x tail, d <= dd -> pdec dd (penc d x ++ tail) = Ok (x, tail)) ->
  (forall d dd x p tl, d <= dd -> penc d x = p ++ tl -> tl <> [] -> exists e, pdec dd p = Err e) ->
  forall o0 parts f p tl,
    bytes_ok (concat parts) = true ->
    (forall members, lz_members_of (lo_member_size (lzw_new o0)) parts = Ok members ->
                     lz_sizes_ok penc (lo_dict (lzw_new o0)) members) ->
    match lo_member_size o0 with Some m => 1 <= m | None => True end ->
    lz_encode penc o0 parts = Ok f ->
    f = p ++ tl -> tl <> [] -> p <> [] ->
    (exists e, lz_decode pdec lz_fixed p = Err e) \/
    (exists cs1 cs2, cs1 <> [] /\ cs2 <> [] /\ concat parts = concat cs1 ++ concat cs2 /\
                     lz_decode pdec lz_fixed p = Ok (concat cs1, [])).
Proof. exact lzip_truncated_written. Qed.
Print Assumptions C05_lzip_truncated_written.

(* without a configured member size the writer writes ONE member: every proper non-empty prefix of
   its output is rejected *)
Theorem C05_lzip_truncated_single_member :
  forall (penc : Z -> list Z -> list Z) (pdec : Z -> list Z -> outcome (list Z * list Z)),
  (forall d dd x tail, d <= dd -> pdec dd (penc d x ++ tail) = Ok (x, tail)) ->
  (forall d dd x p tl, d <= dd -> penc d x = p ++ tl -> tl <> [] -> exists e, pdec dd p = Err e) ->
  forall o0 parts f p tl,
    bytes_ok (concat parts) = true ->
    lz_sizes_ok penc (lo_dict (lzw_new o0)) [concat parts] ->
    lo_member_size o0 = None ->
    lz_encode penc o0 parts = Ok f ->
    f = p ++ tl -> tl <> [] -> p <> [] ->
    exists e, lz_decode pdec lz_fixed p = Err e.
Proof. exact lzip_truncated_written_single. Qed.
Print Assumptions C05_lzip_truncated_single_member.

(* KNOWN FINDING lzip-empty-input (known-findings.txt): the empty prefix of every LZIP file - the
   file truncated to zero bytes - is accepted as an empty file.  The theorems above are the
   statement outside the known class (p <> []); this is the witness for the class. *)
Theorem C05_lzip_empty_prefix_known :
  forall (pdec : Z -> list Z -> outcome (list Z * list Z)) (f : list Z), lz_decode pdec lz_fixed (firstn 0 f) = Ok ([], []).
Proof. exact (fun pdec f => lz_decode_empty_known pdec). Qed.
Print Assumptions C05_lzip_empty_prefix_known.

(* non-vacuity: a payload codec with both hypotheses exists (a toy code, not LZMA) *)
Example C05_lzip_codec_exists :
  exists (penc : Z -> list Z -> list Z) (pdec : Z -> list Z -> outcome (list Z * list Z)),
    (forall d dd x tail, d <= dd -> pdec dd (penc d x ++ tail) = Ok (x, tail)) /\
    (forall d dd x p tl, d <= dd -> penc d x = p ++ tl -> tl <> [] -> exists e, pdec dd p = Err e).
Proof. exact truncating_payload_codec_exists. Qed.
(* with that codec all cut points of a written one-member file and of a three-member file are
   evaluated in TruncLzipProofs.lzip_truncated_single_example / lzip_truncated_multi_example; the
   proof names them, the statement itself claims nothing *)
Example C05_lzip_truncated_examples : True.
Proof. pose proof lzip_truncated_single_example. pose proof lzip_truncated_multi_example. exact I. Qed.

(* XZ container (whole-file reader model xz_decode), check function H and block decoder
   abstract.  [trx f rt rf]: the step over the truncated input (rt) fails with an error, or the step
   over the complete input (rf) is the same step with the cut-off bytes left unread (f appends them).
   Hypotheses on the block decoder: it has this property and it only consumes input.  Then: a file
   accepted in single-stream mode with nothing left unread has NO accepted proper prefix - every
   one (the empty one included) is rejected with an error, with multi-stream decoding on or off.
   Every parser of the reader (stream header, block header, padding, check, index, footer) is
   proved to have the [trx] property for arbitrary input. *)
Theorem C05_xz_truncated :
  forall (tl : list Z) (H : Z -> list Z -> list Z) (blockdec : list (fkind * Z) -> list Z -> outcome (list Z * list Z)),
  (forall fs src, trx (rapp tl) (blockdec fs src) (blockdec fs (src ++ tl))) ->
  (forall fs src c r, blockdec fs src = Ok (c, r) -> (length r <= length src)%nat) ->
  forall fx p d, tl <> [] ->
    xz_decode H blockdec fx false (p ++ tl) = Ok (d, []) ->
    forall multi, exists e, xz_decode H blockdec fx multi p = Err e.
Proof. exact xz_truncated_gen. Qed.
Print Assumptions C05_xz_truncated.

(* every file XZWriter produces (any options a caller may configure, any partition into write()
   calls), cut anywhere: rejected.  Payload / filter codecs abstract as in C02 (round trip with
   exact consumption; filters inverse) plus the two decoder properties above. *)
Theorem C05_xz_truncated_written :
  forall (penc : Z -> list Z -> list Z) (pdec : Z -> list Z -> outcome (list Z * list Z)),
  (forall d dd x tail, d <= dd -> pdec dd (penc d x ++ tail) = Ok (x, tail)) ->
  (forall tl dd src, trx (rapp tl) (pdec dd src) (pdec dd (src ++ tl))) ->
  (forall dd src x r, pdec dd src = Ok (x, r) -> (length r <= length src)%nat) ->
  forall (fenc fdec : fkind -> Z -> list Z -> list Z),
  (forall k p x, fdec k p (fenc k p x) = x) ->
  forall o0 parts f p tl multi, stream_ok o0 ->
    xz_encode penc fenc xz_fixed o0 parts = Ok f ->
    f = p ++ tl -> tl <> [] ->
    exists e, xz_decode xz_check_bytes (blockdec pdec fdec) xz_fixed multi p = Err e.
Proof. exact xz_truncated_written. Qed.
Print Assumptions C05_xz_truncated_written.

(* the LZMA2Reader model read to its end (any budget of 4096-byte read() calls) has the [trx]
   property assumed of the payload decoder *)
Theorem C05_lzma2_payload_truncated_step : forall calls tl dict src,
  trx (rapp tl) (lzma2_payload_dec_n calls dict src) (lzma2_payload_dec_n calls dict (src ++ tl)).
Proof. exact lzma2_payload_dec_n_trx. Qed.
Print Assumptions C05_lzma2_payload_truncated_step.

(* non-vacuity: a payload codec with all three hypotheses exists (a toy code, not LZMA2) *)
Example C05_xz_codec_exists :
  exists (penc : Z -> list Z -> list Z) (pdec : Z -> list Z -> outcome (list Z * list Z)),
    (forall d dd x tail, d <= dd -> pdec dd (penc d x ++ tail) = Ok (x, tail)) /\
    (forall tl dd src, trx (rapp tl) (pdec dd src) (pdec dd (src ++ tl))) /\
    (forall dd src x r, pdec dd src = Ok (x, r) -> (length r <= length src)%nat).
Proof. exact truncating_xz_codec_exists. Qed.
(* with that codec a written file (one block, a Delta filter slot, CRC32) is rejected at every one of
   its cut points in both modes: TruncXzProofs.xz_truncated_example, with ex_trunc_stream_ok for its
   options; the proof names them, the statement itself claims nothing *)
Example C05_xz_truncated_example : True.
Proof. pose proof xz_truncated_example. pose proof ex_trunc_stream_ok. exact I. Qed.

(* Filters over a faulty / chopping inner reader (shared with C11).
   BCJReader over an inner reader that delivers its data in arbitrary pieces and fails now and
   then, read by a loop with positive destination sizes that repeats a call failing with
   Interrupted: a prefix of the stream-level result is obtained; the loop ends normally only with
   the whole result; it ends with an error only with a non-transient error of the inner reader
   (carrying that error's kind); transient failures alone never change the result. *)
Theorem C05_bcj_reader_retry : forall a start inner sizes,
  script_ok inner -> bytes_ok (script_data inner) = true -> Forall (fun s => 0 < s) sizes ->
  exists F out e,
    bcj_stream a false start (script_data inner) = Ok F /\
    bcj_dec_script a start inner sizes = Ok (out, e) /\
    (exists Y, F = out ++ Y) /\
    (e = None -> out = F) /\
    (forall c, e = Some c -> c <> E_INTERRUPTED /\ In c (script_errs inner)) /\
    (Forall (fun c => c = E_INTERRUPTED) (script_errs inner) -> e = None /\ out = F).
Proof. exact bcj_reader_retry. Qed.
Print Assumptions C05_bcj_reader_retry.

(* DeltaReader decodes whatever each read() of the inner reader returned: however the inner
   reader chops its data into short reads, the decoded bytes are those of the whole *)
Theorem C05_delta_reader_short_reads : forall d parts,
  delta_read_calls d parts = delta_decode d (concat parts).
Proof. exact delta_read_partition. Qed.
Print Assumptions C05_delta_reader_short_reads.
