(* Properties/C06Containers.v — C06 for the container layer: the whole-file reader models of
   XZReader and LZIPReader (XzFormat.v: xz_decode, LzipFormat.v: lz_decode) are TOTAL on every
   input - any list of integers, in particular every byte string, well-formed, damaged or random:
   the result is Ok or Err, never Panic (slice index / unwrap / allocation) and never Fuel (the
   loops terminate within the fuel the model uses: S (length of the source) for the stream,
   block, index-record and member loops).  Only theorem statements, closed by [exact] of lemmas
   proved in Format/TotalProofs.v and Format/TotalChainProofs.v.

   The payload decoder is universally quantified; what is asked of it ([shrk 0]) is that it
   itself returns Ok or Err and never hands back more unread input than it was given (a reader
   cannot un-read; without this the models loop: C06_growing_rest_needs_fuel).  That the concrete
   payload decoders (the LZMAReader / LZMA2Reader models read to their end) have it, and the closed
   statements about lz_decode_c / xz_decode_c, are in C06Readers.v.
   [fx11 fx = true]: the F11 repair (Vec::with_capacity of an untrusted record count); on the
   pinned code the statement is false: C06_xz_index_alloc_refuted.
   Not covered: the call-by-call models xzr_read / lzr_read have no totality theorem (lzma2_read /
   lzma1_read, which they call, are total from their invariants: C06Readers.v). *)
From LzVerif Require Import Base.Bytes Filter.Delta Format.XzFormat Format.LzipFormat Format.XzProofs
  Format.ContainerRefutations Format.TotalProofs Format.TotalChainProofs.

(* XZReader, any block decoder *)
Theorem C06_xz_decode_total :
  forall (H : Z -> list Z -> list Z) (blockdec : list (fkind * Z) -> list Z -> outcome (list Z * list Z)),
  (forall fs s, shrk 0 s (blockdec fs s)) ->
  forall fx multi f, fx11 fx = true -> total (xz_decode H blockdec fx multi f).
Proof. exact xz_decode_total. Qed.
Print Assumptions C06_xz_decode_total.

(* XZReader with the executable reader chain (Delta readers around the payload decoder; the chain
   of xz_decode_c and xz_decode_capped), any payload decoder: the Delta history index cannot leave
   its 256 entries *)
Theorem C06_xz_decode_chain_total :
  forall (pdec : Z -> list Z -> outcome (list Z * list Z)) fx multi f,
  (forall d s, shrk 0 s (pdec d s)) -> fx11 fx = true ->
  total (xz_decode xz_check_bytes (xz_blockdec_gen pdec) fx multi f).
Proof. exact xz_decode_chain_total. Qed.
Print Assumptions C06_xz_decode_chain_total.

(* the abstract chain of C02 / C12 (payload decoder, then total filter functions) *)
Theorem C06_xz_blockdec_shr :
  forall (pdec : Z -> list Z -> outcome (list Z * list Z)) (fdec : fkind -> Z -> list Z -> list Z),
  (forall d s, shrk 0 s (pdec d s)) -> forall fs s, shrk 0 s (blockdec pdec fdec fs s).
Proof. exact blockdec_shr. Qed.
Print Assumptions C06_xz_blockdec_shr.

(* LZIPReader, repaired (lz_fixed) and pinned (lz_orig) header handling *)
Theorem C06_lzip_decode_total :
  forall (pdec : Z -> list Z -> outcome (list Z * list Z)),
  (forall d s, shrk 0 s (pdec d s)) ->
  forall fx f, total (lz_decode pdec fx f).
Proof. exact lz_decode_total. Qed.
Print Assumptions C06_lzip_decode_total.

(* F11: before the fix a record count of 2^63 - 1 in the index made Vec::with_capacity panic *)
Theorem C06_xz_index_alloc_refuted :
  xz_decode_c xz_orig false w_huge_index = Panic 62 /\ xz_decode_c xz_fixed false w_huge_index = Err E_INVALID_DATA.
Proof. exact (conj xz_index_alloc_refuted xz_index_alloc_fixed). Qed.
Print Assumptions C06_xz_index_alloc_refuted.

(* the hypothesis on the payload decoder is needed *)
Theorem C06_growing_rest_needs_fuel : lz_decode greedy_pdec lz_fixed [76; 90; 73; 80; 1; 12] = Fuel.
Proof. exact lz_decode_growing_rest_fuel. Qed.
Print Assumptions C06_growing_rest_needs_fuel.

(* non-vacuity: a payload decoder with the assumed property exists; the theorems apply to it on
   the hostile index file *)
Example C06_payload_decoder_exists :
  exists pdec : Z -> list Z -> outcome (list Z * list Z), forall d s, shrk 0 s (pdec d s).
Proof. exact shr_decoder_exists. Qed.
Example C06_instance :
  total (xz_decode xz_check_bytes (xz_blockdec_gen (fun _ s => Ok ([], s))) xz_fixed true w_huge_index) /\
  xz_decode xz_check_bytes (xz_blockdec_gen (fun _ s => Ok ([], s))) xz_fixed true w_huge_index = Err E_INVALID_DATA.
Proof. split; [|vm_compute; reflexivity]. apply C06_xz_decode_chain_total; [|reflexivity]. intros d s. cbn. lia. Qed.
