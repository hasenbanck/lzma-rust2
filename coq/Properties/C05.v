(* Properties/C05.v — truncation and I/O faults surface as errors, never as wrong or endless data.
   Only theorem statements, each closed by [exact] of a lemma proved elsewhere.
   The theorems here cover the retry layer every reader and writer of the crate goes through
   (read_exact / write_all over arbitrary scripts of short transfers, Interrupted and hard
   errors).  A source that ends before the compressed stream is complete, at the level of the
   per-format reader models, is Properties/C05Readers.v; the models are tied to the code for
   truncation (EOF) by the lzmadec / container correspondences and for injected faults by the
   oracle of the iofault area. *)
From LzVerif Require Import Base.Bytes Io.Script Io.ScriptProofs.

(* For EVERY source script (any chopping into short reads, any number of Interrupted reports):
   read_exact n returns exactly the next n bytes of the script's byte content. *)
Theorem C05_read_exact_abstracts : forall fuel s n acc,
  script_ok s = true ->
  (length s + n < fuel)%nat ->
  (n <= length (script_bytes s))%nat ->
  exists s', read_exact fuel s n acc = (Ok (acc ++ firstn n (script_bytes s)), s') /\
             script_bytes s' = skipn n (script_bytes s) /\ script_end s' = script_end s /\
             script_ok s' = true /\ (length s' <= length s)%nat.
Proof. exact read_exact_abstracts. Qed.
Print Assumptions C05_read_exact_abstracts.

(* ... and if the content ends first, the call fails with the source's own error kind
   (UnexpectedEof for a clean end of the source): never Ok, never a substituted byte. *)
Theorem C05_read_exact_short : forall fuel s n acc,
  script_ok s = true ->
  (length s + n < fuel)%nat ->
  (length (script_bytes s) < n)%nat ->
  exists s', read_exact fuel s n acc = (Err (script_end s), s').
Proof. exact read_exact_short. Qed.
Print Assumptions C05_read_exact_short.

(* A sink that short-writes or reports Interrupted receives exactly the buffer. *)
Theorem C05_write_all_soft : forall fuel s buf taken,
  sink_soft s = true -> (length s + length buf < fuel)%nat ->
  exists s', write_all fuel s buf taken = (Ok tt, taken ++ buf, s').
Proof. exact write_all_soft. Qed.
Print Assumptions C05_write_all_soft.

(* Whatever the sink does, what it received is a prefix of what was submitted. *)
Theorem C05_write_all_prefix : forall fuel s buf taken r taken' s',
  write_all fuel s buf taken = (r, taken', s') -> exists p, taken' = taken ++ p /\ exists q, buf = p ++ q.
Proof. exact write_all_prefix. Qed.
Print Assumptions C05_write_all_prefix.

Example C05_script_example :
  read_exact 20 [RData [1; 2]; RInterrupted; RData [3]; RInterrupted; RData [4; 5; 6]] 4 [] =
    (Ok [1; 2; 3; 4], [RData [5; 6]]) /\
  read_exact 20 [RData [1; 2]; RFail 6] 4 [] = (Err 6, []).
Proof. vm_compute. split; reflexivity. Qed.
