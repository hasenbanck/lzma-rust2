(* Properties/C07Readers.v — C07, reader half: what a reader returns does not depend on how the
   caller sizes its destination buffers, and a zero-length read changes nothing.
   Only theorem statements, closed by [exact] of lemmas proved in Codec/LzmaReadProofs.v,
   Codec/Lzma1ReadProofs.v, Codec/Lzma2ReadProofs.v, Filter/BcjAllProofs.v, Filter/DeltaProofs.v,
   Format/XzReaderProofs.v, Format/LzipReaderProofs.v, Format/ContainerRefutations.v.

   Shape of the "any sizes" theorems: the history of destination sizes [sizes] (cycled; every
   positive size allowed, 1 included) is universally quantified and does not occur in the result:
   the bytes returned are the data, the source is left at the end of the stream.  Zero-length
   reads are covered by the *_zero_read theorems (state unchanged, so they can be inserted anywhere
   in a history).  XZReader: C07_xz_reader_any_sizes is about the call-by-call model xzr_read (the
   one the correspondence check drives); C07_xz_reader_matches_whole_file turns the run-checked
   agreement between that model and the whole-file function xz_decode_c (the function of the C02 /
   C12 / C16 theorems) into a theorem, for the files the writer produces with LZMA2 payloads and
   Delta pre-filters or none; C07_lzip_reader_* do the same for the call-by-call LZIPReader model
   lzr_read.  NOT proved: the same for XZ files with BCJ filters (outside the executable reader
   model), for several concatenated XZ streams read call by call, for damaged files.  For LZMAReader / LZMA2Reader the streams are those the writer models produce
   (for arbitrary, e.g. damaged, input the readers' results may well depend on the buffer sizes
   through the point at which an error is detected - that is C06 / C04's subject). *)
From LzVerif Require Import Base.Bytes Codec.Store Codec.Range Codec.LzWindow Codec.LzmaDec Codec.LzmaEnc
  Codec.LzmaWriters Codec.Lzma1 Codec.RangeEncProofs Codec.RangeProofs Codec.LzmaRoundtrip Codec.LzmaReadProofs
  Codec.Lzma1LoopProofs Codec.Lzma1ReadProofs
  Codec.Lzma2Dec Codec.Lzma2SpecProofs Codec.Lzma2FrameSyncProofs Codec.Lzma2ReadProofs
  Filter.Delta Filter.DeltaProofs Filter.Bcj Filter.BcjStream Filter.BcjStreamProofs Filter.BcjAllProofs
  Format.XzFormat Format.LzipFormat Format.XzProofs Format.ContainerRefutations Format.ComposeProofs
  Format.LzipProofs Format.ComposeExamplesProofs Format.XzReaderProofs Format.LzipReaderProofs.

Theorem C07_lzma1_zero_read : forall s buflen, buflen <= 0 -> lzma1_read s buflen = Ok ([], s).
Proof. exact lzma1_read_zero. Qed.
Print Assumptions C07_lzma1_zero_read.

Theorem C07_lzma2_zero_read : forall s n, n <= 0 -> lzma2_read s n = Ok ([], s).
Proof. exact lzma2_read_zero. Qed.
Print Assumptions C07_lzma2_zero_read.

Theorem C07_bcj_reader_zero_read : forall fuel a st inner, bcj_read fuel a st inner 0 = Ok ([], None, st, inner).
Proof. exact bcj_reader_zero_read. Qed.
Print Assumptions C07_bcj_reader_zero_read.

Theorem C07_xz_reader_zero_read : forall s n, n <= 0 -> xzr_read xz_fixed s n = Ok ([], s).
Proof. exact xzr_read_zero. Qed.
Print Assumptions C07_xz_reader_zero_read.

Theorem C07_lzip_reader_zero_read : forall fx s n, n <= 0 -> lzr_read fx s n = Ok ([], s).
Proof. exact lzr_read_zero. Qed.
Print Assumptions C07_lzip_reader_zero_read.

(* F13: false for XZReader before the fix - an empty destination in the middle of a block made the
   reader take the block for finished and fail the check (4 bytes, empty read, 4 bytes) *)
Theorem C07_xz_reader_zero_read_refuted :
  read_history xz_orig w_hello [4; 0; 4] = Ok ([104; 101; 108; 108], E_INVALID_DATA) /\
  read_history xz_fixed w_hello [4; 0; 4] = Ok (w_content, 0).
Proof. exact (conj xz_empty_buffer_refuted xz_empty_buffer_fixed). Qed.
Print Assumptions C07_xz_reader_zero_read_refuted.

(* LZMAReader on a raw stream (end marker, or declared size) *)
Theorem C07_lzma1_reader_any_sizes : forall lc lp pb dict data syms use_end_marker stream tail sizes,
  0 <= lc <= 8 -> 0 <= lp <= 4 -> 0 <= pb <= 4 -> 4096 <= dict <= 2147483648 ->
  bytes_ok data = true -> no_end syms ->
  lzma1_write lc lp pb dict [] data syms false use_end_marker None = Ok stream ->
  (forall E c' h', enc_syms (coder_new lc lp pb) (ehist_new dict [] data) (syms ++ end_syms use_end_marker) = Ok (E, c', h') ->
     events_bits E <= RC_MAX_BITS) ->
  Forall (fun z => 0 < z) sizes ->
  let uncomp := if use_end_marker then U64_MAX else zlen data in
  exists s0, lzma1_construct2 (stream ++ tail) uncomp lc lp pb dict None = Ok s0 /\
    forall fuel, zlen data + 2 <= Z.of_nat fuel ->
    exists s_end, lzma1_read_all fuel s0 sizes sizes [] = Ok (data, s_end) /\ lzma1_unconsumed s_end = tail.
Proof. exact lzma1_roundtrip_raw. Qed.
Print Assumptions C07_lzma1_reader_any_sizes.

(* LZMA2Reader *)
Theorem C07_lzma2_reader_any_sizes : forall lc lp pb dict data evs stream tail sizes,
  0 <= lc -> 0 <= lp -> lc + lp <= 4 -> 0 <= pb <= 4 -> dict <= 2147483648 ->
  bytes_ok data = true ->
  l2_no_end evs ->
  lzma2_write lc lp pb dict None data evs = Ok stream ->
  Forall (fun z => 0 < z) sizes ->
  exists s0, lzma2_new (stream ++ tail) dict None = Ok s0 /\
    forall fuel, (length data + 2 <= fuel)%nat ->
    exists s_end, lzma2_read_all fuel s0 sizes sizes [] = Ok (data, 0, s_end) /\ m_in s_end = tail.
Proof. exact lzma2_roundtrip. Qed.
Print Assumptions C07_lzma2_reader_any_sizes.

(* BCJReader, all eight architectures, ANY chunking of the inner reader's data and ANY history of
   destination sizes, zeros included: the first (sum of sizes) bytes of the filtered stream *)
Theorem C07_bcj_reader_any_sizes : forall a start parts sizes,
  bytes_ok (concat parts) = true -> Forall (fun n => 0 <= n) sizes ->
  exists F rs' inner',
    bcj_stream a false start (concat parts) = Ok F /\
    bcj_read_calls (bcj_read_fuel (data_script parts)) a (bcj_reader_new a start) (data_script parts) sizes =
      Ok (firstn (Z.to_nat (fold_right Z.add 0 sizes)) F, [], rs', inner').
Proof. exact bcj_reader_any_sizes. Qed.
Print Assumptions C07_bcj_reader_any_sizes.

(* DeltaReader: whatever slices the read() calls obtain (empty ones included), the bytes delivered
   are the decoding of the concatenation *)
Theorem C07_delta_reader_any_chunking : forall d parts,
  delta_read_calls d parts = delta_decode d (concat parts).
Proof. exact delta_read_partition. Qed.
Print Assumptions C07_delta_reader_any_chunking.

(* XZReader::read, call by call, on a file the writer produced (LZMA2 payloads of any encoder [ch],
   Delta pre-filters or none, any check type / block size / partition into write() calls), under
   EVERY history of positive destination sizes: the bytes written, then end of stream, and the
   source is left exactly behind the stream footer ([rest] arbitrary with single-stream decoding;
   nothing may follow when multi-stream decoding is on). *)
Theorem C07_xz_reader_any_sizes :
  forall lc lp pb ch, l2_params_ok lc lp pb -> l2_codec_ok lc lp pb ch ->
  forall o0 parts f rest multi sizes, stream_ok o0 -> only_delta (xo_filters o0) ->
    4096 <= xo_dict o0 <= 2147483648 -> bytes_ok (concat parts) = true ->
    xz_encode (l2_penc lc lp pb ch) delta_fenc xz_fixed o0 parts = Ok f ->
    (multi = true -> rest = []) -> Forall (fun z => 0 < z) sizes ->
    forall fuel, (length (concat parts) + 2 <= fuel)%nat ->
    exists st, xzr_read_all fuel xz_fixed (xzr_new (f ++ rest) multi) sizes sizes [] = Ok (concat parts, 0, st) /\
               xzr_unconsumed st = rest.
Proof. exact xzr_read_all_rt. Qed.
Print Assumptions C07_xz_reader_any_sizes.

(* the call-by-call model returns what the whole-file function xz_decode_c returns *)
Theorem C07_xz_reader_matches_whole_file :
  forall lc lp pb ch, l2_params_ok lc lp pb -> l2_codec_ok lc lp pb ch ->
  forall o0 parts f multi sizes, stream_ok o0 -> only_delta (xo_filters o0) ->
    4096 <= xo_dict o0 <= 2147483648 -> bytes_ok (concat parts) = true ->
    xz_encode (l2_penc lc lp pb ch) delta_fenc xz_fixed o0 parts = Ok f ->
    Forall (fun z => 0 < z) sizes ->
    forall fuel, (length (concat parts) + 2 <= fuel)%nat ->
    exists content left st,
      xz_decode_c xz_fixed multi f = Ok (content, left) /\
      xzr_read_all fuel xz_fixed (xzr_new f multi) sizes sizes [] = Ok (content, 0, st) /\
      xzr_unconsumed st = left.
Proof. exact xzr_read_all_is_decode. Qed.
Print Assumptions C07_xz_reader_matches_whole_file.

(* non-vacuity: the hypotheses on concrete options and data (Format/ComposeExamplesProofs.v), and
   the history 3, 1, 3, 1, ... evaluated on that file (one block, no pre-filter, CRC64) followed by
   two foreign bytes, single-stream decoding *)
Example C07_xz_reader_hyps :
  l2_params_ok 3 0 2 /\ l2_codec_ok 3 0 2 ch_ex /\
  stream_ok x_opts /\ only_delta (xo_filters x_opts) /\ 4096 <= xo_dict x_opts <= 2147483648 /\
  bytes_ok (concat x_parts) = true /\
  exists f, xz_encode (l2_penc 3 0 2 ch_ex) delta_fenc xz_fixed x_opts x_parts = Ok f.
Proof.
  split; [exact params_302|]. split; [exact ch_ex_ok|].
  destruct x_opts_ok as (H1 & H2 & H3 & H4). destruct x_roundtrip as (f & Hf & _).
  split; [exact H1|]. split; [exact H2|]. split; [exact H3|]. split; [exact H4|]. exists f. exact Hf.
Qed.
Example C07_xz_reader_instance :
  match xz_encode (l2_penc 3 0 2 ch_ex) delta_fenc xz_fixed x_opts x_parts with
  | Ok f => match xzr_read_all 20 xz_fixed (xzr_new (f ++ [9; 9]) false) [3; 1] [3; 1] [] with
            | Ok (out, st, s) => out = x_data /\ st = 0 /\ xzr_unconsumed s = [9; 9]
            | _ => False
            end
  | _ => False
  end.
Proof. vm_compute. repeat split; reflexivity. Qed.

(* LZIPReader::read, call by call, on any sequence of members with LZMA payloads ([mgood]: header
   byte announcing at least the dictionary in use, content bytes, the encoder's choices accepted by
   the writer model with at most 2^32-7 coded bits); members after the first non-empty (what the
   writer produces: C07_lzip_reader_written_file).  Every history of positive sizes: the
   concatenated contents, then end of stream, everything consumed. *)
Theorem C07_lzip_reader_any_sizes :
  forall (ch : Z -> list Z -> list sym) (m : lzm) (ms : list lzm) sizes fuel,
    Forall (mgood ch) (m :: ms) -> Forall nonempty_m ms -> Forall (fun z => 0 < z) sizes ->
    (length (lm_data (m :: ms)) + 2 <= fuel)%nat ->
    exists st, lzr_read_all fuel lz_fixed (lzr_new (lm_file (l1_penc ch) (m :: ms))) sizes sizes [] = Ok (lm_data (m :: ms), 0, st) /\
               lzr_unconsumed st = [].
Proof. exact lzr_read_all_rt. Qed.
Print Assumptions C07_lzip_reader_any_sizes.

Theorem C07_lzip_reader_matches_whole_file :
  forall ch calls m ms sizes fuel,
    Forall (lm_ok_l1 ch calls) (m :: ms) -> Forall nonempty_m ms -> Forall (fun z => 0 < z) sizes ->
    (length (lm_data (m :: ms)) + 2 <= fuel)%nat ->
    exists content left st,
      lz_decode (lzip_payload_dec_n calls) lz_fixed (lm_file (l1_penc ch) (m :: ms)) = Ok (content, left) /\
      lzr_read_all fuel lz_fixed (lzr_new (lm_file (l1_penc ch) (m :: ms))) sizes sizes [] = Ok (content, 0, st) /\
      lzr_unconsumed st = left.
Proof. exact lzr_read_all_is_decode. Qed.
Print Assumptions C07_lzip_reader_matches_whole_file.

(* on the file LZIPWriter returns, for every dictionary size, member size and write partition *)
Theorem C07_lzip_reader_written_file :
  forall ch o0 parts f sizes fuel,
    bytes_ok (concat parts) = true ->
    (forall members, lz_members_of (lo_member_size (lzw_new o0)) parts = Ok members ->
       lz_sizes_ok (l1_penc ch) (lo_dict (lzw_new o0)) members /\
       Forall (l1_member_ok ch (lo_dict (lzw_new o0))) members) ->
    match lo_member_size o0 with Some m => 1 <= m | None => True end ->
    lz_encode (l1_penc ch) o0 parts = Ok f ->
    Forall (fun z => 0 < z) sizes -> (length (concat parts) + 2 <= fuel)%nat ->
    exists st, lzr_read_all fuel lz_fixed (lzr_new f) sizes sizes [] = Ok (concat parts, 0, st) /\ lzr_unconsumed st = [].
Proof. exact lzr_read_all_written. Qed.
Print Assumptions C07_lzip_reader_written_file.

(* non-vacuity: the LZIP hypotheses on a concrete member (C02_lzip_lzma1_hyps in C02Compose.v), and
   the history 2, 5, 2, 5, ... evaluated on the file written twice *)
Example C07_lzip_reader_instance :
  match lz_encode (l1_penc ch1_ex) z_opts z_parts with
  | Ok f => match lzr_read_all 20 lz_fixed (lzr_new (f ++ f)) [2; 5] [2; 5] [] with
            | Ok (out, st, s) => out = z_data ++ z_data /\ st = 0 /\ lzr_unconsumed s = []
            | _ => False
            end
  | _ => False
  end.
Proof. vm_compute. repeat split; reflexivity. Qed.
