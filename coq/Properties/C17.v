(* Properties/C17.v — memory estimators are sound and tight, memory limits are enforced before
   allocating.  Only theorem statements, each closed by [exact] of a lemma proved in
   Arith/MemUsageProofs.v.  Models: Arith/MemUsage.v (estimators with explicit u32 wrap / Panic in
   both build profiles [ck]; allocation models = bytes requested from the global allocator). *)
From LzVerif Require Import Base.Bytes Arith.MemUsage Arith.MemUsageProofs.

(* encoder: LZMAOptions::get_memory_usage (after /repo 813fe55, 2f495eb) *)

(* no u32 overflow anywhere in the estimator over the documented option range: both build
   profiles return the same value, never Panic *)
Theorem C17_enc_estimate_no_overflow : forall k p, enc_params_ok k p = true ->
  exists e, (forall ck, enc_estimate ck p = Ok e) /\ 0 <= e < U32.
Proof. exact enc_estimate_no_overflow. Qed.
Print Assumptions C17_enc_estimate_no_overflow.

(* alloc <= 1024 * estimate, for LZMAWriter and LZMA2Writer, every dictionary size 4 KiB..768 MiB,
   lc/lp/pb, both modes, both match finders, every nice_len *)
Theorem C17_enc_estimate_sound : forall k p ck, enc_params_ok k p = true ->
  exists e, enc_estimate ck p = Ok e /\ enc_alloc k p <= 1024 * e.
Proof. exact enc_estimate_sound. Qed.
Print Assumptions C17_enc_estimate_sound.

(* 1024 * estimate <= 1 * alloc + 320 KiB *)
Theorem C17_enc_estimate_tight : forall k p ck, enc_params_ok k p = true ->
  exists e, enc_estimate ck p = Ok e /\ 1024 * e <= enc_alloc k p + ENC_TIGHT_C.
Proof. exact enc_estimate_tight. Qed.
Print Assumptions C17_enc_estimate_tight.

(* ... hence within a factor 2 of the real allocation *)
Theorem C17_enc_estimate_factor2 : forall k p ck, enc_params_ok k p = true ->
  exists e, enc_estimate ck p = Ok e /\ 1024 * e <= 2 * enc_alloc k p.
Proof. exact enc_estimate_factor2. Qed.
Print Assumptions C17_enc_estimate_factor2.

(* decoder: lzma_get_memory_usage / lzma_get_memory_usage_by_props *)
Theorem C17_dec_estimate_no_overflow : forall d lc lp, 0 <= d <= DICT_SIZE_MAX -> 0 <= lc <= 8 -> 0 <= lp <= 4 ->
  exists e, (forall ck, dec_estimate ck d lc lp = Ok e) /\ 0 <= e < U32 /\
            exists ds, lzma_dict_size d = Ok ds /\ e = 10 + ds / 1024 + literal_bytes (lc + lp) / 1024.
Proof. exact dec_estimate_no_overflow. Qed.
Print Assumptions C17_dec_estimate_no_overflow.

Theorem C17_dec_estimate_sound : forall d lc lp us ck,
  0 <= d <= DICT_SIZE_MAX -> 0 <= lc <= 8 -> 0 <= lp <= 4 -> 0 <= us ->
  exists e a, dec_estimate ck d lc lp = Ok e /\ dec_peak d lc lp us = Ok a /\ a <= 1024 * e.
Proof. exact dec_estimate_sound. Qed.
Print Assumptions C17_dec_estimate_sound.

(* tight when the declared uncompressed size [us] does not let the reader shrink its window *)
Theorem C17_dec_estimate_tight : forall d lc lp us ck,
  0 <= d <= DICT_SIZE_MAX -> 0 <= lc <= 8 -> 0 <= lp <= 4 -> Z.max d 4096 + 15 <= us ->
  exists e a, dec_estimate ck d lc lp = Ok e /\ dec_peak d lc lp us = Ok a /\ 1024 * e <= a + DEC_TIGHT_C.
Proof. exact dec_estimate_tight. Qed.
Print Assumptions C17_dec_estimate_tight.

Theorem C17_dec_estimate_by_props_spec : forall ck d props, 0 <= d <= DICT_SIZE_MAX -> 0 <= props <= 224 ->
  let pr := props mod 45 in
  dec_estimate_by_props ck d props = dec_estimate ck d (pr - pr / 9 * 9) (pr / 9) /\
  0 <= pr - pr / 9 * 9 <= 8 /\ 0 <= pr / 9 <= 4.
Proof. exact dec_estimate_by_props_spec. Qed.
Print Assumptions C17_dec_estimate_by_props_spec.

(* decoder: lzma2_get_memory_usage (after /repo 009e680, 525e235): EVERY u32 argument *)
Theorem C17_dec2_estimate_no_overflow : forall d, 0 <= d < U32 ->
  exists e, (forall ck, dec2_estimate ck d = Ok e) /\ 0 <= e < U32 /\
            exists ds, lzma2_dict_size_gen false false d = Ok ds /\ e = 104 + ds / 1024 /\
                       Z.max 4096 (Z.min d DICT_SIZE_MAX) <= ds <= Z.max 4096 (Z.min d DICT_SIZE_MAX) + 15.
Proof. exact dec2_estimate_no_overflow. Qed.
Print Assumptions C17_dec2_estimate_no_overflow.

Theorem C17_dec2_estimate_sound : forall d lclp nprops ck, 0 <= d < U32 -> 0 <= lclp <= 4 ->
  exists e a, dec2_estimate ck d = Ok e /\ dec2_alloc d lclp nprops = Ok a /\ a <= 1024 * e.
Proof. exact dec2_estimate_sound. Qed.
Print Assumptions C17_dec2_estimate_sound.

Theorem C17_dec2_estimate_tight : forall d lclp nprops ck, 0 <= d < U32 -> 0 <= lclp <= 4 ->
  exists e a, dec2_estimate ck d = Ok e /\ dec2_alloc d lclp nprops = Ok a /\ 1024 * e <= a + DEC2_TIGHT_C.
Proof. exact dec2_estimate_tight. Qed.
Print Assumptions C17_dec2_estimate_tight.

(* LZMAReader::new_mem_limit *)
(* need > limit -> Err(OutOfMemory) and the allocation trace is empty *)
Theorem C17_mem_limit_enforced : forall ck props d us limit rest need,
  dec_estimate_by_props ck d props = Ok need -> limit < need ->
  new_mem_limit ck props d us limit rest = {| tr_allocs := []; tr_result := Err E_OUT_OF_MEMORY |}.
Proof. exact mem_limit_enforced. Qed.
Print Assumptions C17_mem_limit_enforced.

(* every check precedes every allocation step: a call that does not succeed has allocated nothing *)
Theorem C17_mem_limit_check_precedes_allocation : forall ck props d us limit rest,
  (forall u, tr_result (new_mem_limit ck props d us limit rest) <> Ok u) ->
  tr_allocs (new_mem_limit ck props d us limit rest) = [].
Proof. exact mem_limit_check_precedes_allocation. Qed.
Print Assumptions C17_mem_limit_check_precedes_allocation.

(* a call that succeeds has allocated at most the need, which is at most the limit *)
Theorem C17_mem_limit_success_within_limit : forall ck props d us limit rest,
  0 <= d < U32 -> 0 <= props < 256 -> 0 <= us ->
  tr_result (new_mem_limit ck props d us limit rest) = Ok tt ->
  exists need, dec_estimate_by_props ck d props = Ok need /\ need <= limit /\
               sumZ (tr_allocs (new_mem_limit ck props d us limit rest)) <= 1024 * need.
Proof. exact mem_limit_success_within_limit. Qed.
Print Assumptions C17_mem_limit_success_within_limit.

(* the code before the fixes is refuted; one configuration stays a known finding *)
(* F19: LZMAOptions::with_preset(6).get_memory_usage() = 12 935 868 "KiB" for 97 283 913 bytes *)
Theorem C17_enc_estimate_old_refuted :
  exists p e, enc_params_ok KLzma2 p = true /\ enc_estimate_old true p = Ok e /\
              enc_estimate_old false p = Ok e /\ e = 12935868 /\ enc_alloc KLzma2 p = 97283913 /\
              ~ (1024 * e <= 100 * enc_alloc KLzma2 p + ENC_TIGHT_C).
Proof. exact enc_estimate_old_refuted. Qed.
Print Assumptions C17_enc_estimate_old_refuted.

(* the literal tables must be part of the figure (a pure port of XZ for Java's expression is unsound for LZMAWriter) *)
Theorem C17_enc_estimate_without_literal_term_refuted :
  exists p, enc_params_ok KLzma p = true /\ 1024 * enc_estimate_java_like p < enc_alloc KLzma p.
Proof. exact enc_estimate_without_literal_term_refuted. Qed.
Print Assumptions C17_enc_estimate_without_literal_term_refuted.

(* F12 + transient double literal tables of LZMA2Reader::decode_props *)
Theorem C17_dec2_estimate_old_refuted :
  dec2_estimate_old true 4294967295 = Panic P_OVERFLOW /\
  dec2_estimate_old false 4294967295 = Ok 104 /\
  (exists e a, dec2_estimate_old true 4096 = Ok e /\ dec2_alloc_old 4096 4 2 = Ok a /\ 1024 * e < a).
Proof. exact dec2_estimate_old_refuted. Qed.
Print Assumptions C17_dec2_estimate_old_refuted.

(* known finding C17/lzma2-chunk-restart: LZMA2Writer with chunk_size holds two encoders at a
   restart; witness of the class that C17_enc_estimate_sound excludes (it speaks about a writer
   without restart: enc_alloc, not enc_alloc_restart) *)
Theorem C17_enc_restart_exceeds_estimate :
  exists p e, enc_params_ok KLzma2 p = true /\ enc_estimate true p = Ok e /\ 1024 * e < enc_alloc_restart p.
Proof. exact enc_restart_exceeds_estimate. Qed.
Print Assumptions C17_enc_restart_exceeds_estimate.

Example C17_example_preset6 :
  let p := {| ep_dict := 8388608; ep_lc := 3; ep_lp := 0; ep_pb := 2; ep_mode := Normal; ep_mf := BT4; ep_nice := 64 |} in
  enc_params_ok KLzma2 p = true /\ enc_estimate true p = Ok 95174 /\ enc_alloc KLzma2 p = 97283913.
Proof. vm_compute. repeat split; reflexivity. Qed.

Example C17_example_dec :
  dec_estimate true 8388608 3 0 = Ok 8214 /\ dec_peak 8388608 3 0 (2 ^ 64 - 1) = Ok 8400957 /\
  dec2_estimate true 4294967295 = Ok 4194407 /\ dec2_alloc 4096 4 2 = Ok 94203.
Proof. vm_compute. repeat split; reflexivity. Qed.

Example C17_example_mem_limit :
  dec_estimate_by_props true 8388608 93 = Ok 8214 /\
  new_mem_limit true 93 8388608 (2 ^ 64 - 1) 8213 [0; 0; 0; 0; 0] = {| tr_allocs := []; tr_result := Err E_OUT_OF_MEMORY |} /\
  new_mem_limit true 93 8388608 (2 ^ 64 - 1) 8214 [0; 0; 0; 0; 0] = {| tr_allocs := [8388608; 12288]; tr_result := Ok tt |}.
Proof. vm_compute. repeat split; reflexivity. Qed.
