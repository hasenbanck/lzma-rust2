(* Properties/C13.v — compressed output is a pure function of input and options.
   Theorem statements, each closed by [exact] of a lemma proved elsewhere; the non-vacuity Examples at
   the end are proved in place.

   What "pure function" means here.  The models are Gallina functions, so repeated runs of a
   MODEL are trivially identical; the content is that nothing the encoder decides can depend on
   how the caller cuts the data into write() calls.  The encoder's decisions are taken by code
   that is NOT modelled (HC4/BT4 match finders, fast/normal parsers).  They enter as an arbitrary
   strategy tree ([strat], Codec/EncWindow.v) that is told the logical stream position and its
   own previous state, and that can only observe what the Rust code lets the parsers and match
   finders observe of the window's fill state: min(avail, MATCH_LEN_MAX) at each match-finder
   move and min(get_avail(), c) for constants c.  ASSUMPTION (the reason this property is claimed
   PARTIAL): the real match finders and parsers are such strategies, i.e. functions of the window
   CONTENT in [read_pos - dict_size, read_pos + clamp) (a function of the data and the logical
   position), of their own state (hash tables and optimum arrays: zero-/fully initialised by the
   constructors, updated once per position — EncWindowProofs.v shows that process_pending_bytes
   re-runs exactly the pending positions (process_pending_spec) and that a consultation in the
   steady phase never finds a pending position (phi_consult_nopend) —), and of those clamped
   observations; they use lz.get_pos() only modulo a power of two <= 16 (window
   moves are multiples of 64: history_kept).  The correspondence run checks the consequences on
   the real code (identical bytes and symbol traces across partitions and repeated runs). *)
From LzVerif Require Import Base.Bytes Codec.EncWindow Codec.EncWindowProofs.

(* With the full look-ahead in the window (the only situation in which
   encode_symbol consults the parser while the writer is neither flushing nor finishing, see
   phi_consult_nopend in EncWindowProofs.v) two encoder states that differ in how much MORE data
   has already been written (write_pos, read_limit) lead every strategy to the same decision. *)
Theorem C13_lookahead_clamped : forall (PS : Type) p (s : strat PS) e e' tr tr',
  wf_p p -> minv p e -> minv p e' ->
  read_ahead e = read_ahead e' ->
  match_len_max p + extra_after p - read_ahead e <= write_pos (e_lz e) - read_pos (e_lz e) ->
  match_len_max p + extra_after p - read_ahead e' <= write_pos (e_lz e') - read_pos (e_lz e') ->
  forall e1 len full ps1 tr1 e1' len' full' ps1' tr1',
  run_strat PS p s e tr = Ok (e1, len, full, ps1, tr1) ->
  run_strat PS p s e' tr' = Ok (e1', len', full', ps1', tr1') ->
  len = len' /\ full = full' /\ ps1 = ps1' /\ read_ahead e1 = read_ahead e1'.
Proof. exact lookahead_clamped. Qed.
Print Assumptions C13_lookahead_clamped.

(* LZMAWriter (and LZIPWriter, one LZMAWriter per member, members
   cut by byte counts only): two call histories over the same amount of data — any partition into
   write() calls, empty writes, flush() calls — drive every parser strategy through the same
   consultations: same symbol lengths in the same order, same final parser state (which may record
   the complete symbols).  With Codec/LzmaWriters.v ([lzma1_write]: the bytes are a function of
   options, data and the symbol sequence; validated against the real encoder by the lzmaenc
   correspondence) the compressed bytes are equal. *)
Theorem C13_enc_partition_independent_lzma1 : forall (PS : Type) (parse : PS -> Z -> Z -> strat PS) (ps0 : PS)
    normal bt4 dict nice preset expected body body' s0 s1 res s1' res',
  opts_ok dict nice ->
  (match preset with Some plen => 0 <= plen | None => True end) ->
  ops_ok body -> ops_ok body' -> no_finish body -> no_finish body' ->
  ops_total body = ops_total body' ->
  (match expected with Some ex => ex = ops_total body | None => True end) ->
  (match preset with Some plen => Z.min plen dict | None => 0 end) + ops_total body <= U32_MAX ->
  l1_new PS normal bt4 dict nice preset expected ps0 = Ok s0 ->
  l1_run PS parse s0 (body ++ [WoFinish]) [] = Ok (s1, res) ->
  l1_run PS parse s0 (body' ++ [WoFinish]) [] = Ok (s1', res') ->
  rsyms (l1_tr _ s1) = rsyms (l1_tr _ s1') /\ l1_ps _ s1 = l1_ps _ s1'.
Proof. exact enc_partition_independent_lzma1. Qed.
Print Assumptions C13_enc_partition_independent_lzma1.

(* LZMA2Writer without chunk_size (XZWriter without block size
   forwards to one LZMA2Writer) and without flush() calls: two partitions of the same amount of
   data lead every parser strategy AND every range-coder oracle through the same consultations
   and the same chunk decisions: same symbol lengths, same LZMA / uncompressed chunks with the
   same sizes, same final oracle state.  With Codec/LzmaWriters.v ([lzma2_write]: the bytes are a
   function of options, data and this event sequence) the compressed bytes are equal. *)
Theorem C13_enc_partition_independent_lzma2 : forall (PS : Type) (parse : PS -> Z -> Z -> strat PS) (chunkc : PS -> Z -> Z * PS) (ps0 : PS)
    normal bt4 dict nice preset body body' s0 s1 res s1' res',
  opts_ok dict nice ->
  (match preset with Some plen => 0 <= plen | None => True end) ->
  ops_ok body -> ops_ok body' -> no_finish body -> no_finish body' -> no_flush body -> no_flush body' ->
  ops_total body = ops_total body' -> ops_total body <= 4611686018427387904 ->
  l2_new_repaired PS normal bt4 dict nice preset None ps0 = Ok s0 ->
  l2_run PS parse chunkc s0 (body ++ [WoFinish]) [] = Ok (s1, res) ->
  l2_run PS parse chunkc s0 (body' ++ [WoFinish]) [] = Ok (s1', res') ->
  rsyms (l2_tr _ s1) = rsyms (l2_tr _ s1') /\ l2_ps _ s1 = l2_ps _ s1'.
Proof. exact enc_partition_independent_lzma2. Qed.
Print Assumptions C13_enc_partition_independent_lzma2.

(* The runs the two theorems speak about exist and are safe: for every history, parser and
   oracle the LZMA2 run ends Ok (or with a contract violation of the oracle), never in a panic. *)
Theorem C13_lzma2_run_exact : forall (PS : Type) (parse : PS -> Z -> Z -> strat PS) (chunkc : PS -> Z -> Z * PS) (ps0 : PS)
    normal bt4 dict nice preset chunk ops,
  opts_ok dict nice ->
  (match preset with Some plen => 0 <= plen | None => True end) ->
  ops_ok ops -> ops_total ops <= 4611686018427387904 ->
  okor (do s <- l2_new_repaired PS normal bt4 dict nice preset chunk ps0; l2_run PS parse chunkc s ops [])
       (fun r =>
          let '(s1, res) := r in
          let '(rs, c, fin) := l2_results 0 ops in
          res = rs /\ sum_fill (l2_tr _ s1) = c /\
          (fin = true -> sum_chunk (l2_tr _ s1) = c /\ sum_sym (l2_tr _ s1) + sum_abs (l2_tr _ s1) = c)).
Proof. exact lzma2_run_exact. Qed.
Print Assumptions C13_lzma2_run_exact.

(* One window move shifts by a multiple of 64 (at least 64) and leaves between
   keep_size_before and keep_size_before + 63 bytes of history before the read position, so the
   dictionary stays reachable.  (That buffer and logical positions agree modulo 64 after any
   number of moves follows move by move; it is not stated as a theorem.) *)
Theorem C13_history_kept : forall p d tr, wf_p p -> lzinv p d ->
  buf_size p - keep_after p <= read_pos d ->
  exists off, move_window p d tr =
    Ok (mkLzd (read_pos d - off) (read_limit d - off) (finishing d) (write_pos d - off) (pending_size d),
        EvMove off (write_pos d - off) :: tr) /\
    64 <= off /\ off mod 64 = 0 /\ keep_before p <= (read_pos d - off) + 1 /\ (read_pos d - off) + 1 < keep_before p + 64.
Proof. exact history_kept. Qed.
Print Assumptions C13_history_kept.

(* Non-vacuity: the same 300 bytes in one write and in 1 + 0 + 299 bytes with a flush: a strategy
   that always advances one position and emits a literal is consulted identically. *)
Example C13_example :
  let parse := fun (ps : Z) (_ _ : Z) => SMove (fun _ => SEmit 1 false (ps + 1)) in
  match l1_new Z false false 4096 32 None None 0 with
  | Ok s0 =>
      match l1_run Z parse s0 [WoWrite 300; WoFinish] [], l1_run Z parse s0 [WoWrite 1; WoWrite 0; WoFlush; WoWrite 299; WoFinish] [] with
      | Ok (s1, _), Ok (s1', _) => rsyms (l1_tr _ s1) = rsyms (l1_tr _ s1') /\ l1_ps _ s1 = 299 /\ l1_ps _ s1' = 299
      | _, _ => False
      end
  | _ => False
  end.
Proof. vm_compute. repeat split; reflexivity. Qed.

Example C13_example_lzma2 :
  let parse := fun (ps : Z) (_ _ : Z) => SMove (fun _ => SEmit 1 false (ps + 1)) in
  let chunkc := fun (ps : Z) (u : Z) => (u + 5, ps + 1000) in
  match l2_new_repaired Z false false 4096 32 None None 0 with
  | Ok s0 =>
      match l2_run Z parse chunkc s0 [WoWrite 300; WoFinish] [], l2_run Z parse chunkc s0 [WoWrite 1; WoWrite 0; WoWrite 299; WoFinish] [] with
      | Ok (s1, _), Ok (s1', _) => rsyms (l2_tr _ s1) = rsyms (l2_tr _ s1') /\ l2_ps _ s1 = 1299 /\ l2_ps _ s1' = 1299
      | _, _ => False
      end
  | _ => False
  end.
Proof. vm_compute. repeat split; reflexivity. Qed.
