(* Properties/C01Lzma2.v — C01 for the LZMA2 container: LZMA2 writer model, then LZMA2Reader model,
   for EVERY sequence of destination buffer sizes.  Only theorem statements.

   Layers: Lzma2FrameSyncProofs.v (whatever the writer model accepts and writes is a well-formed
   chunk sequence [chunks_ok]: control bytes, sizes, props, dictionary/state resets, stored chunks,
   independent restarts), Lzma2ReadProofs.v (the reader model decodes every well-formed chunk
   sequence, whatever budgets the caller's buffers and the cyclic window impose on the decode calls),
   on top of the codec theorems of C01.v.

   Side conditions:
     - no end marker among the LZMA2 symbols (the writer MODEL does not reject it; the real LZMA2
       encoder never emits one); it is needed: lzma2_end_marker_refuted (Lzma2ExamplesProofs.v);
     - preset dictionary: None, or non-empty.  An empty preset counts as none in writer and reader
       (/repo 14cc6e9) and the models follow the repaired code:
       lzma2_empty_preset_fixed evaluates two instances with Some [], which round-trip; the
       theorems do not cover Some [].
   The bound on coded decisions per chunk needed by the range-coder theorem is DERIVED: a chunk
   holds at most 2^21 bytes, every symbol produces at least one byte and at most 64 decisions.
   PARTIAL (preset): not proved for a preset LONGER than a dictionary size that the reader rounds
   (l2_window_size dict = dict clamped to >= 4096 and rounded up to a multiple of 16). *)
From LzVerif Require Import Base.Bytes Codec.Store Codec.Range Codec.LzWindow Codec.LzmaDec Codec.LzmaEnc
  Codec.LzmaWriters Codec.Lzma2Dec Codec.Lzma2SpecProofs Codec.Lzma2FrameSyncProofs Codec.Lzma2ReadProofs
  Codec.Lzma2ExamplesProofs.

Theorem C01_lzma2_frame_sync : forall lc lp pb dict preset data evs stream,
  dict <= 2147483648 -> l2_no_end evs ->
  lzma2_write lc lp pb dict preset data evs = Ok stream ->
  chunks_ok lc lp pb (start_level preset) (ehist_new dict (preset_list preset) data) stream.
Proof. exact lzma2_frame_sync. Qed.
Print Assumptions C01_lzma2_frame_sync.

Theorem C01_lzma2_roundtrip : forall lc lp pb dict data evs stream tail sizes,
  0 <= lc -> 0 <= lp -> lc + lp <= 4 -> 0 <= pb <= 4 -> dict <= 2147483648 ->
  bytes_ok data = true ->
  l2_no_end evs ->
  lzma2_write lc lp pb dict None data evs = Ok stream ->
  Forall (fun z => 0 < z) sizes ->
  exists s0, lzma2_new (stream ++ tail) dict None = Ok s0 /\
    forall fuel, (length data + 2 <= fuel)%nat ->
    exists s_end, lzma2_read_all fuel s0 sizes sizes [] = Ok (data, 0, s_end) /\ m_in s_end = tail.
Proof. exact lzma2_roundtrip. Qed.
Print Assumptions C01_lzma2_roundtrip.

Theorem C01_lzma2_roundtrip_preset : forall lc lp pb dict p data evs stream tail sizes,
  0 <= lc -> 0 <= lp -> lc + lp <= 4 -> 0 <= pb <= 4 -> dict <= 2147483648 ->
  p <> [] -> (zlen p <= dict \/ l2_window_size dict = dict) ->
  bytes_ok p = true -> bytes_ok data = true ->
  l2_no_end evs ->
  lzma2_write lc lp pb dict (Some p) data evs = Ok stream ->
  Forall (fun z => 0 < z) sizes ->
  exists s0, lzma2_new (stream ++ tail) dict (Some p) = Ok s0 /\
    forall fuel, (length data + 2 <= fuel)%nat ->
    exists s_end, lzma2_read_all fuel s0 sizes sizes [] = Ok (data, 0, s_end) /\ m_in s_end = tail.
Proof. exact lzma2_roundtrip_preset. Qed.
Print Assumptions C01_lzma2_roundtrip_preset.

(* non-vacuity: the hypotheses hold for a stream with an LZMA chunk, a stored chunk, an independent
   restart and a second LZMA chunk *)
Example C01_lzma2_roundtrip_hyps :
  bytes_ok ex_data = true /\ l2_no_end ex_evs /\ lzma2_write 3 0 2 4096 None ex_data ex_evs = Ok ex_stream.
Proof. exact lzma2_roundtrip_hyps. Qed.

(* the first side condition is needed *)
Theorem C01_lzma2_end_marker_refuted :
  exists data evs, bytes_ok data = true /\ ~ l2_no_end evs /\
    l2_run 3 0 2 4096 None data evs [5] = Ok ([], E_INVALID_INPUT).
Proof. exact lzma2_end_marker_refuted. Qed.
Print Assumptions C01_lzma2_end_marker_refuted.
