(* Properties/C08.v — multi-threaded readers and writers are equivalent to the single-threaded ones
   (the protocol, and unit cutting over an abstract chunk decoder).  Also the schedule-independence clause of
   C13.  Theorem statements, each closed by [exact] of a lemma proved in Mt/*Proofs.v; the non-vacuity
   Examples are proved in place.

   The model (Mt/Protocol.v): coordinator + N workers + work queue (mutex, condvar, closed flag) +
   mpsc channel + error_store + shutdown flag + active-worker counter, one visible operation per
   step, for LZMA2ReaderMT / LZIPReaderMT (kind Reader) and LZMA2WriterMT / LZIPWriterMT (kind
   Writer).  [f : nat -> R + Z] is the worker's unit function (decode or encode of unit number q:
   a payload or an error kind), [src] what the source delivers, [p] what the caller does, and a
   state is [reachable] if some schedule (list of thread ids) leads to it from [init].
   All statements hold for EVERY configuration: worker count, pinned or repaired code. *)
From LzVerif Require Import Base.Bytes Mt.Protocol Mt.ProtocolLemmas Mt.ProtocolInv Mt.SafetyProofs Mt.Units Mt.UnitsProofs Mt.Refuted.
Local Open Scope nat_scope.

(* Whatever the schedule, the payloads handed to the caller (reader) / written to the sink (writer)
   so far are exactly the results of units 0 .. nr-1, in this order, all of them successes of the
   unit function — whichever worker finished first. *)
Theorem C08_mt_safety : forall (R : Type) (f : nat -> R + Z) c src p (s : state R),
  reachable f c src p s -> map inl (out s) = map f (seq 0 (nr s)) /\ nr s <= nd s.
Proof. exact @mt_safety. Qed.
Print Assumptions C08_mt_safety.

(* every unit is taken from the queue at most once, and only units that were dispatched *)
Theorem C08_mt_once : forall (R : Type) (f : nat -> R + Z) c src p (s : state R),
  reachable f c src p s -> NoDup (popped s) /\ forall q, In q (popped s) -> q < nd s + 1.
Proof. exact @mt_once. Qed.
Print Assumptions C08_mt_once.

(* every payload in flight carries the result of the unit whose sequence number it is tagged with *)
Theorem C08_mt_tagged : forall (R : Type) (f : nat -> R + Z) c src p (s : state R) q r,
  reachable f c src p s ->
  In (MRes q r) (ch s) \/ In (q, r) (reo s) \/ In (WSend q r) (ws s) -> f q = inl r.
Proof. exact @mt_tagged. Qed.
Print Assumptions C08_mt_tagged.

(* C13, schedule clause: two runs of the same kind of object over the same unit function — under
   different schedules, worker counts, even different caller programs — that have handed out the
   same number of units have handed out the same payloads. *)
Theorem C08_mt_output_schedule_free : forall (R : Type) (f : nat -> R + Z) c1 c2 src1 src2 p1 p2 (s1 s2 : state R),
  reachable f c1 src1 p1 s1 -> reachable f c2 src2 p2 s2 -> nr s1 = nr s2 -> out s1 = out s2.
Proof. exact @mt_output_schedule_free. Qed.
Print Assumptions C08_mt_output_schedule_free.

(* writers: the units (cut_fixed: a unit is sent when it has reached [size] bytes, the remainder
   at finish) concatenate to the data and do not depend on how the data was split into write()
   calls *)
Theorem C08_cut_fixed_concat : forall size data, 0 < size -> concat (cut_fixed size data) = data.
Proof. exact cut_fixed_concat. Qed.
Print Assumptions C08_cut_fixed_concat.

Theorem C08_cut_writes_partition : forall size parts, 0 < size ->
  cut_writes size parts = cut_fixed size (concat parts).
Proof. exact cut_writes_partition. Qed.
Print Assumptions C08_cut_writes_partition.

(* LZMA2 reader: decoding the units one by one with a fresh decoder each and concatenating gives
   what one decoder gives on the whole chunk sequence, for every decoder whose state after a
   dictionary-reset chunk does not depend on the state before *)
Theorem C08_unit_cut_sound : forall (D : Type) (step : D -> chunk -> option (D * list Z)) (d0 : D),
  (forall d k, chunk_independent k = true -> step d k = step d0 k) ->
  forall chunks, decode_units D step d0 (cut_chunks chunks) = decode_chunks D step d0 chunks.
Proof. exact unit_cut_sound. Qed.
Print Assumptions C08_unit_cut_sound.

(* LZIP reader: for a file that is a concatenation of members (each at least header + trailer long,
   starting with the magic bytes, its member_size field holding its length) the backward scan over
   the trailers returns exactly the member table, in forward order *)
Theorem C08_lzip_scan_sound : forall ms : list (list Z),
  ms <> [] -> Forall wf_member ms -> scan_members (concat ms) = Ok (member_table 0 ms).
Proof. exact lzip_scan_sound. Qed.
Print Assumptions C08_lzip_scan_sound.

(* Non-vacuity: a reachable state of the repaired reader with two workers in which a result waits
   in the reorder map because an earlier unit is still being processed. *)
Example C08_out_of_order_example :
  exists sched (s : state Z),
    run_strict f_ok (fixed_cfg Reader 2 true) (init (fixed_cfg Reader 2 true)
                 [(true, SCont); (true, SEnd)] [OpRead; OpRead; OpRead]) sched = Some s /\
    length (ws s) = 2 /\ reo s = [(1, 1%Z)] /\ nr s = 0.
Proof.
  exists ([Co 0; Co 0; Co 0; Co 0; Co 0] ++ [Co 0; Co 0; Co 0; Co 0; Co 0] ++   (* unit 0 dispatched *)
          [Wk 0; Wk 0; Wk 0; Wk 0] ++                                           (* worker 0 holds unit 0 *)
          [Co 0; Co 0; Co 0; Co 0; Co 0] ++ [Co 0; Co 0; Co 0; Co 0; Co 0; Co 0] ++ (* unit 1, spawn *)
          [Wk 1; Wk 1; Wk 1; Wk 1; Wk 1] ++                                     (* worker 1 sends unit 1 *)
          [Co 0; Co 0; Co 0]).                                                  (* recv: out of order *)
  eexists. split; [vm_compute; reflexivity|vm_compute; auto].
Qed.
