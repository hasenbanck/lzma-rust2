(* Properties/C08Units.v — C08, data side: the work units of the multi-threaded LZMA2 / LZIP readers
   and writers with the CONCRETE codecs.  Properties/C08.v states the protocol (every schedule
   hands out f 0, f 1, ... in order, for an abstract unit function f) and the cutting over an
   abstract chunk decoder (C08_unit_cut_sound, hypothesis: a dictionary-reset chunk decodes the same
   from every state).  Here that hypothesis is discharged for the LZMA2 reader model of C01/C16
   (Codec/Lzma2Dec.v) and the statements are closed: what the workers compute from the units, in
   unit order, is what the single-threaded reader returns.  Only theorem statements, closed by
   [exact] of lemmas of Mt/Lzma2Units*Proofs.v and Mt/LzipUnitsProofs.v.

   Vocabulary (Mt/Lzma2Units.v):
     dstate         what the decoding of later chunks depends on: history since the last dictionary
                    reset, coder + tables (while need_props = false), need_props, need_dict_reset;
     astep ds d k   one whole chunk k decoded from state d with a [ds]-byte buffer: new state and
                    output, None = the reader fails somewhere in the chunk;
     d_init ds p    LZMA2Reader::new with preset dictionary p (LZMA2ReaderMT gives every worker
                    the same p);
     adecode        chunks up to the 0x00 control byte; result: data and the bytes after it;
     l2_read_result fuel u dict p sizes   LZMA2Reader::new(u, dict, p), then read() calls with the
                    destination sizes [sizes] (cyclically) until one returns 0 bytes or fails:
                    Ok (bytes, status, final state), status 0 = end of stream, else the error kind;
     l2_decodes u dict p du   l2_read_result returns du, status 0, end marker reached - for every
                    history of destination sizes and every sufficient number of read() calls;
     cut_lzma2      (Mt/Units.v) read_and_dispatch_chunk on the byte stream: the work units, each
                    closed by the 0x00 the coordinator appends. *)
From LzVerif Require Import Base.Bytes Codec.LzmaEnc Codec.LzmaWriters Codec.Lzma2Dec Codec.Lzma2ExamplesProofs
  Format.LzipFormat Format.LzipDict Format.LzipProofs Format.PayloadLzma1Proofs
  Format.ComposeProofs Format.ComposeExamplesProofs
  Mt.Units Mt.UnitsProofs Mt.Lzma2Units Mt.Lzma2UnitsAbsProofs Mt.Lzma2UnitsSimProofs Mt.Lzma2UnitsProofs
  Mt.LzipUnitsProofs.
Local Open Scope Z_scope.

(* The hypothesis of C08_unit_cut_sound, for the concrete decoder: a chunk whose control byte is
   0x01 or >= 0xE0 (is_independent_chunk of read_and_dispatch_chunk) produces the same output and
   the same successor state from ANY state as from the initial state - without or with a preset
   dictionary (the chunk resets the dictionary, so the preset is dropped like any other history). *)
Theorem C08_lzma2_units_independent : forall (ds : Z) (preset : option (list Z)) (d : dstate) (k : chunk),
  chunk_independent k = true -> astep ds d k = astep ds (d_init ds preset) k.
Proof. exact astep_indep_init. Qed.
Print Assumptions C08_lzma2_units_independent.

(* hence, with no hypothesis left: decoding the units one by one, each from the initial state, and
   concatenating = decoding the whole chunk sequence (error case included); dependent chunks stay
   in one unit *)
Theorem C08_lzma2_unit_cut_sound : forall (ds : Z) (preset : option (list Z)) (ks : list chunk),
  decode_units dstate (astep ds) (d_init ds preset) (cut_chunks ks) =
  decode_chunks dstate (astep ds) (d_init ds preset) ks.
Proof. exact lzma2_unit_cut_sound. Qed.
Print Assumptions C08_lzma2_unit_cut_sound.

(* The chunk decoder is what LZMA2Reader computes (model of C01/C16), for EVERY source byte string
   and whatever sizes the destination buffers of the read() calls have: *)
Theorem C08_lzma2_reader_sound : forall dict preset input data tail,
  bytes_ok input = true ->
  adecode (l2_wsize dict) (d_init (l2_wsize dict) preset) input = Some (data, tail) ->
  forall sizes fuel, Forall (fun z => 0 < z) sizes -> (length data + 2 <= fuel)%nat ->
  exists s0 s_end, lzma2_new input dict preset = Ok s0 /\
    lzma2_read_all fuel s0 sizes sizes [] = Ok (data, 0, s_end) /\
    m_end_reached s_end = true /\ m_error s_end = None /\ m_in s_end = tail.
Proof. exact reader_sound. Qed.
Print Assumptions C08_lzma2_reader_sound.

(* ... and conversely: a read history that ends with status 0 (a read() returned 0 bytes; every
   error kind of the reader model is non-zero) has reached the end marker and returned what the chunk
   decoder says - so where the chunk decoder fails, every read history fails *)
Theorem C08_lzma2_reader_complete : forall dict preset input sizes fuel s0 data s_end,
  bytes_ok input = true ->
  lzma2_new input dict preset = Ok s0 -> Forall (fun z => 0 < z) sizes ->
  lzma2_read_all fuel s0 sizes sizes [] = Ok (data, 0, s_end) ->
  adecode (l2_wsize dict) (d_init (l2_wsize dict) preset) input = Some (data, m_in s_end) /\
  m_end_reached s_end = true.
Proof. exact reader_complete0. Qed.
Print Assumptions C08_lzma2_reader_complete.

(* the byte-level cutting of read_and_dispatch_chunk is the chunk-level cutting, each unit closed
   by 0x00, and the source ends cleanly *)
Theorem C08_lzma2_cut_units : forall ks rest, Forall chunk_stable ks ->
  cr_units (cut_lzma2 (flat ks ++ 0 :: rest)) = map unit_bytes (cut_chunks ks) /\
  cr_end (cut_lzma2 (flat ks ++ 0 :: rest)) = None.
Proof. exact cut_lzma2_units. Qed.
Print Assumptions C08_lzma2_cut_units.

(* LZMA2ReaderMT, data side.  For every byte stream that the single-threaded reader decodes (some
   history of read() calls returns [data] with status 0) - chunks independent or not,
   with or without preset dictionary: the coordinator cuts it without error, every work unit is
   decoded by a fresh reader (same dict_size, same preset dictionary: worker_thread_logic) to some
   [du] for every history of destination sizes, and the [du] in unit order concatenate to [data].
   With C08_mt_safety (units handed out in order, whatever the schedule) this is the reader clause
   of C08. *)
Theorem C08_lzma2_mt_reader_data : forall dict preset stream sizes fuel data s_end,
  bytes_ok stream = true -> Forall (fun z => 0 < z) sizes ->
  l2_read_result fuel stream dict preset sizes = Ok (data, 0, s_end) ->
  cr_end (cut_lzma2 stream) = None /\
  exists datas, Forall2 (fun u du => l2_decodes u dict preset du) (cr_units (cut_lzma2 stream)) datas /\
                concat datas = data.
Proof. exact lzma2_mt_reader_data. Qed.
Print Assumptions C08_lzma2_mt_reader_data.

(* LZMA2WriterMT, data side.  Every unit [data] is written by a fresh LZMA2Writer without preset
   dictionary and flushed (worker_thread_logic; mt_unit_written: the writer model accepts the
   encoder's decisions [evs] and writes body ++ [0]); the coordinator emits the bodies in order
   and one 0x00.  The single-threaded reader decodes that stream to the units' data in order, for
   every history of destination sizes (and then, by C08_lzma2_mt_reader_data, so do the workers of
   LZMA2ReaderMT on its units). *)
Theorem C08_lzma2_mt_writer_data : forall lc lp pb dict us tail,
  0 <= lc -> 0 <= lp -> lc + lp <= 4 -> 0 <= pb <= 4 -> dict <= 2147483648 ->
  Forall (mt_unit_written lc lp pb dict) us -> bytes_ok tail = true ->
  forall sizes fuel, Forall (fun z => 0 < z) sizes -> (length (mt_data us) + 2 <= fuel)%nat ->
  exists s0 s_end, lzma2_new (mt_bodies us ++ 0 :: tail) dict None = Ok s0 /\
    lzma2_read_all fuel s0 sizes sizes [] = Ok (mt_data us, 0, s_end) /\
    m_end_reached s_end = true /\ m_error s_end = None /\ m_in s_end = tail.
Proof. exact lzma2_mt_writer_data. Qed.
Print Assumptions C08_lzma2_mt_writer_data.

(* ... and multi-threaded on both sides: the units LZMA2ReaderMT cuts from that stream decode, each
   by a fresh reader, to pieces that concatenate to the written data *)
Theorem C08_lzma2_mt_writer_mt_reader : forall lc lp pb dict us tail,
  0 <= lc -> 0 <= lp -> lc + lp <= 4 -> 0 <= pb <= 4 -> dict <= 2147483648 ->
  Forall (mt_unit_written lc lp pb dict) us -> bytes_ok tail = true ->
  cr_end (cut_lzma2 (mt_bodies us ++ 0 :: tail)) = None /\
  exists datas, Forall2 (fun u du => l2_decodes u dict None du) (cr_units (cut_lzma2 (mt_bodies us ++ 0 :: tail))) datas /\
                concat datas = mt_data us.
Proof. exact lzma2_mt_writer_mt_reader. Qed.
Print Assumptions C08_lzma2_mt_writer_mt_reader.

(* LZIP.  A file of members (LZIPWriterMT: one member per work unit; any concatenation): the
   backward scan of LZIPReaderMT finds exactly the members, each member alone is decoded by a fresh
   LZIPReader (the worker) to its own content, and the single-threaded reader decodes the file to
   the contents in order.  Side conditions of C12_lzip_multi_lzma1 (lm_ok_l1: the encoder's
   decisions are accepted by the writer model, enough read() calls, u64 counters do not wrap). *)
Theorem C08_lzip_units_data : forall (ch : Z -> list Z -> list sym) (calls : nat) (m : lzm) (ms : list lzm),
  Forall (lm_ok_l1 ch calls) (m :: ms) ->
  scan_members (lm_file (l1_penc ch) (m :: ms)) = Ok (member_table 0 (map (lm_bytes (l1_penc ch)) (m :: ms))) /\
  Forall (fun x => lz_decode (lzip_payload_dec_n calls) lz_fixed (lm_bytes (l1_penc ch) x) = Ok (lm_content x, []))
         (m :: ms) /\
  lz_decode (lzip_payload_dec_n calls) lz_fixed (lm_file (l1_penc ch) (m :: ms)) =
    Ok (concat (map lm_content (m :: ms)), []).
Proof. exact lzip_units_data. Qed.
Print Assumptions C08_lzip_units_data.

(* independence: the stored chunk "0x01, 1 byte" decodes to the same output and successor state from
   the initial state and from a state with history, coder and tables *)
Example C08_units_independent_example :
  let k := mkChunk 1 [1; 0; 0; 33] in
  let d := mkD [9; 8; 7] (Some (coder_new 3 0 2)) PLeaf false false in
  astep 4096 d k = Some (mkD [33] None PLeaf true false, [33]) /\
  astep 4096 (d_init 4096 None) k = Some (mkD [33] None PLeaf true false, [33]) /\
  (* the dependent chunk 0x02 does see the history *)
  astep 4096 d (mkChunk 2 [2; 0; 0; 33]) = Some (mkD [33; 9; 8; 7] (Some (coder_new 3 0 2)) PLeaf false false, [33]) /\
  astep 4096 (d_init 4096 None) (mkChunk 2 [2; 0; 0; 33]) = None.
Proof. cbv zeta. repeat split; vm_compute; reflexivity. Qed.

(* the stream of C01's example (Lzma2ExamplesProofs.ex_stream): an LZMA chunk with dictionary reset,
   a DEPENDENT stored chunk, an LZMA chunk with dictionary reset, end marker.  The single-threaded
   reader returns the 10 bytes; the coordinator cuts two units (the dependent chunk stays with the
   first); fresh readers return 8 and 2 bytes. *)
(* [ex_done r] = data, status and end flag of a reader result (Mt/Lzma2UnitsProofs.v) *)
Example C08_lzma2_mt_reader_example :
  ex_done (l2_read_result 20 ex_stream 4096 None [3; 1]) = Some (ex_data, 0, true) /\
  cr_units (cut_lzma2 ex_stream) =
    [[224; 0; 5; 0; 7; 93; 0; 48; 152; 158; 4; 0; 0; 0; 2; 0; 1; 99; 100; 0];
     [224; 0; 1; 0; 6; 93; 0; 50; 153; 124; 0; 0; 0; 0]] /\
  map (fun u => ex_done (l2_read_result 20 u 4096 None [4])) (cr_units (cut_lzma2 ex_stream)) =
    [Some ([97; 98; 97; 98; 97; 98; 99; 100], 0, true); Some ([101; 102], 0, true)].
Proof. repeat split; vm_compute; reflexivity. Qed.

(* the same by the theorem: its hypotheses hold for this stream *)
Example C08_lzma2_mt_reader_instance :
  exists datas, Forall2 (fun u du => l2_decodes u 4096 None du) (cr_units (cut_lzma2 ex_stream)) datas /\
                concat datas = ex_data.
Proof.
  destruct (l2_read_result 20 ex_stream 4096 None [3; 1]) as [[[data stt] s_end]|e|e|] eqn:Hr;
    try (vm_compute in Hr; discriminate).
  assert (Hd : data = ex_data /\ stt = 0) by (vm_compute in Hr; inversion Hr; split; reflexivity).
  destruct Hd as (-> & ->).
  exact (proj2 (C08_lzma2_mt_reader_data 4096 None ex_stream [3; 1] 20 ex_data s_end eq_refl
                  ltac:(repeat constructor; lia) Hr)).
Qed.

(* a preset dictionary: the first unit starts with a chunk that does NOT reset the dictionary (the
   preset allows it), the second with one that does; every worker gets the preset *)
Example C08_lzma2_mt_reader_preset_example :
  let p := Some [97; 98; 99] in
  let stream := [2; 0; 0; 120; 1; 0; 0; 121; 2; 0; 0; 122; 0] in
  ex_done (l2_read_result 20 stream 4096 p [2]) = Some ([120; 121; 122], 0, true) /\
  cr_units (cut_lzma2 stream) = [[2; 0; 0; 120; 0]; [1; 0; 0; 121; 2; 0; 0; 122; 0]] /\
  map (fun u => ex_done (l2_read_result 20 u 4096 p [2])) (cr_units (cut_lzma2 stream)) =
    [Some ([120], 0, true); Some ([121; 122], 0, true)] /\
  (* without the preset dictionary the first unit is rejected, by the single reader too *)
  ex_done (l2_read_result 20 stream 4096 None [2]) = Some ([], E_INVALID_INPUT, false).
Proof. cbv zeta. repeat split; vm_compute; reflexivity. Qed.

(* LZMA2WriterMT: two units, each C01's example written by its own writer; the hypotheses of the
   theorem hold, and evaluated: the concatenation decodes to both data *)
(* ex_body = ex_stream without its end marker; ex_units = this unit twice (Mt/Lzma2UnitsProofs.v) *)
Example C08_lzma2_mt_writer_hyps : Forall (mt_unit_written 3 0 2 4096) ex_units.
Proof.
  assert (H : mt_unit_written 3 0 2 4096 (ex_data, ex_evs, ex_body)).
  { destruct lzma2_roundtrip_hyps as (Hb & Hne & Hw).
    split; [exact Hb|]. split; [exact Hne|]. rewrite Hw. reflexivity. }
  constructor; [exact H|]. constructor; [exact H|]. constructor.
Qed.

Example C08_lzma2_mt_writer_example :
  ex_done (l2_read_result 30 (mt_bodies ex_units ++ [0; 7; 7]) 4096 None [5]) = Some (ex_data ++ ex_data, 0, true) /\
  length (cr_units (cut_lzma2 (mt_bodies ex_units ++ [0; 7; 7]))) = 4%nat.
Proof. split; vm_compute; reflexivity. Qed.

(* LZIP: two members (C02's sample member twice) *)
Example C08_lzip_units_example :
  let m := mkLzm 205 5000 z_data in
  Forall (lm_ok_l1 ch1_ex 2) [m; m] /\
  scan_members (lm_file (l1_penc ch1_ex) [m; m]) =
    Ok [(0, zlen (lm_bytes (l1_penc ch1_ex) m)); (zlen (lm_bytes (l1_penc ch1_ex) m), zlen (lm_bytes (l1_penc ch1_ex) m))].
Proof.
  cbv zeta. split; [|vm_compute; reflexivity].
  assert (H : lm_ok_l1 ch1_ex 2 (mkLzm 205 5000 z_data)).
  { split; [|split; [cbn; lia|]; split; [exact z_member_ok | vm_compute; discriminate]].
    split; [exists 5120; split; [vm_compute; reflexivity | cbn; lia]|].
    split; [reflexivity|]. split; vm_compute; reflexivity. }
  constructor; [exact H|]. constructor; [exact H|]. constructor.
Qed.
