(* Properties/C16Readers.v — C16 at the level of the readers: after LZMAReader (end marker, or
   declared size without marker; with header / raw / preset dictionary), LZMA2Reader and the
   single-stream XZReader have returned end of stream, the unread part of the source is exactly
   what followed the compressed stream ([tail] / [rest], arbitrary bytes), for EVERY history of
   destination-buffer sizes.  Only theorem statements, closed by [exact] of lemmas proved in
   Codec/Lzma1ReadProofs.v, Codec/Lzma2ReadProofs.v and Format/XzProofs.v (the same lemmas give
   the round trips of C01 / C12: the unconsumed-input clause is the C16 content). *)
From LzVerif Require Import Base.Bytes Codec.Store Codec.Range Codec.LzWindow Codec.LzmaDec Codec.LzmaEnc
  Codec.LzmaWriters Codec.Lzma1 Codec.RangeEncProofs Codec.RangeProofs Codec.LzmaRoundtrip
  Codec.Lzma1LoopProofs Codec.Lzma1ReadProofs
  Codec.Lzma2Dec Codec.Lzma2SpecProofs Codec.Lzma2FrameSyncProofs Codec.Lzma2ReadProofs
  Format.XzFormat Format.XzProofs.

(* LZMAReader::new (lzma1_construct2: lc, lp, pb given) on a raw stream, end marker
   (uncomp = u64::MAX) or declared size without marker *)
Theorem C16_lzma1_reader_leaves_tail : forall lc lp pb dict data syms use_end_marker stream tail sizes,
  0 <= lc <= 8 -> 0 <= lp <= 4 -> 0 <= pb <= 4 -> 4096 <= dict <= 2147483648 ->
  bytes_ok data = true -> no_end syms ->
  lzma1_write lc lp pb dict [] data syms false use_end_marker None = Ok stream ->
  (forall E c' h', enc_syms (coder_new lc lp pb) (ehist_new dict [] data) (syms ++ end_syms use_end_marker) = Ok (E, c', h') ->
     events_bits E <= RC_MAX_BITS) ->
  Forall (fun z => 0 < z) sizes ->
  let uncomp := if use_end_marker then U64_MAX else zlen data in
  exists s0, lzma1_construct2 (stream ++ tail) uncomp lc lp pb dict None = Ok s0 /\
    forall fuel, zlen data + 2 <= Z.of_nat fuel ->
    exists s_end, lzma1_read_all fuel s0 sizes sizes [] = Ok (data, s_end) /\ lzma1_unconsumed s_end = tail.
Proof. exact lzma1_roundtrip_raw. Qed.
Print Assumptions C16_lzma1_reader_leaves_tail.

(* LZMAReader::new_mem_limit on a .lzma file (13-byte header), with or without preset dictionary *)
Theorem C16_lzma1_header_reader_leaves_tail : forall lc lp pb dict popt data syms use_end_marker stream tail sizes mem_limit_kb need,
  0 <= lc <= 8 -> 0 <= lp <= 4 -> 0 <= pb <= 4 -> 4096 <= dict <= 2147483648 ->
  let preset := preset_list popt in
  bytes_ok preset = true -> bytes_ok data = true -> no_end syms ->
  preset_hyps dict preset data use_end_marker ->
  lzma1_write lc lp pb dict preset data syms true use_end_marker
              (if use_end_marker then None else Some (zlen data)) = Ok stream ->
  (forall E c' h', enc_syms (coder_new lc lp pb) (ehist_new dict preset data) (syms ++ end_syms use_end_marker) = Ok (E, c', h') ->
     events_bits E <= RC_MAX_BITS) ->
  Forall (fun z => 0 < z) sizes ->
  lzma1_memory_usage dict lc lp = Ok need -> need <= mem_limit_kb ->
  exists s0, lzma1_new_mem_limit (stream ++ tail) mem_limit_kb popt = Ok s0 /\
    forall fuel, zlen data + 2 <= Z.of_nat fuel ->
    exists s_end, lzma1_read_all fuel s0 sizes sizes [] = Ok (data, s_end) /\ lzma1_unconsumed s_end = tail.
Proof. exact lzma1_roundtrip_header. Qed.
Print Assumptions C16_lzma1_header_reader_leaves_tail.

(* LZMA2Reader: the end-of-stream control byte 0x00 is the last byte taken from the source *)
Theorem C16_lzma2_reader_leaves_tail : forall lc lp pb dict data evs stream tail sizes,
  0 <= lc -> 0 <= lp -> lc + lp <= 4 -> 0 <= pb <= 4 -> dict <= 2147483648 ->
  bytes_ok data = true ->
  l2_no_end evs ->
  lzma2_write lc lp pb dict None data evs = Ok stream ->
  Forall (fun z => 0 < z) sizes ->
  exists s0, lzma2_new (stream ++ tail) dict None = Ok s0 /\
    forall fuel, (length data + 2 <= fuel)%nat ->
    exists s_end, lzma2_read_all fuel s0 sizes sizes [] = Ok (data, 0, s_end) /\ m_in s_end = tail.
Proof. exact lzma2_roundtrip. Qed.
Print Assumptions C16_lzma2_reader_leaves_tail.

(* XZReader with allow_multiple_streams = false: the reader stops behind the stream footer, whatever
   follows - null bytes, another stream, container data ([rest] arbitrary).  Payload and filter
   codecs abstract with their own round trip (incl. exact consumption of the payload) as hypothesis;
   LZMA2Reader's own exact consumption is C16_lzma2_reader_leaves_tail, and the statement with the
   LZMA2 models in place of the abstract codec is C16_xz_single_stream_lzma2 in C02Compose.v. *)
Theorem C16_xz_single_stream_leaves_rest :
  forall (penc : Z -> list Z -> list Z) (pdec : Z -> list Z -> outcome (list Z * list Z)),
  (forall d dd x tail, d <= dd -> pdec dd (penc d x ++ tail) = Ok (x, tail)) ->
  forall (fenc fdec : fkind -> Z -> list Z -> list Z),
  (forall k p x, fdec k p (fenc k p x) = x) ->
  forall o0 parts f rest, stream_ok o0 ->
    xz_encode penc fenc xz_fixed o0 parts = Ok f ->
    xz_decode xz_check_bytes (blockdec pdec fdec) xz_fixed false (f ++ rest) = Ok (concat parts, rest).
Proof. exact xz_single_stops. Qed.
Print Assumptions C16_xz_single_stream_leaves_rest.
