(* Properties/C06.v — decoders stay total on untrusted bytes: no panic, abort, hang or blow-up.
   Only theorem statements, each closed by [exact] of a lemma proved elsewhere.
   This file: the LZMA decoding core (the range decoder, the decision programs, the dictionary
   window): for ANY input bytes a decode call returns Ok or the distance error, never a panic, and
   needs no more iterations than limit - pos (its fuel).  The layers above it: C06Readers.v (the
   LZMAReader and LZMA2Reader models and the executable XZ / LZIP whole-file models are total on
   arbitrary input), C06Containers.v (the XZ / LZIP container layer over any payload decoder),
   C06Mt.v (the member scan of LZIPReaderMT).  Without a totality theorem: the BCJ / BCJ2 readers
   and the other multi-threaded readers, tied to the code by the correspondence on random,
   corrupted and hand-made hostile streams, with a watchdog for hangs; allocation bounds are C17's
   models. *)
From LzVerif Require Import Base.Bytes Codec.Store Codec.Range Codec.ProbProofs Codec.LzWindow Codec.LzmaDec
  Codec.LzmaAbs Codec.LzWindowProofs Codec.ProgProofs Codec.LzmaAbsProofs Codec.RangeNoWrapProofs Codec.LzmaTotalProofs.
From LzVerif Require Codec.LzmaChunkProofs Codec.LzmaRoundtrip.

(* The u32 product (range >> 11) * prob never overflows: decode_bit never takes the panic branch,
   for every decoder state with a 32-bit range and every table of valid probabilities. *)
Theorem C06_decode_bit_never_panics : forall d t k,
  probs_ok t -> rd_range d < 4294967296 -> decode_bit d t k <> None.
Proof. exact decode_bit_never_none. Qed.
Print Assumptions C06_decode_bit_never_panics.

(* Any decision program without failure nodes, run against the range decoder over ANY remaining
   input (including none: reads past the end yield 0), returns a value; registers and tables stay
   valid. *)
Theorem C06_run_rc_total : forall (A : Type) (p : prog A),
  psafe p -> forall d t, probs_ok t -> rdec_wf d ->
  exists a d' t', run_rc p d t = Ok (a, d', t') /\ rdec_wf d' /\ probs_ok t'.
Proof. exact @run_rc_safe. Qed.
Print Assumptions C06_run_rc_total.

(* A distance outside the dictionary is an error, never an out-of-buffer access. *)
Theorem C06_window_rejects_far : forall w hist dist len,
  Rel w hist -> w_full w <= dist -> lzwin_repeat w dist len = Err E_OTHER.
Proof. exact repeat_err. Qed.
Print Assumptions C06_window_rejects_far.

(* LZMADecoder::decode over the cyclic window, from any consistent decoder state (any history,
   any coder state in range, any valid tables, any pending copy) and on ANY input bytes: returns,
   with status Ok or an error of the decoder logic - no panic, no index out of range, and the
   iteration budget limit - pos suffices. *)
Theorem C06_decode_total : forall c w hist d t,
  Rel w hist -> hist_bytes hist -> coder_ok c (w_full w) -> w_pos w <= w_limit w ->
  (0 < w_pending_len w -> 0 <= w_pending_dist w < w_full w) ->
  probs_ok t -> rdec_wf d ->
  exists c1 w1 st d1 t1,
    lzma_decode c w d t = Ok (c1, w1, st, d1, t1) /\ (st = Ok tt \/ exists e, st = Err e) /\
    probs_ok t1.
Proof. exact lzma_decode_total. Qed.
Print Assumptions C06_decode_total.

(* Non-vacuity: the initial decoder state meets the hypotheses. *)
Example C06_initial_state :
  Rel (lzwin_set_limit (lzwin_new 4096 None) 100) [] /\ hist_bytes [] /\
  coder_ok (coder_new 3 0 2) (w_full (lzwin_set_limit (lzwin_new 4096 None) 100)) /\
  probs_ok PLeaf /\ rdec_wf (mkRdec 4294967295 12345 [1; 2; 3] 0).
Proof.
  split; [apply set_limit_rel; [apply LzmaChunkProofs.lzwin_new_rel; reflexivity | discriminate]|].
  split; [intros d; rewrite LzmaRoundtrip.hnth_nil; lia|].
  split; [unfold coder_ok, params_ok, reps_nonneg, coder_new; cbn [c_lc c_lp c_pb c_state c_rep0 c_rep1 c_rep2 c_rep3];
          repeat split; try lia; intros X; vm_compute in X; discriminate|].
  split; [apply probs_ok_empty | unfold rdec_wf; cbn; lia].
Qed.
