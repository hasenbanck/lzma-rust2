(* Properties/C07.v — results do not depend on how callers split writes, flushes and reads.
   Only theorem statements, each closed by [exact] of a lemma proved elsewhere.
   Writer half (this file, encoder window accounting) and the Delta filter; the reader half is
   Properties/C07Readers.v (LZMAReader, LZMA2Reader, BCJReader, DeltaReader, XZReader, LZIPReader)
   and Properties/C07Bcj2.v (BCJ2 reader). *)
From LzVerif Require Import Base.Bytes Filter.Delta Filter.DeltaProofs Codec.EncWindow Codec.EncWindowProofs.

(* LZMAWriter (and LZIPWriter, which forwards its slices to one LZMAWriter per member) under EVERY
   call history (write partition with empty writes, flushes, the final finish), EVERY parser
   strategy and every option vector in range: the model run never panics (every buffer index it
   computes is inside the buffer) and never exhausts its fuel; every write() returns the length of
   its slice, or the whole slice is rejected by the declared-size check; the bytes accepted are
   the sum of the accepted slices; and when finish() succeeds the lengths of the coded symbols add
   up to exactly the bytes accepted: the content that is encoded is the concatenation of the
   slices, whatever the partition.  [l1_results] is a function of the history's slice LENGTHS and
   the declared size only.  (okor: the only other way a run ends is the parser oracle leaving its
   contract, Err 91.) *)
Theorem C07_lzma1_no_byte_lost : forall (PS : Type) (parse : PS -> Z -> Z -> strat PS) (ps0 : PS)
    normal bt4 dict nice preset expected ops,
  opts_ok dict nice ->
  (match preset with Some plen => 0 <= plen | None => True end) ->
  ops_ok ops ->
  (match preset with Some plen => Z.min plen dict | None => 0 end) + ops_total ops <= U32_MAX ->
  okor (do s <- l1_new PS normal bt4 dict nice preset expected ps0; l1_run PS parse s ops [])
       (fun r =>
          let '(s1, res) := r in
          let '(rs, c, fin) := l1_results expected 0 ops in
          res = rs /\ sum_fill (l1_tr _ s1) = c /\
          (fin = true -> sum_sym (l1_tr _ s1) = c /\ sum_abs (l1_tr _ s1) = 0)).
Proof. exact lzma1_run_exact. Qed.
Print Assumptions C07_lzma1_no_byte_lost.

(* LZMA2Writer (XZWriter forwards its slices to one LZMA2Writer per block) under EVERY call history
   with flushes, with or without chunk_size, EVERY parser strategy and range-coder oracle: no
   panic (every buffer index is inside the buffer, including the slices the uncompressed fallback
   copies out of the window — false for the two earlier history policies, see
   uncompressed_fallback_in_window_*_refuted in EncWindowProofs.v), the loops' fuel suffices, every
   write() returns the length of its slice, and when finish() succeeds every accepted byte is in
   exactly one chunk and the coded symbols plus the read-ahead bytes taken over by uncompressed
   chunks cover exactly the bytes accepted. *)
Theorem C07_lzma2_no_byte_lost : forall (PS : Type) (parse : PS -> Z -> Z -> strat PS) (chunkc : PS -> Z -> Z * PS) (ps0 : PS)
    normal bt4 dict nice preset chunk ops,
  opts_ok dict nice ->
  (match preset with Some plen => 0 <= plen | None => True end) ->
  ops_ok ops -> ops_total ops <= 4611686018427387904 ->
  okor (do s <- l2_new_repaired PS normal bt4 dict nice preset chunk ps0; l2_run PS parse chunkc s ops [])
       (fun r =>
          let '(s1, res) := r in
          let '(rs, c, fin) := l2_results 0 ops in
          res = rs /\ sum_fill (l2_tr _ s1) = c /\
          (fin = true -> sum_chunk (l2_tr _ s1) = c /\ sum_sym (l2_tr _ s1) + sum_abs (l2_tr _ s1) = c)).
Proof. exact lzma2_run_exact. Qed.
Print Assumptions C07_lzma2_no_byte_lost.

(* The uncompressed fallback of the two earlier window-history policies reads before the start of
   the buffer (model: Panic P_INDEX = the Rust slice-index panic in copy_uncompressed). *)
Theorem C07_uncompressed_fallback_old_refuted :
  l2_replay 2 false false 4096 273 None None old_mode_witness_ops old_mode_witness_ds = Panic P_INDEX.
Proof. exact uncompressed_fallback_in_window_old_refuted. Qed.
Print Assumptions C07_uncompressed_fallback_old_refuted.

Theorem C07_uncompressed_fallback_max_refuted :
  l2_replay 1 true false 4096 273 None None old_max_witness_ops old_max_witness_ds = Panic P_INDEX.
Proof. exact uncompressed_fallback_in_window_max_refuted. Qed.
Print Assumptions C07_uncompressed_fallback_max_refuted.

(* Before the repair "write() of a slice of 2 GiB or more panics in fill_window" the number of bytes
   fill_window copied for a 2^31-byte slice was the whole slice length, whatever room was left. *)
Theorem C07_fill_window_huge_slice_old_refuted :
  fill_len_old 655906 2147483648 = 2147483648 /\ 655906 < fill_len_old 655906 2147483648.
Proof. exact fill_window_huge_slice_old_refuted. Qed.
Print Assumptions C07_fill_window_huge_slice_old_refuted.

(* The debug assertion of process_pending_bytes in its original strict form fails in a reachable
   state (builds with debug assertions panicked there; repaired to <=, which the model asserts and
   process_pending_spec proves). *)
Theorem C07_process_pending_strict_assert_refuted :
  match enc_new false false 4096 0 32 with
  | Ok (p, _) =>
      let d := mkLzd 0 1 true 2 1 in
      match process_pending p d [] with
      | Ok (d1, _) => pending_assert_old (pending_size d) (pending_size d1) = false
      | _ => False
      end
  | _ => False
  end.
Proof. exact process_pending_strict_assert_refuted. Qed.
Print Assumptions C07_process_pending_strict_assert_refuted.

(* The .lzma clause of C18 (declared size): what every call returns is the function [l1_results]
   of the slice lengths and the declared size; a successful finish means declared = accepted =
   coded. *)
Theorem C07_lzma_expected_size : forall (PS : Type) (parse : PS -> Z -> Z -> strat PS) (ps0 : PS)
    normal bt4 dict nice ex ops,
  opts_ok dict nice -> ops_ok ops -> ops_total ops <= U32_MAX ->
  okor (do s <- l1_new PS normal bt4 dict nice None (Some ex) ps0; l1_run PS parse s ops [])
       (fun r =>
          let '(s1, res) := r in
          let '(rs, c, fin) := l1_results (Some ex) 0 ops in
          res = rs /\ sum_fill (l1_tr _ s1) = c /\
          (fin = true -> ex = c /\ sum_sym (l1_tr _ s1) = ex)).
Proof. exact lzma_expected_size. Qed.
Print Assumptions C07_lzma_expected_size.

(* DeltaWriter / DeltaReader: the output for a history of slices is the output for their
   concatenation (shared with C11). *)
Theorem C07_delta_write_partition : forall d parts,
  delta_write_calls d parts = delta_encode d (concat parts).
Proof. exact delta_write_partition. Qed.
Print Assumptions C07_delta_write_partition.

Theorem C07_delta_read_partition : forall d parts,
  delta_read_calls d parts = delta_decode d (concat parts).
Proof. exact delta_read_partition. Qed.
Print Assumptions C07_delta_read_partition.

(* Non-vacuity: a history with an empty write, a flush and a rejected write; the replayed parser
   decisions are those of a real run. *)
Example C07_lzma1_example :
  l1_replay false false 4096 32 None (Some 5) [WoWrite 0; WoWrite 3; WoFlush; WoWrite 4; WoWrite 2; WoFinish]
            [DSym 1 1 false; DSym 1 1 false; DSym 1 1 false; DSym 1 1 false]
  = Ok ([EvFill 3 3; EvFill 2 2; EvPos 0 5; EvSym 1 0;
         EvConsult 0 5 (-1); EvPos 1 4; EvSym 1 0; EvConsult 1 4 (-1); EvPos 2 0; EvSym 1 0;
         EvConsult 2 3 (-1); EvPos 3 0; EvSym 1 0; EvConsult 3 2 (-1); EvPos 4 0; EvSym 1 0; EvEnd],
        [RWrote 0; RWrote 3; RDone; RRej 2; RWrote 2; RDone], []).
Proof. vm_compute. reflexivity. Qed.
