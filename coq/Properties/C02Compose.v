(* Properties/C02Compose.v — C02 / C12 / C16 for the containers with the CONCRETE payload codecs:
   the abstract codec of Properties/C02.v, C12.v, C16Readers.v (hypothesis "pdec inverts penc for
   every dictionary dd >= d") is replaced by the LZMA2 / LZMA writer and reader models of C01, so
   that no codec hypothesis is left.  Only theorem statements, closed by [exact] of lemmas proved
   in Format/ComposeProofs.v (on Format/PayloadLzma2Proofs.v, PayloadLzma1Proofs.v and the
   theorems with a [bgood] / [good] predicate of XzProofs.v, LzipProofs.v) and examples from
   Format/ComposeExamplesProofs.v.

   The encoder.  The writer models lzma2_write / lzma1_write are relational in the encoder's
   choices (the chunk-event / symbol list that the real encoder's trace is validated against by
   the correspondence check of C01).  An encoder is therefore ANY function [ch] from dictionary
   size and data to such a list whose choices the writer model accepts:
     l2_codec_ok lc lp pb ch : for every dictionary size 4 KiB .. 2 GiB (LZMAOptions::validate
        admits 4 KiB .. 768 MiB) and every byte string, lzma2_write accepts (ch d x) and no event is
        an end-marker symbol;
     l1_member_ok ch d x     : lzma1_write (lc=3 lp=0 pb=2, raw, end marker) accepts (ch d x), no
        end marker among the symbols, and the coded bits stay within RC_MAX_BITS = 2^32 - 7 (the
        u32 pending-byte counter of the range encoder, Codec/RangeProofs.v);
   and the payload written is  l2_penc lc lp pb ch d x  /  l1_penc ch d x  = the writer model on
   these choices.  C02_l2_encoder_exists shows that such an encoder exists for ALL inputs.

   The decoder.  XZ: lzma2_payload_dec dd = LZMA2Reader::new(_, dd, None) read with 4096-byte
   buffers until Ok(0), dd = the dictionary size announced by the block header (>= d, rounded up:
   C02_xz_dict_sound); it is the payload decoder of the executable whole-file reader model
   xz_decode_c, the one the correspondence check runs against XZReader.  LZIP:
   lzip_payload_dec_n calls dd = LZMAReader::new(_, u64::MAX, 3, 0, 2, dd, None) read the same way,
   with [calls] bounding the number of read() calls; lz_decode_c uses 64 + 16 * (source bytes left).

   Side conditions, all stated in the theorems: the data are bytes; XZ dictionary 4 KiB..2 GiB;
   pre-filter codecs are inverses on byte strings and map byte strings to byte strings (C11; the
   Delta model of Filter/Delta.v is such a codec: C02_delta_filter_codec), BCJ filters stay abstract;
   LZIP: per member the encoder side condition l1_member_ok and enough read() calls
   (|member| / 4096 + 2), u64 trailer counters do not wrap. *)
From LzVerif Require Import Base.Bytes Codec.Store Codec.Range Codec.LzWindow Codec.LzmaDec Codec.LzmaEnc
  Codec.LzmaWriters Codec.Lzma1 Codec.Lzma2Dec Codec.LzmaRoundtrip Codec.RangeEncProofs Codec.RangeProofs
  Codec.Lzma1ReadProofs Codec.Lzma2SpecProofs Codec.Lzma2FrameSyncProofs Codec.Lzma2ReadProofs
  Filter.Delta Filter.DeltaProofs
  Format.XzFormat Format.LzipFormat Format.LzipDict Format.XzHeaderProofs Format.XzBlockHeaderProofs
  Format.XzProofs Format.LzipProofs Format.PayloadLzma2Proofs Format.PayloadLzma1Proofs
  Format.ComposeProofs Format.ComposeExamplesProofs.

(* the payload decoders of the container readers on what the writer models wrote *)

(* LZMA2Reader with a dictionary dd >= the writer's d, read with 4096-byte buffers: the data, and
   exactly the bytes after the stream left unread; the model's call budget (2 + 171 per source
   byte) is sufficient *)
Theorem C02_lzma2_payload_larger_dict : forall lc lp pb d dd data evs stream tail,
  0 <= lc -> 0 <= lp -> lc + lp <= 4 -> 0 <= pb <= 4 -> d <= 2147483648 -> d <= dd ->
  bytes_ok data = true -> l2_no_end evs ->
  lzma2_write lc lp pb d None data evs = Ok stream ->
  lzma2_payload_dec dd (stream ++ tail) = Ok (data, tail).
Proof. exact lzma2_payload_dec_rt. Qed.
Print Assumptions C02_lzma2_payload_larger_dict.

(* LZMAReader (3,0,2, unknown size) with a dictionary dd >= the writer's d *)
Theorem C02_lzma1_payload_larger_dict : forall d dd data syms stream tail calls,
  4096 <= d -> d <= dd -> dd <= 2147483648 ->
  bytes_ok data = true -> no_end syms ->
  lzma1_write 3 0 2 d [] data syms false true None = Ok stream ->
  (forall E c' h', enc_syms (coder_new 3 0 2) (ehist_new d [] data) (syms ++ end_syms true) = Ok (E, c', h') ->
     events_bits E <= RC_MAX_BITS) ->
  zlen data / 4096 + 2 <= Z.of_nat calls ->
  lzip_payload_dec_n calls dd (stream ++ tail) = Ok (data, tail).
Proof. exact lzip_payload_dec_n_rt. Qed.
Print Assumptions C02_lzma1_payload_larger_dict.

(* For every LZMA2 encoder [ch] (any lc/lp/pb LZMA2 admits), every pair of pre-filter codecs that
   are inverses on byte strings, every legal options vector ([stream_ok], as in C02_xz), every
   dictionary size 4 KiB..2 GiB and every partition of a byte string into write() calls: whatever
   file the writer returns, the reader - with LZMA2Reader as payload decoder - returns exactly the
   bytes written and consumes the whole file, multi-stream decoding on or off. *)
Theorem C02_xz_lzma2 :
  forall (lc lp pb : Z) (ch : Z -> list Z -> list l2ev),
  l2_params_ok lc lp pb -> l2_codec_ok lc lp pb ch ->
  forall (fenc fdec : fkind -> Z -> list Z -> list Z),
  (forall k p x, bytes_ok x = true -> fdec k p (fenc k p x) = x) ->
  (forall k p x, bytes_ok x = true -> bytes_ok (fenc k p x) = true) ->
  forall o0 parts f multi, stream_ok o0 ->
    4096 <= xo_dict o0 <= 2147483648 -> bytes_ok (concat parts) = true ->
    xz_encode (l2_penc lc lp pb ch) fenc xz_fixed o0 parts = Ok f ->
    xz_decode xz_check_bytes (blockdec lzma2_payload_dec fdec) xz_fixed multi f = Ok (concat parts, []).
Proof. exact C02_xz_lzma2_thm. Qed.
Print Assumptions C02_xz_lzma2.

(* The same for the executable whole-file reader model xz_decode_c (the function the c02 / c04 /
   c12 correspondence runs compare with XZReader): pre-filter chain = Delta filters only (or
   none), the filter codec is the Delta model.  Nothing abstract is left. *)
Theorem C02_xz_lzma2_delta :
  forall (lc lp pb : Z) (ch : Z -> list Z -> list l2ev),
  l2_params_ok lc lp pb -> l2_codec_ok lc lp pb ch ->
  forall o0 parts f multi, stream_ok o0 -> only_delta (xo_filters o0) ->
    4096 <= xo_dict o0 <= 2147483648 -> bytes_ok (concat parts) = true ->
    xz_encode (l2_penc lc lp pb ch) delta_fenc xz_fixed o0 parts = Ok f ->
    xz_decode_c xz_fixed multi f = Ok (concat parts, []).
Proof. exact C02_xz_lzma2_delta_thm. Qed.
Print Assumptions C02_xz_lzma2_delta.

(* the Delta model is a filter codec in the sense of C02_xz_lzma2, and the Delta readers of the
   executable chain compute it *)
Theorem C02_delta_filter_codec :
  (forall k p x, bytes_ok x = true -> delta_fdec k p (delta_fenc k p x) = x) /\
  (forall k p x, bytes_ok x = true -> bytes_ok (delta_fenc k p x) = true) /\
  (forall fs dd src, only_delta fs ->
     xz_blockdec (fs ++ [(FLZMA2, dd)]) src = blockdec lzma2_payload_dec delta_fdec (fs ++ [(FLZMA2, dd)]) src).
Proof. exact (conj delta_fdec_fenc (conj delta_fenc_bytes xz_blockdec_delta)). Qed.
Print Assumptions C02_delta_filter_codec.

(* [st_ok_l2]: the stream is what the writer produced with LZMA2 payloads for legal options, a
   dictionary 4 KiB..2 GiB and a byte string; streams may differ in everything, [ch] included in
   the sense that ch may depend on dictionary size and data *)
Theorem C12_xz_multi_lzma2 :
  forall (lc lp pb : Z) (ch : Z -> list Z -> list l2ev),
  l2_params_ok lc lp pb -> l2_codec_ok lc lp pb ch ->
  forall (fenc fdec : fkind -> Z -> list Z -> list Z),
  (forall k p x, bytes_ok x = true -> fdec k p (fenc k p x) = x) ->
  (forall k p x, bytes_ok x = true -> bytes_ok (fenc k p x) = true) ->
  forall (s : xzstream) (t : list xzstream),
    Forall (st_ok_l2 lc lp pb ch fenc) (s :: t) ->
    Forall (fun x => st_pad x mod 4 = 0) (s :: t) ->
    xz_decode xz_check_bytes (blockdec lzma2_payload_dec fdec) xz_fixed true (xz_file (s :: t))
    = Ok (xz_content (s :: t), []).
Proof. exact C12_xz_multi_lzma2_thm. Qed.
Print Assumptions C12_xz_multi_lzma2.

Theorem C12_xz_multi_lzma2_delta :
  forall (lc lp pb : Z) (ch : Z -> list Z -> list l2ev),
  l2_params_ok lc lp pb -> l2_codec_ok lc lp pb ch ->
  forall (s : xzstream) (t : list xzstream),
    Forall (st_ok_l2d lc lp pb ch) (s :: t) ->
    Forall (fun x => st_pad x mod 4 = 0) (s :: t) ->
    xz_decode_c xz_fixed true (xz_file (s :: t)) = Ok (xz_content (s :: t), []).
Proof. exact C12_xz_multi_lzma2_delta_thm. Qed.
Print Assumptions C12_xz_multi_lzma2_delta.

Theorem C12_xz_bad_padding_lzma2 :
  forall (lc lp pb : Z) (ch : Z -> list Z -> list l2ev),
  l2_params_ok lc lp pb -> l2_codec_ok lc lp pb ch ->
  forall (fenc fdec : fkind -> Z -> list Z -> list Z),
  (forall k p x, bytes_ok x = true -> fdec k p (fenc k p x) = x) ->
  (forall k p x, bytes_ok x = true -> bytes_ok (fenc k p x) = true) ->
  forall (s : xzstream) (rest : list Z),
    st_ok_l2 lc lp pb ch fenc s -> st_pad s mod 4 <> 0 ->
    (rest = [] \/ exists ct X, check_known ct = true /\ rest = xz_stream_header ct ++ X) ->
    xz_decode xz_check_bytes (blockdec lzma2_payload_dec fdec) xz_fixed true (st_bytes s ++ rest) = Err E_INVALID_DATA.
Proof. exact C12_xz_bad_padding_lzma2_thm. Qed.
Print Assumptions C12_xz_bad_padding_lzma2.

Theorem C12_xz_garbage_after_stream_lzma2 :
  forall (lc lp pb : Z) (ch : Z -> list Z -> list l2ev),
  l2_params_ok lc lp pb -> l2_codec_ok lc lp pb ch ->
  forall (fenc fdec : fkind -> Z -> list Z -> list Z),
  (forall k p x, bytes_ok x = true -> fdec k p (fenc k p x) = x) ->
  (forall k p x, bytes_ok x = true -> bytes_ok (fenc k p x) = true) ->
  forall (s : xzstream) (b : Z) (X : list Z),
    st_ok_l2 lc lp pb ch fenc s -> b <> 0 -> b <> 253 ->
    xz_decode xz_check_bytes (blockdec lzma2_payload_dec fdec) xz_fixed true (st_bytes s ++ b :: X) = Err E_INVALID_DATA.
Proof. exact C12_xz_garbage_lzma2_thm. Qed.
Print Assumptions C12_xz_garbage_after_stream_lzma2.

Theorem C16_xz_single_stream_lzma2 :
  forall (lc lp pb : Z) (ch : Z -> list Z -> list l2ev),
  l2_params_ok lc lp pb -> l2_codec_ok lc lp pb ch ->
  forall (fenc fdec : fkind -> Z -> list Z -> list Z),
  (forall k p x, bytes_ok x = true -> fdec k p (fenc k p x) = x) ->
  (forall k p x, bytes_ok x = true -> bytes_ok (fenc k p x) = true) ->
  forall o0 parts f rest, stream_ok o0 ->
    4096 <= xo_dict o0 <= 2147483648 -> bytes_ok (concat parts) = true ->
    xz_encode (l2_penc lc lp pb ch) fenc xz_fixed o0 parts = Ok f ->
    xz_decode xz_check_bytes (blockdec lzma2_payload_dec fdec) xz_fixed false (f ++ rest) = Ok (concat parts, rest).
Proof. exact C16_xz_single_stream_lzma2_thm. Qed.
Print Assumptions C16_xz_single_stream_lzma2.

Theorem C16_xz_single_stream_lzma2_delta :
  forall (lc lp pb : Z) (ch : Z -> list Z -> list l2ev),
  l2_params_ok lc lp pb -> l2_codec_ok lc lp pb ch ->
  forall o0 parts f rest, stream_ok o0 -> only_delta (xo_filters o0) ->
    4096 <= xo_dict o0 <= 2147483648 -> bytes_ok (concat parts) = true ->
    xz_encode (l2_penc lc lp pb ch) delta_fenc xz_fixed o0 parts = Ok f ->
    xz_decode_c xz_fixed false (f ++ rest) = Ok (concat parts, rest).
Proof. exact C16_xz_single_stream_lzma2_delta_thm. Qed.
Print Assumptions C16_xz_single_stream_lzma2_delta.

(* For every choice function [ch], every requested dictionary size (clamped by the writer), member
   size and partition of a byte string: if the encoder side condition holds for the members the
   writer cuts and the payload decoder may make |member| / 4096 + 2 read() calls, the file the
   writer returns decodes to exactly the bytes written, wholly consumed. *)
Theorem C02_lzip_lzma1 :
  forall (ch : Z -> list Z -> list sym) (calls : nat) o0 parts f,
    bytes_ok (concat parts) = true ->
    (forall members, lz_members_of (lo_member_size (lzw_new o0)) parts = Ok members ->
       lz_sizes_ok (l1_penc ch) (lo_dict (lzw_new o0)) members /\
       Forall (fun c => l1_member_ok ch (lo_dict (lzw_new o0)) c /\ zlen c / 4096 + 2 <= Z.of_nat calls) members) ->
    match lo_member_size o0 with Some m => 1 <= m | None => True end ->
    lz_encode (l1_penc ch) o0 parts = Ok f ->
    lz_decode (lzip_payload_dec_n calls) lz_fixed f = Ok (concat parts, []).
Proof. exact C02_lzip_lzma1_thm. Qed.
Print Assumptions C02_lzip_lzma1.

(* for the executable whole-file reader model lz_decode_c: its call budget (64 + 16 per source
   byte) suffices when no member is compressed by more than a factor of 65536 *)
Theorem C02_lzip_lzma1_c :
  forall (ch : Z -> list Z -> list sym) o0 parts f,
    bytes_ok (concat parts) = true ->
    (forall members, lz_members_of (lo_member_size (lzw_new o0)) parts = Ok members ->
       lz_sizes_ok (l1_penc ch) (lo_dict (lzw_new o0)) members /\
       Forall (fun c => l1_member_ok ch (lo_dict (lzw_new o0)) c /\
                        zlen c / 4096 <= 62 + 16 * zlen (l1_penc ch (lo_dict (lzw_new o0)) c)) members) ->
    match lo_member_size o0 with Some m => 1 <= m | None => True end ->
    lz_encode (l1_penc ch) o0 parts = Ok f ->
    lz_decode_c lz_fixed f = Ok (concat parts, []).
Proof. exact C02_lzip_lzma1_c_thm. Qed.
Print Assumptions C02_lzip_lzma1_c.

(* any concatenation of members (own header byte, dictionary, content each) *)
Theorem C12_lzip_multi_lzma1 :
  forall (ch : Z -> list Z -> list sym) (calls : nat) (m : lzm) (ms : list lzm),
    Forall (lm_ok_l1 ch calls) (m :: ms) ->
    lz_decode (lzip_payload_dec_n calls) lz_fixed (lm_file (l1_penc ch) (m :: ms)) = Ok (lm_data (m :: ms), []).
Proof. exact C12_lzip_multi_lzma1_thm. Qed.
Print Assumptions C12_lzip_multi_lzma1.

Theorem C12_lzip_trailing_data_lzma1 :
  forall (ch : Z -> list Z -> list sym) (calls : nat) (m : lzm) (ms : list lzm) (t : list Z),
    Forall (lm_ok_l1 ch calls) (m :: ms) -> t <> [] ->
    lz_bytes_eqb (firstn 4 t) (firstn (length (firstn 4 t)) LZIP_MAGIC) = false ->
    lz_decode (lzip_payload_dec_n calls) lz_fixed (lm_file (l1_penc ch) (m :: ms) ++ t) = Ok (lm_data (m :: ms), skipn 4 t).
Proof. exact C12_lzip_trailing_lzma1_thm. Qed.
Print Assumptions C12_lzip_trailing_data_lzma1.

(* an LZMA2 encoder in the sense of the theorems exists for EVERY dictionary size and byte string:
   the one that stores everything (uncompressed chunks); so the XZ theorems are not vacuous for
   any data *)
Theorem C02_l2_encoder_exists : forall lc lp pb, l2_codec_ok lc lp pb l2_stored.
Proof. exact l2_stored_ok. Qed.
Print Assumptions C02_l2_encoder_exists.

(* an encoder that emits LZMA chunks, a stored chunk and an independent restart on a sample input *)
Example C02_l2_encoder_lzma_chunks : l2_params_ok 3 0 2 /\ l2_codec_ok 3 0 2 ch_ex.
Proof. exact (conj params_302 ch_ex_ok). Qed.

(* the hypotheses on concrete options / data, and the conclusion computed: the file contains the
   LZMA2 stream with LZMA chunks and xz_decode_c returns the data *)
Example C02_xz_lzma2_instance :
  (stream_ok x_opts /\ only_delta (xo_filters x_opts) /\ 4096 <= xo_dict x_opts <= 2147483648 /\
   bytes_ok (concat x_parts) = true) /\
  exists f, xz_encode (l2_penc 3 0 2 ch_ex) delta_fenc xz_fixed x_opts x_parts = Ok f /\
            xz_decode_c xz_fixed true f = Ok (x_data, []) /\
            l2_penc 3 0 2 ch_ex 4096 x_data = Lzma2ExamplesProofs.ex_stream /\
            exists a b, f = a ++ Lzma2ExamplesProofs.ex_stream ++ b.
Proof. exact (conj x_opts_ok x_roundtrip). Qed.

(* two Delta pre-filters, SHA-256, two blocks, followed by foreign bytes, single-stream mode *)
Example C02_xz_lzma2_delta_instance :
  (stream_ok x_opts_delta /\ only_delta (xo_filters x_opts_delta) /\ 4096 <= xo_dict x_opts_delta <= 2147483648 /\
   bytes_ok (concat x_parts_big) = true) /\
  exists f, xz_encode (l2_penc 3 0 2 l2_stored) delta_fenc xz_fixed x_opts_delta x_parts_big = Ok f /\
            xz_decode_c xz_fixed false (f ++ [1; 2; 3]) = Ok (concat x_parts_big, [1; 2; 3]) /\
            xz_blocks_of xz_fixed (Some 4096) x_parts_big
              = Ok [repeatn 7 3000 ++ ProbProofs.zrange 0 200 ++ repeatn 9 896; repeatn 9 1104 ++ [10]].
Proof. exact (conj x_opts_delta_ok x_roundtrip_delta). Qed.

(* LZIP: the hypotheses for a member coded with literals and a match (dictionary 5000, not
   representable exactly in the header byte), and the file decoded by lz_decode_c; twice the file
   by the reader with a budget of two calls per member *)
Example C02_lzip_lzma1_hyps :
  bytes_ok (concat z_parts) = true /\
  (forall members, lz_members_of (lo_member_size (lzw_new z_opts)) z_parts = Ok members ->
     lz_sizes_ok (l1_penc ch1_ex) (lo_dict (lzw_new z_opts)) members /\
     Forall (fun c => l1_member_ok ch1_ex (lo_dict (lzw_new z_opts)) c /\
                      zlen c / 4096 + 2 <= Z.of_nat 2 /\
                      zlen c / 4096 <= 62 + 16 * zlen (l1_penc ch1_ex (lo_dict (lzw_new z_opts)) c)) members) /\
  match lo_member_size z_opts with Some m => 1 <= m | None => True end.
Proof. exact z_hyps. Qed.
Example C02_lzip_lzma1_instance :
  exists f, lz_encode (l1_penc ch1_ex) z_opts z_parts = Ok f /\
            lz_decode_c lz_fixed f = Ok (z_data, []) /\
            lz_decode (lzip_payload_dec_n 2) lz_fixed (f ++ f) = Ok (z_data ++ z_data, []).
Proof. exact z_roundtrip. Qed.
