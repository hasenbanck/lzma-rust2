(* Properties/C03In.v — C03_in for the XZ container: every byte string the independent .xz format
   specification (Format/XzSpec.v, strict mode: only the check types None/CRC32/CRC64/SHA-256)
   accepts is decoded by the crate's reader (model of the repaired code, [xz_fixed]) to exactly the
   content the specification assigns to it - optional size fields in Block Headers, any number of
   Blocks with different filter chains, Delta and BCJ filter flags, dictionary properties 0-40, all
   four checks, Index, Stream Footer, Stream Padding, concatenated Streams.
   Only theorem statements, each closed by [exact] of a lemma proved in Format/XzSpecIn*Proofs.v. *)
From LzVerif Require Import Base.Bytes Format.XzFormat Format.XzSpec Format.XzSpecExec Format.XzSpecProofs
  Format.XzSpecIn3Proofs Format.XzSpecIn4Proofs Format.ContainerRefutations.

(* C03_in (XZ), multi-stream decoding (XZReader::new(_, true)).  [sdec] is the specification's
   decoding of a Block's Compressed Data through its filter chain, [blockdec] the crate's.
   Hypotheses: the crate's chain decoder decodes what the specification's does ([spec_filter] is the
   specification's view of a parsed filter: Delta distance, BCJ id + start offset, LZMA2 dictionary
   size), and the specification's decoder only consumes input (weaker than "its rest is a suffix of
   its source", the form used for LZIP; that form is C03_in_xz_thm in Format/XzSpecIn3Proofs.v).
   Side condition: the file is a string of bytes (0..255). *)
Theorem C03_in_xz :
  forall (sdec : list sfilter -> list Z -> option (list Z * list Z))
         (blockdec : list (fkind * Z) -> list Z -> outcome (list Z * list Z)),
  (forall fs src r, sdec (map spec_filter fs) src = Some r -> blockdec fs src = Ok r) ->
  (forall fs src x r, bytes_ok src = true -> sdec fs src = Some (x, r) -> zlen r <= zlen src /\ bytes_ok r = true) ->
  forall f d, bytes_ok f = true ->
    xz_spec_decode sdec false f = Some d ->
    xz_decode xz_check_bytes blockdec xz_fixed true f = Ok (d, []).
Proof. exact C03_in_xz_gen. Qed.
Print Assumptions C03_in_xz.

(* single-stream decoding (XZReader::new(_, false)): the content of the first Stream, and the source
   is left exactly behind its Stream Footer *)
Theorem C03_in_xz_single :
  forall (sdec : list sfilter -> list Z -> option (list Z * list Z))
         (blockdec : list (fkind * Z) -> list Z -> outcome (list Z * list Z)),
  (forall fs src r, sdec (map spec_filter fs) src = Some r -> blockdec fs src = Ok r) ->
  (forall fs src x r, bytes_ok src = true -> sdec fs src = Some (x, r) -> zlen r <= zlen src /\ bytes_ok r = true) ->
  forall f d r, bytes_ok f = true ->
    xz_spec_decode_first sdec false f = Some (d, r) ->
    xz_decode xz_check_bytes blockdec xz_fixed false f = Ok (d, r).
Proof. exact C03_in_xz_first_gen. Qed.
Print Assumptions C03_in_xz_single.

(* The closed instance: executable specification against executable reader model (LZMA2 payloads
   by the LZMA2Reader model on both sides, Delta filters executed; a chain with a BCJ filter is not
   accepted by the executable specification - extension point - so this instance is silent on it). *)
Theorem C03_in_xz_exec :
  forall f d, bytes_ok f = true ->
    xz_spec_decode_c false f = Some d -> xz_decode_c xz_fixed true f = Ok (d, []).
Proof. exact C03_in_xz_exec_thm. Qed.
Print Assumptions C03_in_xz_exec.

Theorem C03_in_xz_exec_single :
  forall f d r, bytes_ok f = true ->
    xz_spec_decode_first xz_sdec_exec false f = Some (d, r) -> xz_decode_c xz_fixed false f = Ok (d, r).
Proof. exact C03_in_xz_first_exec_thm. Qed.
Print Assumptions C03_in_xz_exec_single.

(* Non-vacuity.  The two hypotheses of C03_in_xz hold for the executable pair; [c03in_file] is a
   152-byte valid file no writer of the crate produces: Stream 1 = Block A with Compressed Size and
   Uncompressed Size fields in its header + Block B with a Delta(1)+LZMA2 chain, CRC32 checks,
   four bytes of Stream Padding, Stream 2 = the "hello world" file.  The specification accepts it,
   and (evaluated, not only by the theorem) the reader model returns the same content. *)
Example C03_in_xz_instance :
  (forall fs src r, xz_sdec_exec (map spec_filter fs) src = Some r -> xz_blockdec fs src = Ok r) /\
  (forall fs src x r, bytes_ok src = true -> xz_sdec_exec fs src = Some (x, r) -> zlen r <= zlen src /\ bytes_ok r = true) /\
  bytes_ok c03in_file = true /\
  xz_spec_decode_c false c03in_file = Some ([1; 2; 3; 4; 9] ++ w_content) /\
  xz_spec_decode_first xz_sdec_exec false c03in_file = Some ([1; 2; 3; 4; 9], [0; 0; 0; 0] ++ w_hello) /\
  xz_decode_c xz_fixed true c03in_file = Ok ([1; 2; 3; 4; 9] ++ w_content, []) /\
  xz_decode_c xz_fixed false c03in_file = Ok ([1; 2; 3; 4; 9], [0; 0; 0; 0] ++ w_hello).
Proof.
  destruct c03in_file_valid as (B & S & S1). destruct c03in_file_decoded as (D & D1).
  exact (conj xz_sdec_exec_blockdec (conj xz_sdec_exec_shrinks (conj B (conj S (conj S1 (conj D D1)))))).
Qed.

(* the Block Header lockstep is not vacuous for BCJ: a header with an x86 filter (start offset 16)
   before LZMA2 is accepted by the specification and parsed by the crate to the same chain *)
Example C03_in_xz_bcj_header :
  s_block_header (c03in_hdr_bcj ++ [7]) = Some (mkSblockhdr 16 None None [SBcj 4 16; SLzma2 4096], [7]) /\
  xz_parse_block_header (c03in_hdr_bcj ++ [7]) = Ok (Some (mkBhdr None None [(FX86, 16); (FLZMA2, 4096)]), [7]) /\
  map spec_filter [(FX86, 16); (FLZMA2, 4096)] = [SBcj 4 16; SLzma2 4096].
Proof. exact c03in_hdr_bcj_valid. Qed.
