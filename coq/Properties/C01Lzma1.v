(* Properties/C01Lzma1.v — C01 for LZMAWriter / LZMAReader (.lzma header, raw stream with end marker
   or declared size, preset dictionary), for EVERY sequence of destination buffer sizes.
   Only theorem statements.  The reader-level lifting (Lzma1LoopProofs.v, Lzma1ReadProofs.v) sits on
   the codec theorems of C01.v. *)
From LzVerif Require Import Base.Bytes Codec.Store Codec.Range Codec.LzWindow Codec.LzmaDec Codec.LzmaEnc
  Codec.LzmaWriters Codec.Lzma1 Codec.RangeEncProofs Codec.RangeProofs Codec.LzmaRoundtrip
  Codec.Lzma1LoopProofs Codec.Lzma1ReadProofs.

(* Whatever symbol sequence the validator accepts for the data, with or without end marker: the
   reader returns exactly the data for every history of positive buffer sizes and leaves exactly
   [tail] unread (C16).  The bound on coded decisions excludes the encoder's u32 pending-byte
   counter overflow (4 GiB of 0xFF bytes). *)
Theorem C01_lzma1_roundtrip_raw : forall lc lp pb dict data syms use_end_marker stream tail sizes,
  0 <= lc <= 8 -> 0 <= lp <= 4 -> 0 <= pb <= 4 -> 4096 <= dict <= 2147483648 ->
  bytes_ok data = true -> no_end syms ->
  lzma1_write lc lp pb dict [] data syms false use_end_marker None = Ok stream ->
  (forall E c' h', enc_syms (coder_new lc lp pb) (ehist_new dict [] data) (syms ++ end_syms use_end_marker) = Ok (E, c', h') ->
     events_bits E <= RC_MAX_BITS) ->
  Forall (fun z => 0 < z) sizes ->
  let uncomp := if use_end_marker then U64_MAX else zlen data in
  exists s0, lzma1_construct2 (stream ++ tail) uncomp lc lp pb dict None = Ok s0 /\
    forall fuel, zlen data + 2 <= Z.of_nat fuel ->
    exists s_end, lzma1_read_all fuel s0 sizes sizes [] = Ok (data, s_end) /\ lzma1_unconsumed s_end = tail.
Proof. exact lzma1_roundtrip_raw. Qed.
Print Assumptions C01_lzma1_roundtrip_raw.

(* zero-length reads never disturb the stream (C07) *)
Theorem C01_lzma1_read_zero : forall s buflen, buflen <= 0 -> lzma1_read s buflen = Ok ([], s).
Proof. exact Lzma1ReadProofs.lzma1_read_zero. Qed.
Print Assumptions C01_lzma1_read_zero.

(* with a preset dictionary.  [preset_hyps]: the preset fits the dictionary or the dictionary size
   is a multiple of 16 (otherwise encoder and decoder keep differently long suffixes of the
   preset: consistent but not expressible in the history relation used by the proof), and - for a
   declared size - the window is not shrunk below what preset and data need (with /repo
   ef8562d the reader does not shrink the window when a preset is given, and this clause holds trivially) *)
Theorem C01_lzma1_roundtrip_preset : forall lc lp pb dict preset data syms use_end_marker stream tail sizes,
  0 <= lc <= 8 -> 0 <= lp <= 4 -> 0 <= pb <= 4 -> 4096 <= dict <= 2147483648 ->
  bytes_ok preset = true -> bytes_ok data = true -> no_end syms ->
  preset_hyps dict preset data use_end_marker ->
  lzma1_write lc lp pb dict preset data syms false use_end_marker None = Ok stream ->
  (forall E c' h', enc_syms (coder_new lc lp pb) (ehist_new dict preset data) (syms ++ end_syms use_end_marker) = Ok (E, c', h') ->
     events_bits E <= RC_MAX_BITS) ->
  Forall (fun z => 0 < z) sizes ->
  let uncomp := if use_end_marker then U64_MAX else zlen data in
  exists s0, lzma1_construct2 (stream ++ tail) uncomp lc lp pb dict (Some preset) = Ok s0 /\
    forall fuel, zlen data + 2 <= Z.of_nat fuel ->
    exists s_end, lzma1_read_all fuel s0 sizes sizes [] = Ok (data, s_end) /\ lzma1_unconsumed s_end = tail.
Proof. exact lzma1_roundtrip_preset. Qed.
Print Assumptions C01_lzma1_roundtrip_preset.

(* the .lzma file format: 13-byte header (properties, dictionary size, size or -1), memory limit *)
Theorem C01_lzma1_roundtrip_header : forall lc lp pb dict popt data syms use_end_marker stream tail sizes mem_limit_kb need,
  0 <= lc <= 8 -> 0 <= lp <= 4 -> 0 <= pb <= 4 -> 4096 <= dict <= 2147483648 ->
  let preset := preset_list popt in
  bytes_ok preset = true -> bytes_ok data = true -> no_end syms ->
  preset_hyps dict preset data use_end_marker ->
  lzma1_write lc lp pb dict preset data syms true use_end_marker
              (if use_end_marker then None else Some (zlen data)) = Ok stream ->
  (forall E c' h', enc_syms (coder_new lc lp pb) (ehist_new dict preset data) (syms ++ end_syms use_end_marker) = Ok (E, c', h') ->
     events_bits E <= RC_MAX_BITS) ->
  Forall (fun z => 0 < z) sizes ->
  lzma1_memory_usage dict lc lp = Ok need -> need <= mem_limit_kb ->
  exists s0, lzma1_new_mem_limit (stream ++ tail) mem_limit_kb popt = Ok s0 /\
    forall fuel, zlen data + 2 <= Z.of_nat fuel ->
    exists s_end, lzma1_read_all fuel s0 sizes sizes [] = Ok (data, s_end) /\ lzma1_unconsumed s_end = tail.
Proof. exact lzma1_roundtrip_header. Qed.
Print Assumptions C01_lzma1_roundtrip_header.

(* Non-vacuity: the hypotheses of C01_lzma1_roundtrip_raw hold on an instance (literals and a match,
   with and without end marker), Lzma1ReadProofs.lzma1_roundtrip_raw_hyps; the proof below only
   names that lemma, the statement itself claims nothing. *)
Example C01_lzma1_roundtrip_raw_hyps_example : True.
Proof. pose proof lzma1_roundtrip_raw_hyps. exact I. Qed.
