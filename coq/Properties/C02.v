(* Properties/C02.v — XZ and LZIP containers round-trip every input under every option.
   Only theorem statements, each closed by [exact] of a lemma proved in Format/*Proofs.v.

   The models: Format/XzFormat.v (XZWriter = xz_write / xz_container / xz_blocks_of; XZReader as the
   whole-file function xz_decode, built from the same parsers as the call-by-call model that the
   correspondence check runs against the implementation), Format/LzipFormat.v.  [xz_fixed] /
   [lz_fixed] = the code with the fix patches of repo-patches/ (F4, F5, F20, ... , F6) applied.
   The LZMA2 / LZMA payload codec and the pre-filter codecs are universally quantified; the only
   thing assumed about them is their own round trip (C01/C16: payload decoded, the bytes after it
   untouched, for every decoder dictionary at least the encoder's; C11: filters are inverses). *)
From LzVerif Require Import Base.Bytes Format.Vli Format.VliProofs Format.XzFormat Format.LzipFormat
  Format.LzipDict Format.LzipDictProofs Format.XzSplitProofs Format.LzipSplitProofs Format.XzHeaderProofs
  Format.XzBlockHeaderProofs Format.XzProofs Format.LzipProofs Format.ContainerRefutations Format.RoundTripExamples.

(* C02_xz.  For every payload codec and filter codec with the round-trip property, every options
   vector a caller may legally configure ([stream_ok]: one of the four check types, at most three
   pre-filters - more make XZWriter::new fail, then no file exists -, delta distances 1..256, aligned
   BCJ start offsets, block size >= 1 or unset), every dictionary size the writer accepts, and every
   partition of the data into write() calls (empty slices, i.e. empty writes and flushes, included):
   whatever file the writer returns, the crate's reader decodes to exactly the concatenation of the
   slices written and consumes the whole file, with multi-stream decoding on or off.  The empty
   input is included (parts = [] or all slices empty). *)
Theorem C02_xz :
  forall (penc : Z -> list Z -> list Z) (pdec : Z -> list Z -> outcome (list Z * list Z)),
  (forall d dd x tail, d <= dd -> pdec dd (penc d x ++ tail) = Ok (x, tail)) ->
  forall (fenc fdec : fkind -> Z -> list Z -> list Z),
  (forall k p x, fdec k p (fenc k p x) = x) ->
  forall o0 parts f multi, stream_ok o0 ->
    xz_encode penc fenc xz_fixed o0 parts = Ok f ->
    xz_decode xz_check_bytes (blockdec pdec fdec) xz_fixed multi f = Ok (concat parts, []).
Proof. exact C02_xz_thm. Qed.
Print Assumptions C02_xz.

(* the function [xz_encode] of the theorem is the writer model [xz_write] applied to the payloads the
   codec produces for the blocks the writer cuts *)
Theorem C02_xz_encode_is_writer :
  forall (penc : Z -> list Z -> list Z) (fenc : fkind -> Z -> list Z -> list Z) fx o0 parts,
    xz_encode penc fenc fx o0 parts =
    (do o <- xzw_new o0; do blocks <- xz_blocks_of fx (xo_block_size o) parts;
     xz_write fx o0 parts (map (payload_of penc fenc o) blocks)).
Proof. exact xz_encode_is_write. Qed.
Print Assumptions C02_xz_encode_is_writer.

(* Block boundaries never lose, duplicate or reorder data: for every partition, the blocks
   concatenate to the concatenation of the slices, none is empty and none exceeds b, all but the
   last hold exactly b (C18: with the dictionary clamp of XZWriter::new). *)
Theorem C02_xz_blocks_partition : forall b parts, 1 <= b ->
  exists blocks, xz_blocks_of xz_fixed (Some b) parts = Ok blocks /\
    concat blocks = concat parts /\
    Forall (fun blk => 1 <= zlen blk <= b) blocks /\
    all_but_last (fun blk => zlen blk = b) blocks.
Proof. exact xz_blocks_fixed_some. Qed.
Print Assumptions C02_xz_blocks_partition.

(* The LZMA2 dictionary-size property written into the block header announces a
   dictionary at least as large as the one in use, for every size the format can express *)
Theorem C02_xz_dict_ok : forall d,
  4096 <= d <= 3221225472 \/ d = 4294967295 ->
  exists p dd, xz_encode_dict d = Ok p /\ 0 <= p <= 40 /\ xz_decode_dict p = Ok dd /\ d <= dd.
Proof. exact xz_dict_ok. Qed.
Print Assumptions C02_xz_dict_ok.

(* whatever property the writer accepts, the reader's dictionary is large enough *)
Theorem C02_xz_dict_sound : forall d p, xz_encode_dict d = Ok p ->
  exists dd, 0 <= p <= 40 /\ xz_decode_dict p = Ok dd /\ d <= dd.
Proof. exact xz_encode_dict_sound. Qed.
Print Assumptions C02_xz_dict_sound.

(* Every multibyte integer below 2^63 is read back by both parsers of the crate *)
Theorem C02_vli_roundtrip : forall v tail, 0 <= v <= U63_MAX ->
  vli_parse_reader (vli_bytes v ++ tail) = Ok (v, tail) /\
  vli_parse_slice (vli_bytes v ++ tail) = Ok v /\
  vli_size_slice (vli_bytes v ++ tail) = zlen (vli_bytes v) /\
  skipn (Z.to_nat (vli_size_slice (vli_bytes v ++ tail))) (vli_bytes v ++ tail) = tail /\
  vli_size_value v = zlen (vli_bytes v) /\
  1 <= zlen (vli_bytes v) <= 9 /\
  bytes_ok (vli_bytes v) = true.
Proof. exact vli_roundtrip. Qed.
Print Assumptions C02_vli_roundtrip.

(* The block header written for legal options is parsed back: same pre-filters and properties,
   LZMA2 last, a dictionary >= the encoder's, header length a multiple of four. *)
Theorem C02_xz_block_header : forall o hb rest, opts_ok o -> xz_block_header o = Ok hb ->
  exists dd, xo_dict o <= dd /\
    xz_parse_block_header (hb ++ rest) = Ok (Some (mkBhdr None None (xo_filters o ++ [(FLZMA2, dd)])), rest) /\
    zlen hb mod 4 = 0 /\ 12 <= zlen hb.
Proof. exact xz_block_header_rt. Qed.
Print Assumptions C02_xz_block_header.

(* F4: false on the code before the fix - the file written for EMPTY input is rejected by the
   crate's own reader and by the format specification. *)
Theorem C02_xz_empty_input_refuted :
  exists f, xz_write xz_orig w_opts [] [] = Ok f /\
            xz_decode_c xz_orig false f = Err E_INVALID_DATA /\
            XzSpecExec.xz_spec_decode_c true f = None.
Proof. exact xz_finish_empty_refuted. Qed.
Print Assumptions C02_xz_empty_input_refuted.

(* C02_lzip.  For every payload codec with the round-trip property, every requested dictionary
   size (LZIPWriter::new clamps it into [4 KiB, 512 MiB]; the header byte announces at least the
   clamped size: lzip_dict_ok), every member size >= 1 or unset and every partition: the file the
   writer returns decodes to exactly the bytes written, wholly consumed.  Side conditions: the data
   are bytes, and the u64 counters of the trailer do not wrap (fewer than 2^64 bytes per member). *)
Theorem C02_lzip :
  forall (penc : Z -> list Z -> list Z) (pdec : Z -> list Z -> outcome (list Z * list Z)),
  (forall d dd x tail, d <= dd -> pdec dd (penc d x ++ tail) = Ok (x, tail)) ->
  forall o0 parts f,
    bytes_ok (concat parts) = true ->
    (forall members, lz_members_of (lo_member_size (lzw_new o0)) parts = Ok members ->
                     lz_sizes_ok penc (lo_dict (lzw_new o0)) members) ->
    match lo_member_size o0 with Some m => 1 <= m | None => True end ->
    lz_encode penc o0 parts = Ok f ->
    lz_decode pdec lz_fixed f = Ok (concat parts, []).
Proof. exact C02_lzip_thm. Qed.
Print Assumptions C02_lzip.

(* Proved in Format/LzipDictProofs.v (the F3 fix): the header byte announces a
   dictionary at least as large as the one in use, and at most an eighth larger *)
Theorem C02_lzip_dict_ok : forall d,
  LZIP_MIN_DICT <= d <= LZIP_MAX_DICT ->
  exists byte dd, lzip_encode_dict_size d = Ok byte /\ 0 <= byte < 256 /\
                  lzip_decode_dict_size byte = Ok dd /\ d <= dd /\ 16 * (dd - d) < 2 * d.
Proof. exact lzip_dict_ok. Qed.
Print Assumptions C02_lzip_dict_ok.

Theorem C02_lzip_members_partition : forall m parts, 1 <= m ->
  exists members, lz_members_of (Some m) parts = Ok members /\
    concat members = concat parts /\
    Forall (fun mb => zlen mb <= m) members /\
    all_but_last (fun mb => zlen mb = m) members /\
    (members = [[]] \/ Forall (fun mb => 1 <= zlen mb) members).
Proof. exact lz_members_some. Qed.
Print Assumptions C02_lzip_members_partition.

(* Non-vacuity: codecs with the assumed round-trip property exist, legal option vectors exist, and
   the theorems' conclusions hold on concrete instances (XZ: two blocks, delta slot, SHA-256, by
   C02_xz applied to the file; LZIP: one member written by three calls, one of them empty, with a
   dictionary size that is not representable exactly, by evaluation). *)
Example C02_payload_codec_exists :
  exists (penc : Z -> list Z -> list Z) (pdec : Z -> list Z -> outcome (list Z * list Z)),
    forall d dd x tail, d <= dd -> pdec dd (penc d x ++ tail) = Ok (x, tail).
Proof. exact payload_codec_exists. Qed.
Example C02_filter_codec_exists :
  exists (fenc fdec : fkind -> Z -> list Z -> list Z), forall k p x, fdec k p (fenc k p x) = x.
Proof. exact filter_codec_exists. Qed.
Example C02_xz_instance :
  stream_ok ex_opts /\
  exists f, xz_encode toy_penc (fun _ _ x => x) xz_fixed ex_opts ex_parts = Ok f /\
            xz_decode xz_check_bytes (blockdec toy_pdec (fun _ _ x => x)) xz_fixed true f = Ok (concat ex_parts, []) /\
            xz_blocks_of xz_fixed (Some 4096) ex_parts = Ok [repeatn 7 3000 ++ repeatn 9 1096; repeatn 9 904 ++ [10]].
Proof. split; [exact ex_stream_ok | exact ex_roundtrip]. Qed.
Example C02_lzip_instance :
  exists f, lz_encode toy_penc (mkLzopts 5000 (Some 1)) [[1; 2; 3]; []; [4; 5]] = Ok f /\
            lz_decode toy_pdec lz_fixed f = Ok ([1; 2; 3; 4; 5], []).
Proof. exact ex_lzip_roundtrip. Qed.
