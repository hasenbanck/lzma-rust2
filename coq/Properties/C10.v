(* Properties/C10.v — dropping or finishing an MT reader/writer releases all of its threads; the
   thread count never exceeds the clamped maximum.
   Theorem statements, each closed by [exact] of a lemma proved in Mt/*Proofs.v and Mt/Refuted.v; the
   non-vacuity Examples are proved in place.

   Claimed PARTIAL: "a worker thread terminates" is identified with "its worker function returns"
   (program point WExit); sequential consistency over the modelled operations. *)
From LzVerif Require Import Base.Bytes Mt.Protocol Mt.ProtocolLemmas Mt.ProtocolInv Mt.LiveInv Mt.LivenessProofs
  Mt.MeasureProofs Mt.Refuted.
Local Open Scope nat_scope.

(* at most num_workers.clamp(1, 256) workers are ever spawned — every configuration *)
Theorem C10_spawn_bound : forall (R : Type) (f : nat -> R + Z) c src p (s : state R),
  reachable f c src p s -> length (ws s) <= Nat.max 1 (Nat.min (k_workers c) 256).
Proof. exact @spawn_bound. Qed.
Print Assumptions C10_spawn_bound.

(* Drop is a fixed sequence of at most 6 coordinator steps.  Every one of them is enabled, except
   the acquisition of the queue mutex by the repaired close(): then a worker inside steal()'s
   critical section holds the mutex, and that worker is enabled.  Every configuration. *)
Theorem C10_drop_nonblocking : forall (R : Type) (f : nat -> R + Z) c src p (s : state R),
  reachable f c src p s -> drop_pc (pc s) = true ->
  (exists s', co_step c s 0 = Some s' /\ drop_rank (pc s') < drop_rank (pc s) /\
              (drop_pc (pc s') = true \/ pc s' = CDone)) \/
  (pc s = CCloseLock false /\
   exists i w, q_lock s = Some (Wk i) /\ nth_opt (ws s) i = Some w /\ holds_lock w = true /\
               wk_step f c s i <> None).
Proof. exact @drop_nonblocking. Qed.
Print Assumptions C10_drop_nonblocking.

(* ... and that worker releases the mutex within three of its own steps *)
Theorem C10_holder_releases : forall (R : Type) (f : nat -> R + Z) c src p (s : state R) i w s',
  reachable f c src p s -> nth_opt (ws s) i = Some w -> holds_lock w = true ->
  wk_step f c s i = Some s' ->
  q_lock s' = None \/ exists w', nth_opt (ws s') i = Some w' /\ holds_lock w' = true /\ hold_rank w' < hold_rank w.
Proof. exact @holder_releases. Qed.
Print Assumptions C10_holder_releases.

(* Repaired code: once Drop has finished, a state in which nothing can move has all workers exited;
   by C09_mt_terminates every continuation reaches such a state after finitely many steps. *)
Theorem C10_drop_releases : forall (R : Type) (f : nat -> R + Z) c src p (s : state R),
  Fx c -> reachable f c src p s -> pc s = CDone -> stuck f c s = true -> all_exited s = true.
Proof. exact @drop_releases. Qed.
Print Assumptions C10_drop_releases.

Theorem C10_continuations_finite : forall (R : Type) (f : nat -> R + Z) c src p (s : state R) sched s',
  Fx c -> reachable f c src p s -> run_strict f c s sched = Some s' ->
  length sched + measure c s' <= measure c s.
Proof. exact @mt_terminates. Qed.
Print Assumptions C10_continuations_finite.

(* the pinned code violates the property (F15): close() notifies without the queue mutex *)
Theorem C10_lost_wakeup_refuted :
  exists sched s, run_strict f_ok rd0 (init rd0 [] [OpDrop]) sched = Some s /\ leaked f_ok rd0 s = true.
Proof. exact lost_wakeup_refuted. Qed.
Print Assumptions C10_lost_wakeup_refuted.

(* Non-vacuity: the same interleaving on the repaired code — the worker is inside the window when
   Drop starts — ends with the worker exited. *)
Example C10_repaired_example :
  let s0 := run f_ok rd1 (init rd1 [] [OpDrop]) [Wk 0; Wk 0; Wk 0; Wk 0] in
  let '(s, maximal) := run_auto f_ok rd1 s0 true 200 in
  ws s0 = [WWait] /\ maximal = true /\ all_exited s = true /\ dropped s = true.
Proof. vm_compute. auto. Qed.
