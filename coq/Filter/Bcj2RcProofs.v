(* Filter/Bcj2RcProofs.v — the range decoder inside Bcj2Decoder::decode (Filter/Bcj2.v: bcj2_normalize,
   bcj2_bit, the probability array) follows the range ENCODER of the specification (Codec/Range.v)
   bit by bit.  Everything is reduced to the lemmas of Codec/RangeDecProofs.v about [dec_match]: the
   registers (range, code) together with the not yet consumed part of the RC stream form an [rdec];
   the BCJ2 decoder normalises lazily at the top of its loop exactly like [rdec_normalize]. *)
From LzVerif Require Import Codec.ProbProofs Codec.RangeArithProofs Codec.RangeEncProofs Codec.RangeDecProofs Codec.RangeNoWrapProofs.
From LzVerif Require Import Filter.DeltaProofs Filter.Bcj2 Filter.Bcj2Enc Filter.Bcj2EncProofs.

Definition ptab_rel (l : list Z) (t : probs) : Prop :=
  zlen l = 258 /\ forall k, 0 <= k < 258 -> zth l k = Some (prob_get t k).

Lemma nth_opt_repeatn {A} (x : A) n k : (k < n)%nat -> nth_opt (repeatn x n) k = Some x.
Proof.
  revert k; induction n as [|n IH]; intros k Hk; [lia|].
  destruct k as [|k]; cbn [repeatn nth_opt]; [reflexivity | apply IH; lia].
Qed.

Lemma ptab_rel_init : ptab_rel (bd_probs bdec_new) PLeaf.
Proof.
  cbn [bdec_new bd_probs]. change (Z.shiftr BIT_MODEL_TOTAL 1) with 1024.
  split.
  - unfold zlen. rewrite repeatn_length. reflexivity.
  - intros k Hk. unfold zth. destruct (Z.ltb_spec k 0); [lia|].
    rewrite nth_opt_repeatn by (unfold BCJ2_NUM_PROBS; lia). reflexivity.
Qed.

Lemma ptab_rel_upd l t k v : ptab_rel l t -> 0 <= k < 258 -> ptab_rel (zupd l k v) (prob_set t k v).
Proof.
  intros [Hl Hg] Hk. split; [unfold zlen in *; rewrite zupd_length; exact Hl|].
  intros j Hj. unfold prob_get, prob_set. destruct (Z.eq_dec j k) as [->|Hne].
  - rewrite agss. apply zth_zupd_same. lia.
  - rewrite agso by lia. rewrite zth_zupd_other by lia. exact (Hg j Hj).
Qed.

Lemma rdec_normalize_cons r c b inp : r < 16777216 ->
  rdec_normalize (mkRdec r c (b :: inp) 0) = mkRdec (wrap32 (r * 256)) (code_shift_in c b) inp 0.
Proof.
  intros Hr. unfold rdec_normalize, rdec_read, code_shift_in. cbn [rd_range rd_in rd_code rd_over].
  replace (r <? P2_24) with true by (symmetry; apply Z.ltb_lt; exact Hr). reflexivity.
Qed.

Lemma rdec_normalize_big r c inp : 16777216 <= r ->
  rdec_normalize (mkRdec r c inp 0) = mkRdec r c inp 0.
Proof.
  intros Hr. unfold rdec_normalize. cbn [rd_range].
  replace (r <? P2_24) with false by (symmetry; apply Z.ltb_ge; exact Hr). reflexivity.
Qed.

Lemma rdec_normalize_nil_over r c : r < 16777216 -> rd_over (rdec_normalize (mkRdec r c [] 0)) = 1.
Proof.
  intros Hr. unfold rdec_normalize, rdec_read. cbn [rd_range rd_in rd_over].
  replace (r <? P2_24) with true by (symmetry; apply Z.ltb_lt; exact Hr). reflexivity.
Qed.

(* the registers are those of a normalised decoder that corresponds to encoder state e *)
Definition rc_norm (out : list Z) (r c : Z) (inp : list Z) (e : renc) : Prop :=
  dec_match out [] (mkRdec r c inp 0) e.
(* the same up to the pending normalisation *)
Definition rc_ok (out : list Z) (r c : Z) (inp : list Z) (e : renc) : Prop :=
  dec_match out [] (rdec_normalize (mkRdec r c inp 0)) e /\ 0 <= r.

Lemma rc_norm_range out r c inp e : rc_norm out r c inp e -> renc_inv e -> 16777216 <= r < 4294967296.
Proof. intros (Hr & _) [_ HR]. cbn [rd_range] in Hr. lia. Qed.

Lemma rc_norm_ok out r c inp e : rc_norm out r c inp e -> renc_inv e -> rc_ok out r c inp e.
Proof.
  intros Hm HI. pose proof (rc_norm_range _ _ _ _ _ Hm HI) as Hr.
  split; [|lia]. rewrite rdec_normalize_big by lia. exact Hm.
Qed.

(* the range is never in the flush / init region 0..5 *)
Lemma rc_ok_range out r c inp e : rc_ok out r c inp e -> renc_inv e -> 65536 <= r < 4294967296.
Proof.
  intros [(Hr & _) H0] [_ HR].
  destruct (Z.lt_ge_cases r 16777216) as [Hlt|Hge].
  - destruct inp as [|b inp].
    + unfold rdec_normalize, rdec_read in Hr. cbn [rd_range rd_in] in Hr.
      replace (r <? P2_24) with true in Hr by (symmetry; apply Z.ltb_lt; exact Hlt).
      cbn [rd_range] in Hr. unfold wrap32 in Hr. (Z.div_mod_to_equations; lia).
    + rewrite rdec_normalize_cons in Hr by exact Hlt. cbn [rd_range] in Hr. unfold wrap32 in Hr. (Z.div_mod_to_equations; lia).
  - rewrite rdec_normalize_big in Hr by exact Hge. cbn [rd_range] in Hr. lia.
Qed.

(* a pending normalisation finds its byte *)
Lemma rc_ok_needs_byte out r c e : rc_ok out r c [] e -> r < 16777216 -> False.
Proof.
  intros [(_ & Ho & _) _] Hr. rewrite rdec_normalize_nil_over in Ho by exact Hr. discriminate.
Qed.

Lemma rc_ok_step out r c b inp e : rc_ok out r c (b :: inp) e -> r < 16777216 ->
  rc_norm out (wrap32 (r * 256)) (code_shift_in c b) inp e.
Proof. intros [Hm _] Hr. rewrite rdec_normalize_cons in Hm by exact Hr. exact Hm. Qed.

Lemma rc_ok_big out r c inp e : rc_ok out r c inp e -> 16777216 <= r -> rc_norm out r c inp e.
Proof. intros [Hm _] Hr. rewrite rdec_normalize_big in Hm by exact Hr. exact Hm. Qed.

(* [bcj2_bit] takes the encoder's step for [bit] when the code lies in that step's part of the range;
   the panics of a build that checks overflow do not occur *)
Lemma bcj2_bit_step r c p bit : 16777216 <= r < 4294967296 -> 31 <= p <= 2017 -> bit = 0 \/ bit = 1 ->
  0 <= c - bit_off r p bit < bit_width r p bit ->
  bcj2_bit r c p = Ok (bit, bit_width r p bit, c - bit_off r p bit, prob_update_exact p bit).
Proof.
  intros Hr Hp Hbit Hc. pose proof (bound_facts r p Hr Hp) as Hbf. cbv zeta in Hbf.
  unfold bcj2_bit, prob_update_exact, P2_11, NUM_MODEL_BITS, BIT_MODEL_TOTAL, NUM_MOVE_BITS.
  rewrite shiftr_div by lia. change (2 ^ 11) with 2048.
  replace (4294967296 <=? r / 2048 * p) with false by (symmetry; apply Z.leb_gt; lia).
  destruct Hbit as [-> | ->]; unfold bit_off, bit_width in *; cbn [Z.eqb] in *.
  - replace (c <? r / 2048 * p) with true by (symmetry; apply Z.ltb_lt; lia).
    replace (2048 <? p) with false by (symmetry; apply Z.ltb_ge; lia). rewrite Z.sub_0_r. reflexivity.
  - replace (c <? r / 2048 * p) with false by (symmetry; apply Z.ltb_ge; lia).
    replace (r <? r / 2048 * p) with false by (symmetry; apply Z.ltb_ge; lia). reflexivity.
Qed.

Lemma b2_bit_ok out e t k bit r c inp :
  renc_inv e -> probs_ok t -> bit = 0 \/ bit = 1 -> re_cache_size e + 1 < 4294967296 ->
  bytes_ok out = true ->
  rc_norm out r c inp e ->
  renc_fut out (fst (encode_bit e t k bit)) ->
  exists r' c' p',
    bcj2_bit r c (prob_get t k) = Ok (bit, r', c', p') /\
    snd (encode_bit e t k bit) = prob_set t k p' /\
    rc_ok out r' c' inp (fst (encode_bit e t k bit)).
Proof.
  intros HI Ht Hbit Hs Hb Hm Hf.
  pose proof (dec_match_normalized _ _ _ _ Hm HI) as Hnorm.
  pose proof (rc_norm_range _ _ _ _ _ Hm HI) as Hr.
  destruct (decode_bit_step out [] _ e t k bit HI Ht Hbit Hs Hb ltac:(rewrite Hnorm; exact Hm) Hf) as (Hc & _ & Hm1).
  destruct Hm as (Hre & _). rewrite Hnorm in Hc, Hm1. cbn [rd_range rd_code rd_in rd_over] in Hre, Hc, Hm1. rewrite <- Hre in Hc, Hm1.
  pose proof (probs_ok_get t k Ht) as Hp. pose proof (proj1 (prob_ok_iff _) Hp) as Hp'.
  pose proof (bit_step_bounds r _ bit Hr Hp') as (_ & Hw & _).
  do 3 eexists. split; [exact (bcj2_bit_step _ _ _ _ Hr Hp' Hbit Hc)|]. split; [|split; [exact Hm1 | lia]].
  rewrite <- (prob_update_nowrap _ _ Hp Hbit). reflexivity.
Qed.

Lemma rc_norm_init out b1 b2 b3 b4 rest :
  out = 0 :: b1 :: b2 :: b3 :: b4 :: rest ->
  rc_norm out 4294967295 (((b1 * 256 + b2) * 256 + b3) * 256 + b4) rest renc_init.
Proof. intros ->. pose proof (dec_match_init b1 b2 b3 b4 rest []) as H. rewrite app_nil_r in H. exact H. Qed.

Lemma rc_norm_final out r c inp e :
  rc_norm out r c inp e -> renc_inv e -> re_cache_size e + 5 < 4294967296 ->
  out = renc_bytes (renc_finish e) -> c = 0 /\ inp = [].
Proof. intros Hm [HI _] Hs Heq. destruct (dec_match_final _ _ _ _ Hm HI Hs Heq) as (Hin & Hc & _). auto. Qed.
