(* Filter/BcjWordProofs.v — the filters that look at aligned words (ARM, ARM-Thumb, ARM64, PowerPC,
   SPARC): per-word inverse lemmas (each conversion is "unpack a bit field, add or subtract the
   position modulo the field width, repack"); for ARM-Thumb also what the loop keeps of the
   bytes a step looks ahead at. *)
From LzVerif Require Import Base.Bytes Filter.Bcj Filter.BcjArithProofs.

Definition word4_bytes (f : word4) : Prop :=
  forall p b0 b1 b2 b3 c0 c1 c2 c3, byte b0 -> byte b1 -> byte b2 -> byte b3 ->
    f p b0 b1 b2 b3 = (c0, c1, c2, c3) -> byte c0 /\ byte c1 /\ byte c2 /\ byte c3.

Definition word4_inv (fe fd : word4) : Prop :=
  forall p b0 b1 b2 b3, p mod 4 = 0 -> byte b0 -> byte b1 -> byte b2 -> byte b3 ->
    forall c0 c1 c2 c3, fe p b0 b1 b2 b3 = (c0, c1, c2, c3) -> fd p c0 c1 c2 c3 = (b0, b1, b2, b3).

Ltac tuple_inj H :=
  match type of H with
  | (?a, ?b, ?c, ?d) = (?a', ?b', ?c', ?d') =>
      let E0 := fresh "E" in let E1 := fresh "E" in let E2 := fresh "E" in let E3 := fresh "E" in
      assert (E0 : a' = a) by congruence; assert (E1 : b' = b) by congruence;
      assert (E2 : c' = c) by congruence; assert (E3 : d' = d) by congruence;
      clear H; subst a' b' c' d'
  end.
Ltac tuple_eq := repeat match goal with |- (_, _) = (_, _) => f_equal end.

Lemma word_bytes_byte d c0 c1 c2 c3 : word_bytes d = (c0, c1, c2, c3) -> byte c0 /\ byte c1 /\ byte c2 /\ byte c3.
Proof. unfold word_bytes. intros E. tuple_inj E. unfold byte. repeat split; apply u8_range. Qed.

Ltac byte_goal := unfold byte; repeat split; try apply u8_range; try (unfold byte in *; tauto).

Lemma arm_word_bytes enc : word4_bytes (arm_word enc).
Proof.
  intros p b0 b1 b2 b3 c0 c1 c2 c3 H0 H1 H2 H3. unfold arm_word.
  destruct (b3 =? 235); intros E; tuple_inj E; byte_goal.
Qed.

Lemma ppc_word_bytes enc : word4_bytes (ppc_word enc).
Proof.
  intros p b0 b1 b2 b3 c0 c1 c2 c3 H0 H1 H2 H3. unfold ppc_word.
  destruct (_ && _); intros E; tuple_inj E; byte_goal.
Qed.

Lemma sparc_word_bytes enc : word4_bytes (sparc_word enc).
Proof.
  intros p b0 b1 b2 b3 c0 c1 c2 c3 H0 H1 H2 H3. unfold sparc_word.
  destruct (_ || _); intros E; tuple_inj E; byte_goal.
Qed.

Lemma arm64_word_bytes enc : word4_bytes (arm64_word enc).
Proof.
  intros p b0 b1 b2 b3 c0 c1 c2 c3 H0 H1 H2 H3. unfold arm64_word. cbv zeta.
  repeat match goal with |- context [if ?c then _ else _] => destruct c end;
    intros E; try (apply word_bytes_byte in E; exact E); tuple_inj E; byte_goal.
Qed.

Lemma thumb_word_bytes enc p b0 b1 b2 b3 c0 c1 c2 c3 :
  thumb_word enc p b0 b1 b2 b3 = (c0, c1, c2, c3) -> byte c0 /\ byte c1 /\ byte c2 /\ byte c3.
Proof. unfold thumb_word. intros E; tuple_inj E; byte_goal. Qed.

Definition arm_field (enc : bool) (p v : Z) : Z := (addsub enc (4 * v) p / 4) mod 16777216.

Lemma arm_word_spec enc p b0 b1 b2 :
  byte b0 -> byte b1 -> byte b2 ->
  arm_word enc p b0 b1 b2 235 =
  let v := arm_field enc p (b2 * 65536 + b1 * 256 + b0) in
  (v mod 256, (v / 256) mod 256, (v / 65536) mod 256, 235).
Proof.
  unfold byte; intros H0 H1 H2. unfold arm_word. change (235 =? 235) with true. cbv iota.
  shift_lits. lor_plus 16. lor_plus 8. land_lits.
  unfold arm_field. cbv zeta.
  rewrite s32_small by lia.
  replace ((b2 * 65536 + b1 * 256 + b0) * 4) with (4 * (b2 * 65536 + b1 * 256 + b0)) by lia.
  set (d := addsub enc _ p / 4).
  unfold u8. tuple_eq; (Z.div_mod_to_equations; lia).
Qed.

Lemma arm_field_inv p v : p mod 4 = 0 -> 0 <= v < 16777216 ->
  arm_field false p (arm_field true p v) = v.
Proof. intros Hp Hv. unfold arm_field, addsub, s32. (Z.div_mod_to_equations; lia). Qed.

Lemma arm_field_range enc p v : 0 <= arm_field enc p v < 16777216.
Proof. unfold arm_field. (Z.div_mod_to_equations; lia). Qed.

Lemma arm_word_inv : word4_inv (arm_word true) (arm_word false).
Proof.
  intros p b0 b1 b2 b3 Hp H0 H1 H2 H3 c0 c1 c2 c3 He.
  destruct (arm_word_bytes true _ _ _ _ _ _ _ _ _ H0 H1 H2 H3 He) as (B0 & B1 & B2 & _).
  destruct (b3 =? 235) eqn:E.
  - apply Z.eqb_eq in E; subst b3. rewrite arm_word_spec in He by assumption. cbv zeta in He.
    pose proof (arm_field_range true p (b2 * 65536 + b1 * 256 + b0)) as Hv.
    pose proof (arm_field_inv p (b2 * 65536 + b1 * 256 + b0) Hp ltac:(unfold byte in *; lia)) as Hi.
    set (v := arm_field true p _) in *.
    tuple_inj He.
    rewrite arm_word_spec by assumption. cbv zeta.
    replace ((v / 65536) mod 256 * 65536 + (v / 256) mod 256 * 256 + v mod 256) with v by (Z.div_mod_to_equations; lia).
    rewrite Hi. unfold byte in *. tuple_eq; (Z.div_mod_to_equations; lia).
  - unfold arm_word in He. rewrite E in He. inversion He; subst.
    unfold arm_word. rewrite E. reflexivity.
Qed.

Definition ppc_cond (b0 b3 : Z) : bool := (Z.land b0 252 =? 72) && (Z.land b3 3 =? 1).

Lemma ppc_cond_spec b0 b3 : byte b0 -> byte b3 ->
  ppc_cond b0 b3 = true -> b0 / 4 = 18 /\ b3 mod 4 = 1.
Proof.
  unfold byte, ppc_cond. intros H0 H3 H. apply andb_true_iff in H. destruct H as [Ha Hb].
  apply Z.eqb_eq in Ha, Hb. revert Ha Hb. land_lits. (Z.div_mod_to_equations; lia).
Qed.

Lemma ppc_cond_intro b0 b3 : byte b0 -> byte b3 -> b0 / 4 = 18 -> b3 mod 4 = 1 -> ppc_cond b0 b3 = true.
Proof.
  unfold byte, ppc_cond. intros H0 H3 Ha Hb. apply andb_true_iff. split; apply Z.eqb_eq; land_lits; (Z.div_mod_to_equations; lia).
Qed.

Definition ppc_field (b0 b1 b2 b3 : Z) : Z := (b0 mod 4) * 16777216 + b1 * 65536 + b2 * 256 + b3 / 4 * 4.

Definition ppc_out (d : Z) : Z * Z * Z * Z :=
  (72 + (d / 16777216) mod 4, (d / 65536) mod 256, (d / 256) mod 256, d mod 256 + 1).

Lemma ppc_word_spec enc p b0 b1 b2 b3 :
  byte b0 -> byte b1 -> byte b2 -> byte b3 -> ppc_cond b0 b3 = true -> p mod 4 = 0 ->
  ppc_word enc p b0 b1 b2 b3 = ppc_out (addsub enc (ppc_field b0 b1 b2 b3) p).
Proof.
  intros H0 H1 H2 H3 Hc Hp. unfold ppc_word. fold (ppc_cond b0 b3). rewrite Hc.
  destruct (ppc_cond_spec _ _ H0 H3 Hc) as [Ha Hb]. unfold byte in *.
  shift_lits. land_lits.
  lor_plus 24. lor_plus 16. lor_plus 8.
  replace ((b0 mod 4 * 16777216 + b1 mod 256 * 65536 + b2 mod 256 * 256 + b3 / 4 mod 64 * 4))
    with (ppc_field b0 b1 b2 b3) by (unfold ppc_field; (Z.div_mod_to_equations; lia)).
  unfold ppc_out. set (d := addsub enc _ p).
  assert (Hd : d mod 4 = 0).
  { unfold d, addsub, s32, ppc_field. destruct enc; (Z.div_mod_to_equations; lia). }
  lor_plus 2.
  rewrite Hb. lor_plus 1.
  unfold u8. tuple_eq; (Z.div_mod_to_equations; lia).
Qed.

(* the output only depends on the 26-bit field; packing the field of a matching word gives it back;
   the field of the output is the value *)
Lemma ppc_out_eqm d d' : d mod 67108864 = d' mod 67108864 -> ppc_out d = ppc_out d'.
Proof. intros H. unfold ppc_out. tuple_eq; (Z.div_mod_to_equations; lia). Qed.

Lemma ppc_out_field b0 b1 b2 b3 : byte b0 -> byte b1 -> byte b2 -> byte b3 -> b0 / 4 = 18 -> b3 mod 4 = 1 ->
  ppc_out (ppc_field b0 b1 b2 b3) = (b0, b1, b2, b3).
Proof. unfold byte, ppc_out, ppc_field. intros. tuple_eq; (Z.div_mod_to_equations; lia). Qed.

Lemma ppc_field_out d : d mod 4 = 0 ->
  ppc_field (72 + (d / 16777216) mod 4) ((d / 65536) mod 256) ((d / 256) mod 256) (d mod 256 + 1) = d mod 67108864 /\
  (72 + (d / 16777216) mod 4) / 4 = 18 /\ (d mod 256 + 1) mod 4 = 1.
Proof. intros H. unfold ppc_field. repeat split; (Z.div_mod_to_equations; lia). Qed.

Lemma ppc_word_inv : word4_inv (ppc_word true) (ppc_word false).
Proof.
  intros p b0 b1 b2 b3 Hp H0 H1 H2 H3 c0 c1 c2 c3 He.
  destruct (ppc_word_bytes true _ _ _ _ _ _ _ _ _ H0 H1 H2 H3 He) as (B0 & B1 & B2 & B3).
  destruct (ppc_cond b0 b3) eqn:E.
  - rewrite ppc_word_spec in He by assumption. unfold ppc_out in He.
    destruct (ppc_cond_spec _ _ H0 H3 E) as [Ha Hb].
    set (w := ppc_field b0 b1 b2 b3) in *.
    assert (Hw : w mod 4 = 0) by (unfold w, ppc_field; clear -Hb; (Z.div_mod_to_equations; lia)).
    set (d := addsub true w p) in *.
    assert (Hd : d mod 4 = 0) by (unfold d, addsub; rewrite s32_mod_div by reflexivity; clear -Hw Hp; (Z.div_mod_to_equations; lia)).
    tuple_inj He. destruct (ppc_field_out d Hd) as (Ef & Ec0 & Ec3).
    rewrite ppc_word_spec by (try assumption; apply ppc_cond_intro; assumption).
    rewrite Ef, <- (ppc_out_field b0 b1 b2 b3) by assumption. apply ppc_out_eqm.
    apply addsub_inv_mod; [reflexivity|reflexivity|]. apply Z.mod_mod. discriminate.
  - unfold ppc_word in He. fold (ppc_cond b0 b3) in He. rewrite E in He. inversion He; subst.
    unfold ppc_word. fold (ppc_cond c0 c3). rewrite E. reflexivity.
Qed.

Definition sparc_cond (b0 b1 : Z) : bool :=
  ((b0 =? 64) && (Z.land b1 192 =? 0)) || ((b0 =? 127) && (Z.land b1 192 =? 192)).

Lemma sparc_cond_spec b0 b1 : byte b0 -> byte b1 ->
  sparc_cond b0 b1 = true <-> exists s, (s = 0 \/ s = 1) /\ b0 = 64 + 63 * s /\ b1 / 64 = 3 * s.
Proof.
  unfold byte, sparc_cond. intros H0 H1.
  rewrite orb_true_iff, !andb_true_iff, !Z.eqb_eq. land_lits. split.
  - intros [[Ha Hb]|[Ha Hb]]; [exists 0|exists 1]; (Z.div_mod_to_equations; lia).
  - intros (s & [Hs|Hs] & Ha & Hb); subst s; [left|right]; (Z.div_mod_to_equations; lia).
Qed.

Definition sparc_val (d2 : Z) : Z := 1073741824 + (d2 / 4194304) mod 2 * 1069547520 + d2 mod 4194304.
Definition sparc_out (d2 : Z) : Z * Z * Z * Z :=
  let w := sparc_val d2 in (w / 16777216, (w / 65536) mod 256, (w / 256) mod 256, w mod 256).

Lemma sparc_word_spec enc p b0 b1 b2 b3 :
  byte b0 -> byte b1 -> byte b2 -> byte b3 -> sparc_cond b0 b1 = true ->
  sparc_word enc p b0 b1 b2 b3 =
  sparc_out (addsub enc (s32 ((b0 * 16777216 + b1 * 65536 + b2 * 256 + b3) * 4)) p / 4).
Proof.
  intros H0 H1 H2 H3 Hc. unfold sparc_word. fold (sparc_cond b0 b1). rewrite Hc.
  unfold byte in *.
  shift_lits. land_lits.
  lor_plus 24. lor_plus 16. lor_plus 8.
  replace (b0 mod 256 * 16777216 + b1 mod 256 * 65536 + b2 mod 256 * 256 + b3 mod 256)
    with (b0 * 16777216 + b1 * 65536 + b2 * 256 + b3) by (Z.div_mod_to_equations; lia).
  set (d2 := addsub enc _ p / 4).
  rewrite (s32_small ((0 - d2 / 4194304 mod 2) * 4194304)) by (Z.div_mod_to_equations; lia).
  lor_plus 22. lor_plus 30.
  unfold sparc_out, sparc_val.
  set (w := 1073741824 + _ + _).
  assert (Hw : 1073741824 + (((0 - d2 / 4194304 mod 2) * 4194304) mod 1073741824 + d2 mod 4194304) = w)
    by (unfold w; (Z.div_mod_to_equations; lia)).
  rewrite Hw. cbv zeta. unfold u8. assert (0 <= w < 2147483648) by (unfold w; (Z.div_mod_to_equations; lia)).
  tuple_eq; (Z.div_mod_to_equations; lia).
Qed.

Lemma sparc_val_range d : 1073741824 <= sparc_val d < 2147483648.
Proof. unfold sparc_val. (Z.div_mod_to_equations; lia). Qed.

Lemma sparc_roundtrip p W s L :
  p mod 4 = 0 -> (s = 0 \/ s = 1) -> 0 <= L < 4194304 ->
  W = 1073741824 + s * 1069547520 + L ->
  sparc_val (addsub false (s32 (sparc_val (addsub true (s32 (W * 4)) p / 4) * 4)) p / 4) = W.
Proof.
  intros Hp Hs HL ->. assert (Hs' : 0 <= s <= 1) by lia. clear Hs. unfold sparc_val, addsub, s32. (Z.div_mod_to_equations; lia).
Qed.

Lemma sparc_val_cond d : sparc_cond (sparc_val d / 16777216) ((sparc_val d / 65536) mod 256) = true.
Proof.
  pose proof (sparc_val_range d) as Hv.
  apply sparc_cond_spec; [unfold byte; (Z.div_mod_to_equations; lia)|unfold byte; (Z.div_mod_to_equations; lia)|].
  exists ((d / 4194304) mod 2). unfold sparc_val in *. split; [(Z.div_mod_to_equations; lia)|]. split; (Z.div_mod_to_equations; lia).
Qed.

Lemma be_bytes_word w : w / 16777216 * 16777216 + (w / 65536) mod 256 * 65536 + (w / 256) mod 256 * 256 + w mod 256 = w.
Proof. (Z.div_mod_to_equations; lia). Qed.

Lemma sparc_out_val b0 b1 b2 b3 d : byte b0 -> byte b1 -> byte b2 -> byte b3 ->
  sparc_val d = b0 * 16777216 + b1 * 65536 + b2 * 256 + b3 -> sparc_out d = (b0, b1, b2, b3).
Proof. unfold byte, sparc_out. intros H0 H1 H2 H3 ->. cbv zeta. tuple_eq; (Z.div_mod_to_equations; lia). Qed.

Lemma sparc_word_inv : word4_inv (sparc_word true) (sparc_word false).
Proof.
  intros p b0 b1 b2 b3 Hp H0 H1 H2 H3 c0 c1 c2 c3 He.
  destruct (sparc_word_bytes true _ _ _ _ _ _ _ _ _ H0 H1 H2 H3 He) as (B0 & B1 & B2 & B3).
  destruct (sparc_cond b0 b1) eqn:E.
  - rewrite sparc_word_spec in He by assumption. unfold sparc_out in He.
    destruct (proj1 (sparc_cond_spec _ _ H0 H1) E) as (s & Hs & Ha & Hb).
    set (W := b0 * 16777216 + b1 * 65536 + b2 * 256 + b3) in *.
    assert (HW : W = 1073741824 + s * 1069547520 + W mod 4194304)
      by (unfold W, byte in *; destruct Hs; subst s; (Z.div_mod_to_equations; lia)).
    pose proof (sparc_roundtrip p W s (W mod 4194304) Hp Hs ltac:((Z.div_mod_to_equations; lia)) HW) as Hrt.
    set (d2 := addsub true (s32 (W * 4)) p / 4) in *.
    pose proof (sparc_val_range d2) as Hv.
    set (w := sparc_val d2) in *.
    cbv zeta in He. tuple_inj He.
    rewrite sparc_word_spec by (try assumption; apply sparc_val_cond).
    rewrite be_bytes_word.
    apply sparc_out_val; assumption.
  - unfold sparc_word in He. fold (sparc_cond b0 b1) in He. rewrite E in He. tuple_inj He.
    unfold sparc_word. fold (sparc_cond b0 b1). rewrite E. reflexivity.
Qed.

Definition bytes_of (u : Z) : Z * Z * Z * Z :=
  (u mod 256, (u / 256) mod 256, (u / 65536) mod 256, (u / 16777216) mod 256).

Lemma bytes_of_w32 b0 b1 b2 b3 : byte b0 -> byte b1 -> byte b2 -> byte b3 ->
  bytes_of (w4 b0 b1 b2 b3) = (b0, b1, b2, b3).
Proof. unfold byte, bytes_of, w4. intros. tuple_eq; (Z.div_mod_to_equations; lia). Qed.

Lemma word_bytes_of d : word_bytes d = bytes_of d.
Proof. apply word_bytes_spec. Qed.

Lemma bytes_of_eqm x y : x mod 4294967296 = y mod 4294967296 -> bytes_of x = bytes_of y.
Proof. intros H. unfold bytes_of. tuple_eq; (Z.div_mod_to_equations; lia). Qed.

Lemma arm64_src b0 b1 b2 b3 : byte b0 -> byte b1 -> byte b2 -> byte b3 ->
  s32 (Z.shiftl b3 24) + Z.shiftl b2 16 + Z.shiftl b1 8 + b0 = s32 (w4 b0 b1 b2 b3).
Proof. unfold byte, w4. intros. shift_lits. unfold s32. (Z.div_mod_to_equations; lia). Qed.

Lemma land_9F b : byte b -> (Z.land b 159 =? 144) = ((b mod 32 =? 16) && (b / 128 =? 1)).
Proof.
  intros Hb.
  apply (byte_sweep (fun b => Bool.eqb (Z.land b 159 =? 144) ((b mod 32 =? 16) && (b / 128 =? 1)))) in Hb.
  - apply Bool.eqb_prop in Hb. exact Hb.
  - vm_compute. reflexivity.
Qed.

Definition is_bl (b3 : Z) : bool := b3 / 4 =? 37.
Definition is_adrp (b3 : Z) : bool := (b3 mod 32 =? 16) && (b3 / 128 =? 1).
Definition adrp_addr (W : Z) : Z := (W / 536870912) mod 4 + (W / 32) mod 524288 * 4.
Definition adrp_ok (addr : Z) : bool := ((addr + 131072) / 262144) mod 8 =? 0.
Definition adrp_build (addr r : Z) : Z :=
  2415919104 + addr mod 4 * 536870912 + (addr / 131072) mod 2 * 14680064 + (addr / 4) mod 65536 * 32 + r.

Lemma arm64_word_spec enc p b0 b1 b2 b3 :
  byte b0 -> byte b1 -> byte b2 -> byte b3 ->
  arm64_word enc p b0 b1 b2 b3 =
  let W := w4 b0 b1 b2 b3 in
  if is_bl b3 then bytes_of (2483027968 + (addsub enc (s32 W) (p / 4)) mod 67108864)
  else if is_adrp b3 && adrp_ok (adrp_addr W) then
    bytes_of (adrp_build (addsub enc (adrp_addr W) (p / 4096)) (W mod 32))
  else (b0, b1, b2, b3).
Proof.
  intros H0 H1 H2 H3. unfold arm64_word. rewrite arm64_src by assumption.
  cbv zeta. set (W := w4 b0 b1 b2 b3).
  assert (HW : 0 <= W < 4294967296 /\ W / 16777216 = b3) by (unfold W, w4, byte in *; (Z.div_mod_to_equations; lia)).
  set (src := s32 W).
  assert (Hsrc : src mod 4294967296 = W) by (unfold src, s32; (Z.div_mod_to_equations; lia)).
  (* the two tests, on b3 *)
  assert (Ebl : (Z.land (Z.shiftr src 26) 63 =? 37) = is_bl b3).
  { unfold is_bl. shift_lits. land_lits. apply eq_true_iff_eq. rewrite !Z.eqb_eq. unfold byte in *. (Z.div_mod_to_equations; lia). }
  assert (Ead : (Z.land (Z.shiftr src 24) 159 =? 144) = is_adrp b3).
  { unfold is_adrp. rewrite <- land_9F by assumption. f_equal.
    rewrite (land_mod_low (Z.shiftr src 24) 159 8) by lia. f_equal. shift_lits. change (2 ^ 8) with 256. (Z.div_mod_to_equations; lia). }
  rewrite Ebl, Ead.
  destruct (is_bl b3) eqn:Eb.
  - (* BL; a BL word is no ADRP *)
    assert (Ena : is_adrp b3 = false).
    { unfold is_bl in Eb. apply Z.eqb_eq in Eb. unfold is_adrp.
      destruct (b3 mod 32 =? 16) eqn:E1; [|reflexivity]. apply Z.eqb_eq in E1. unfold byte in *. (Z.div_mod_to_equations; lia). }
    rewrite Ena. shift_lits.
    replace (s32 (148 * 16777216)) with (-1811939328) by reflexivity.
    land_lits. lor_plus 26.
    rewrite word_bytes_of. apply bytes_of_eqm. (Z.div_mod_to_equations; lia).
  - destruct (is_adrp b3) eqn:Ea; [|reflexivity].
    cbn [andb].
    assert (Eaddr : Z.lor (Z.land (Z.shiftr src 29) 3) (Z.land (Z.shiftr src 3) 2097148) = adrp_addr W).
    { shift_lits. land_lits. lor_plus 2. unfold adrp_addr. (Z.div_mod_to_equations; lia). }
    rewrite Eaddr.
    assert (Har : 0 <= adrp_addr W < 2097152) by (unfold adrp_addr; (Z.div_mod_to_equations; lia)).
    assert (Eok : (0 =? Z.land (s32 (adrp_addr W + 131072)) 1835008) = adrp_ok (adrp_addr W)).
    { unfold adrp_ok. rewrite s32_small by lia. land_lits. apply eq_true_iff_eq. rewrite !Z.eqb_eq. lia. }
    rewrite Eok. destruct (adrp_ok (adrp_addr W)) eqn:Eo; [|reflexivity].
    shift_lits.
    set (a := addsub enc (adrp_addr W) (p / 4096)).
    replace (s32 (144 * 16777216)) with (-1879048192) by reflexivity.
    land_lits.
    rewrite (s32_small (a mod 4 * 536870912)) by (Z.div_mod_to_equations; lia).
    rewrite (s32_small (a / 4 mod 65536 * 4 * 8)) by (Z.div_mod_to_equations; lia).
    rewrite (s32_small (0 - a / 131072 mod 2 * 131072)) by (Z.div_mod_to_equations; lia).
    lor_plus 5.
    lor_field 29 2.
    lor_field 5 16.
    lor_field 21 3.
    rewrite word_bytes_of. apply bytes_of_eqm. unfold adrp_build.
    assert (Er : src mod 32 = W mod 32) by (clear -Hsrc; (Z.div_mod_to_equations; lia)).
    rewrite Er. clearbody a. clear. (Z.div_mod_to_equations; lia).
Qed.

(* an ADRP word from its fields: immlo (2 bits at 29), the three copies of the sign at 21, the low 16
   bits of immhi at 5, rd *)
Definition adrp_pack (x t y r : Z) : Z := 2415919104 + x * 536870912 + t * 14680064 + y * 32 + r.

Lemma adrp_pack_fields x t y r : 0 <= x < 4 -> 0 <= t < 2 -> 0 <= y < 65536 -> 0 <= r < 32 ->
  let U := adrp_pack x t y r in
  0 <= U < 4294967296 /\ (U / 16777216) mod 32 = 16 /\ U / 16777216 / 128 = 1 /\ U / 16777216 / 4 <> 37 /\
  U mod 32 = r /\ adrp_addr U = x + 4 * y + 1835008 * t.
Proof. intros Hx Ht Hy Hr. unfold adrp_pack, adrp_addr. cbv zeta. repeat split; (Z.div_mod_to_equations; lia). Qed.

Lemma adrp_build_pack a r : adrp_build a r = adrp_pack (a mod 4) ((a / 131072) mod 2) ((a / 4) mod 65536) r.
Proof. reflexivity. Qed.

(* an ADRP word whose address passes the range test is rebuilt from its address and rd *)
Lemma adrp_build_addr W : 0 <= W < 4294967296 -> (W / 16777216) mod 32 = 16 -> W / 16777216 / 128 = 1 ->
  ((adrp_addr W + 131072) / 262144) mod 8 = 0 -> adrp_build (adrp_addr W) (W mod 32) = W.
Proof. intros HW H1 H2 H3. unfold adrp_build, adrp_addr in *. (Z.div_mod_to_equations; lia). Qed.

Lemma adrp_build_eqm a a' r : a mod 262144 = a' mod 262144 -> adrp_build a r = adrp_build a' r.
Proof. intros H. unfold adrp_build. (Z.div_mod_to_equations; lia). Qed.

(* the low 18 bits of an address as immlo and the low 16 bits of immhi; bit 17, copied three times
   above them, passes the range test *)
Lemma adrp_low18 a : a mod 262144 = a mod 4 + 4 * ((a / 4) mod 65536).
Proof. exact (Z.rem_mul_r a 4 65536 ltac:(lia) ltac:(lia)). Qed.

Lemma adrp_sext x y : 0 <= x < 4 -> 0 <= y < 65536 ->
  (x + 4 * y + 1835008 * (y / 32768)) mod 262144 = x + 4 * y /\
  ((x + 4 * y + 1835008 * (y / 32768) + 131072) / 262144) mod 8 = 0.
Proof. intros Hx Hy. split; (Z.div_mod_to_equations; lia). Qed.

Lemma adrp_bit17 a : (a / 131072) mod 2 = (a / 4) mod 65536 / 32768.
Proof. (Z.div_mod_to_equations; lia). Qed.

Lemma adrp_roundtrip p W :
  0 <= W < 4294967296 -> (W / 16777216) mod 32 = 16 -> W / 16777216 / 128 = 1 ->
  ((adrp_addr W + 131072) / 262144) mod 8 = 0 ->
  let U := adrp_build (addsub true (adrp_addr W) (p / 4096)) (W mod 32) in
  0 <= U < 4294967296 /\ (U / 16777216) mod 32 = 16 /\ U / 16777216 / 128 = 1 /\
  U / 16777216 / 4 <> 37 /\
  ((adrp_addr U + 131072) / 262144) mod 8 = 0 /\
  adrp_build (addsub false (adrp_addr U) (p / 4096)) (U mod 32) = W.
Proof.
  intros HW H1 H2 H3. cbv zeta. set (q := p / 4096). set (a := addsub true (adrp_addr W) q).
  rewrite adrp_build_pack, adrp_bit17.
  pose proof (Z.mod_pos_bound a 4 eq_refl) as Hx. pose proof (Z.mod_pos_bound (a / 4) 65536 eq_refl) as Hy.
  pose proof (Z.mod_pos_bound W 32 eq_refl) as Hr.
  destruct (adrp_sext _ _ Hx Hy) as [S1 S2].
  destruct (adrp_pack_fields (a mod 4) ((a / 4) mod 65536 / 32768) ((a / 4) mod 65536) (W mod 32) Hx ltac:(clear -Hy; (Z.div_mod_to_equations; lia)) Hy Hr)
    as (HU & U1 & U2 & U3 & Ur & Ua).
  set (U := adrp_pack _ _ _ _) in *.
  split; [exact HU|]. split; [exact U1|]. split; [exact U2|]. split; [exact U3|].
  rewrite Ua. split; [exact S2|].
  rewrite Ur. rewrite <- (adrp_build_addr W HW H1 H2 H3) at 2. apply adrp_build_eqm.
  apply addsub_inv_mod; [reflexivity|reflexivity|]. rewrite S1. symmetry. apply adrp_low18.
Qed.

Lemma bl_roundtrip p W : 0 <= W < 4294967296 -> W / 16777216 / 4 = 37 ->
  let U := 2483027968 + addsub true (s32 W) (p / 4) mod 67108864 in
  0 <= U < 4294967296 /\ U / 16777216 / 4 = 37 /\
  2483027968 + addsub false (s32 U) (p / 4) mod 67108864 = W.
Proof. intros HW H1. cbv zeta. unfold addsub, s32. (Z.div_mod_to_equations; lia). Qed.

Lemma top_byte U : 0 <= U < 4294967296 -> (U / 16777216) mod 256 = U / 16777216.
Proof. intros H. apply Z.mod_small. (Z.div_mod_to_equations; lia). Qed.

Lemma arm64_word_inv : word4_inv (arm64_word true) (arm64_word false).
Proof.
  intros p b0 b1 b2 b3 Hp H0 H1 H2 H3 c0 c1 c2 c3 He.
  destruct (arm64_word_bytes true _ _ _ _ _ _ _ _ _ H0 H1 H2 H3 He) as (B0 & B1 & B2 & B3).
  rewrite arm64_word_spec in He by assumption. cbv zeta in He.
  set (W := w4 b0 b1 b2 b3) in *.
  assert (HW : 0 <= W < 4294967296 /\ W / 16777216 = b3) by (unfold W, w4, byte in *; (Z.div_mod_to_equations; lia)).
  destruct HW as [HW Hb3].
  assert (Hbw : bytes_of W = (b0, b1, b2, b3)) by (apply bytes_of_w32; assumption).
  destruct (is_bl b3) eqn:Eb.
  - unfold is_bl in Eb. apply Z.eqb_eq in Eb.
    destruct (bl_roundtrip p W HW ltac:((Z.div_mod_to_equations; lia))) as (HU & HUb & Hrt).
    set (U := 2483027968 + _) in *.
    unfold bytes_of in He. tuple_inj He.
    rewrite arm64_word_spec by assumption. cbv zeta.
    rewrite w4_bytes, (Z.mod_small U), top_byte by assumption.
    unfold is_bl at 1. rewrite HUb, Hrt. exact Hbw.
  - destruct (is_adrp b3 && adrp_ok (adrp_addr W)) eqn:Ea.
    + apply andb_true_iff in Ea. destruct Ea as [Ea Eo].
      unfold is_adrp in Ea. apply andb_true_iff in Ea. destruct Ea as [Ea1 Ea2].
      apply Z.eqb_eq in Ea1, Ea2. unfold adrp_ok in Eo. apply Z.eqb_eq in Eo.
      destruct (adrp_roundtrip p W HW ltac:((Z.div_mod_to_equations; lia)) ltac:((Z.div_mod_to_equations; lia)) Eo) as (HU & HU1 & HU2 & HU3 & HU4 & Hrt).
      set (U := adrp_build _ _) in *.
      unfold bytes_of in He. tuple_inj He.
      rewrite arm64_word_spec by assumption. cbv zeta.
      rewrite w4_bytes, (Z.mod_small U), top_byte by assumption.
      unfold is_bl at 1, is_adrp at 1, adrp_ok at 1.
      rewrite (proj2 (Z.eqb_neq _ _) HU3), HU1, HU2, HU4, Hrt. exact Hbw.
    + tuple_inj He.
      rewrite arm64_word_spec by assumption. cbv zeta. fold W. rewrite Eb, Ea. reflexivity.
Qed.

Lemma thumb_match_spec b1 b3 : byte b1 -> byte b3 ->
  thumb_match b1 b3 = (b3 / 8 =? 31) && (b1 / 8 =? 30).
Proof.
  unfold byte, thumb_match. intros H1 H3. land_lits.
  f_equal; apply eq_true_iff_eq; rewrite !Z.eqb_eq; (Z.div_mod_to_equations; lia).
Qed.

Definition thumb_field (b0 b1 b2 b3 : Z) : Z := b1 mod 8 * 524288 + b0 * 2048 + b3 mod 8 * 256 + b2.
Definition thumb_out (d : Z) : Z * Z * Z * Z :=
  ((d / 2048) mod 256, 240 + (d / 524288) mod 8, d mod 256, 248 + (d / 256) mod 8).

Lemma thumb_word_spec enc p b0 b1 b2 b3 :
  byte b0 -> byte b1 -> byte b2 -> byte b3 ->
  thumb_word enc p b0 b1 b2 b3 = thumb_out (addsub enc (2 * thumb_field b0 b1 b2 b3) p / 2).
Proof.
  unfold byte. intros H0 H1 H2 H3. unfold thumb_word.
  shift_lits. land_lits. lor_plus 19. lor_plus 11. lor_plus 8.
  replace (b1 mod 8 * 524288 + b0 mod 256 * 2048 + b3 mod 8 * 256 + b2 mod 256) with (thumb_field b0 b1 b2 b3)
    by (unfold thumb_field; (Z.div_mod_to_equations; lia)).
  assert (Hf : 0 <= thumb_field b0 b1 b2 b3 < 4194304) by (unfold thumb_field; (Z.div_mod_to_equations; lia)).
  rewrite s32_small by lia.
  replace (thumb_field b0 b1 b2 b3 * 2) with (2 * thumb_field b0 b1 b2 b3) by lia.
  set (d := addsub enc _ p / 2).
  lor_plus 3. lor_plus 3.
  unfold thumb_out, u8. tuple_eq; (Z.div_mod_to_equations; lia).
Qed.

Lemma thumb_out_eqm d d' : d mod 4194304 = d' mod 4194304 -> thumb_out d = thumb_out d'.
Proof. intros H. unfold thumb_out. tuple_eq; (Z.div_mod_to_equations; lia). Qed.

Lemma thumb_out_field b0 b1 b2 b3 : byte b0 -> byte b1 -> byte b2 -> byte b3 -> b1 / 8 = 30 -> b3 / 8 = 31 ->
  thumb_out (thumb_field b0 b1 b2 b3) = (b0, b1, b2, b3).
Proof. unfold byte, thumb_out, thumb_field. intros. tuple_eq; (Z.div_mod_to_equations; lia). Qed.

Lemma thumb_out_match d : (240 + (d / 524288) mod 8) / 8 = 30 /\ (248 + (d / 256) mod 8) / 8 = 31.
Proof. split; (Z.div_mod_to_equations; lia). Qed.

Lemma thumb_word_inv p b0 b1 b2 b3 c0 c1 c2 c3 :
  p mod 2 = 0 -> byte b0 -> byte b1 -> byte b2 -> byte b3 -> thumb_match b1 b3 = true ->
  thumb_word true p b0 b1 b2 b3 = (c0, c1, c2, c3) ->
  thumb_word false p c0 c1 c2 c3 = (b0, b1, b2, b3) /\ thumb_match c1 c3 = true.
Proof.
  intros Hp H0 H1 H2 H3 Hm He.
  destruct (thumb_word_bytes _ _ _ _ _ _ _ _ _ _ He) as (B0 & B1 & B2 & B3).
  rewrite thumb_match_spec in Hm by assumption.
  apply andb_true_iff in Hm. destruct Hm as [Hm3 Hm1]. apply Z.eqb_eq in Hm1, Hm3.
  rewrite thumb_word_spec in He by assumption.
  set (v := thumb_field b0 b1 b2 b3) in *.
  assert (Hv : 0 <= v < 4194304) by (unfold v, thumb_field, byte in *; (Z.div_mod_to_equations; lia)).
  set (d := addsub true (2 * v) p / 2) in *.
  unfold thumb_out in He. tuple_inj He.
  split.
  - rewrite thumb_word_spec by assumption.
    assert (Ef : thumb_field ((d / 2048) mod 256) (240 + (d / 524288) mod 8) (d mod 256) (248 + (d / 256) mod 8)
                 = d mod 4194304) by (unfold thumb_field; (Z.div_mod_to_equations; lia)).
    rewrite Ef.
    assert (Ei : (addsub false (2 * (d mod 4194304)) p / 2) mod 4194304 = v)
      by (unfold d, addsub, s32; (Z.div_mod_to_equations; lia)).
    rewrite <- (thumb_out_field b0 b1 b2 b3) by assumption. apply thumb_out_eqm.
    rewrite Ei. fold v. symmetry. apply Z.mod_small. exact Hv.
  - rewrite thumb_match_spec by assumption. destruct (thumb_out_match d) as [-> ->]. reflexivity.
Qed.

(* the high five bits of the bytes at odd offsets are what the match test looks at; conversion
   keeps them *)
Lemma thumb_word_keeps enc p b0 b1 b2 b3 c0 c1 c2 c3 :
  byte b0 -> byte b1 -> byte b2 -> byte b3 -> thumb_match b1 b3 = true ->
  thumb_word enc p b0 b1 b2 b3 = (c0, c1, c2, c3) -> c1 / 8 = b1 / 8 /\ c3 / 8 = b3 / 8.
Proof.
  intros H0 H1 H2 H3 Hm He.
  rewrite thumb_match_spec in Hm by assumption.
  apply andb_true_iff in Hm. destruct Hm as [Hm3 Hm1]. apply Z.eqb_eq in Hm1, Hm3.
  rewrite thumb_word_spec in He by assumption. unfold thumb_out in He. tuple_inj He. (Z.div_mod_to_equations; lia).
Qed.

Lemma thumb_match_div b1 b3 b1' b3' : byte b1 -> byte b3 -> byte b1' -> byte b3' ->
  b1' / 8 = b1 / 8 -> b3' / 8 = b3 / 8 -> thumb_match b1' b3' = thumb_match b1 b3.
Proof. intros. rewrite !thumb_match_spec by assumption. congruence. Qed.

Lemma thumb_go_step enc pos i b0 b1 b2 b3 t :
  thumb_go enc pos i (b0 :: b1 :: b2 :: b3 :: t) =
  if thumb_match b1 b3 then
    let '(c0, c1, c2, c3) := thumb_word enc (pc32 pos i) b0 b1 b2 b3 in
    let '(o, r) := thumb_go enc pos (i + 4) t in (c0 :: c1 :: c2 :: c3 :: o, r)
  else
    let '(o, r) := thumb_go enc pos (i + 2) (b2 :: b3 :: t) in (b0 :: b1 :: o, r).
Proof. reflexivity. Qed.

Lemma thumb_go_second enc pos i x0 x1 t o r :
  bytes_ok (x0 :: x1 :: t) = true -> thumb_go enc pos i (x0 :: x1 :: t) = (o, r) ->
  exists y0 y1 t', o ++ r = y0 :: y1 :: t' /\ y1 / 8 = x1 / 8 /\ byte y1.
Proof.
  intros Hb Hgo.
  apply bytes_ok_cons in Hb; destruct Hb as [H0 Hb].
  apply bytes_ok_cons in Hb; destruct Hb as [H1 Hb].
  destruct t as [|x2 [|x3 t]].
  - cbn [thumb_go] in Hgo. inversion Hgo; subst. exists x0, x1, []. split; [reflexivity|split; [reflexivity|assumption]].
  - cbn [thumb_go] in Hgo. inversion Hgo; subst. exists x0, x1, [x2]. split; [reflexivity|split; [reflexivity|assumption]].
  - apply bytes_ok_cons in Hb; destruct Hb as [H2 Hb].
    apply bytes_ok_cons in Hb; destruct Hb as [H3 Hb].
    rewrite thumb_go_step in Hgo.
    destruct (thumb_match x1 x3) eqn:Em.
    + destruct (thumb_word enc (pc32 pos i) x0 x1 x2 x3) as [[[c0 c1] c2] c3] eqn:Ew.
      destruct (thumb_go enc pos (i + 4) t) as [o' r'] eqn:Eg.
      injection Hgo as <- <-.
      destruct (thumb_word_keeps _ _ _ _ _ _ _ _ _ _ H0 H1 H2 H3 Em Ew) as [K1 K3].
      exists c0, c1, (c2 :: c3 :: o' ++ r'). split; [reflexivity|]. split; [assumption|].
      rewrite thumb_word_spec in Ew by assumption. unfold thumb_out in Ew. tuple_inj Ew. unfold byte. (Z.div_mod_to_equations; lia).
    + destruct (thumb_go enc pos (i + 2) (x2 :: x3 :: t)) as [o' r'] eqn:Eg.
      injection Hgo as <- <-.
      exists x0, x1, (o' ++ r'). split; [reflexivity|split; [reflexivity|assumption]].
Qed.

Lemma thumb_go_short enc pos i l : (length l < 4)%nat -> thumb_go enc pos i l = ([], l).
Proof.
  destruct l as [|b0 [|b1 [|b2 [|b3 t]]]]; cbn [length]; intros H; try reflexivity. lia.
Qed.
