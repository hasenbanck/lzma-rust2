(* Filter/BcjX86InvProofs.v — the x86 filter is its own inverse.
   * The decoder's conversion loop undoes the encoder's, modulo 2^25 (the operand is stored as a
     sign-extended 25-bit number), and the byte protected by the mask is not 00/FF before nor after.
   * Lookahead: a byte within the next four keeps its 00/FF class through all later conversions of
     the encoder as long as the mask records the opcode it is tested for - so when the encoder only
     steps over an opcode, the decoder, looking at the already converted bytes, takes the same
     decision.
   * With these, decoder and encoder run in lockstep (same position, same prev_pos, same
     prev_mask at every step). *)
From LzVerif Require Import Base.Bytes Filter.Bcj Filter.BcjStream Filter.BcjArithProofs
  Filter.BcjStreamProofs Filter.BcjX86Proofs.

Lemma is_zf_true b : is_zf b = true <-> b = 0 \/ b = 255.
Proof. unfold is_zf. rewrite orb_true_iff, !Z.eqb_eq. tauto. Qed.

(* complementing the low k bits; the conversion loop does it when the byte below bit k is 00/FF *)
Definition flip (k d : Z) : Z := d + 2 ^ k - 1 - 2 * (d mod 2 ^ k).

Ltac widths Hk := destruct Hk as [-> | [-> | ->]]; unfold flip, tb in *; pow_lits.

Lemma tb_flip k d : (k = 8 \/ k = 16 \/ k = 24) -> tb k (flip k d) = 255 - tb k d.
Proof. intros Hk. widths Hk. all: (Z.div_mod_to_equations; lia). Qed.

Lemma flip_eqm k x y : (k = 8 \/ k = 16 \/ k = 24) -> x mod 33554432 = y mod 33554432 ->
  flip k x mod 33554432 = flip k y mod 33554432 /\ tb k x = tb k y.
Proof. intros Hk H. widths Hk. all: (Z.div_mod_to_equations; lia). Qed.

Lemma flip_flip k d : (k = 8 \/ k = 16 \/ k = 24) -> flip k (flip k d) = d.
Proof. intros Hk. widths Hk. all: (Z.div_mod_to_equations; lia). Qed.

Lemma addsub_inv_eqm x y p : x mod 33554432 = addsub true y p mod 33554432 ->
  addsub false x p mod 33554432 = y mod 33554432.
Proof. unfold addsub, s32. intros H. (Z.div_mod_to_equations; lia). Qed.

Lemma is_zf_compl b : is_zf (255 - b) = is_zf b.
Proof. unfold is_zf. rewrite orb_comm. f_equal; apply eq_true_iff_eq; rewrite !Z.eqb_eq; lia. Qed.

(* the conversion loop of the decoder undoes that of the encoder, modulo 2^25 (all that is stored) *)
Lemma conv_val_inverse p k src S :
  (k = 8 \/ k = 16 \/ k = 24) -> is_zf (tb k src) = false ->
  S mod 33554432 = x86_conv_val true p k src mod 33554432 ->
  x86_conv_val false p k S mod 33554432 = src mod 33554432.
Proof.
  intros Hk Hsrc HS. unfold x86_conv_val in *. cbv zeta in *. fold (flip k (addsub true src p)) in HS.
  fold (flip k (addsub false S p)).
  set (d1 := addsub true src p) in *. set (D1 := addsub false S p).
  destruct (is_zf (tb k d1)) eqn:E1.
  - (* the encoder flipped: the decoder sees the flipped value, flips again *)
    assert (ED : D1 mod 33554432 = flip k d1 mod 33554432).
    { unfold D1. rewrite (addsub_inv_eqm S (s32 (flip k d1)) p HS).
      unfold s32. (Z.div_mod_to_equations; lia). }
    destruct (flip_eqm k D1 (flip k d1) Hk ED) as [EF ET].
    rewrite ET, tb_flip, is_zf_compl, E1 by assumption.
    apply addsub_inv_eqm. rewrite flip_flip in EF by assumption.
    unfold s32. fold d1. (Z.div_mod_to_equations; lia).
  - assert (ED : D1 mod 33554432 = src mod 33554432) by (apply addsub_inv_eqm; exact HS).
    destruct (flip_eqm k D1 src Hk ED) as [_ ->]. rewrite Hsrc. exact ED.
Qed.

(* the stored operand as a signed 25-bit number *)
Lemma x86_src_facts b1 b2 b3 b4 : byte b1 -> byte b2 -> byte b3 -> byte b4 -> is_zf b4 = true ->
  let src := x86_src b1 b2 b3 b4 in
  -16777216 <= src < 16777216 /\ src mod 256 = b1 /\ (src / 256) mod 256 = b2 /\
  (src / 65536) mod 256 = b3 /\ 255 * ((src / 16777216) mod 2) = b4.
Proof.
  unfold byte. intros H1 H2 H3 H4 Hz. apply is_zf_true in Hz. cbv zeta. unfold x86_src, w4, s32.
  destruct Hz as [-> | ->]; repeat split; (Z.div_mod_to_equations; lia).
Qed.

Lemma x86_stored d :
  let c1 := d mod 256 in let c2 := (d / 256) mod 256 in let c3 := (d / 65536) mod 256 in
  let c4 := 255 * ((d / 16777216) mod 2) in
  byte c1 /\ byte c2 /\ byte c3 /\ byte c4 /\ is_zf c4 = true /\
  x86_src c1 c2 c3 c4 mod 33554432 = d mod 33554432.
Proof.
  cbv zeta. unfold byte, x86_src, w4, s32. repeat split; try (Z.div_mod_to_equations; lia).
  apply is_zf_true. (Z.div_mod_to_equations; lia).
Qed.

Lemma x86_blocked_tb m d : (m = 0 \/ m = 1 \/ m = 2 \/ m = 4) ->
  x86_blocked m (d mod 256) ((d / 256) mod 256) ((d / 65536) mod 256) =
  if m =? 0 then false else is_zf (tb (mask_k m) d).
Proof.
  intros Hm. unfold x86_blocked, mask_k, tb.
  destruct Hm as [-> | [-> | [-> | ->]]]; cbn [Z.eqb Pos.eqb]; try reflexivity.
  change (2 ^ (8 - 8)) with 1. rewrite Z.div_1_r. reflexivity.
Qed.

Lemma x86_conv_step_inverse p m b1 b2 b3 b4 :
  byte b1 -> byte b2 -> byte b3 -> byte b4 -> is_zf b4 = true ->
  (m = 0 \/ m = 1 \/ m = 2 \/ m = 4) -> x86_blocked m b1 b2 b3 = false ->
  let dest := x86_dest true p m (x86_src b1 b2 b3 b4) in
  let c1 := dest mod 256 in let c2 := (dest / 256) mod 256 in let c3 := (dest / 65536) mod 256 in
  let c4 := 255 * ((dest / 16777216) mod 2) in
  byte c1 /\ byte c2 /\ byte c3 /\ byte c4 /\ is_zf c4 = true /\ x86_blocked m c1 c2 c3 = false /\
  let dest' := x86_dest false p m (x86_src c1 c2 c3 c4) in
  dest' mod 256 = b1 /\ (dest' / 256) mod 256 = b2 /\ (dest' / 65536) mod 256 = b3 /\
  255 * ((dest' / 16777216) mod 2) = b4.
Proof.
  intros H1 H2 H3 H4 Hz Hm Hbl. cbv zeta.
  pose proof (x86_src_facts b1 b2 b3 b4 H1 H2 H3 H4 Hz) as Hs. cbv zeta in Hs.
  destruct Hs as (Hr & S1 & S2 & S3 & S4).
  set (src := x86_src b1 b2 b3 b4) in *.
  set (dest := x86_dest true p m src).
  pose proof (x86_stored dest) as Hst. cbv zeta in Hst. destruct Hst as (C1 & C2 & C3 & C4 & Cz & CS).
  set (S := x86_src (dest mod 256) ((dest / 256) mod 256) ((dest / 65536) mod 256) (255 * ((dest / 16777216) mod 2))) in *.
  (* the byte protected by the mask is not 00/FF, before and after *)
  assert (Hsrcblk : x86_blocked m b1 b2 b3 = (if m =? 0 then false else is_zf (tb (mask_k m) src))).
  { rewrite <- S1, <- S2, <- S3. apply x86_blocked_tb. assumption. }
  rewrite Hbl in Hsrcblk.
  assert (Hcore : (m = 0 /\ dest = addsub true src p) \/
                  (m <> 0 /\ is_zf (tb (mask_k m) src) = false /\ dest = x86_conv_val true p (mask_k m) src /\
                   is_zf (tb (mask_k m) dest) = false)).
  { unfold dest, x86_dest. destruct (Z.eqb_spec m 0) as [->|Hn0]; [left; auto|right].
    split; [assumption|]. split; [auto|]. split; [reflexivity|].
    destruct (x86_conv_ok true p m src ltac:(lia) ltac:(auto)) as [_ Hok]. exact Hok. }
  split; [assumption|]. split; [assumption|]. split; [assumption|]. split; [assumption|]. split; [assumption|].
  split.
  { rewrite x86_blocked_tb by assumption. destruct Hcore as [[-> _]|(Hn0 & _ & _ & Hok)]; [reflexivity|].
    destruct (Z.eqb_spec m 0); [contradiction|exact Hok]. }
  assert (HD : x86_dest false p m S mod 33554432 = src mod 33554432).
  { unfold x86_dest. destruct Hcore as [[-> Ed]|(Hn0 & Hsz & Ed & _)].
    - cbn [Z.eqb]. apply addsub_inv_eqm. rewrite <- Ed. exact CS.
    - destruct (Z.eqb_spec m 0); [contradiction|].
      apply conv_val_inverse; [unfold mask_k; destruct Hm as [-> | [-> | [-> | ->]]]; cbn [Z.eqb Pos.eqb]; auto; lia|assumption|].
      rewrite <- Ed. exact CS. }
  set (D := x86_dest false p m S) in *. clearbody D dest S. (Z.div_mod_to_equations; lia).
Qed.

(* the effective mask only depends on prev_mask mod 8 and takes values 0..7 *)
Lemma x86_eff_mod8 d pm : 1 <= d -> x86_eff d pm = x86_eff d (pm mod 8).
Proof.
  intros Hd. rewrite !eff_cases by assumption.
  destruct (d =? 1); [(Z.div_mod_to_equations; lia)|]. destruct (d =? 2); [(Z.div_mod_to_equations; lia)|]. destruct (d =? 3); [(Z.div_mod_to_equations; lia)|reflexivity].
Qed.
Lemma x86_eff_range d pm : 0 <= x86_eff d pm < 8.
Proof. unfold x86_eff. destruct (3 <? d); (Z.div_mod_to_equations; lia). Qed.

(* finite sweeps over masks 0..7, distances 1..3, bit numbers 0..2 *)
Lemma sweep3 (P : Z -> Z -> Z -> bool) :
  forallb (fun q => forallb (fun a => forallb (fun b => P q a b) (zrange 0 4)) (zrange 0 8)) (zrange 0 8) = true ->
  forall q a b, 0 <= q < 8 -> 0 <= a < 8 -> 0 <= b < 4 -> P q a b = true.
Proof.
  intros H q a b Hq Ha Hb. rewrite forallb_forall in H.
  specialize (H q (zrange_in 0 8 q ltac:(cbn; lia))). rewrite forallb_forall in H.
  specialize (H a (zrange_in 0 8 a ltac:(cbn; lia))). rewrite forallb_forall in H.
  exact (H b (zrange_in 0 4 b ltac:(cbn; lia))).
Qed.

(* a recorded opcode stays recorded when another opcode is skipped in between *)
Lemma x86_eff_persist i pp pm x c : pp < i -> i < x -> 0 <= c <= 2 ->
  Z.testbit (x86_eff (x - pp) pm) c = true ->
  Z.testbit (x86_eff (x - i) (2 * x86_eff (i - pp) pm + 1)) c = true.
Proof.
  intros H1 H2 Hc Hb.
  rewrite (x86_eff_mod8 (x - pp)) in Hb by lia. rewrite (x86_eff_mod8 (i - pp)) by lia.
  set (q := pm mod 8) in *. assert (Hq : 0 <= q < 8) by (unfold q; (Z.div_mod_to_equations; lia)).
  destruct (Z.ltb_spec 3 (x - pp)) as [Hbig|Hsm].
  { unfold x86_eff in Hb. destruct (Z.ltb_spec 3 (x - pp)); [|lia]. rewrite Z.bits_0 in Hb. discriminate. }
  assert (Hd : (i - pp = 1 /\ x - i = 1) \/ (i - pp = 1 /\ x - i = 2) \/ (i - pp = 2 /\ x - i = 1)) by lia.
  assert (Hcc : c = 0 \/ c = 1 \/ c = 2) by lia.
  assert (Hqq : q = 0 \/ q = 1 \/ q = 2 \/ q = 3 \/ q = 4 \/ q = 5 \/ q = 6 \/ q = 7) by lia.
  clearbody q.
  destruct Hd as [[E1 E2]|[[E1 E2]|[E1 E2]]]; rewrite E1, E2;
    replace (x - pp) with (i - pp + (x - i)) in Hb by lia; rewrite E1, E2 in Hb;
    destruct Hcc as [-> | [-> | ->]];
    destruct Hqq as [-> | [-> | [-> | [-> | [-> | [-> | [-> | ->]]]]]]];
    revert Hb; vm_compute; auto.
Qed.

(* which later bytes a run may change without changing their 00/FF class *)
Definition x86_safe (i pp pm t : Z) : Prop :=
  forall u, 0 <= u < t -> Z.testbit (x86_eff (i + u - pp) pm) (3 - t + u) = true.

Lemma x86_safe_after_skip i pp pm t : pp < i -> 1 <= t <= 3 -> x86_safe i pp pm t ->
  x86_safe (i + 1) i (2 * x86_eff (i - pp) pm + 1) (t - 1).
Proof.
  intros Hpp Ht Hs u Hu.
  replace (3 - (t - 1) + u) with (3 - t + (u + 1)) by lia.
  replace (i + 1 + u - i) with ((i + (u + 1)) - i) by lia.
  apply x86_eff_persist; try lia. apply Hs. lia.
Qed.

Lemma x86_safe_after_nonop i pp pm t : 1 <= t -> x86_safe i pp pm t -> x86_safe (i + 1) pp pm (t - 1).
Proof.
  intros Ht Hs u Hu. replace (i + 1 + u - pp) with (i + (u + 1) - pp) by lia.
  replace (3 - (t - 1) + u) with (3 - t + (u + 1)) by lia. apply Hs. lia.
Qed.

Lemma x86_blocked_cases m b1 b2 b3 : 0 <= m < 8 -> x86_blocked m b1 b2 b3 = false ->
  m = 0 \/ (m = 1 /\ is_zf b3 = false) \/ (m = 2 /\ is_zf b2 = false) \/ (m = 4 /\ is_zf b1 = false).
Proof.
  intros Hm. unfold x86_blocked.
  assert (H : m = 0 \/ m = 1 \/ m = 2 \/ m = 3 \/ m = 4 \/ m = 5 \/ m = 6 \/ m = 7) by lia.
  destruct H as [-> | [-> | [-> | [-> | [-> | [-> | [-> | ->]]]]]]]; cbn [Z.eqb Pos.eqb]; intros E; auto; discriminate.
Qed.

(* The lookahead property of the encoder: the byte at offset t (t <= 3) of the remaining buffer
   keeps its 00/FF class through everything the loop does later, provided the current state
   records, for every position a conversion could start at, the opcode that byte belongs to. *)
Lemma x86_lookahead pos n : forall X i pp pm (t : nat), (length X <= n)%nat -> bytes_ok X = true -> pp < i ->
  (t <= 3)%nat -> x86_safe i pp pm (Z.of_nat t) ->
  let '(_, _, _, ol, rl) := x86_gop true pos i pp pm X in
  forall a, nth_opt X t = Some a -> exists b, nth_opt (ol ++ rl) t = Some b /\ is_zf b = is_zf a.
Proof.
  induction n as [|n IH]; intros X i pp pm t Hn Hb Hpp Ht Hsafe.
  - destruct X; [|cbn [length] in Hn; lia]. cbn [x86_gop app]. intros a Ha. destruct t; discriminate.
  - destruct (Nat.lt_ge_cases (length X) 5) as [Hs|Hs].
    + rewrite x86_gop_short by assumption. cbn [app]. intros a Ha. exists a. auto.
    + destruct X as [|b0 [|b1 [|b2 [|b3 [|b4 tl]]]]]; try (cbn [length] in Hs; lia).
      rewrite x86_gop_step.
      pose proof Hb as Hb'.
      apply bytes_ok_cons in Hb; destruct Hb as [H0 Hb1]. pose proof Hb1 as Hb.
      apply bytes_ok_cons in Hb; destruct Hb as [H1 Hb].
      apply bytes_ok_cons in Hb; destruct Hb as [H2 Hb].
      apply bytes_ok_cons in Hb; destruct Hb as [H3 Hb].
      apply bytes_ok_cons in Hb; destruct Hb as [H4 Hb].
      destruct t as [|t'].
      { (* the byte at the current position is never rewritten *)
        destruct (x86_step_spec true pos i pp pm b0 b1 b2 b3 b4) as [pp' pm'|pp' pm' c1 c2 c3 c4].
        - destruct (x86_gop true pos (i + 1) pp' pm' (b1 :: b2 :: b3 :: b4 :: tl)) as [[[[i2 pp2] pm2] o2] r2].
          cbn [x86_push app nth_opt]. intros a Ha. exists a. auto.
        - destruct (x86_gop true pos (i + 5) pp' pm' tl) as [[[[i2 pp2] pm2] o2] r2].
          cbn [x86_push app nth_opt]. intros a Ha. exists a. auto. }
      unfold x86_step_spec.
      destruct (is_op b0) eqn:Eop.
      * cbv zeta. set (m := x86_eff (i - pp) pm).
        pose proof (x86_eff_range (i - pp) pm) as Hm. fold m in Hm.
        assert (Hskip :
                  let '(_, _, _, ol, rl) := x86_push [b0] (x86_gop true pos (i + 1) i (2 * m + 1) (b1 :: b2 :: b3 :: b4 :: tl)) in
                  forall a, nth_opt (b0 :: b1 :: b2 :: b3 :: b4 :: tl) (S t') = Some a ->
                  exists b, nth_opt (ol ++ rl) (S t') = Some b /\ is_zf b = is_zf a).
        { specialize (IH (b1 :: b2 :: b3 :: b4 :: tl) (i + 1) i (2 * m + 1) t' ltac:(cbn [length] in *; lia) Hb1 ltac:(lia) ltac:(lia)).
          assert (Hs' : x86_safe (i + 1) i (2 * m + 1) (Z.of_nat t')).
          { replace (Z.of_nat t') with (Z.of_nat (S t') - 1) by lia. apply x86_safe_after_skip; try lia. exact Hsafe. }
          specialize (IH Hs').
          destruct (x86_gop true pos (i + 1) i (2 * m + 1) (b1 :: b2 :: b3 :: b4 :: tl)) as [[[[i2 pp2] pm2] o2] r2].
          cbn [x86_push app nth_opt]. exact IH. }
        destruct (x86_blocked m b1 b2 b3) eqn:Ebl; [exact Hskip|].
        destruct (is_zf b4) eqn:Ez4; [|exact Hskip].
        (* a conversion starts here: the mask has exactly the bit that protects offset t *)
        pose proof (Hsafe 0 ltac:(lia)) as Hbit. rewrite Z.add_0_r in Hbit. fold m in Hbit.
        replace (3 - Z.of_nat (S t') + 0) with (2 - Z.of_nat t') in Hbit by lia.
        pose proof (x86_conv_step_inverse (pc32 pos i) m b1 b2 b3 b4 H1 H2 H3 H4 Ez4) as Hc.
        pose proof (x86_blocked_cases m b1 b2 b3 Hm Ebl) as Hcases.
        assert (Hm4 : m = 0 \/ m = 1 \/ m = 2 \/ m = 4) by (destruct Hcases as [?|[[? _]|[[? _]|[? _]]]]; auto).
        specialize (Hc Hm4 Ebl). cbv zeta in Hc. destruct Hc as (_ & _ & _ & _ & _ & Hbl' & _).
        apply (x86_blocked_cases m _ _ _ Hm) in Hbl'.
        unfold x86_out.
        destruct (x86_gop true pos (i + 5) i m tl) as [[[[i2 pp2] pm2] o2] r2].
        cbn [x86_push app].
        set (dest := x86_dest true (pc32 pos i) m (x86_src b1 b2 b3 b4)) in *.
        destruct Hcases as [E0|[[E1 Ez]|[[E2 Ez]|[E4 Ez]]]].
        -- rewrite E0, Z.bits_0 in Hbit. discriminate.
        -- (* m = 1: bit 0, so t = 3 *)
           assert (t' = 2%nat) by (rewrite E1 in Hbit; destruct t' as [|[|[|?]]]; try (cbn in Hbit; discriminate); try lia; reflexivity).
           subst t'. cbn [nth_opt]. intros a Ha. injection Ha as <-.
           eexists. split; [reflexivity|].
           destruct Hbl' as [?|[[_ Hz]|[[? _]|[? _]]]]; try lia. rewrite Hz, Ez. reflexivity.
        -- assert (t' = 1%nat) by (rewrite E2 in Hbit; destruct t' as [|[|[|?]]]; try (cbn in Hbit; discriminate); try lia; reflexivity).
           subst t'. cbn [nth_opt]. intros a Ha. injection Ha as <-.
           eexists. split; [reflexivity|].
           destruct Hbl' as [?|[[? _]|[[_ Hz]|[? _]]]]; try lia. rewrite Hz, Ez. reflexivity.
        -- assert (t' = 0%nat) by (rewrite E4 in Hbit; destruct t' as [|[|[|?]]]; try (cbn in Hbit; discriminate); try lia; reflexivity).
           subst t'. cbn [nth_opt]. intros a Ha. injection Ha as <-.
           eexists. split; [reflexivity|].
           destruct Hbl' as [?|[[? _]|[[? _]|[_ Hz]]]]; try lia. rewrite Hz, Ez. reflexivity.
      * (* not an opcode *)
        specialize (IH (b1 :: b2 :: b3 :: b4 :: tl) (i + 1) pp pm t' ltac:(cbn [length] in *; lia) Hb1 ltac:(lia) ltac:(lia)).
        assert (Hs' : x86_safe (i + 1) pp pm (Z.of_nat t')).
        { replace (Z.of_nat t') with (Z.of_nat (S t') - 1) by lia. apply x86_safe_after_nonop; try lia. exact Hsafe. }
        specialize (IH Hs').
        destruct (x86_gop true pos (i + 1) pp pm (b1 :: b2 :: b3 :: b4 :: tl)) as [[[[i2 pp2] pm2] o2] r2].
        cbn [x86_push app nth_opt]. exact IH.
Qed.

(* masks recorded right after skipping an opcode protect the byte the skipped opcode's tests
   looked at *)
Lemma x86_safe_b4 i m : 0 <= m < 8 -> x86_safe (i + 1) i (2 * m + 1) 3.
Proof.
  intros Hm u Hu. replace (i + 1 + u - i) with (u + 1) by lia. replace (3 - 3 + u) with u by lia.
  assert (Hu3 : u = 0 \/ u = 1 \/ u = 2) by lia.
  assert (Hm8 : m = 0 \/ m = 1 \/ m = 2 \/ m = 3 \/ m = 4 \/ m = 5 \/ m = 6 \/ m = 7) by lia.
  destruct Hu3 as [-> | [-> | ->]];
    destruct Hm8 as [-> | [-> | [-> | [-> | [-> | [-> | [-> | ->]]]]]]]; reflexivity.
Qed.
Lemma x86_safe_m1 i : x86_safe (i + 1) i 3 2.
Proof.
  intros u Hu. replace (i + 1 + u - i) with (u + 1) by lia.
  assert (Hu3 : u = 0 \/ u = 1) by lia. destruct Hu3 as [-> | ->]; reflexivity.
Qed.
Lemma x86_safe_m2 i : x86_safe (i + 1) i 5 1.
Proof.
  intros u Hu. replace (i + 1 + u - i) with (u + 1) by lia.
  assert (u = 0) by lia. subst u. reflexivity.
Qed.
Lemma x86_safe_0 i pp pm : x86_safe i pp pm 0.
Proof. intros u Hu. lia. Qed.

Lemma x86_gop_inverse pos n : forall X i pp pm, (length X <= n)%nat -> bytes_ok X = true -> pp < i ->
  let '(i', pp', pm', ol, rl) := x86_gop true pos i pp pm X in
  x86_gop false pos i pp pm (ol ++ rl) = (i', pp', pm', firstn (length ol) X, rl).
Proof.
  induction n as [|n IH]; intros X i pp pm Hn Hb Hpp.
  - destruct X; [|cbn [length] in Hn; lia]. reflexivity.
  - destruct (Nat.lt_ge_cases (length X) 5) as [Hs|Hs].
    + rewrite x86_gop_short by assumption. cbn [app length firstn]. apply x86_gop_short. assumption.
    + destruct X as [|b0 [|b1 [|b2 [|b3 [|b4 tl]]]]]; try (cbn [length] in Hs; lia).
      rewrite x86_gop_step.
      pose proof Hb as Hb'.
      apply bytes_ok_cons in Hb; destruct Hb as [H0 Hb1]. pose proof Hb1 as Hb.
      apply bytes_ok_cons in Hb; destruct Hb as [H1 Hb].
      apply bytes_ok_cons in Hb; destruct Hb as [H2 Hb].
      apply bytes_ok_cons in Hb; destruct Hb as [H3 Hb].
      apply bytes_ok_cons in Hb; destruct Hb as [H4 Hb].
      set (X' := b1 :: b2 :: b3 :: b4 :: tl) in *.
      assert (HlenX' : length X' = (4 + length tl)%nat) by reflexivity.
      cbn [length] in Hn.
      (* what happens when the step at i only skips one byte, with new state (ppn, pmn) *)
      assert (Hskipcase : forall ppn pmn, ppn < i + 1 ->
                (forall y1 y2 y3 y4 tl', 
                    (let '(_, _, _, ol, rl) := x86_gop true pos (i + 1) ppn pmn X' in ol ++ rl = y1 :: y2 :: y3 :: y4 :: tl') ->
                    x86_step_spec false pos i pp pm b0 y1 y2 y3 y4 = XSkip ppn pmn) ->
                let '(i', pp', pm', ol, rl) := x86_push [b0] (x86_gop true pos (i + 1) ppn pmn X') in
                x86_gop false pos i pp pm (ol ++ rl) = (i', pp', pm', firstn (length ol) (b0 :: X'), rl)).
      { intros ppn pmn Hppn Hdec.
        specialize (IH X' (i + 1) ppn pmn ltac:(lia) Hb1 Hppn).
        pose proof (x86_gop_shape true pos (length X') X' (i + 1) ppn pmn (le_n _) Hb1 Hppn) as Hsh.
        destruct (x86_gop true pos (i + 1) ppn pmn X') as [[[[i2 pp2] pm2] o2] r2].
        destruct Hsh as (_ & _ & _ & Hlen & _).
        cbn [x86_push app length firstn].
        assert (Hl4 : (4 <= length (o2 ++ r2))%nat) by (rewrite app_length, Hlen; lia).
        destruct (o2 ++ r2) as [|y1 [|y2 [|y3 [|y4 tl']]]] eqn:EY; try (cbn [length] in Hl4; lia).
        rewrite x86_gop_step. rewrite (Hdec y1 y2 y3 y4 tl' eq_refl).
        rewrite IH. reflexivity. }
      unfold x86_step_spec at 1.
      destruct (is_op b0) eqn:Eop.
      * cbv zeta. set (m := x86_eff (i - pp) pm).
        pose proof (x86_eff_range (i - pp) pm) as Hm. fold m in Hm.
        (* the decoder's tests on the bytes after a skipped opcode give the encoder's answers *)
        assert (Hsame : forall y1 y2 y3 y4 tl',
                  (let '(_, _, _, ol, rl) := x86_gop true pos (i + 1) i (2 * m + 1) X' in ol ++ rl = y1 :: y2 :: y3 :: y4 :: tl') ->
                  x86_blocked m y1 y2 y3 = x86_blocked m b1 b2 b3 /\ is_zf y4 = is_zf b4).
        { intros y1 y2 y3 y4 tl' HY.
          pose proof (x86_lookahead pos (length X') X' (i + 1) i (2 * m + 1) 3 (le_n _) Hb1 ltac:(lia) ltac:(lia) (x86_safe_b4 i m Hm)) as L3.
          pose proof (x86_lookahead pos (length X') X' (i + 1) i (2 * m + 1) 0 (le_n _) Hb1 ltac:(lia) ltac:(lia) (x86_safe_0 _ _ _)) as L0.
          destruct (x86_gop true pos (i + 1) i (2 * m + 1) X') as [[[[i2 pp2] pm2] o2] r2] eqn:Eg.
          rewrite HY in L3, L0.
          destruct (L3 b4 eq_refl) as (y & Ey & Hy). cbn [nth_opt] in Ey. injection Ey as <-.
          destruct (L0 b1 eq_refl) as (y & Ey & Hy1). cbn [nth_opt] in Ey. injection Ey as <-.
          split; [|exact Hy].
          unfold x86_blocked.
          destruct (Z.eqb_spec m 0); [reflexivity|].
          destruct (Z.eqb_spec m 1) as [E1|_].
          { pose proof (x86_lookahead pos (length X') X' (i + 1) i (2 * m + 1) 2 (le_n _) Hb1 ltac:(lia) ltac:(lia)) as L2.
            rewrite E1 in L2. specialize (L2 (x86_safe_m1 i)). rewrite E1 in Eg. rewrite Eg, HY in L2.
            destruct (L2 b3 eq_refl) as (y & Ey & Hy3). cbn [nth_opt] in Ey. injection Ey as <-. exact Hy3. }
          destruct (Z.eqb_spec m 2) as [E2|_].
          { pose proof (x86_lookahead pos (length X') X' (i + 1) i (2 * m + 1) 1 (le_n _) Hb1 ltac:(lia) ltac:(lia)) as L1.
            rewrite E2 in L1. specialize (L1 (x86_safe_m2 i)). rewrite E2 in Eg. rewrite Eg, HY in L1.
            destruct (L1 b2 eq_refl) as (y & Ey & Hy2). cbn [nth_opt] in Ey. injection Ey as <-. exact Hy2. }
          destruct (Z.eqb_spec m 4); [exact Hy1|reflexivity]. }
        destruct (x86_blocked m b1 b2 b3) eqn:Ebl.
        { apply Hskipcase; [lia|]. intros y1 y2 y3 y4 tl' HY.
          destruct (Hsame y1 y2 y3 y4 tl' HY) as [Eb Ez].
          unfold x86_step_spec. rewrite Eop. cbv zeta. fold m. rewrite Eb. reflexivity. }
        destruct (is_zf b4) eqn:Ez4.
        2:{ apply Hskipcase; [lia|]. intros y1 y2 y3 y4 tl' HY.
            destruct (Hsame y1 y2 y3 y4 tl' HY) as [Eb Ez].
            unfold x86_step_spec. rewrite Eop. cbv zeta. fold m. rewrite Eb, Ez. reflexivity. }
        pose proof (x86_blocked_cases m b1 b2 b3 Hm Ebl) as Hcases.
        assert (Hm4 : m = 0 \/ m = 1 \/ m = 2 \/ m = 4) by (destruct Hcases as [?|[[? _]|[[? _]|[? _]]]]; auto).
        pose proof (x86_conv_step_inverse (pc32 pos i) m b1 b2 b3 b4 H1 H2 H3 H4 Ez4 Hm4 Ebl) as Hc.
        cbv zeta in Hc. destruct Hc as (C1 & C2 & C3 & C4 & Cz & Cbl & D1 & D2 & D3 & D4).
        unfold x86_out.
        set (dest := x86_dest true (pc32 pos i) m (x86_src b1 b2 b3 b4)) in *.
        specialize (IH tl (i + 5) i m ltac:(lia) Hb ltac:(lia)).
        destruct (x86_gop true pos (i + 5) i m tl) as [[[[i2 pp2] pm2] o2] r2].
        cbn [x86_push app length firstn].
        rewrite x86_gop_step. unfold x86_step_spec. rewrite Eop. cbv zeta. fold m.
        rewrite Cbl, Cz. unfold x86_out. rewrite D1, D2, D3, D4. rewrite IH. reflexivity.
      * (* not an opcode: the decoder sees the same byte *)
        apply Hskipcase; [lia|]. intros y1 y2 y3 y4 tl' _. unfold x86_step_spec. rewrite Eop. reflexivity.
Qed.

Lemma code_inverse_x86 st : code_inverse X86 st.
Proof.
  intros buf Hb.
  change (bcj_code X86 true st buf) with (x86_code true st buf).
  rewrite x86_code_eq by assumption.
  destruct (zlen buf <? 5) eqn:E5.
  - exists st, [], buf. split; [reflexivity|]. cbn [app length firstn].
    change (bcj_code X86 false st buf) with (x86_code false st buf).
    rewrite x86_code_eq by assumption. rewrite E5. auto.
  - pose proof (x86_gop_shape true (f_pos st) (length buf) buf 0 (-1) (f_mask st) (le_n _) Hb ltac:(lia)) as Hsh.
    pose proof (x86_gop_inverse (f_pos st) (length buf) buf 0 (-1) (f_mask st) (le_n _) Hb ltac:(lia)) as Hinv.
    destruct (x86_gop true (f_pos st) 0 (-1) (f_mask st) buf) as [[[[i' pp'] pm'] ol] rl].
    destruct Hsh as (Hi & Hpp & Hr & Hl & H5 & Hbo).
    eexists _, ol, rl. split; [reflexivity|].
    assert (Hbr : bytes_ok rl = true) by (rewrite <- Hr; apply bytes_ok_skipn; assumption).
    assert (Hby : bytes_ok (ol ++ rl) = true) by (apply bytes_ok_app; auto).
    change (bcj_code X86 false st (ol ++ rl)) with (x86_code false st (ol ++ rl)).
    rewrite x86_code_eq by assumption.
    assert (E5' : (zlen (ol ++ rl) <? 5) = false).
    { apply Z.ltb_ge. apply Z.ltb_ge in E5. unfold zlen in *. rewrite app_length. lia. }
    rewrite E5', Hinv. split; [reflexivity|]. split; [|assumption].
    rewrite <- Hr. apply firstn_skipn.
Qed.

Theorem bcj_inverse_x86 : forall start buf, bytes_ok buf = true ->
  exists st' out rest,
    bcj_code X86 true (bcj_init X86 start) buf = Ok (st', out, rest) /\
    bcj_code X86 false (bcj_init X86 start) (out ++ rest) = Ok (st', firstn (length out) buf, rest) /\
    firstn (length out) buf ++ rest = buf /\ bytes_ok out = true.
Proof. intros start. apply code_inverse_x86. Qed.
