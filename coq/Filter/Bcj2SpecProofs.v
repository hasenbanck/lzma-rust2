(* Filter/Bcj2SpecProofs.v — the decoder model run on the output of the specification encoder: the
   initial state satisfies the invariant, how a decode() call can end (exit_analysis), and the one-shot
   theorem: one call of decode() over the four complete streams returns the data. *)
From LzVerif Require Import Codec.ProbProofs Codec.RangeArithProofs Codec.RangeEncProofs Codec.RangeProofs.
From LzVerif Require Import Filter.Bcj2 Filter.Bcj2Enc Filter.Bcj2EncProofs Filter.Bcj2RcProofs Filter.Bcj2ScanProofs Filter.Bcj2InvProofs
  Filter.Bcj2LoopProofs Filter.Bcj2DecProofs.

Lemma its_nil_of_main its : b2_main its = [] -> its = [].
Proof. unfold b2_main. destruct its; [reflexivity | discriminate]. Qed.

Lemma its_nil_of_orig its : b2_orig its = [] -> its = [].
Proof. unfold b2_orig. destruct its as [|[b|b idx|b idx ic r0 r1 r2 r3 a] r]; [reflexivity | discriminate ..]. Qed.

Lemma flat_map_mod4 {A} (f : A -> list Z) l : (forall x, zlen (f x) mod 4 = 0) -> zlen (flat_map f l) mod 4 = 0.
Proof.
  intros Hf. induction l as [|x r IH]; [reflexivity|].
  cbn [flat_map]. rewrite zlen_app. specialize (Hf x). (Z.div_mod_to_equations; lia).
Qed.

Lemma b2_call_mod4 its : zlen (b2_call its) mod 4 = 0.
Proof. apply flat_map_mod4. intros [b|b idx|b idx [|] r0 r1 r2 r3 a]; reflexivity. Qed.

Lemma b2_jump_mod4 its : zlen (b2_jump its) mod 4 = 0.
Proof. apply flat_map_mod4. intros [b|b idx|b idx [|] r0 r1 r2 r3 a]; reflexivity. Qed.

Lemma sb_word_whole l : zlen l mod 4 = 0 -> sb_word (mkSb l (zlen l)).
Proof. intros H. unfold sb_word. cbn [sb_live sb_avail]. pose proof (zlen_nonneg l). msplit; [lia | lia | exact H | lia]. Qed.

Definition cfg0 (its : list b2item) : b2cfg := mkCfg (PhInit 0) its 0 0 renc_init PLeaf.

(* A decoder fresh from new() whose four buffers hold a beginning of the four streams.  [rc_out] is
   a variable tied to the encoder by an equation: were it the term [bcj2_rc_bytes ..] itself, every
   conversion test below would start to run the range encoder on the item list. *)
Lemma b2inv_init rc_out its mb cb jb rb F :
  items_wf 0 0 its -> events_bits (b2_events its) <= 4294967289 ->
  rc_out = bcj2_rc_bytes (b2_events its) ->
  g_main mb (f_main F) its ->
  sb_live cb ++ f_call F = b2_call its -> sb_word cb ->
  sb_live jb ++ f_jump F = b2_jump its -> sb_word jb ->
  sb_full rb -> sb_live rb ++ f_rc F = rc_out ->
  b2inv rc_out (mkBd mb cb jb rb 0 BCJ2_DEC_STATE_OK 0 0 0 0 0 0 0 (bd_probs bdec_new)) F (cfg0 its).
Proof.
  intros Hwf Hbits Hout Hm Hc Hcw Hj Hjw Hrf Hr.
  unfold b2inv, b2core, cfg0.
  cbn [c_ph c_its c_prev c_pos c_e c_t bd_main bd_call bd_jump bd_rc bd_probs bd_state bd_range bd_code].
  msplit.
  - exact Hm.
  - unfold g_cj. cbn [pend_word app]. msplit; assumption.
  - unfold g_enc. msplit.
    + apply renc_inv_init.
    + apply probs_ok_empty.
    + apply ptab_rel_init.
    + rewrite Hout. unfold bcj2_rc_bytes. reflexivity.
    + cbn [renc_init re_cache_size]. lia.
    + rewrite Hout. apply renc_output_bytes_ok; [apply probs_ok_empty | apply b2_events_ok | exact Hbits].
  - exact Hwf.
  - unfold isb. lia.
  - unfold g_regs. cbn [c_ph c_prev c_pos bd_t3 bd_ip]. split; reflexivity.
  - cbn [g_state]. left. reflexivity.
  - unfold g_rcph. cbn [c_ph c_e bd_range bd_rc bd_code]. change (Z.to_nat 0) with O. cbn [firstn skipn].
    msplit; [lia | lia | reflexivity | reflexivity | exact Hrf | reflexivity | exact Hr].
Qed.

(* how a decode() call can have ended: a buffer is exhausted (for CALL/JUMP, [call] says which) or
   the destination is full *)
Lemma exit_analysis rc_out lim d F c :
  b2inv rc_out d F c -> exit_ok lim d c ->
  (bd_state d = 0 /\ c_ph c = PhScan /\ sb_avail (bd_main d) = 0 /\ sb_live (bd_main d) = [] /\ 16777216 <= bd_range d) \/
  (bd_state d = 3 /\ sb_avail (bd_rc d) = 0 /\ sb_live (bd_rc d) = [] /\ f_rc F <> []) \/
  (exists call : bool, bd_state d = (if call then 1 else 2) /\
     let sb := if call then bd_call d else bd_jump d in
     sb_avail sb = 0 /\ sb_word sb /\ 4 <= zlen (sb_live sb ++ (if call then f_call F else f_jump F))) \/
  (4 <= bd_state d /\ bd_dest d = lim /\ rem_out c <> []).
Proof.
  destruct c as [ph its prev pos e t]. intros (Hcore & Hstate & Hrcph) Hex.
  pose proof Hcore as ((_ & Hmf) & Hcj & (HI & Ht & Htab & Hout & Hsize & Hbytes) & Hwf & Hprev & Hregs).
  unfold exit_ok in Hex. unfold g_rcph in Hrcph. bd_simpl.
  destruct ph as [k| |ic r0 r1 r2 r3|k r0 r1 r2 r3]; cbn [g_state] in Hstate.
  - destruct Hex as [Hs Hav]. destruct Hrcph as (Hk & Hr & He & Hfull & Hcode & Hlive). subst e.
    right. left. pose proof (sb_full_nil_avail _ Hfull Hav) as Hnil. msplit; try assumption.
    destruct (renc_output_head t (b2_events its) Ht (b2_events_ok its)) as (b1 & b2 & b3 & b4 & rest & Hhead & _).
    { unfold RC_MAX_BITS. cbn [renc_init re_cache_size] in Hsize. lia. }
    rewrite <- Hout in Hhead. rewrite Hnil, Hhead in Hlive. cbn [app] in Hlive. intros E. rewrite E in Hlive.
    apply (f_equal (@length Z)) in Hlive. rewrite skipn_length in Hlive. cbn [length] in Hlive. lia.
  - destruct Hrcph as [Hfull Hok].
    destruct Hex as [(Hs & Hav & Hr) | [(Hs & Hav & Hr) | (Hs & Hd & Hne)]].
    + left. msplit; try assumption; try reflexivity. apply sb_full_nil_avail; assumption.
    + right. left. pose proof (sb_full_nil_avail _ Hfull Hav) as Hnil. msplit; try assumption.
      intros E. rewrite Hnil, E in Hok. cbn [app] in Hok. exact (rc_ok_needs_byte _ _ _ _ Hok Hr).
    + right. right. right. msplit; [lia | exact Hd |].
      cbn [rem_out c_ph c_its]. intros E. apply its_nil_of_orig in E. contradiction.
  - destruct (g_cj_word _ _ _ _ _ _ _ _ _ _ _ Hcj) as (Hw & Hside & _).
    right. right. left. exists ic. split; [exact Hstate|]. cbv zeta. split; [exact Hex|]. split; [exact Hw|].
    rewrite Hside, zlen_app. change (zlen (be32 _)) with 4.
    pose proof (zlen_nonneg (if ic then b2_call its else b2_jump its)). lia.
  - unfold g_regs in Hregs. bd_simpl. destruct Hregs as (_ & _ & _ & _ & _ & _ & _ & _ & _ & _ & Hk).
    right. right. right. msplit; [lia | exact Hex |].
    cbn [rem_out c_ph c_its]. intros E. apply app_eq_nil in E as [E _].
    apply (f_equal (@length Z)) in E. rewrite skipn_length in E. cbn [length] in E. lia.
Qed.

(* the state in which everything has been decoded *)
Lemma final_state rc_out d F prev pos e t :
  b2inv rc_out d F (mkCfg PhScan [] prev pos e t) -> 16777216 <= bd_range d ->
  bd_code d = 0 /\ sb_live (bd_rc d) ++ f_rc F = [].
Proof.
  intros (Hcore & _ & Hrcph) Hr.
  destruct Hcore as (_ & _ & (HI & _ & _ & Hout & Hsize & _) & _).
  unfold g_rcph in Hrcph. cbn [c_ph c_its c_e c_t] in *. destruct Hrcph as [_ Hok].
  pose proof (rc_ok_big _ _ _ _ _ Hok Hr) as Hn.
  apply (rc_norm_final _ _ _ _ _ Hn HI); [cbn [b2_events flat_map events_bits] in Hsize; lia | exact Hout].
Qed.

Lemma parse_facts data ds : bytes_ok data = true -> Z.of_nat (length data) <= 4294967289 ->
  let its := bcj2_parse data 0 0 ds in
  items_wf 0 0 its /\ b2_orig its = data /\ events_bits (b2_events its) <= 4294967289.
Proof.
  intros Hb Hl its. msplit.
  - apply bcj2_parse_wf; [exact Hb | reflexivity].
  - apply bcj2_parse_orig.
  - pose proof (b2_events_bits its). pose proof (bcj2_parse_length data 0 0 ds).
    fold its in H0. unfold zlen in H. lia.
Qed.

Lemma inv_oneshot its rc_out :
  items_wf 0 0 its -> events_bits (b2_events its) <= 4294967289 -> rc_out = bcj2_rc_bytes (b2_events its) ->
  b2inv rc_out (bcj2_oneshot_dec (b2_main its) (b2_call its) (b2_jump its) rc_out) (mkFut [] [] [] []) (cfg0 its).
Proof.
  intros Hwf Hbits Hout. unfold bcj2_oneshot_dec.
  apply b2inv_init; try assumption; cbn [f_main f_call f_jump f_rc]; try apply app_nil_r.
  - split; [apply app_nil_r | reflexivity].
  - apply sb_word_whole, b2_call_mod4.
  - apply sb_word_whole, b2_jump_mod4.
  - reflexivity.
Qed.

(* Any well-formed item list, whichever way the candidates were chosen: one decode() call over its
   four complete streams returns the original bytes and uses up every stream. *)
Theorem bcj2_decodes_items its :
  items_wf 0 0 its -> events_bits (b2_events its) <= 4294967289 ->
  exists d',
    bcj2_decode_oneshot (b2_main its) (b2_call its) (b2_jump its) (bcj2_rc_bytes (b2_events its)) (zlen (b2_orig its)) =
      Ok (true, d', b2_orig its) /\
    bd_state d' = BCJ2_STREAM_MAIN /\ bd_code d' = 0 /\
    sb_live (bd_main d') = [] /\ sb_live (bd_call d') = [] /\ sb_live (bd_jump d') = [] /\ sb_live (bd_rc d') = [].
Proof.
  intros Hwf Hbits. remember (bcj2_rc_bytes (b2_events its)) as rc_out eqn:Hout.
  pose proof (inv_oneshot its rc_out Hwf Hbits Hout) as Hinv.
  unfold bcj2_decode_oneshot, bcj2_decode.
  destruct (decode_spec rc_out _ (zlen (b2_orig its)) _ _ Hinv) as (d' & c' & delta & Hdec & Hinv' & Hrem & Hdest & Hle & Hex & _).
  { cbn [bcj2_oneshot_dec bd_dest]. pose proof (zlen_nonneg (b2_orig its)). lia. }
  rewrite app_nil_r in Hdec. rewrite Hdec. cbn [obind]. rewrite rev_involutive.
  cbn [bcj2_oneshot_dec bd_dest] in Hdest. cbn [rem_out cfg0 c_ph c_its] in Hrem.
  assert (Hlen : zlen (b2_orig its) = zlen delta + zlen (rem_out c')) by (rewrite Hrem at 1; apply zlen_app).
  pose proof Hinv' as (((Hm & _) & (Hc & _ & Hj & _) & _) & _).
  cbn [f_main f_call f_jump f_rc] in *.
  destruct (exit_analysis _ _ _ _ _ Hinv' Hex) as [(Hs & Hph & Hav & Hlm & Hr) | [(Hs & _ & _ & Hne) | [(call & Hs & Hav & Hw & H4) | (Hs & Hd & Hne)]]].
  - destruct c' as [ph' its' prev' pos' e' t']. cbn [c_ph c_its c_pos] in *. subst ph'.
    rewrite Hlm in Hm. cbn [app] in Hm. symmetry in Hm. apply its_nil_of_main in Hm. subst its'.
    destruct (final_state _ _ _ _ _ _ _ Hinv' Hr) as [Hcode Hrc]. cbn [f_rc] in Hrc. rewrite app_nil_r in Hrc.
    cbn [pend_word app b2_call b2_jump flat_map] in Hc, Hj. rewrite app_nil_r in Hc, Hj.
    cbn [rem_out c_ph c_its b2_orig flat_map] in Hrem. rewrite app_nil_r in Hrem.
    exists d'. rewrite Hrem. msplit; try assumption; reflexivity.
  - cbn [f_rc] in Hne. contradiction.
  - destruct call; rewrite app_nil_r in H4; destruct Hw as (_ & _ & Hx); lia.
  - exfalso. apply Hne. apply (zlen_zero_nil (rem_out c')). lia.
Qed.

Theorem bcj2_decodes_spec data ds :
  bytes_ok data = true -> Z.of_nat (length data) <= 4294967289 ->
  exists d',
    (let '(m, c, j, r) := bcj2_encode data ds in bcj2_decode_oneshot m c j r (zlen data)) = Ok (true, d', data) /\
    bd_state d' = BCJ2_STREAM_MAIN /\ bd_code d' = 0 /\
    sb_live (bd_main d') = [] /\ sb_live (bd_call d') = [] /\ sb_live (bd_jump d') = [] /\ sb_live (bd_rc d') = [].
Proof.
  intros Hb Hl. destruct (parse_facts data ds Hb Hl) as (Hwf & Horig & Hbits).
  destruct (bcj2_decodes_items _ Hwf Hbits) as (d' & H). rewrite Horig in H. exists d'. exact H.
Qed.
