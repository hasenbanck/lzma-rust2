(* Filter/DeltaProofs.v — the Delta filter: decoding undoes encoding for every distance value and every
   byte string (delta_inverse, C11); writer and reader do not depend on the partition into calls
   (delta_write_partition, delta_read_partition, C07); for distances 1..256 the ring-buffer encoder
   computes the format's definition out[i] = in[i] - in[i-dist] (delta_refines_spec). *)
From LzVerif Require Import Base.Bytes Filter.Delta.

Definition delta_inv (d : delta) : Prop :=
  length (d_hist d) = 256%nat /\ 0 <= d_pos d < 256.

Lemma delta_new_inv dist : delta_inv (delta_new dist).
Proof. unfold delta_inv, delta_new; cbn [d_hist d_pos]. split; [reflexivity | lia]. Qed.

Lemma delta_idx_range d : 0 <= delta_idx d < 256.
Proof. unfold delta_idx. apply Z.mod_pos_bound; lia. Qed.

Lemma delta_hist_lookup d : delta_inv d -> exists h, zth (d_hist d) (delta_idx d) = Some h.
Proof.
  intros [Hl _]. apply zth_some. unfold zlen. rewrite Hl.
  pose proof (delta_idx_range d). lia.
Qed.

Lemma delta_enc_byte_inv d x d' y :
  delta_inv d -> delta_enc_byte d x = Some (d', y) -> delta_inv d'.
Proof.
  intros [Hl Hp] H. unfold delta_enc_byte in H.
  destruct (zth (d_hist d) (delta_idx d)) as [h|]; [|discriminate].
  inversion H; subst; clear H. unfold delta_inv; cbn [d_hist d_pos].
  rewrite zupd_length. split; [assumption|]. apply Z.mod_pos_bound; lia.
Qed.

(* Encoding a byte and decoding the result from the same state gives the byte back and the
   same successor state: encoder and decoder histories stay identical. *)
Lemma delta_byte_inverse d x d' y :
  0 <= x < 256 ->
  delta_enc_byte d x = Some (d', y) -> delta_dec_byte d y = Some (d', x).
Proof.
  intros Hx H. unfold delta_enc_byte in H. unfold delta_dec_byte.
  destruct (zth (d_hist d) (delta_idx d)) as [h|]; [|discriminate].
  inversion H; subst; clear H.
  assert (E : ((x - h) mod 256 + h) mod 256 = x).
  { rewrite Zplus_mod_idemp_l. replace (x - h + h) with x by lia. apply Z.mod_small; lia. }
  rewrite E. reflexivity.
Qed.

(* the encoder never fails, keeps the length, and the decoder run from the same state undoes it *)
Lemma delta_encode_spec l : forall d, delta_inv d -> bytes_ok l = true ->
  exists d' o, delta_encode d l = Some (d', o) /\ delta_decode d o = Some (d', l) /\ length o = length l.
Proof.
  unfold delta_encode, delta_decode. induction l as [|x t IH]; intros d Hd Hb.
  - exists d, []. auto.
  - cbn [bytes_ok forallb] in Hb. apply andb_true_iff in Hb as [Hx Ht].
    unfold is_byte in Hx. apply andb_true_iff in Hx as [Hx0 Hx1].
    destruct (delta_hist_lookup d Hd) as [h Hh].
    destruct (delta_enc_byte d x) as [[d1 y]|] eqn:E.
    2:{ unfold delta_enc_byte in E. rewrite Hh in E. discriminate. }
    destruct (IH d1 (delta_enc_byte_inv _ _ _ _ Hd E) Ht) as (d2 & o & E2 & D2 & L2).
    exists d2, (y :: o). cbn [delta_run length].
    rewrite E, E2, (delta_byte_inverse d x d1 y ltac:(lia) E), D2, L2. auto.
Qed.

(* C11 (Delta): for every distance value whatsoever and every byte string, decoding what the
   encoder produced returns the original bytes; the encoder never panics. *)
Theorem delta_inverse : forall dist l,
  bytes_ok l = true ->
  exists o, delta_encode_bytes dist l = Some o /\ delta_decode_bytes dist o = Some l /\
            length o = length l.
Proof.
  intros dist l Hb. unfold delta_encode_bytes, delta_decode_bytes.
  destruct (delta_encode_spec l (delta_new dist) (delta_new_inv dist) Hb) as (d' & o & E & D & L).
  exists o. rewrite E, D. auto.
Qed.

(* Partition independence (C07): any split of the data into write() calls, empty calls included,
   yields the encoding of the concatenation. *)
Lemma delta_run_app step d a b :
  delta_run step d (a ++ b) =
  match delta_run step d a with
  | None => None
  | Some (d1, o1) =>
      match delta_run step d1 b with
      | None => None
      | Some (d2, o2) => Some (d2, o1 ++ o2)
      end
  end.
Proof.
  revert d; induction a as [|x t IH]; intros d; cbn [app delta_run].
  - destruct (delta_run step d b) as [[d2 o2]|]; reflexivity.
  - destruct (step d x) as [[d1 y]|]; [|reflexivity].
    rewrite IH. destruct (delta_run step d1 t) as [[d2 ys]|]; [|reflexivity].
    destruct (delta_run step d2 b) as [[d3 o3]|]; reflexivity.
Qed.

Theorem delta_write_partition : forall d parts,
  delta_write_calls d parts = delta_encode d (concat parts).
Proof.
  intros d parts; revert d; induction parts as [|p ps IH]; intros d; cbn [delta_write_calls concat].
  - reflexivity.
  - unfold delta_encode in *. rewrite delta_run_app.
    destruct (delta_run delta_enc_byte d p) as [[d1 o1]|]; [|reflexivity].
    rewrite IH. reflexivity.
Qed.

Theorem delta_read_partition : forall d parts,
  delta_read_calls d parts = delta_decode d (concat parts).
Proof.
  intros d parts; revert d; induction parts as [|p ps IH]; intros d; cbn [delta_read_calls concat].
  - reflexivity.
  - unfold delta_decode in *. rewrite delta_run_app.
    destruct (delta_run delta_dec_byte d p) as [[d1 o1]|]; [|reflexivity].
    rewrite IH. reflexivity.
Qed.

(* Refinement to the reference semantics out[i] = in[i] - in[i-dist] for 1 <= dist <= 256. *)
Definition hist_at (hist : list Z) (k : Z) : Z :=
  match zth hist (k - 1) with Some v => v | None => 0 end.

Definition delta_rel (d : delta) (hist : list Z) : Prop :=
  delta_inv d /\
  forall k, 1 <= k <= 256 -> zth (d_hist d) ((d_pos d + k) mod 256) = Some (hist_at hist k).

Lemma zth_repeatn_0 n i : 0 <= i < Z.of_nat n -> zth (repeatn 0 n) i = Some 0.
Proof.
  unfold zth. intros [H0 H1]. destruct (Z.ltb_spec i 0); [lia|].
  assert (Hn : (Z.to_nat i < n)%nat) by lia. clear - Hn.
  revert Hn; generalize (Z.to_nat i) as m. induction n as [|n IH]; intros m Hm; [lia|].
  destruct m; cbn; [reflexivity|]. apply IH; lia.
Qed.

Lemma delta_rel_new dist : delta_rel (delta_new dist) [].
Proof.
  split; [apply delta_new_inv|]. intros k Hk. cbn [delta_new d_hist d_pos].
  unfold hist_at. replace (zth [] (k - 1)) with (@None Z).
  2:{ unfold zth. destruct (k - 1 <? 0); [reflexivity|]. destruct (Z.to_nat (k-1)); reflexivity. }
  apply zth_repeatn_0. pose proof (Z.mod_pos_bound (0 + k) 256). lia.
Qed.

Lemma zth_zupd_same {A} (l : list A) i v : 0 <= i < zlen l -> zth (zupd l i v) i = Some v.
Proof.
  unfold zth, zupd, zlen. intros [H0 H1]. destruct (Z.ltb_spec i 0); [lia|].
  apply nth_opt_upd_same. lia.
Qed.

Lemma zth_zupd_other {A} (l : list A) i j v : 0 <= i -> 0 <= j -> i <> j -> zth (zupd l i v) j = zth l j.
Proof.
  unfold zth, zupd. intros Hi Hj Hne.
  destruct (Z.ltb_spec i 0); [lia|]. destruct (Z.ltb_spec j 0); [lia|].
  apply nth_opt_upd_other. lia.
Qed.

Lemma zth_cons {A} (x : A) l i : 1 <= i -> zth (x :: l) i = zth l (i - 1).
Proof.
  unfold zth. intros Hi. destruct (Z.ltb_spec i 0); [lia|]. destruct (Z.ltb_spec (i-1) 0); [lia|].
  replace (Z.to_nat i) with (S (Z.to_nat (i - 1))) by lia. reflexivity.
Qed.

Lemma delta_rel_step d hist x dist :
  1 <= dist <= 256 -> d_dist d = dist -> 0 <= x < 256 ->
  delta_rel d hist ->
  exists d', delta_enc_byte d x = Some (d', (x - hist_at hist dist) mod 256) /\
             d_dist d' = dist /\ delta_rel d' (x :: hist).
Proof.
  intros Hdist Hd Hx [Hinv Hrel]. pose proof Hinv as [Hl Hp].
  unfold delta_enc_byte.
  assert (Hidx : delta_idx d = (d_pos d + dist) mod 256).
  { unfold delta_idx. rewrite Hd. rewrite (Z.mod_small (dist + d_pos d)) by lia. f_equal; lia. }
  rewrite Hidx, (Hrel dist Hdist).
  eexists. split; [reflexivity|]. cbn [d_dist]. split; [assumption|].
  split.
  - split; cbn [d_hist d_pos]; [rewrite zupd_length; assumption | apply Z.mod_pos_bound; lia].
  - intros k Hk. cbn [d_hist d_pos]. rewrite (Z.mod_small (d_pos d)) by lia.
    assert (Hq : ((d_pos d - 1) mod 256 + k) mod 256 = (d_pos d + (k - 1)) mod 256).
    { rewrite Zplus_mod_idemp_l. f_equal; lia. }
    rewrite Hq. destruct (Z.eq_dec k 1) as [->|Hne].
    + replace (d_pos d + (1 - 1)) with (d_pos d) by lia. rewrite (Z.mod_small (d_pos d)) by lia.
      rewrite zth_zupd_same by (unfold zlen; lia).
      unfold hist_at. replace (1 - 1) with 0 by lia. reflexivity.
    + rewrite zth_zupd_other.
      * rewrite (Hrel (k - 1)) by lia. unfold hist_at. rewrite zth_cons by lia. reflexivity.
      * lia.
      * apply Z.mod_pos_bound; lia.
      * intro Heq. Z.div_mod_to_equations. lia.
Qed.

Lemma delta_refines_spec_gen dist : 1 <= dist <= 256 -> forall l d hist,
  bytes_ok l = true -> d_dist d = dist -> delta_rel d hist ->
  exists d', delta_encode d l = Some (d', delta_spec_enc dist hist l).
Proof.
  intros Hdist. induction l as [|x t IH]; intros d hist Hb Hd Hrel.
  - exists d. reflexivity.
  - cbn [bytes_ok forallb] in Hb. apply andb_true_iff in Hb as [Hx Ht].
    unfold is_byte in Hx. apply andb_true_iff in Hx as [Hx0 Hx1].
    destruct (delta_rel_step d hist x dist Hdist Hd ltac:(lia) Hrel) as (d1 & E1 & Hd1 & Hrel1).
    destruct (IH d1 (x :: hist) Ht Hd1 Hrel1) as (d2 & E2).
    exists d2. unfold delta_encode in *. cbn [delta_run delta_spec_enc]. rewrite E1, E2.
    unfold hist_at. reflexivity.
Qed.

(* The crate's ring-buffer encoder computes exactly the format's definition of the Delta filter. *)
Theorem delta_refines_spec : forall dist l,
  1 <= dist <= 256 -> bytes_ok l = true ->
  delta_encode_bytes dist l = Some (delta_spec_enc dist [] l).
Proof.
  intros dist l Hdist Hb. unfold delta_encode_bytes.
  destruct (delta_refines_spec_gen dist Hdist l (delta_new dist) [] Hb eq_refl (delta_rel_new dist)) as (d' & E).
  rewrite E. reflexivity.
Qed.
