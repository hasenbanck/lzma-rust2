(* Filter/BcjIa64Proofs.v — the IA-64 filter: one-step unfolding, shape of a bundle step, stream
   facts; the inverse (code_inverse_ia64): the decoder's three slot steps undo the encoder's, 41-bit field
   by field. *)
From LzVerif Require Import Base.Bytes Filter.Bcj Filter.BcjStream Filter.BcjArithProofs
  Filter.BcjStreamProofs Filter.BcjWinProofs.

Lemma ia64_pc pos i : s32 (s32 pos + s32 i) = pc32 pos i.
Proof. unfold pc32, s32, u64. (Z.div_mod_to_equations; lia). Qed.

Lemma ia64_go_unfold enc pos i b0 b1 b2 b3 b4 b5 b6 b7 b8 b9 b10 b11 b12 b13 b14 b15 t :
  ia64_go enc pos i (b0 :: b1 :: b2 :: b3 :: b4 :: b5 :: b6 :: b7 :: b8 :: b9 :: b10 :: b11 :: b12 :: b13 :: b14 :: b15 :: t) =
  (do w <- ia64_bundle enc (s32 (s32 pos + s32 i))
             [b0; b1; b2; b3; b4; b5; b6; b7; b8; b9; b10; b11; b12; b13; b14; b15];
   do r <- ia64_go enc pos (i + 16) t;
   let '(o, rest) := r in Ok (w ++ o, rest)).
Proof. reflexivity. Qed.

Lemma ia64_go_short enc pos i l : (length l < 16)%nat -> ia64_go enc pos i l = Ok ([], l).
Proof.
  intros H. do 16 (destruct l as [|? l]; [reflexivity|]). cbn [length] in H. lia.
Qed.

Definition ia64_win (enc : bool) (pc : Z) (w : list Z) : outcome (nat * list Z) :=
  do w' <- ia64_bundle enc pc w; Ok (16%nat, w').

Lemma ia64_go_step enc pos i l : (16 <= length l)%nat ->
  ia64_go enc pos i l =
  (do s <- ia64_win enc (pc32 pos i) (firstn 16 l);
   let '(n, e) := s in
   do r <- ia64_go enc pos (i + Z.of_nat n) (skipn n l);
   let '(o, rest) := r in Ok (e ++ o, rest)).
Proof.
  intros H. do 16 (destruct l as [|? l]; [cbn [length] in H; lia|]).
  rewrite ia64_go_unfold, ia64_pc. cbn [firstn]. unfold ia64_win.
  destruct (ia64_bundle enc (pc32 pos i) _) as [w| | |]; reflexivity.
Qed.

(* a slot step keeps the bundle a 16-byte list *)
Lemma ia64_slot_shape enc pi mask w slot : (slot = 0 \/ slot = 1 \/ slot = 2) ->
  length w = 16%nat -> bytes_ok w = true ->
  length (ia64_slot enc pi mask w slot) = 16%nat /\ bytes_ok (ia64_slot enc pi mask w slot) = true.
Proof.
  intros Hs Hl Hb. unfold ia64_slot.
  destruct (Z.land (Z.shiftr mask slot) 1 =? 0); [auto|].
  match goal with |- context [if ?c then _ else _] => destruct c end; [auto|].
  split.
  - rewrite !app_length, firstn_length, le_bytes_length, skipn_length, Hl.
    destruct Hs as [-> | [-> | ->]]; reflexivity.
  - apply bytes_ok_app. split; [apply bytes_ok_firstn; assumption|].
    apply bytes_ok_app. split; [apply bytes_ok_le_bytes|apply bytes_ok_skipn; assumption].
Qed.

Lemma ia64_table_some b0 : byte b0 -> exists mask, zth IA64_BRANCH_TABLE (Z.land b0 31) = Some mask.
Proof.
  intros Hb. apply zth_some. unfold byte in Hb. land_lits. cbn. (Z.div_mod_to_equations; lia).
Qed.

Lemma ia64_win_ok enc pc w : length w = 16%nat -> bytes_ok w = true ->
  exists n e, ia64_win enc pc w = Ok (n, e) /\ (1 <= n <= 16)%nat /\ length e = n /\ bytes_ok e = true.
Proof.
  intros Hl Hb. unfold ia64_win, ia64_bundle.
  destruct w as [|b0 w']; [cbn [length] in Hl; lia|].
  assert (Hb0 : byte b0) by (apply bytes_ok_cons in Hb; tauto).
  destruct (ia64_table_some b0 Hb0) as (mask & Em). rewrite Em. cbn [obind].
  set (w := b0 :: w') in *.
  destruct (ia64_slot_shape enc pc mask w 0 ltac:(auto) Hl Hb) as [L0 B0].
  destruct (ia64_slot_shape enc pc mask _ 1 ltac:(auto) L0 B0) as [L1 B1].
  destruct (ia64_slot_shape enc pc mask _ 2 ltac:(auto) L1 B1) as [L2 B2].
  eexists _, _. split; [reflexivity|]. split; [lia|]. split; assumption.
Qed.

Lemma ia64_code enc st buf : bcj_code IA64 enc st buf = out_code (ia64_go enc) st buf.
Proof. reflexivity. Qed.

Lemma code_facts_ia64 enc : code_facts IA64 enc.
Proof.
  exact (win_code_facts 16 ltac:(lia) ia64_win ia64_go ia64_go_short ia64_go_step ia64_win_ok IA64 ia64_code enc).
Qed.

(* The inverse.  A bundle is the 128-bit little-endian value of its 16 bytes: a 5-bit template and
   three 41-bit slots.  A slot step reads and rewrites a 6-byte window, but all it looks at and all
   it changes lies inside its own 41-bit field, where it acts as "add or subtract the position in
   the 21-bit immediate" - so the three steps of the decoder undo the three steps of the encoder
   field by field. *)
(* clearing a set of bits *)
Lemma land_lnot_sub a b : Z.land a (Z.lnot b) = a - Z.land a b.
Proof.
  rewrite <- Z.ldiff_land.
  assert (H : Z.land (Z.ldiff a b) (Z.land a b) = 0).
  { apply Z.bits_inj'; intros n Hn. rewrite !Z.land_spec, Z.ldiff_spec, Z.bits_0.
    destruct (Z.testbit a n), (Z.testbit b n); reflexivity. }
  pose proof (Z.lor_ldiff_and a b) as E.
  rewrite <- Z.lxor_lor in E by assumption. rewrite <- Z.add_nocarry_lxor in E by assumption. lia.
Qed.

Lemma land_u64_r a m : 0 <= a < 18446744073709551616 -> Z.land a (u64 m) = Z.land a m.
Proof.
  intros Ha. unfold u64. change 18446744073709551616 with (2 ^ 64) in *.
  rewrite <- (Z.land_ones m) by lia. rewrite (Z.land_comm m), Z.land_assoc.
  rewrite (Z.land_ones a) by lia. rewrite Z.mod_small by assumption. reflexivity.
Qed.

(* the slot value (instr_norm) after conversion: the 20-bit immediate at bit 13 and the sign at bit 36
   are replaced by the converted address *)
Definition ia64_imm (yn : Z) : Z := (yn / 8192) mod 1048576 + (yn / 68719476736) mod 2 * 1048576.
Definition ia64_put (yn d : Z) : Z :=
  yn - (yn / 8192) mod 1048576 * 8192 - (yn / 68719476736) mod 2 * 68719476736
     + d mod 1048576 * 8192 + (d / 1048576) mod 2 * 68719476736.
Definition ia64_test (yn : Z) : bool :=
  negb (Z.land (Z.shiftr yn 37) 15 =? 5) || negb (Z.land (Z.shiftr yn 9) 7 =? 0).

Lemma ia64_norm_new enc pi yn : 0 <= yn < 8796093022208 ->
  (let src := Z.land (Z.shiftr yn 13) 0x0FFFFF in
   let src := Z.lor src (Z.shiftl (Z.land (Z.shiftr yn 36) 1) 20) in
   let src := s32 (Z.shiftl src 4) in
   let dest := addsub enc src pi in
   let dest := Z.shiftr (u32 dest) 4 in
   let instr_norm := Z.land yn (u64 (Z.lnot (Z.shiftl 0x8FFFFF 13))) in
   let instr_norm := Z.lor instr_norm (Z.shiftl (Z.land dest 0x0FFFFF) 13) in
   Z.lor instr_norm (u64 (Z.shiftl (Z.land dest 0x100000) (36 - 20)))) =
  ia64_put yn (u32 (addsub enc (ia64_imm yn * 16) pi) / 16).
Proof.
  intros Hy. cbv zeta.
  rewrite land_u64_r by lia. rewrite land_lnot_sub.
  change (Z.shiftl 9437183 13) with (Z.lor (Z.ones 20 * 2 ^ 13) (Z.ones 1 * 2 ^ 36)).
  rewrite Z.land_lor_distr_r, !land_field by lia.
  change (36 - 20) with 16.
  shift_lits. land_lits.
  change (2 ^ 13) with 8192. change (2 ^ 20) with 1048576. change (2 ^ 36) with 68719476736. change (2 ^ 1) with 2.
  lor_plus 20.
  rewrite (s32_small ((yn / 68719476736 mod 2 * 1048576 + yn / 8192 mod 1048576) * 16)) by (Z.div_mod_to_equations; lia).
  replace ((yn / 68719476736 mod 2 * 1048576 + yn / 8192 mod 1048576) * 16) with (ia64_imm yn * 16)
    by (unfold ia64_imm; lia).
  set (d := u32 (addsub enc (ia64_imm yn * 16) pi) / 16).
  assert (Hd : 0 <= d < 268435456) by (unfold d, u32; (Z.div_mod_to_equations; lia)).
  rewrite (lor_add_field (yn / 8192 mod 1048576 * 8192) (yn / 68719476736 mod 2 * 68719476736) 36 1)
    by (change (2 ^ 36) with 68719476736; change (2 ^ 1) with 2; change (2 ^ (36 + 1)) with 137438953472; (Z.div_mod_to_equations; lia)).
  unfold u64.
  rewrite (Z.mod_small (d / 1048576 mod 2 * 1048576 * 65536)) by (Z.div_mod_to_equations; lia).
  rewrite (lor_add_field _ (d mod 1048576 * 8192) 13 20)
    by (change (2 ^ 13) with 8192; change (2 ^ 20) with 1048576; change (2 ^ (13 + 20)) with 8589934592; (Z.div_mod_to_equations; lia)).
  rewrite (lor_add_field _ (d / 1048576 mod 2 * 1048576 * 65536) 36 1)
    by (change (2 ^ 36) with 68719476736; change (2 ^ 1) with 2; change (2 ^ (36 + 1)) with 137438953472; (Z.div_mod_to_equations; lia)).
  unfold ia64_put. lia.
Qed.

Definition ia64_g (enc : bool) (pi yn : Z) : Z := ia64_put yn (u32 (addsub enc (ia64_imm yn * 16) pi) / 16).

(* the conversion only touches bits 13..32 and 36 *)
Lemma ia64_g_frame enc pi yn : 0 <= yn ->
  ia64_g enc pi yn mod 8192 = yn mod 8192 /\
  (ia64_g enc pi yn / 8589934592) mod 8 = (yn / 8589934592) mod 8 /\
  ia64_g enc pi yn / 137438953472 = yn / 137438953472 /\ 0 <= ia64_g enc pi yn.
Proof.
  intros Hy. unfold ia64_g, ia64_put.
  set (d := u32 _ / 16). assert (Hd : 0 <= d) by (unfold d, u32; (Z.div_mod_to_equations; lia)).
  repeat split; (Z.div_mod_to_equations; lia).
Qed.

Lemma ia64_g_imm enc pi yn : 0 <= yn ->
  ia64_imm (ia64_g enc pi yn) = (u32 (addsub enc (ia64_imm yn * 16) pi) / 16) mod 2097152.
Proof.
  intros Hy. unfold ia64_g, ia64_put, ia64_imm at 1 2.
  set (d := u32 _ / 16). assert (Hd : 0 <= d) by (unfold d, u32; (Z.div_mod_to_equations; lia)). (Z.div_mod_to_equations; lia).
Qed.

Lemma ia64_g_inv pi yn : pi mod 16 = 0 -> 0 <= yn -> ia64_g false pi (ia64_g true pi yn) = yn.
Proof.
  intros Hp Hy.
  pose proof (ia64_g_imm true pi yn Hy) as Ei.
  assert (Himm : 0 <= ia64_imm yn < 2097152) by (unfold ia64_imm; (Z.div_mod_to_equations; lia)).
  assert (Eback : (u32 (addsub false ((u32 (addsub true (ia64_imm yn * 16) pi) / 16) mod 2097152 * 16) pi) / 16) mod 2097152
                  = ia64_imm yn).
  { unfold addsub, u32, s32. (Z.div_mod_to_equations; lia). }
  assert (Hy1 : ia64_g true pi yn = ia64_put yn (u32 (addsub true (ia64_imm yn * 16) pi) / 16)) by reflexivity.
  set (y1 := ia64_g true pi yn) in *.
  unfold ia64_g. rewrite Ei.
  set (e := u32 (addsub true (ia64_imm yn * 16) pi) / 16) in *.
  set (d := u32 (addsub false (e mod 2097152 * 16) pi) / 16) in *.
  assert (He : 0 <= e) by (unfold e, u32; (Z.div_mod_to_equations; lia)).
  assert (Hd : 0 <= d) by (unfold d, u32; (Z.div_mod_to_equations; lia)).
  clearbody y1 e d.
  unfold ia64_put in *. unfold ia64_imm in *. (Z.div_mod_to_equations; lia).
Qed.

(* one slot step on a 16-byte bundle, in terms of the 6-byte window at byte k, bit offset r *)
Definition ia64_slot_spec (enc : bool) (pi : Z) (apply : bool) (w : list Z) (k : nat) (p2r : Z) : list Z :=
  if apply then
    let x := le_value (firstn 6 (skipn k w)) in
    let yn := x / p2r in
    if ia64_test yn then w
    else firstn k w ++ le_bytes 6 (x mod p2r + ia64_g enc pi yn * p2r) ++ skipn (k + 6) w
  else w.

Lemma ia64_slot_eq enc pi mask w slot k p2r :
  (slot = 0 /\ k = 0%nat /\ p2r = 32) \/ (slot = 1 /\ k = 5%nat /\ p2r = 64) \/ (slot = 2 /\ k = 10%nat /\ p2r = 128) ->
  length w = 16%nat -> bytes_ok w = true ->
  ia64_slot enc pi mask w slot = ia64_slot_spec enc pi (negb (Z.land (Z.shiftr mask slot) 1 =? 0)) w k p2r.
Proof.
  intros Hs Hl Hb. unfold ia64_slot, ia64_slot_spec.
  destruct (Z.land (Z.shiftr mask slot) 1 =? 0); [reflexivity|]. cbn [negb].
  assert (Hsix : bytes_ok (firstn 6 (skipn k w)) = true) by (apply bytes_ok_firstn, bytes_ok_skipn; assumption).
  pose proof (le_value_bound _ Hsix) as Hx. unfold zlen in Hx.
  assert (Hlen6 : length (firstn 6 (skipn k w)) = 6%nat).
  { rewrite firstn_length, skipn_length, Hl. destruct Hs as [(_ & -> & _)|[(_ & -> & _)|(_ & -> & _)]]; reflexivity. }
  rewrite Hlen6 in Hx. change (256 ^ Z.of_nat 6) with 281474976710656 in Hx.
  assert (Epos : Z.to_nat (Z.shiftr (5 + slot * 41) 3) = k /\ 2 ^ Z.land (5 + slot * 41) 7 = p2r /\ 0 <= Z.land (5 + slot * 41) 7 <= 7).
  { destruct Hs as [(-> & -> & ->)|[(-> & -> & ->)|(-> & -> & ->)]]; repeat split; try reflexivity; cbn; lia. }
  destruct Epos as (Ek & Er & Hr). rewrite Ek.
  set (r := Z.land (5 + slot * 41) 7) in *.
  set (x := le_value (firstn 6 (skipn k w))) in *.
  rewrite (Z.shiftr_div_pow2 x r) by lia. rewrite Er.
  assert (Hp2r : p2r = 32 \/ p2r = 64 \/ p2r = 128) by (destruct Hs as [(_ & _ & ->)|[(_ & _ & ->)|(_ & _ & ->)]]; auto).
  set (yn := x / p2r).
  assert (Hyn : 0 <= yn < 8796093022208) by (unfold yn; destruct Hp2r as [-> | [-> | ->]]; (Z.div_mod_to_equations; lia)).
  fold (ia64_test yn). destruct (ia64_test yn); [reflexivity|].
  pose proof (ia64_norm_new enc pi yn Hyn) as Hnn. cbv zeta in Hnn. cbv zeta. rewrite Hnn. clear Hnn.
  fold (ia64_g enc pi yn).
  pose proof (ia64_g_frame enc pi yn ltac:(lia)) as (_ & _ & F3 & F4).
  assert (Hg : 0 <= ia64_g enc pi yn < 8796093022208) by (Z.div_mod_to_equations; lia).
  f_equal. f_equal. f_equal.
  (* instr & ((1 << bit_res) - 1) | (instr_norm << bit_res) *)
  rewrite !Z.shiftl_mul_pow2 by lia. rewrite Er.
  replace (1 * p2r - 1) with (Z.ones r) by (rewrite Z.ones_equiv, Er; lia).
  rewrite Z.land_ones by lia. rewrite Er.
  unfold u64. rewrite (Z.mod_small (ia64_g enc pi yn * p2r)) by (destruct Hp2r as [-> | [-> | ->]]; lia).
  rewrite Z.lor_comm.
  assert (Hk : exists kk, 0 <= kk /\ p2r = 2 ^ kk) by (exists r; split; [lia|symmetry; exact Er]).
  destruct Hk as (kk & Hkk & Ekk).
  rewrite Ekk. rewrite (lor_add_low (ia64_g enc pi yn) (x mod 2 ^ kk) kk) by (try (Z.div_mod_to_equations; lia); apply Z.mod_pos_bound; apply Z.pow_pos_nonneg; lia).
  lia.
Qed.

(* the conversion and its test only look at the low 41 bits of the slot value *)
Lemma ia64_test_spec yn : ia64_test yn = negb ((yn / 137438953472) mod 16 =? 5) || negb ((yn / 512) mod 8 =? 0).
Proof. unfold ia64_test. shift_lits. land_lits. reflexivity. Qed.

Lemma ia64_test_low yn : 0 <= yn -> ia64_test yn = ia64_test (yn mod 2199023255552).
Proof.
  intros H. rewrite !ia64_test_spec.
  replace ((yn mod 2199023255552 / 137438953472) mod 16) with ((yn / 137438953472) mod 16) by (Z.div_mod_to_equations; lia).
  replace ((yn mod 2199023255552 / 512) mod 8) with ((yn / 512) mod 8) by (Z.div_mod_to_equations; lia). reflexivity.
Qed.

Lemma ia64_g_low enc pi yn : 0 <= yn ->
  ia64_g enc pi yn = ia64_g enc pi (yn mod 2199023255552) + yn / 2199023255552 * 2199023255552.
Proof.
  intros H. unfold ia64_g.
  assert (Ei : ia64_imm (yn mod 2199023255552) = ia64_imm yn) by (unfold ia64_imm; (Z.div_mod_to_equations; lia)).
  rewrite Ei. set (d := u32 _ / 16). unfold ia64_put. (Z.div_mod_to_equations; lia).
Qed.

Lemma ia64_g_range enc pi y : 0 <= y < 2199023255552 -> 0 <= ia64_g enc pi y < 2199023255552.
Proof.
  intros H. pose proof (ia64_g_frame enc pi y ltac:(lia)) as (_ & _ & F3 & F4). (Z.div_mod_to_equations; lia).
Qed.

Lemma ia64_g_test enc pi y : 0 <= y -> ia64_test (ia64_g enc pi y) = ia64_test y.
Proof.
  intros H. pose proof (ia64_g_frame enc pi y H) as (F1 & F2 & F3 & F4). rewrite !ia64_test_spec.
  replace ((ia64_g enc pi y / 137438953472) mod 16) with ((y / 137438953472) mod 16) by (Z.div_mod_to_equations; lia).
  replace ((ia64_g enc pi y / 512) mod 8) with ((y / 512) mod 8) by (Z.div_mod_to_equations; lia). reflexivity.
Qed.

(* what a slot step does to its 41-bit field *)
Definition ia64_G (enc : bool) (pi : Z) (apply : bool) (y : Z) : Z :=
  if apply then if ia64_test y then y else ia64_g enc pi y else y.

Lemma ia64_G_range enc pi ap y : 0 <= y < 2199023255552 -> 0 <= ia64_G enc pi ap y < 2199023255552.
Proof.
  intros H. unfold ia64_G. destruct ap; [|assumption]. destruct (ia64_test y); [assumption|].
  apply ia64_g_range. assumption.
Qed.

Lemma ia64_G_inv pi ap y : pi mod 16 = 0 -> 0 <= y -> ia64_G false pi ap (ia64_G true pi ap y) = y.
Proof.
  intros Hp Hy. unfold ia64_G. destruct ap; [|reflexivity].
  destruct (ia64_test y) eqn:Et; [rewrite Et; reflexivity|].
  rewrite ia64_g_test, Et by assumption. apply ia64_g_inv; assumption.
Qed.

Ltac pow256 :=
  repeat match goal with
  | |- context [256 ^ Z.of_nat ?n] =>
      let v := eval vm_compute in (256 ^ Z.of_nat n) in change (256 ^ Z.of_nat n) with v
  | H : context [256 ^ Z.of_nat ?n] |- _ =>
      let v := eval vm_compute in (256 ^ Z.of_nat n) in change (256 ^ Z.of_nat n) with v in H
  end.

(* a slot step rewrites one 41-bit field of the bundle's value *)
Lemma ia64_slot_field enc pi ap w k p2r bp L y H :
  (k = 0%nat /\ p2r = 32 /\ bp = 32) \/ (k = 5%nat /\ p2r = 64 /\ bp = 70368744177664) \/
  (k = 10%nat /\ p2r = 128 /\ bp = 154742504910672534362390528) ->
  length w = 16%nat -> bytes_ok w = true ->
  le_value w = L + bp * (y + 2199023255552 * H) -> 0 <= L < bp -> 0 <= y < 2199023255552 -> 0 <= H ->
  le_value (ia64_slot_spec enc pi ap w k p2r) = L + bp * (ia64_G enc pi ap y + 2199023255552 * H) /\
  length (ia64_slot_spec enc pi ap w k p2r) = 16%nat /\ bytes_ok (ia64_slot_spec enc pi ap w k p2r) = true.
Proof.
  intros Hs Hl Hb HN HL Hy HH. unfold ia64_slot_spec, ia64_G.
  destruct ap; [|auto].
  (* the three pieces of the bundle *)
  assert (Hk : (k + 6 <= 16)%nat) by (destruct Hs as [(-> & _)|[(-> & _)|(-> & _)]]; lia).
  assert (Ew : w = firstn k w ++ firstn 6 (skipn k w) ++ skipn (k + 6) w).
  { rewrite <- (firstn_skipn k w) at 1. f_equal. rewrite <- (firstn_skipn 6 (skipn k w)) at 1. f_equal.
    rewrite skipn_skipn. reflexivity. }
  assert (HbA : bytes_ok (firstn k w) = true) by (apply bytes_ok_firstn; assumption).
  assert (HbX : bytes_ok (firstn 6 (skipn k w)) = true) by (apply bytes_ok_firstn, bytes_ok_skipn; assumption).
  assert (HbC : bytes_ok (skipn (k + 6) w) = true) by (apply bytes_ok_skipn; assumption).
  pose proof (le_value_bound _ HbA) as HA. pose proof (le_value_bound _ HbX) as HX. pose proof (le_value_bound _ HbC) as HC.
  unfold zlen in HA, HX, HC.
  assert (LA : length (firstn k w) = k) by (rewrite firstn_length; lia).
  assert (LX : length (firstn 6 (skipn k w)) = 6%nat) by (rewrite firstn_length, skipn_length; lia).
  rewrite LA in HA. rewrite LX in HX. change (256 ^ Z.of_nat 6) with 281474976710656 in HX.
  assert (EN : le_value w = le_value (firstn k w) + 256 ^ Z.of_nat k *
                 (le_value (firstn 6 (skipn k w)) + 281474976710656 * le_value (skipn (k + 6) w))).
  { rewrite Ew at 1. rewrite !le_value_app. unfold zlen. rewrite LA, LX. reflexivity. }
  set (A := le_value (firstn k w)) in *. set (x := le_value (firstn 6 (skipn k w))) in *.
  set (C := le_value (skipn (k + 6) w)) in *.
  assert (Hyn : 0 <= x / p2r) by (destruct Hs as [(_ & -> & _)|[(_ & -> & _)|(_ & -> & _)]]; (Z.div_mod_to_equations; lia)).
  (* the slot value seen by the step is y plus high bits of the next slot *)
  assert (Eyn : (x / p2r) mod 2199023255552 = y /\
                x / p2r / 2199023255552 * (2199023255552 * p2r) + x mod p2r + y * p2r = x).
  { rewrite EN in HN. clearbody A x C.
    destruct Hs as [(-> & -> & ->)|[(-> & -> & ->)|(-> & -> & ->)]];
      pow256; (Z.div_mod_to_equations; lia). }
  destruct Eyn as [Eyn Ex].
  rewrite (ia64_test_low (x / p2r)) by assumption. rewrite Eyn.
  destruct (ia64_test y); [auto|].
  rewrite (ia64_g_low enc pi (x / p2r)) by assumption. rewrite Eyn.
  pose proof (ia64_g_range enc pi y Hy) as Hg.
  set (g := ia64_g enc pi y) in *.
  set (x' := x mod p2r + (g + x / p2r / 2199023255552 * 2199023255552) * p2r).
  assert (Hx' : 0 <= x' < 281474976710656 /\ x' = x + (g - y) * p2r).
  { unfold x'. clearbody g. destruct Hs as [(_ & -> & _)|[(_ & -> & _)|(_ & -> & _)]]; (Z.div_mod_to_equations; lia). }
  destruct Hx' as [Hx' Ex'].
  split; [|split].
  - rewrite !le_value_app. unfold zlen. rewrite LA, le_bytes_length.
    rewrite (le_value_bytes 6 x') by (change (256 ^ Z.of_nat 6) with 281474976710656; lia).
    change (256 ^ Z.of_nat 6) with 281474976710656. fold C A.
    rewrite Ex'. rewrite EN in HN. clearbody A x C g.
    destruct Hs as [(-> & -> & ->)|[(-> & -> & ->)|(-> & -> & ->)]];
      pow256; lia.
  - rewrite !app_length, LA, le_bytes_length, skipn_length. lia.
  - apply bytes_ok_app. split; [assumption|]. apply bytes_ok_app. split; [apply bytes_ok_le_bytes|assumption].
Qed.

(* a whole bundle: template (5 bits) and three 41-bit slots *)
Lemma ia64_fields N : 0 <= N < 340282366920938463463374607431768211456 ->
  let t := N mod 32 in
  let y0 := (N / 32) mod 2199023255552 in
  let y1 := (N / 70368744177664) mod 2199023255552 in
  let y2 := N / 154742504910672534362390528 in
  0 <= t < 32 /\ 0 <= y0 < 2199023255552 /\ 0 <= y1 < 2199023255552 /\ 0 <= y2 < 2199023255552 /\
  N = t + 32 * y0 + 70368744177664 * y1 + 154742504910672534362390528 * y2.
Proof. intros HN. cbv zeta. repeat split; (Z.div_mod_to_equations; lia). Qed.

Lemma ia64_bundle_fields enc pi w mask :
  length w = 16%nat -> bytes_ok w = true ->
  let N := le_value w in
  let t := N mod 32 in
  let y0 := (N / 32) mod 2199023255552 in
  let y1 := (N / 70368744177664) mod 2199023255552 in
  let y2 := N / 154742504910672534362390528 in
  let ap s := negb (Z.land (Z.shiftr mask s) 1 =? 0) in
  let w3 := ia64_slot enc pi mask (ia64_slot enc pi mask (ia64_slot enc pi mask w 0) 1) 2 in
  le_value w3 = t + 32 * ia64_G enc pi (ap 0) y0 + 70368744177664 * ia64_G enc pi (ap 1) y1
                + 154742504910672534362390528 * ia64_G enc pi (ap 2) y2 /\
  length w3 = 16%nat /\ bytes_ok w3 = true.
Proof.
  intros Hl Hb. cbv zeta.
  pose proof (le_value_bound w Hb) as HN. unfold zlen in HN. rewrite Hl in HN.
  change (256 ^ Z.of_nat 16) with 340282366920938463463374607431768211456 in HN.
  set (N := le_value w) in *.
  destruct (ia64_fields N HN) as (Ht & H0 & H1 & H2 & EN).
  set (t := N mod 32) in *. set (y0 := (N / 32) mod 2199023255552) in *.
  set (y1 := (N / 70368744177664) mod 2199023255552) in *. set (y2 := N / 154742504910672534362390528) in *.
  clearbody t y0 y1 y2.
  rewrite (ia64_slot_eq enc pi mask w 0 0 32) by auto.
  set (a0 := negb (Z.land (Z.shiftr mask 0) 1 =? 0)).
  destruct (ia64_slot_field enc pi a0 w 0 32 32 t y0 (y1 + 2199023255552 * y2)
              (or_introl (conj eq_refl (conj eq_refl eq_refl))) Hl Hb) as (V0 & L0 & B0); [lia|lia|lia|lia|].
  pose proof (ia64_G_range enc pi a0 y0 H0) as G0.
  set (w1 := ia64_slot_spec enc pi a0 w 0 32) in *. set (g0 := ia64_G enc pi a0 y0) in *.
  rewrite (ia64_slot_eq enc pi mask w1 1 5 64) by auto.
  set (a1 := negb (Z.land (Z.shiftr mask 1) 1 =? 0)).
  destruct (ia64_slot_field enc pi a1 w1 5 64 70368744177664 (t + 32 * g0) y1 y2
              (or_intror (or_introl (conj eq_refl (conj eq_refl eq_refl)))) L0 B0) as (V1 & L1 & B1); [lia|lia|lia|lia|].
  pose proof (ia64_G_range enc pi a1 y1 H1) as G1.
  set (w2 := ia64_slot_spec enc pi a1 w1 5 64) in *. set (g1 := ia64_G enc pi a1 y1) in *.
  rewrite (ia64_slot_eq enc pi mask w2 2 10 128) by auto.
  set (a2 := negb (Z.land (Z.shiftr mask 2) 1 =? 0)).
  destruct (ia64_slot_field enc pi a2 w2 10 128 154742504910672534362390528 (t + 32 * g0 + 70368744177664 * g1) y2 0
              (or_intror (or_intror (conj eq_refl (conj eq_refl eq_refl)))) L1 B1) as (V2 & L2 & B2); [lia|lia|lia|lia|].
  split; [|split; assumption]. rewrite V2. lia.
Qed.

Lemma ia64_bundle_inv pi w : pi mod 16 = 0 -> length w = 16%nat -> bytes_ok w = true ->
  exists w', ia64_bundle true pi w = Ok w' /\ length w' = 16%nat /\ bytes_ok w' = true /\
             ia64_bundle false pi w' = Ok w.
Proof.
  intros Hp Hl Hb.
  destruct w as [|b0 wt] eqn:Ew; [cbn [length] in Hl; lia|].
  assert (Hb0 : byte b0) by (apply bytes_ok_cons in Hb; tauto).
  destruct (ia64_table_some b0 Hb0) as (mask & Em).
  rewrite <- Ew in *.
  pose proof (ia64_bundle_fields true pi w mask Hl Hb) as HE. cbv zeta in HE.
  destruct HE as (V3 & L3 & B3).
  set (w3 := ia64_slot true pi mask (ia64_slot true pi mask (ia64_slot true pi mask w 0) 1) 2) in *.
  exists w3. split; [rewrite Ew at 1; unfold ia64_bundle; rewrite Em; rewrite <- Ew; reflexivity|].
  split; [assumption|]. split; [assumption|].
  (* the decoder sees the same template *)
  pose proof (le_value_bound w Hb) as HN. unfold zlen in HN. rewrite Hl in HN.
  change (256 ^ Z.of_nat 16) with 340282366920938463463374607431768211456 in HN.
  set (N := le_value w) in *.
  destruct (ia64_fields N HN) as (Ht & H0 & H1 & H2 & EN).
  set (t := N mod 32) in *. set (y0 := (N / 32) mod 2199023255552) in *.
  set (y1 := (N / 70368744177664) mod 2199023255552) in *. set (y2 := N / 154742504910672534362390528) in *.
  set (a0 := negb (Z.land (Z.shiftr mask 0) 1 =? 0)) in *.
  set (a1 := negb (Z.land (Z.shiftr mask 1) 1 =? 0)) in *.
  set (a2 := negb (Z.land (Z.shiftr mask 2) 1 =? 0)) in *.
  pose proof (ia64_G_range true pi a0 y0 H0) as G0. pose proof (ia64_G_range true pi a1 y1 H1) as G1.
  pose proof (ia64_G_range true pi a2 y2 H2) as G2.
  set (g0 := ia64_G true pi a0 y0) in *. set (g1 := ia64_G true pi a1 y1) in *. set (g2 := ia64_G true pi a2 y2) in *.
  assert (EN3 : le_value w3 mod 32 = t /\ (le_value w3 / 32) mod 2199023255552 = g0 /\
                (le_value w3 / 70368744177664) mod 2199023255552 = g1 /\
                le_value w3 / 154742504910672534362390528 = g2).
  { rewrite V3. clearbody t y0 y1 y2 g0 g1 g2. repeat split; (Z.div_mod_to_equations; lia). }
  destruct EN3 as (T3 & Y30 & Y31 & Y32).
  destruct w3 as [|c0 w3t] eqn:Ew3; [discriminate L3|].
  assert (Hc0 : byte c0) by (apply bytes_ok_cons in B3; tauto).
  assert (Ec0 : Z.land c0 31 = Z.land b0 31).
  { land_lits. cbn [le_value] in T3.
    assert (Eb0 : t = b0 mod 32) by (unfold t, N; rewrite Ew; cbn [le_value]; clear; (Z.div_mod_to_equations; lia)).
    rewrite Eb0 in T3. clear -T3. (Z.div_mod_to_equations; lia). }
  unfold ia64_bundle. rewrite Ec0, Em. f_equal.
  rewrite <- Ew3 in *.
  pose proof (ia64_bundle_fields false pi w3 mask L3 B3) as HD. cbv zeta in HD.
  destruct HD as (V6 & L6 & B6).
  fold a0 a1 a2 in V6. rewrite T3, Y30, Y31, Y32 in V6.
  unfold g0, g1, g2 in V6.
  rewrite (ia64_G_inv pi a0 y0 Hp (proj1 H0)), (ia64_G_inv pi a1 y1 Hp (proj1 H1)), (ia64_G_inv pi a2 y2 Hp (proj1 H2)) in V6.
  apply le_value_inj; try assumption; [congruence|].
  rewrite V6. fold N. clear -EN. lia.
Qed.

Lemma code_inverse_ia64 st : f_pos st mod 16 = 0 -> code_inverse IA64 st.
Proof.
  intros H buf.
  apply (win_code_inverse 16 ltac:(lia) ia64_win ia64_go ia64_go_short ia64_go_step ia64_win_ok IA64 ia64_code 16);
    [|exact H].
  intros pos i l n e o r Hal Hl Hb Es _.
  assert (Hp : pc32 pos i mod 16 = 0) by (rewrite pc32_mod16; assumption).
  destruct (ia64_bundle_inv (pc32 pos i) (firstn 16 l) Hp) as (w' & Ew & Lw & Bw & Dw).
  { rewrite firstn_length. lia. }
  { apply bytes_ok_firstn. assumption. }
  unfold ia64_win in *. rewrite Ew in Es. cbn [obind] in Es. injection Es as <- <-.
  split; [reflexivity|].
  rewrite firstn_app, Lw, Nat.sub_diag, firstn_all2 by lia. cbn [firstn]. rewrite app_nil_r, Dw. reflexivity.
Qed.
