(* Filter/BcjWinProofs.v — loops of the shape "while at least K bytes are left: look at the next K
   bytes and the position, rewrite and step over 1..K of them" (the word filters and ARM-Thumb:
   K = 4, RISC-V: K = 8, IA-64: K = 16), from a one-step unfolding of the loop: the facts of
   Filter/BcjStreamProofs.v, and the decoder's loop undoing the encoder's when each step does. *)
From LzVerif Require Import Base.Bytes Filter.Bcj Filter.BcjStream Filter.BcjArithProofs Filter.BcjStreamProofs.

Section Win.
Variable K : nat.
Hypothesis HK : (0 < K <= 16)%nat.
Variable step : bool -> Z -> list Z -> outcome (nat * list Z).
Variable go : bool -> Z -> Z -> list Z -> outcome (list Z * list Z).

Hypothesis go_short : forall enc pos i l, (length l < K)%nat -> go enc pos i l = Ok ([], l).
Hypothesis go_step : forall enc pos i l, (K <= length l)%nat ->
  go enc pos i l =
  (do s <- step enc (pc32 pos i) (firstn K l);
   let '(n, e) := s in
   do r <- go enc pos (i + Z.of_nat n) (skipn n l);
   let '(o, rest) := r in Ok (e ++ o, rest)).
Hypothesis step_ok : forall enc pc w, length w = K -> bytes_ok w = true ->
  exists n e, step enc pc w = Ok (n, e) /\ (1 <= n <= K)%nat /\ length e = n /\ bytes_ok e = true.

Lemma win_total enc : forall m l pos i, (length l <= m)%nat -> bytes_ok l = true ->
  exists o r, go enc pos i l = Ok (o, r) /\ skipn (length o) l = r /\
              (length o + length r = length l)%nat /\ (length r < K)%nat /\ bytes_ok o = true.
Proof.
  induction m as [|m IH]; intros l pos i Hm Hb.
  - exists [], l. rewrite go_short by lia. repeat split; auto; lia.
  - destruct (Nat.lt_ge_cases (length l) K) as [Hs|Hs].
    + exists [], l. rewrite go_short by assumption. repeat split; auto.
    + rewrite go_step by assumption.
      destruct (step_ok enc (pc32 pos i) (firstn K l)) as (n & e & Es & Hn & He & Hbe).
      { rewrite firstn_length. lia. }
      { apply bytes_ok_firstn. assumption. }
      rewrite Es. cbn [obind].
      destruct (IH (skipn n l) pos (i + Z.of_nat n)) as (o & r & Eg & Hr & Hl & Hrk & Hbo).
      { rewrite skipn_length. lia. }
      { apply bytes_ok_skipn. assumption. }
      rewrite Eg. cbn [obind]. exists (e ++ o), r. split; [reflexivity|].
      rewrite skipn_length in Hl.
      split; [rewrite app_length, He, <- skipn_skipn; exact Hr|].
      split; [rewrite app_length; lia|]. split; [assumption|].
      apply bytes_ok_app. split; assumption.
Qed.

Lemma win_out enc l pos i o r : bytes_ok l = true -> go enc pos i l = Ok (o, r) ->
  bytes_ok (o ++ r) = true /\ length (o ++ r) = length l.
Proof.
  intros Hb Hgo.
  destruct (win_total enc (length l) l pos i (le_n _) Hb) as (o' & r' & E & Hr & Hl & _ & Hbo).
  rewrite Hgo in E. injection E as <- <-. rewrite app_length. split; [|exact Hl].
  apply bytes_ok_app. split; [exact Hbo|]. rewrite <- Hr. apply bytes_ok_skipn. exact Hb.
Qed.

Lemma win_ext enc : forall m l pos1 i1 pos2 i2, (length l <= m)%nat -> bytes_ok l = true ->
  (forall j, pc32 pos1 (i1 + j) = pc32 pos2 (i2 + j)) -> go enc pos1 i1 l = go enc pos2 i2 l.
Proof.
  induction m as [|m IH]; intros l pos1 i1 pos2 i2 Hm Hb H.
  - rewrite !go_short by lia. reflexivity.
  - destruct (Nat.lt_ge_cases (length l) K) as [Hs|Hs].
    + rewrite !go_short by assumption. reflexivity.
    + rewrite !go_step by assumption.
      pose proof (H 0) as H0. rewrite !Z.add_0_r in H0. rewrite H0.
      destruct (step_ok enc (pc32 pos2 i2) (firstn K l)) as (n & e & Es & Hn & He & Hbe).
      { rewrite firstn_length. lia. }
      { apply bytes_ok_firstn. assumption. }
      rewrite Es. cbn [obind].
      rewrite (IH (skipn n l) pos1 (i1 + Z.of_nat n) pos2 (i2 + Z.of_nat n)); [reflexivity| | |].
      * rewrite skipn_length. lia.
      * apply bytes_ok_skipn. assumption.
      * intros j. rewrite <- !Z.add_assoc. apply H.
Qed.

Lemma win_app enc : forall m A B pos i oA rA, (length A <= m)%nat -> bytes_ok A = true ->
  go enc pos i A = Ok (oA, rA) ->
  go enc pos i (A ++ B) =
  (do r <- go enc pos (i + zlen oA) (rA ++ B); let '(oB, rB) := r in Ok (oA ++ oB, rB)).
Proof.
  induction m as [|m IH]; intros A B pos i oA rA Hm Hb HA.
  - rewrite go_short in HA by lia. injection HA as <- <-.
    rewrite zlen_nil, Z.add_0_r. destruct (go enc pos i (A ++ B)) as [[o r]| | |]; reflexivity.
  - destruct (Nat.lt_ge_cases (length A) K) as [Hs|Hs].
    + rewrite go_short in HA by assumption. injection HA as <- <-.
      rewrite zlen_nil, Z.add_0_r. destruct (go enc pos i (A ++ B)) as [[o r]| | |]; reflexivity.
    + rewrite go_step in HA by assumption.
      rewrite go_step by (rewrite app_length; lia).
      rewrite firstn_app. replace (K - length A)%nat with 0%nat by lia. cbn [firstn]. rewrite app_nil_r.
      destruct (step_ok enc (pc32 pos i) (firstn K A)) as (n & e & Es & Hn & He & Hbe).
      { rewrite firstn_length. lia. }
      { apply bytes_ok_firstn. assumption. }
      rewrite Es in HA |- *. cbn [obind] in HA |- *.
      destruct (go enc pos (i + Z.of_nat n) (skipn n A)) as [[o' r']| | |] eqn:Eg; try discriminate.
      cbn [obind] in HA. injection HA as <- <-.
      rewrite skipn_app. replace (n - length A)%nat with 0%nat by lia. cbn [skipn].
      rewrite (IH (skipn n A) B pos (i + Z.of_nat n) o' r'); [| |apply bytes_ok_skipn; assumption|exact Eg].
      2:{ rewrite skipn_length. lia. }
      replace (i + Z.of_nat n + zlen o') with (i + zlen (e ++ o')) by (rewrite zlen_app; unfold zlen; lia).
      destruct (go enc pos (i + zlen (e ++ o')) (r' ++ B)) as [[oB rB]| | |]; cbn [obind]; try reflexivity.
      rewrite app_assoc. reflexivity.
Qed.

(* the facts for a filter whose `code` is [out_code] of such a loop *)
Variable a : arch.
Hypothesis Hcode : forall enc st buf, bcj_code a enc st buf = out_code (go enc) st buf.

Lemma win_code_facts enc : code_facts a enc.
Proof.
  split; [|split].
  - intros st buf Hb. rewrite Hcode. unfold out_code.
    destruct (win_total enc (length buf) buf (f_pos st) 0 (le_n _) Hb) as (o & r & Eg & Hr & Hl & Hrk & Hbo).
    rewrite Eg. cbn [obind]. eexists _, o, r. split; [reflexivity|].
    split; [exact Hr|]. split; [exact Hl|]. split; [lia|exact Hbo].
  - intros st1 st2 buf s1' o r [Hp Hm] Hb. rewrite !Hcode. unfold out_code. rewrite <- Hp.
    destruct (go enc (f_pos st1) 0 buf) as [[o' r']| | |]; cbn [obind]; try discriminate.
    intros E. injection E as <- <- <-.
    eexists. split; [reflexivity|]. unfold feq. cbn [f_pos f_mask]. split; [reflexivity|exact Hm].
  - intros st A B st1 oA rA st2 oB rB HbA HbB. rewrite !Hcode. unfold out_code.
    destruct (go enc (f_pos st) 0 A) as [[oA' rA']| | |] eqn:EA; cbn [obind]; try discriminate.
    intros E. injection E as <- <- <-. cbn [f_pos f_mask].
    destruct (go enc (u64 (f_pos st + zlen oA')) 0 (rA' ++ B)) as [[oB' rB']| | |] eqn:EB; cbn [obind]; try discriminate.
    intros E. injection E as <- <- <-.
    rewrite (win_app enc (length A) A B (f_pos st) 0 oA' rA' (le_n _) HbA EA).
    destruct (win_total enc (length A) A (f_pos st) 0 (le_n _) HbA) as (o & r & Eg & Hr & _).
    rewrite EA in Eg. injection Eg as <- <-.
    assert (HbR : bytes_ok (rA' ++ B) = true).
    { apply bytes_ok_app. split; [rewrite <- Hr; apply bytes_ok_skipn; assumption|assumption]. }
    assert (Eext : go enc (f_pos st) (0 + zlen oA') (rA' ++ B) = go enc (u64 (f_pos st + zlen oA')) 0 (rA' ++ B)).
    { apply (win_ext enc (length (rA' ++ B))); [lia|exact HbR|].
      intros j. rewrite pc32_shift. f_equal; lia. }
    rewrite Eext, EB. cbn [obind].
    eexists. split; [reflexivity|]. unfold feq. cbn [f_pos f_mask]. split; [|reflexivity].
    rewrite zlen_app. unfold u64. rewrite Zplus_mod_idemp_l. f_equal. lia.
Qed.

(* The inverse.  At a position that is a multiple of [al], the decoder's step undoes the
   encoder's even though the bytes behind the n it stepped over have meanwhile been worked on by
   the rest of the encoder's loop: what a step looks at there, later steps keep. *)
Variable al : Z.
Hypothesis step_inv : forall pos i l n e o r, (pos + i) mod al = 0 -> (K <= length l)%nat -> bytes_ok l = true ->
  step true (pc32 pos i) (firstn K l) = Ok (n, e) -> go true pos (i + Z.of_nat n) (skipn n l) = Ok (o, r) ->
  Z.of_nat n mod al = 0 /\ step false (pc32 pos i) (firstn K (e ++ o ++ r)) = Ok (n, firstn n l).

Lemma win_inverse : forall m l pos i o r, (length l <= m)%nat -> bytes_ok l = true -> (pos + i) mod al = 0 ->
  go true pos i l = Ok (o, r) -> go false pos i (o ++ r) = Ok (firstn (length o) l, r).
Proof.
  induction m as [|m IH]; intros l pos i o r Hm Hb Hal Hgo.
  - rewrite go_short in Hgo by lia. injection Hgo as <- <-. apply go_short. lia.
  - destruct (Nat.lt_ge_cases (length l) K) as [Hs|Hs].
    { rewrite go_short in Hgo by assumption. injection Hgo as <- <-. apply go_short. assumption. }
    rewrite go_step in Hgo by assumption.
    destruct (step_ok true (pc32 pos i) (firstn K l)) as (n & e & Es & Hn & He & Hbe).
    { rewrite firstn_length. lia. }
    { apply bytes_ok_firstn. assumption. }
    rewrite Es in Hgo. cbn [obind] in Hgo.
    assert (Hbs : bytes_ok (skipn n l) = true) by (apply bytes_ok_skipn; assumption).
    destruct (win_total true (length (skipn n l)) (skipn n l) pos (i + Z.of_nat n) (le_n _) Hbs)
      as (o' & r' & Eg & _ & Hl & _).
    rewrite Eg in Hgo. cbn [obind] in Hgo. injection Hgo as <- <-.
    destruct (step_inv pos i l n e o' r' Hal Hs Hb Es Eg) as [Hnal Ed].
    rewrite skipn_length in Hl.
    rewrite <- app_assoc, go_step by (rewrite !app_length; lia).
    rewrite Ed. cbn [obind].
    rewrite skipn_app, skipn_all2, He, Nat.sub_diag by lia. cbn [skipn app].
    rewrite (IH (skipn n l) pos (i + Z.of_nat n) o' r'); [| |assumption| |exact Eg].
    + cbn [obind]. rewrite app_length, He, firstn_add. reflexivity.
    + rewrite skipn_length. lia.
    + rewrite Z.add_assoc, <- Zplus_mod_idemp_r, Hnal, Z.add_0_r. exact Hal.
Qed.

Lemma win_code_inverse st buf : f_pos st mod al = 0 -> bytes_ok buf = true ->
  exists st' out rest,
    bcj_code a true st buf = Ok (st', out, rest) /\
    bcj_code a false st (out ++ rest) = Ok (st', firstn (length out) buf, rest) /\
    firstn (length out) buf ++ rest = buf /\ bytes_ok out = true.
Proof.
  intros Hal Hb.
  destruct (win_total true (length buf) buf (f_pos st) 0 (le_n _) Hb) as (o & r & E1 & Hr & Hl & _ & Hbo).
  pose proof (win_inverse (length buf) buf (f_pos st) 0 o r (le_n _) Hb ltac:(rewrite Z.add_0_r; exact Hal) E1) as E2.
  exists (mkF (u64 (f_pos st + zlen o)) (f_mask st)), o, r.
  rewrite !Hcode. unfold out_code. rewrite E1, E2. cbn [obind]. split; [reflexivity|].
  rewrite zlen_firstn by lia. split; [reflexivity|]. split; [rewrite <- Hr; apply firstn_skipn|exact Hbo].
Qed.

End Win.
