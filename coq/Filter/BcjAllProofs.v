(* Filter/BcjAllProofs.v — the generic theorems of BcjStreamProofs.v for all eight architectures:
   code_facts_all, the reader under every chunking, read history and transient failure
   (bcj_reader_any_sizes, bcj_reader_retry), the writer outside the known finding
   (bcj_writer_partition_known); the inverse at the level of `code` from an aligned position
   (code_inverse_all) and the round trip BCJWriter -> BCJReader (bcj_roundtrip_all). *)
From LzVerif Require Import Base.Bytes Filter.Bcj Filter.BcjStream Filter.BcjArithProofs
  Filter.BcjStreamProofs Filter.BcjInstProofs Filter.BcjIa64Proofs Filter.BcjX86Proofs
  Filter.BcjX86InvProofs Filter.BcjRiscvInvProofs.

Theorem code_facts_all a enc : code_facts a enc.
Proof.
  destruct a.
  - apply code_facts_x86.
  - apply code_facts_arm.
  - apply code_facts_armthumb.
  - apply code_facts_arm64.
  - apply code_facts_ppc.
  - apply code_facts_sparc.
  - apply code_facts_ia64.
  - apply code_facts_riscv.
Qed.

(* a freshly constructed filter given no data does nothing *)
Lemma init_nil a enc start : bcj_code a enc (bcj_init a start) [] = Ok (bcj_init a start, [], []).
Proof.
  assert (E : u64 (f_pos (bcj_init a start) + 0) = f_pos (bcj_init a start)).
  { unfold bcj_init. cbn [f_pos]. rewrite Z.add_0_r. unfold u64. apply Z.mod_mod. lia. }
  destruct a; cbn [bcj_code]; unfold pure_code, out_code, x86_code; cbn [go4 thumb_go ia64_go riscv_go zlen length Z.of_nat Z.ltb Z.compare obind];
    try reflexivity; rewrite E; reflexivity.
Qed.

(* C07, BCJReader: every inner chunking, every history of destination sizes (zeros included) *)
Theorem bcj_reader_any_sizes : forall a start parts sizes,
  bytes_ok (concat parts) = true -> Forall (fun n => 0 <= n) sizes ->
  exists F rs' inner',
    bcj_stream a false start (concat parts) = Ok F /\
    bcj_read_calls (bcj_read_fuel (data_script parts)) a (bcj_reader_new a start) (data_script parts) sizes =
      Ok (firstn (Z.to_nat (fold_right Z.add 0 sizes)) F, [], rs', inner').
Proof.
  intros a start parts sizes Hb Hs.
  destruct (code_facts_all a false) as (Htot & Hresp & Hchunk).
  destruct (Htot (bcj_init a start) (concat parts) Hb) as (stS & oS & rS & HS & _).
  destruct (reader_any_sizes a (conj Htot (conj Hresp Hchunk)) (bcj_init a start) (init_nil a false start)
              parts sizes stS oS rS Hb Hs HS) as (rs' & inner' & E).
  exists (oS ++ rS), rs', inner'. split; [|exact E].
  unfold bcj_stream. rewrite HS. reflexivity.
Qed.

(* a zero-length read changes nothing *)
Theorem bcj_reader_zero_read : forall fuel a st inner, bcj_read fuel a st inner 0 = Ok ([], None, st, inner).
Proof. reflexivity. Qed.

(* BCJReader over an inner reader that fails now and then, read by a loop that repeats a call
   failing with Interrupted *)
Theorem bcj_reader_retry : forall a start inner sizes,
  script_ok inner -> bytes_ok (script_data inner) = true -> Forall (fun s => 0 < s) sizes ->
  exists F out e,
    bcj_stream a false start (script_data inner) = Ok F /\
    bcj_dec_script a start inner sizes = Ok (out, e) /\
    (exists Y, F = out ++ Y) /\
    (e = None -> out = F) /\
    (forall c, e = Some c -> c <> E_INTERRUPTED /\ In c (script_errs inner)) /\
    (Forall (fun c => c = E_INTERRUPTED) (script_errs inner) -> e = None /\ out = F).
Proof.
  intros a start inner sizes Hok Hb Hs.
  destruct (code_facts_all a false) as (Htot & Hresp & Hchunk).
  destruct (Htot (bcj_init a start) (script_data inner) Hb) as (stS & oS & rS & HS & _).
  destruct (reader_drive a (conj Htot (conj Hresp Hchunk)) (bcj_init a start) (init_nil a false start)
              inner sizes stS oS rS Hok Hb Hs HS) as (out & e & E & H1 & H2 & H3 & H4).
  exists (oS ++ rS), out, e. split; [unfold bcj_stream; rewrite HS; reflexivity|].
  split; [exact E|]. auto.
Qed.

(* C07, BCJWriter, outside the known finding: if no write call leaves an unconverted tail while
   more data follows, the bytes that reach the sink are the stream-level result *)
Theorem bcj_writer_partition_known : forall a start parts,
  bytes_ok (concat parts) = true -> no_midstream_tail a (bcj_init a start) parts ->
  exists F, bcj_stream a true start (concat parts) = Ok F /\ bcj_enc_parts a start parts = Ok F.
Proof.
  intros a start parts Hb Hn.
  destruct (code_facts_all a true) as (Htot & _ & Hchunk).
  destruct (writer_partition_known a Htot Hchunk parts (bcj_init a start) Hb Hn) as (f1 & f2 & o & r & Ew & Ec).
  exists (o ++ r). unfold bcj_stream, bcj_enc_parts. rewrite Ec, Ew. split; reflexivity.
Qed.

(* The inverse at the level of `code`, all eight architectures, from any filter state whose
   position is a multiple of the architecture's alignment. *)
Theorem code_inverse_all a st : f_pos st mod bcj_align a = 0 -> code_inverse a st.
Proof.
  destruct a; cbn [bcj_align].
  - intros _. apply code_inverse_x86.
  - apply code_inverse_arm.
  - apply code_inverse_armthumb.
  - apply code_inverse_arm64.
  - apply code_inverse_ppc.
  - apply code_inverse_sparc.
  - apply code_inverse_ia64.
  - apply code_inverse_riscv.
Qed.

Lemma init_aligned a start : start mod bcj_align a = 0 -> f_pos (bcj_init a start) mod bcj_align a = 0.
Proof.
  destruct a; unfold bcj_init, bcj_start_add, bcj_align, f_pos, u64; intros H; Z.div_mod_to_equations; lia.
Qed.

(* the filter as constructed by BCJWriter::new_* / BCJReader::new_* with an aligned start offset *)
Theorem bcj_inverse_all : forall a start buf, start mod bcj_align a = 0 -> bytes_ok buf = true ->
  exists st' out rest,
    bcj_code a true (bcj_init a start) buf = Ok (st', out, rest) /\
    bcj_code a false (bcj_init a start) (out ++ rest) = Ok (st', firstn (length out) buf, rest) /\
    firstn (length out) buf ++ rest = buf /\ bytes_ok out = true.
Proof. intros a start buf H. apply code_inverse_all, init_aligned, H. Qed.

(* From there to the round trip BCJWriter (one write) -> BCJReader (any chunking of the filtered
   stream, any history of reads). *)
Lemma stream_inverse a start data : start mod bcj_align a = 0 -> bytes_ok data = true ->
  exists enc, bcj_stream a true start data = Ok enc /\ bcj_stream a false start enc = Ok data /\
              bytes_ok enc = true /\ length enc = length data.
Proof.
  intros Hal Hb.
  destruct (bcj_inverse_all a start data Hal Hb) as (st' & out & rest & E1 & E2 & E3 & Hbo).
  exists (out ++ rest). unfold bcj_stream. rewrite E1, E2. cbn [obind]. split; [reflexivity|]. split; [rewrite E3; reflexivity|].
  assert (Hbr : bytes_ok rest = true).
  { rewrite <- E3 in Hb. apply bytes_ok_app in Hb. tauto. }
  split; [apply bytes_ok_app; auto|].
  assert (Hlo : (length out <= length data)%nat).
  { destruct (code_facts_all a true) as (Htot & _).
    destruct (Htot (bcj_init a start) data Hb) as (s & o & r & E & _ & Hl & _).
    rewrite E1 in E. injection E as <- <- <-. lia. }
  transitivity (length (firstn (length out) data ++ rest)); [|rewrite E3; reflexivity].
  rewrite !app_length, firstn_length. lia.
Qed.

Theorem bcj_roundtrip_all : forall a start data, start mod bcj_align a = 0 -> bytes_ok data = true ->
  exists enc,
    bcj_enc_parts a start [data] = Ok enc /\ length enc = length data /\
    forall parts sizes, concat parts = enc -> Forall (fun n => 0 <= n) sizes ->
      Z.of_nat (length data) <= fold_right Z.add 0 sizes ->
      exists rs' inner',
        bcj_read_calls (bcj_read_fuel (data_script parts)) a (bcj_reader_new a start) (data_script parts) sizes =
          Ok (data, [], rs', inner').
Proof.
  intros a start data Hal Hb.
  destruct (stream_inverse a start data Hal Hb) as (enc & Ee & Ed & Hbe & Hl).
  exists enc. split.
  { unfold bcj_enc_parts, bcj_stream in *. cbn [bcj_write_calls]. unfold bcj_write.
    destruct (bcj_code a true (bcj_init a start) data) as [[[f' o] r]| | |]; cbn [obind] in *; try discriminate.
    rewrite app_nil_r. exact Ee. }
  split; [exact Hl|].
  intros parts sizes Hc Hs Hsum.
  destruct (bcj_reader_any_sizes a start parts sizes ltac:(rewrite Hc; exact Hbe) Hs) as (F & rs' & inner' & EF & Er).
  rewrite Hc, Ed in EF. injection EF as <-.
  exists rs', inner'. rewrite Er. rewrite firstn_all2 by lia. reflexivity.
Qed.
