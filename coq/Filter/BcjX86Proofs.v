(* Filter/BcjX86Proofs.v — the x86 filter: the conversion loop terminates within two rounds, one
   step of the outer loop in closed form (no failure is reachable), the loop without failures,
   equivalence of loop states that no later step can tell apart (in particular the state saved at
   the end of a call vs. the state inside the loop), and with these the stream facts. *)
From LzVerif Require Import Base.Bytes Filter.Bcj Filter.BcjStream Filter.BcjArithProofs
  Filter.BcjStreamProofs.

(* flipping the low k bits *)
Lemma lxor_ones_mod x k : 0 <= k -> Z.lxor x (Z.ones k) mod 2 ^ k = 2 ^ k - 1 - x mod 2 ^ k.
Proof.
  intros Hk.
  assert (E : Z.lxor x (Z.ones k) mod 2 ^ k = Z.lnot x mod 2 ^ k).
  { apply Z.bits_inj'; intros n Hn.
    destruct (Z.lt_ge_cases n k) as [Hlt|Hge].
    - rewrite !Z.mod_pow2_bits_low by lia. rewrite Z.lxor_spec, Z.ones_spec_low, Z.lnot_spec by lia.
      rewrite xorb_true_r. reflexivity.
    - rewrite !Z.mod_pow2_bits_high by lia. reflexivity. }
  rewrite E. unfold Z.lnot. assert (0 < 2 ^ k) by (apply Z.pow_pos_nonneg; lia). 
  pose proof (Z.div_mod x (2^k) ltac:(lia)). pose proof (Z.mod_pos_bound x (2^k) ltac:(lia)).
  replace (Z.pred (- x)) with ((2 ^ k - 1 - x mod 2 ^ k) + (- (x / 2 ^ k) - 1) * 2 ^ k) by lia.
  rewrite Z.mod_add by lia. apply Z.mod_small. lia.
Qed.

Lemma lxor_ones_high x k : 0 <= k -> Z.lxor x (Z.ones k) / 2 ^ k = x / 2 ^ k.
Proof.
  intros Hk. apply Z.bits_inj'; intros n Hn.
  rewrite !Z.div_pow2_bits by lia. rewrite Z.lxor_spec, Z.ones_spec_high by lia. apply xorb_false_r.
Qed.

Lemma lxor_ones_eq x k : 0 <= k -> Z.lxor x (Z.ones k) = x + 2 ^ k - 1 - 2 * (x mod 2 ^ k).
Proof.
  intros Hk. assert (0 < 2 ^ k) by (apply Z.pow_pos_nonneg; lia).
  pose proof (lxor_ones_mod x k Hk). pose proof (lxor_ones_high x k Hk).
  pose proof (Z.div_mod (Z.lxor x (Z.ones k)) (2 ^ k) ltac:(lia)).
  pose proof (Z.div_mod x (2 ^ k) ltac:(lia)). lia.
Qed.

(* the byte of a 32-bit value just below bit k (k = 8, 16, 24) *)
Definition tb (k x : Z) : Z := (x / 2 ^ (k - 8)) mod 256.
Definition is_zf (b : Z) : bool := (b =? 0) || (b =? 255).

Lemma test_86_zf b : test_86_ms_byte b = is_zf b.
Proof. reflexivity. Qed.

(* the value the conversion loop computes, for the field width k = 32 - 8 * bit number *)
Definition x86_conv_val (enc : bool) (p k src : Z) : Z :=
  let d1 := addsub enc src p in
  if is_zf (tb k d1) then addsub enc (s32 (d1 + 2 ^ k - 1 - 2 * (d1 mod 2 ^ k))) p else d1.

Definition mask_k (m : Z) : Z := if m =? 1 then 24 else if m =? 2 then 16 else 8.

Lemma x86_conv_zero fuel enc p src : x86_conv (S fuel) enc p 0 src = Ok (addsub enc src p).
Proof. reflexivity. Qed.

Lemma conv_case enc p src k sh (X : Z -> outcome Z) :
  (k = 24 /\ sh = 16) \/ (k = 16 /\ sh = 8) \/ (k = 8 /\ sh = 0) ->
  is_zf (tb k src) = false ->
  (let dest := addsub enc src p in
   if negb (test_86_ms_byte (u8 (Z.land (Z.shiftr dest sh) 255))) then Ok dest
   else
     let dest2 := addsub enc (s32 (Z.lxor dest (Z.ones k))) p in
     if negb (test_86_ms_byte (u8 (Z.land (Z.shiftr dest2 sh) 255))) then Ok dest2
     else X dest2) = Ok (x86_conv_val enc p k src) /\
  is_zf (tb k (x86_conv_val enc p k src)) = false.
Proof.
  intros Hk Hs. cbv zeta.
  assert (Etb : forall d, u8 (Z.land (Z.shiftr d sh) 255) = tb k d).
  { intros d. unfold tb, u8. destruct Hk as [[-> ->]|[[-> ->]|[-> ->]]].
    - change (24 - 8) with 16. shift_lits. land_lits. (Z.div_mod_to_equations; lia).
    - change (16 - 8) with 8. shift_lits. land_lits. (Z.div_mod_to_equations; lia).
    - change (8 - 8) with 0. rewrite Z.shiftr_0_r. land_lits. change (2 ^ 0) with 1. rewrite Z.div_1_r. (Z.div_mod_to_equations; lia). }
  rewrite !Etb, !test_86_zf.
  assert (Hk0 : 0 <= k) by (destruct Hk as [[-> _]|[[-> _]|[-> _]]]; lia).
  rewrite lxor_ones_eq by assumption.
  unfold x86_conv_val. cbv zeta.
  set (d1 := addsub enc src p).
  destruct (is_zf (tb k d1)) eqn:E1; cbn [negb]; [|split; [reflexivity|exact E1]].
  set (d2 := addsub enc (s32 (d1 + 2 ^ k - 1 - 2 * (d1 mod 2 ^ k))) p).
  assert (Ht : tb k d2 = 255 - tb k src).
  { unfold d2, d1, tb, addsub, s32.
    destruct Hk as [[-> _]|[[-> _]|[-> _]]]; destruct enc.
    all: try change (24 - 8) with 16; try change (16 - 8) with 8; try change (8 - 8) with 0.
    all: try change (2 ^ 24) with 16777216; try change (2 ^ 16) with 65536; try change (2 ^ 8) with 256; try change (2 ^ 0) with 1.
    all: (Z.div_mod_to_equations; lia). }
  assert (Hz : is_zf (tb k d2) = false).
  { rewrite Ht. unfold is_zf in *. apply orb_false_iff in Hs. destruct Hs as [Ha Hb].
    apply Z.eqb_neq in Ha, Hb. apply orb_false_iff. split; apply Z.eqb_neq; lia. }
  change (test_86_ms_byte (tb k d2)) with (is_zf (tb k d2)). rewrite Hz. cbn [negb]. split; reflexivity.
Qed.

Lemma x86_conv_ok enc p m src :
  (m = 1 \/ m = 2 \/ m = 4) -> is_zf (tb (mask_k m) src) = false ->
  x86_conv 3 enc p m src = Ok (x86_conv_val enc p (mask_k m) src) /\
  is_zf (tb (mask_k m) (x86_conv_val enc p (mask_k m) src)) = false.
Proof.
  intros Hm Hsrc. unfold mask_k in *.
  destruct Hm as [-> | [-> | ->]]; cbn [Z.eqb Pos.eqb] in *.
  - exact (conv_case enc p src 24 16 (fun d2 => x86_conv 1 enc p 1 (s32 (Z.lxor d2 (Z.ones 24)))) ltac:(auto) Hsrc).
  - exact (conv_case enc p src 16 8 (fun d2 => x86_conv 1 enc p 2 (s32 (Z.lxor d2 (Z.ones 16)))) ltac:(auto) Hsrc).
  - exact (conv_case enc p src 8 0 (fun d2 => x86_conv 1 enc p 4 (s32 (Z.lxor d2 (Z.ones 8)))) ltac:(auto) Hsrc).
Qed.

(* one step of the outer loop, in closed form *)
Definition is_op (b : Z) : bool := (b =? 233) || (b =? 232).
Definition x86_eff (d pm : Z) : Z := if 3 <? d then 0 else (pm * 2 ^ (d - 1)) mod 8.
Definition x86_blocked (m b1 b2 b3 : Z) : bool :=
  if m =? 0 then false else if m =? 1 then is_zf b3 else if m =? 2 then is_zf b2
  else if m =? 4 then is_zf b1 else true.
Definition x86_src (b1 b2 b3 b4 : Z) : Z := s32 (w4 b1 b2 b3 b4).
Definition x86_dest (enc : bool) (p m src : Z) : Z :=
  if m =? 0 then addsub enc src p else x86_conv_val enc p (mask_k m) src.
Definition x86_out (pp m dest : Z) : x86_act :=
  XConv pp m (dest mod 256) ((dest / 256) mod 256) ((dest / 65536) mod 256)
        (255 * ((dest / 16777216) mod 2)).

Definition x86_step_spec (enc : bool) (pos i pp pm b0 b1 b2 b3 b4 : Z) : x86_act :=
  if is_op b0 then
    let m := x86_eff (i - pp) pm in
    if x86_blocked m b1 b2 b3 then XSkip i (2 * m + 1)
    else if is_zf b4 then x86_out i m (x86_dest enc (pc32 pos i) m (x86_src b1 b2 b3 b4))
    else XSkip i (2 * m + 1)
  else XSkip pp pm.

Lemma land_lnot3 d : 0 <= d -> (Z.land d (Z.lnot 3) =? 0) = (d <=? 3).
Proof.
  intros Hd. rewrite <- Z.ldiff_land. change 3 with (Z.ones 2) at 1.
  rewrite Z.ldiff_ones_r by lia. rewrite Z.shiftl_mul_pow2, Z.shiftr_div_pow2 by lia.
  change (2 ^ 2) with 4. apply eq_true_iff_eq. rewrite Z.eqb_eq, Z.leb_le. (Z.div_mod_to_equations; lia).
Qed.

Lemma x86_src_eq b1 b2 b3 b4 : byte b1 -> byte b2 -> byte b3 -> byte b4 ->
  Z.lor (Z.lor (Z.lor b1 (Z.shiftl b2 8)) (Z.shiftl b3 16)) (s32 (Z.shiftl b4 24)) = x86_src b1 b2 b3 b4.
Proof.
  unfold byte, x86_src, w4. intros H1 H2 H3 H4. shift_lits.
  lor_plus 8. lor_plus 16.
  rewrite (lor_add_mod' (s32 (b4 * 16777216)) (b3 * 65536 + (b2 * 256 + b1)) 24) by (change (2 ^ 24) with 16777216; unfold s32; (Z.div_mod_to_equations; lia)).
  unfold s32. (Z.div_mod_to_equations; lia).
Qed.

Lemma x86_out_eq pp m dest :
  XConv pp m (u8 dest) (u8 (Z.shiftr dest 8)) (u8 (Z.shiftr dest 16))
        (u8 (Z.lnot (Z.land (Z.shiftr dest 24) 1 - 1))) = x86_out pp m dest.
Proof.
  unfold x86_out, u8. shift_lits. land_lits. unfold Z.lnot.
  f_equal; (Z.div_mod_to_equations; lia).
Qed.

Ltac zth_eval :=
  repeat match goal with
  | |- context [zth ?T ?k] =>
      let v := eval vm_compute in (zth T k) in progress change (zth T k) with v
  end.

Lemma x86_step_ok enc pos i pp pm b0 b1 b2 b3 b4 :
  byte b0 -> byte b1 -> byte b2 -> byte b3 -> byte b4 -> 1 <= i - pp ->
  x86_step enc pos i pp pm b0 b1 b2 b3 b4 = Ok (x86_step_spec enc pos i pp pm b0 b1 b2 b3 b4).
Proof.
  intros H0 H1 H2 H3 H4 Hd. unfold x86_step, x86_step_spec. fold (is_op b0).
  destruct (is_op b0); [|reflexivity]. cbn [negb].
  rewrite land_lnot3 by lia. rewrite x86_src_eq by assumption.
  change test_86_ms_byte with is_zf.
  set (d := i - pp) in *. set (src := x86_src b1 b2 b3 b4). set (p := pc32 pos i).
  unfold x86_eff.
  destruct (Z.leb_spec d 3) as [Hle|Hgt]; cbn [negb].
  - destruct (Z.ltb_spec 3 d) as [?|_]; [lia|].
    unfold shl_u32.
    destruct (Z.ltb_spec (d - 1) 0) as [?|_]; [lia|]. destruct (Z.ltb_spec 31 (d - 1)) as [?|_]; [lia|].
    cbn [orb obind].
    assert (Em : Z.land (u32 (Z.shiftl pm (d - 1))) 7 = (pm * 2 ^ (d - 1)) mod 8).
    { rewrite Z.shiftl_mul_pow2 by lia. unfold u32. land_lits.
      assert (Hd3 : d = 1 \/ d = 2 \/ d = 3) by lia.
      destruct Hd3 as [-> | [-> | ->]]; cbn [Z.sub Z.add Z.opp Z.pos_sub Pos.pred_double Z.pow Z.pow_pos Pos.iter Z.mul Pos.mul]; (Z.div_mod_to_equations; lia). }
    rewrite Em. set (m := (pm * 2 ^ (d - 1)) mod 8).
    assert (Hm : m = 0 \/ m = 1 \/ m = 2 \/ m = 3 \/ m = 4 \/ m = 5 \/ m = 6 \/ m = 7) by (unfold m; (Z.div_mod_to_equations; lia)).
    unfold x86_blocked, x86_dest.
    destruct Hm as [-> | [-> | [-> | [-> | [-> | [-> | [-> | ->]]]]]]];
      cbn [Z.eqb Pos.eqb]; zth_eval; cbn [negb obind]; zth_eval; cbn [negb obind];
      try reflexivity.
    + (* m = 0 *)
      destruct (is_zf b4) eqn:E4; [|reflexivity].
      rewrite x86_conv_zero. cbn [obind]. rewrite x86_out_eq. reflexivity.
    + (* m = 1 : the byte looked at is b3 *)
      destruct (is_zf b3) eqn:E3; [reflexivity|].
      destruct (is_zf b4) eqn:E4; [|reflexivity].
      destruct (x86_conv_ok enc p 1 src ltac:(auto)) as [Ec _].
      { unfold mask_k. cbn [Z.eqb Pos.eqb]. replace (tb 24 src) with b3; [exact E3|].
        unfold tb, src, x86_src, w4, s32, byte in *. change (2 ^ (24 - 8)) with 65536. (Z.div_mod_to_equations; lia). }
      rewrite Ec. cbn [obind]. rewrite x86_out_eq. reflexivity.
    + (* m = 2 : b2 *)
      destruct (is_zf b2) eqn:E3; [reflexivity|].
      destruct (is_zf b4) eqn:E4; [|reflexivity].
      destruct (x86_conv_ok enc p 2 src ltac:(auto)) as [Ec _].
      { unfold mask_k. cbn [Z.eqb Pos.eqb]. replace (tb 16 src) with b2; [exact E3|].
        unfold tb, src, x86_src, w4, s32, byte in *. change (2 ^ (16 - 8)) with 256. (Z.div_mod_to_equations; lia). }
      rewrite Ec. cbn [obind]. rewrite x86_out_eq. reflexivity.
    + (* m = 4 : b1 *)
      destruct (is_zf b1) eqn:E3; [reflexivity|].
      destruct (is_zf b4) eqn:E4; [|reflexivity].
      destruct (x86_conv_ok enc p 4 src ltac:(auto)) as [Ec _].
      { unfold mask_k. cbn [Z.eqb Pos.eqb]. replace (tb 8 src) with b1; [exact E3|].
        unfold tb, src, x86_src, w4, s32, byte in *. change (2 ^ (8 - 8)) with 1. (Z.div_mod_to_equations; lia). }
      rewrite Ec. cbn [obind]. rewrite x86_out_eq. reflexivity.
  - destruct (Z.ltb_spec 3 d) as [_|?]; [|lia].
    cbn [obind Z.eqb]. unfold x86_blocked, x86_dest. cbn [Z.eqb].
    destruct (is_zf b4) eqn:E4; [|reflexivity].
    rewrite x86_conv_zero. cbn [obind]. rewrite x86_out_eq. reflexivity.
Qed.

(* the loop with the closed-form step: no failure possible *)
Fixpoint x86_gop (enc : bool) (pos i pp pm : Z) (l : list Z) : x86_res :=
  match l with
  | b0 :: l1 =>
      match l1 with
      | b1 :: b2 :: b3 :: b4 :: t =>
          match x86_step_spec enc pos i pp pm b0 b1 b2 b3 b4 with
          | XSkip pp' pm' => x86_push [b0] (x86_gop enc pos (i + 1) pp' pm' l1)
          | XConv pp' pm' c1 c2 c3 c4 => x86_push [b0; c1; c2; c3; c4] (x86_gop enc pos (i + 5) pp' pm' t)
          end
      | _ => (i, pp, pm, [], l)
      end
  | [] => (i, pp, pm, [], l)
  end.

Lemma x86_gop_short enc pos i pp pm l : (length l < 5)%nat -> x86_gop enc pos i pp pm l = (i, pp, pm, [], l).
Proof.
  intros H. destruct l as [|b0 [|b1 [|b2 [|b3 [|b4 t]]]]]; try reflexivity. cbn [length] in H. lia.
Qed.

Lemma x86_gop_step enc pos i pp pm b0 b1 b2 b3 b4 t :
  x86_gop enc pos i pp pm (b0 :: b1 :: b2 :: b3 :: b4 :: t) =
  match x86_step_spec enc pos i pp pm b0 b1 b2 b3 b4 with
  | XSkip pp' pm' => x86_push [b0] (x86_gop enc pos (i + 1) pp' pm' (b1 :: b2 :: b3 :: b4 :: t))
  | XConv pp' pm' c1 c2 c3 c4 => x86_push [b0; c1; c2; c3; c4] (x86_gop enc pos (i + 5) pp' pm' t)
  end.
Proof. reflexivity. Qed.

Lemma x86_go_short enc pos i pp pm l : (length l < 5)%nat -> x86_go enc pos i pp pm l = Ok (i, pp, pm, [], l).
Proof.
  intros H. destruct l as [|b0 [|b1 [|b2 [|b3 [|b4 t]]]]]; try reflexivity. cbn [length] in H. lia.
Qed.

Lemma x86_go_step enc pos i pp pm b0 b1 b2 b3 b4 t :
  x86_go enc pos i pp pm (b0 :: b1 :: b2 :: b3 :: b4 :: t) =
  (do act <- x86_step enc pos i pp pm b0 b1 b2 b3 b4;
   match act with
   | XSkip pp' pm' => do r <- x86_go enc pos (i + 1) pp' pm' (b1 :: b2 :: b3 :: b4 :: t); Ok (x86_push [b0] r)
   | XConv pp' pm' c1 c2 c3 c4 => do r <- x86_go enc pos (i + 5) pp' pm' t; Ok (x86_push [b0; c1; c2; c3; c4] r)
   end).
Proof. reflexivity. Qed.

(* where the step leaves prev_pos *)
Lemma x86_step_spec_pp enc pos i pp pm b0 b1 b2 b3 b4 : pp < i ->
  match x86_step_spec enc pos i pp pm b0 b1 b2 b3 b4 with
  | XSkip pp' _ => pp' < i + 1
  | XConv pp' _ _ _ _ _ => pp' < i + 5
  end.
Proof.
  intros H. unfold x86_step_spec, x86_out. destruct (is_op b0); [|lia].
  cbv zeta. destruct (x86_blocked _ _ _ _); [lia|]. destruct (is_zf b4); lia.
Qed.

Lemma x86_go_ok enc pos n : forall l i pp pm, (length l <= n)%nat -> bytes_ok l = true -> pp < i ->
  x86_go enc pos i pp pm l = Ok (x86_gop enc pos i pp pm l).
Proof.
  induction n as [|n IH]; intros l i pp pm Hn Hb Hpp.
  - destruct l; [reflexivity|cbn [length] in Hn; lia].
  - destruct (Nat.lt_ge_cases (length l) 5) as [Hs|Hs].
    + rewrite x86_go_short, x86_gop_short by assumption. reflexivity.
    + destruct l as [|b0 [|b1 [|b2 [|b3 [|b4 t]]]]]; try (cbn [length] in Hs; lia).
      rewrite x86_go_step, x86_gop_step.
      pose proof Hb as Hb'.
      apply bytes_ok_cons in Hb; destruct Hb as [H0 Hb1]. pose proof Hb1 as Hb.
      apply bytes_ok_cons in Hb; destruct Hb as [H1 Hb].
      apply bytes_ok_cons in Hb; destruct Hb as [H2 Hb].
      apply bytes_ok_cons in Hb; destruct Hb as [H3 Hb].
      apply bytes_ok_cons in Hb; destruct Hb as [H4 Hb].
      rewrite x86_step_ok by (assumption || lia). cbn [obind].
      pose proof (x86_step_spec_pp enc pos i pp pm b0 b1 b2 b3 b4 Hpp) as Hpp'.
      destruct (x86_step_spec enc pos i pp pm b0 b1 b2 b3 b4) as [pp' pm'|pp' pm' c1 c2 c3 c4].
      * rewrite IH by (assumption || (cbn [length] in *; lia)). reflexivity.
      * rewrite IH by (assumption || (cbn [length] in *; lia)). reflexivity.
Qed.

(* bytes written by a conversion *)
Lemma x86_step_spec_bytes enc pos i pp pm b0 b1 b2 b3 b4 :
  match x86_step_spec enc pos i pp pm b0 b1 b2 b3 b4 with
  | XSkip _ _ => True
  | XConv _ _ c1 c2 c3 c4 => byte c1 /\ byte c2 /\ byte c3 /\ byte c4
  end.
Proof.
  unfold x86_step_spec, x86_out. destruct (is_op b0); [|exact I].
  cbv zeta. destruct (x86_blocked _ _ _ _); [exact I|]. destruct (is_zf b4); [|exact I].
  unfold byte. repeat split; (Z.div_mod_to_equations; lia).
Qed.

(* shape of the result *)
Lemma x86_gop_shape enc pos n : forall l i pp pm, (length l <= n)%nat -> bytes_ok l = true -> pp < i ->
  let '(i', pp', pm', o, r) := x86_gop enc pos i pp pm l in
  i' = i + zlen o /\ pp' < i' /\ skipn (length o) l = r /\ (length o + length r = length l)%nat /\
  (length r < 5)%nat /\ bytes_ok o = true.
Proof.
  induction n as [|n IH]; intros l i pp pm Hn Hb Hpp.
  - destruct l; [|cbn [length] in Hn; lia]. cbn. repeat split; auto; lia.
  - destruct (Nat.lt_ge_cases (length l) 5) as [Hs|Hs].
    + rewrite x86_gop_short by assumption. rewrite zlen_nil. cbn [length skipn]. repeat split; auto; lia.
    + destruct l as [|b0 [|b1 [|b2 [|b3 [|b4 t]]]]]; try (cbn [length] in Hs; lia).
      rewrite x86_gop_step.
      apply bytes_ok_cons in Hb; destruct Hb as [H0 Hb1]. pose proof Hb1 as Hb.
      apply bytes_ok_cons in Hb; destruct Hb as [H1 Hb].
      apply bytes_ok_cons in Hb; destruct Hb as [H2 Hb].
      apply bytes_ok_cons in Hb; destruct Hb as [H3 Hb].
      apply bytes_ok_cons in Hb; destruct Hb as [H4 Hb].
      pose proof (x86_step_spec_pp enc pos i pp pm b0 b1 b2 b3 b4 Hpp) as Hpp'.
      pose proof (x86_step_spec_bytes enc pos i pp pm b0 b1 b2 b3 b4) as Hby.
      destruct (x86_step_spec enc pos i pp pm b0 b1 b2 b3 b4) as [pp' pm'|pp' pm' c1 c2 c3 c4].
      * specialize (IH (b1 :: b2 :: b3 :: b4 :: t) (i + 1) pp' pm' ltac:(cbn [length] in *; lia) Hb1 Hpp').
        destruct (x86_gop enc pos (i + 1) pp' pm' (b1 :: b2 :: b3 :: b4 :: t)) as [[[[i2 pp2] pm2] o2] r2].
        cbn [x86_push app]. destruct IH as (E1 & E2 & E3 & E4 & E5 & E6).
        rewrite zlen_cons. cbn [length skipn] in *. repeat split; try lia; try assumption.
        apply bytes_ok_cons. auto.
      * specialize (IH t (i + 5) pp' pm' ltac:(cbn [length] in *; lia) Hb Hpp').
        destruct (x86_gop enc pos (i + 5) pp' pm' t) as [[[[i2 pp2] pm2] o2] r2].
        cbn [x86_push app]. destruct IH as (E1 & E2 & E3 & E4 & E5 & E6).
        destruct Hby as (C1 & C2 & C3 & C4).
        rewrite !zlen_cons. cbn [length skipn] in *. repeat split; try lia; try assumption.
        repeat (apply bytes_ok_cons; split; [assumption|]). assumption.
Qed.

(* chunking of the loop *)
Lemma x86_gop_app enc pos n : forall A B i pp pm, (length A <= n)%nat ->
  x86_gop enc pos i pp pm (A ++ B) =
  let '(iA, ppA, pmA, oA, rA) := x86_gop enc pos i pp pm A in
  let '(i2, pp2, pm2, oB, rB) := x86_gop enc pos iA ppA pmA (rA ++ B) in
  (i2, pp2, pm2, oA ++ oB, rB).
Proof.
  induction n as [|n IH]; intros A B i pp pm Hn.
  - destruct A; [|cbn [length] in Hn; lia]. cbn [app x86_gop].
    destruct (x86_gop enc pos i pp pm B) as [[[[i2 pp2] pm2] o2] r2]. reflexivity.
  - destruct (Nat.lt_ge_cases (length A) 5) as [Hs|Hs].
    + rewrite (x86_gop_short enc pos i pp pm A) by assumption.
      destruct (x86_gop enc pos i pp pm (A ++ B)) as [[[[i2 pp2] pm2] o2] r2]. reflexivity.
    + destruct A as [|b0 [|b1 [|b2 [|b3 [|b4 t]]]]]; try (cbn [length] in Hs; lia).
      cbn [app]. rewrite !x86_gop_step.
      destruct (x86_step_spec enc pos i pp pm b0 b1 b2 b3 b4) as [pp' pm'|pp' pm' c1 c2 c3 c4].
      * change (b1 :: b2 :: b3 :: b4 :: t ++ B) with ((b1 :: b2 :: b3 :: b4 :: t) ++ B).
        rewrite IH by (cbn [length] in *; lia).
        destruct (x86_gop enc pos (i + 1) pp' pm' (b1 :: b2 :: b3 :: b4 :: t)) as [[[[iA ppA] pmA] oA] rA].
        cbn [x86_push].
        destruct (x86_gop enc pos iA ppA pmA (rA ++ B)) as [[[[i2 pp2] pm2] o2] r2]. reflexivity.
      * rewrite IH by (cbn [length] in *; lia).
        destruct (x86_gop enc pos (i + 5) pp' pm' t) as [[[[iA ppA] pmA] oA] rA].
        cbn [x86_push].
        destruct (x86_gop enc pos iA ppA pmA (rA ++ B)) as [[[[i2 pp2] pm2] o2] r2]. reflexivity.
Qed.

(* Two loop states that no later step can tell apart: positions relative to i (r = prev_pos - i)
   and masks that give the same effective mask at every later opcode position. *)
Definition xrel (r1 pm1 r2 pm2 : Z) : Prop :=
  r1 < 0 /\ r2 < 0 /\ forall x, 0 <= x -> x86_eff (x - r1) pm1 = x86_eff (x - r2) pm2.

Lemma xrel_refl r pm : r < 0 -> xrel r pm r pm.
Proof. intros H. repeat split; auto. Qed.

Lemma xrel_shift r1 pm1 r2 pm2 : xrel r1 pm1 r2 pm2 -> xrel (r1 - 1) pm1 (r2 - 1) pm2.
Proof.
  intros (H1 & H2 & H). split; [lia|]. split; [lia|]. intros x Hx.
  replace (x - (r1 - 1)) with (x + 1 - r1) by lia. replace (x - (r2 - 1)) with (x + 1 - r2) by lia.
  apply H. lia.
Qed.

Definition act_rel (i1 i2 : Z) (a1 a2 : x86_act) : Prop :=
  match a1, a2 with
  | XSkip pa ma, XSkip pb mb => xrel (pa - (i1 + 1)) ma (pb - (i2 + 1)) mb
  | XConv pa ma c1 c2 c3 c4, XConv pb mb d1 d2 d3 d4 =>
      c1 = d1 /\ c2 = d2 /\ c3 = d3 /\ c4 = d4 /\ xrel (pa - (i1 + 5)) ma (pb - (i2 + 5)) mb
  | _, _ => False
  end.

Lemma x86_step_rel enc pos1 i1 pp1 pm1 pos2 i2 pp2 pm2 b0 b1 b2 b3 b4 :
  xrel (pp1 - i1) pm1 (pp2 - i2) pm2 -> pc32 pos1 i1 = pc32 pos2 i2 ->
  act_rel i1 i2 (x86_step_spec enc pos1 i1 pp1 pm1 b0 b1 b2 b3 b4)
                (x86_step_spec enc pos2 i2 pp2 pm2 b0 b1 b2 b3 b4).
Proof.
  intros Hrel Hpc. unfold x86_step_spec. destruct (is_op b0).
  - destruct Hrel as (H1 & H2 & H).
    assert (Em : x86_eff (i1 - pp1) pm1 = x86_eff (i2 - pp2) pm2).
    { specialize (H 0 ltac:(lia)). replace (0 - (pp1 - i1)) with (i1 - pp1) in H by lia.
      replace (0 - (pp2 - i2)) with (i2 - pp2) in H by lia. exact H. }
    cbv zeta. rewrite Em, Hpc. set (m := x86_eff (i2 - pp2) pm2).
    destruct (x86_blocked m b1 b2 b3).
    + cbn [act_rel]. replace (i1 - (i1 + 1)) with (-1) by lia. replace (i2 - (i2 + 1)) with (-1) by lia.
      apply xrel_refl. lia.
    + destruct (is_zf b4).
      * unfold x86_out. cbn [act_rel]. do 4 (split; [reflexivity|]).
        replace (i1 - (i1 + 5)) with (-5) by lia. replace (i2 - (i2 + 5)) with (-5) by lia.
        apply xrel_refl. lia.
      * cbn [act_rel]. replace (i1 - (i1 + 1)) with (-1) by lia. replace (i2 - (i2 + 1)) with (-1) by lia.
        apply xrel_refl. lia.
  - cbn [act_rel]. replace (pp1 - (i1 + 1)) with (pp1 - i1 - 1) by lia.
    replace (pp2 - (i2 + 1)) with (pp2 - i2 - 1) by lia. apply xrel_shift. exact Hrel.
Qed.

Lemma x86_gop_rel enc n : forall l pos1 i1 pp1 pm1 pos2 i2 pp2 pm2, (length l <= n)%nat ->
  xrel (pp1 - i1) pm1 (pp2 - i2) pm2 -> (forall j, pc32 pos1 (i1 + j) = pc32 pos2 (i2 + j)) ->
  let '(i1', pp1', pm1', o1, r1) := x86_gop enc pos1 i1 pp1 pm1 l in
  let '(i2', pp2', pm2', o2, r2) := x86_gop enc pos2 i2 pp2 pm2 l in
  o1 = o2 /\ r1 = r2 /\ i1' - i1 = i2' - i2 /\ xrel (pp1' - i1') pm1' (pp2' - i2') pm2'.
Proof.
  induction n as [|n IH]; intros l pos1 i1 pp1 pm1 pos2 i2 pp2 pm2 Hn Hrel Hpc.
  - destruct l; [|cbn [length] in Hn; lia]. cbn [x86_gop].
    split; [reflexivity|split; [reflexivity|split; [lia|exact Hrel]]].
  - destruct (Nat.lt_ge_cases (length l) 5) as [Hs|Hs].
    + rewrite !x86_gop_short by assumption.
      split; [reflexivity|split; [reflexivity|split; [lia|exact Hrel]]].
    + destruct l as [|b0 [|b1 [|b2 [|b3 [|b4 t]]]]]; try (cbn [length] in Hs; lia).
      rewrite !x86_gop_step.
      pose proof (Hpc 0) as Hpc0. rewrite !Z.add_0_r in Hpc0.
      pose proof (x86_step_rel enc pos1 i1 pp1 pm1 pos2 i2 pp2 pm2 b0 b1 b2 b3 b4 Hrel Hpc0) as Hact.
      destruct (x86_step_spec enc pos1 i1 pp1 pm1 b0 b1 b2 b3 b4) as [pa ma|pa ma c1 c2 c3 c4];
        destruct (x86_step_spec enc pos2 i2 pp2 pm2 b0 b1 b2 b3 b4) as [pb mb|pb mb d1 d2 d3 d4];
        cbn [act_rel] in Hact; try contradiction.
      * specialize (IH (b1 :: b2 :: b3 :: b4 :: t) pos1 (i1 + 1) pa ma pos2 (i2 + 1) pb mb
                      ltac:(cbn [length] in *; lia) Hact).
        destruct (x86_gop enc pos1 (i1 + 1) pa ma (b1 :: b2 :: b3 :: b4 :: t)) as [[[[i1' pp1'] pm1'] o1] r1].
        destruct (x86_gop enc pos2 (i2 + 1) pb mb (b1 :: b2 :: b3 :: b4 :: t)) as [[[[i2' pp2'] pm2'] o2] r2].
        cbn [x86_push]. destruct IH as (E1 & E2 & E3 & E4).
        { intros j. replace (i1 + 1 + j) with (i1 + (1 + j)) by lia. replace (i2 + 1 + j) with (i2 + (1 + j)) by lia. apply Hpc. }
        split; [congruence|split; [assumption|split; [lia|assumption]]].
      * destruct Hact as (-> & -> & -> & -> & Hact).
        specialize (IH t pos1 (i1 + 5) pa ma pos2 (i2 + 5) pb mb ltac:(cbn [length] in *; lia) Hact).
        destruct (x86_gop enc pos1 (i1 + 5) pa ma t) as [[[[i1' pp1'] pm1'] o1] r1].
        destruct (x86_gop enc pos2 (i2 + 5) pb mb t) as [[[[i2' pp2'] pm2'] o2] r2].
        cbn [x86_push]. destruct IH as (E1 & E2 & E3 & E4).
        { intros j. replace (i1 + 5 + j) with (i1 + (5 + j)) by lia. replace (i2 + 5 + j) with (i2 + (5 + j)) by lia. apply Hpc. }
        split; [congruence|split; [assumption|split; [lia|assumption]]].
Qed.

(* x86_code in closed form *)
Definition x86_epi (i pp pm : Z) : Z := if 3 <? i - pp then 0 else u32 (pm * 2 ^ (i - pp - 1)).

Lemma x86_epilogue_ok i pp pm : pp < i -> x86_epilogue i pp pm = Ok (x86_epi i pp pm).
Proof.
  intros H. unfold x86_epilogue, x86_epi. rewrite land_lnot3 by lia.
  destruct (Z.leb_spec (i - pp) 3); cbn [negb].
  - destruct (Z.ltb_spec 3 (i - pp)); [lia|]. unfold shl_u32.
    destruct (Z.ltb_spec (i - pp - 1) 0); [lia|]. destruct (Z.ltb_spec 31 (i - pp - 1)); [lia|].
    cbn [orb]. rewrite Z.shiftl_mul_pow2 by lia. reflexivity.
  - destruct (Z.ltb_spec 3 (i - pp)); [reflexivity|lia].
Qed.

Lemma x86_code_eq enc st buf : bytes_ok buf = true ->
  x86_code enc st buf =
  if zlen buf <? 5 then Ok (st, [], buf)
  else let '(i, pp, pm, o, r) := x86_gop enc (f_pos st) 0 (-1) (f_mask st) buf in
       Ok (mkF (u64 (f_pos st + i)) (x86_epi i pp pm), o, r).
Proof.
  intros Hb. unfold x86_code. destruct (zlen buf <? 5); [reflexivity|].
  rewrite (x86_go_ok enc (f_pos st) (length buf)) by (auto; lia). cbn [obind].
  pose proof (x86_gop_shape enc (f_pos st) (length buf) buf 0 (-1) (f_mask st) (le_n _) Hb ltac:(lia)) as Hsh.
  destruct (x86_gop enc (f_pos st) 0 (-1) (f_mask st) buf) as [[[[i pp] pm] o] r].
  destruct Hsh as (_ & Hpp & _). rewrite x86_epilogue_ok by assumption. reflexivity.
Qed.

Lemma x86_epi_eff i pp pm : pp < i -> x86_epi i pp pm mod 8 = x86_eff (i - pp) pm.
Proof.
  intros H. unfold x86_epi, x86_eff. destruct (Z.ltb_spec 3 (i - pp)); [reflexivity|].
  unfold u32. assert (Hd : i - pp = 1 \/ i - pp = 2 \/ i - pp = 3) by lia.
  destruct Hd as [-> | [-> | ->]]; cbn [Z.sub Z.add Z.opp Z.pos_sub Pos.pred_double Z.pow Z.pow_pos Pos.iter Z.mul Pos.mul]; (Z.div_mod_to_equations; lia).
Qed.

Lemma eff_cases d pm : 1 <= d ->
  x86_eff d pm = if d =? 1 then pm mod 8 else if d =? 2 then (pm * 2) mod 8 else if d =? 3 then (pm * 4) mod 8 else 0.
Proof.
  intros H. unfold x86_eff. destruct (Z.ltb_spec 3 d).
  - destruct (Z.eqb_spec d 1); [lia|]. destruct (Z.eqb_spec d 2); [lia|]. destruct (Z.eqb_spec d 3); [lia|]. reflexivity.
  - assert (Hd : d = 1 \/ d = 2 \/ d = 3) by lia.
    destruct Hd as [-> | [-> | ->]]; cbn [Z.eqb Pos.eqb Z.sub Z.add Z.opp Z.pos_sub Pos.pred_double Z.pow Z.pow_pos Pos.iter Z.mul Pos.mul]; f_equal; lia.
Qed.

(* the state as saved at the end of a call is as good as the state inside the loop *)
Lemma xrel_epi i pp pm : pp < i -> xrel (pp - i) pm (-1) (x86_epi i pp pm).
Proof.
  intros H. split; [lia|]. split; [lia|]. intros x Hx.
  replace (x - (pp - i)) with (x + (i - pp)) by lia. replace (x - -1) with (x + 1) by lia.
  rewrite !eff_cases by lia. unfold x86_epi, u32.
  set (d := i - pp) in *. assert (Hd : 1 <= d) by (unfold d; lia).
  destruct (Z.ltb_spec 3 d).
  - destruct (Z.eqb_spec (x + d) 1); [lia|]. destruct (Z.eqb_spec (x + d) 2); [lia|].
    destruct (Z.eqb_spec (x + d) 3); [lia|].
    destruct (Z.eqb_spec (x + 1) 1); [reflexivity|]. destruct (Z.eqb_spec (x + 1) 2); [reflexivity|].
    destruct (Z.eqb_spec (x + 1) 3); reflexivity.
  - assert (Hd3 : d = 1 \/ d = 2 \/ d = 3) by lia.
    assert (Hx3 : x = 0 \/ x = 1 \/ x = 2 \/ 3 <= x) by lia.
    destruct Hd3 as [-> | [-> | ->]]; destruct Hx3 as [-> | [-> | [-> | Hx3]]];
      cbn [Z.eqb Pos.eqb Z.sub Z.add Z.opp Z.pos_sub Pos.pred_double Pos.add Pos.succ Z.pow Z.pow_pos Pos.iter Z.mul Pos.mul];
      try (Z.div_mod_to_equations; lia).
    all: destruct (Z.eqb_spec (x + 1) 1); [lia|]; destruct (Z.eqb_spec (x + 1) 2); [lia|];
         destruct (Z.eqb_spec (x + 1) 3); [lia|].
    all: repeat match goal with |- context [?a =? ?b] => destruct (Z.eqb_spec a b); [lia|] end; reflexivity.
Qed.

Lemma xrel_mod8 pm1 pm2 : pm1 mod 8 = pm2 mod 8 -> xrel (-1) pm1 (-1) pm2.
Proof.
  intros H. split; [lia|]. split; [lia|]. intros x Hx. replace (x - -1) with (x + 1) by lia.
  rewrite !eff_cases by lia.
  destruct (Z.eqb_spec (x + 1) 1); [exact H|]. destruct (Z.eqb_spec (x + 1) 2); [(Z.div_mod_to_equations; lia)|].
  destruct (Z.eqb_spec (x + 1) 3); [(Z.div_mod_to_equations; lia)|]. reflexivity.
Qed.

Lemma zlen_lt5 (l : list Z) : (zlen l <? 5) = true <-> (length l < 5)%nat.
Proof. unfold zlen. rewrite Z.ltb_lt. lia. Qed.

Lemma code_facts_x86 enc : code_facts X86 enc.
Proof.
  split; [|split].
  - (* totality *)
    intros st buf Hb. change (bcj_code X86 enc st buf) with (x86_code enc st buf).
    rewrite x86_code_eq by assumption.
    destruct (zlen buf <? 5) eqn:E5.
    + apply zlen_lt5 in E5. exists st, [], buf. repeat split; auto; cbn [length]; lia.
    + pose proof (x86_gop_shape enc (f_pos st) (length buf) buf 0 (-1) (f_mask st) (le_n _) Hb ltac:(lia)) as Hsh.
      destruct (x86_gop enc (f_pos st) 0 (-1) (f_mask st) buf) as [[[[i pp] pm] o] r].
      destruct Hsh as (_ & _ & Hr & Hl & H5 & Hbo).
      eexists _, o, r. split; [reflexivity|]. repeat split; auto; lia.
  - (* states with the same low mask bits *)
    intros st1 st2 buf s1' o r [Hp Hm] Hb.
    change (bcj_code X86 enc st1 buf) with (x86_code enc st1 buf).
    change (bcj_code X86 enc st2 buf) with (x86_code enc st2 buf).
    rewrite !x86_code_eq by assumption.
    destruct (zlen buf <? 5).
    + intros E. injection E as <- <- <-. exists st2. split; [reflexivity|]. split; assumption.
    + pose proof (x86_gop_rel enc (length buf) buf (f_pos st1) 0 (-1) (f_mask st1) (f_pos st2) 0 (-1) (f_mask st2)
                    (le_n _) (xrel_mod8 _ _ Hm) ltac:(intros j; rewrite Hp; reflexivity)) as Hrel.
      pose proof (x86_gop_shape enc (f_pos st1) (length buf) buf 0 (-1) (f_mask st1) (le_n _) Hb ltac:(lia)) as Hs1.
      pose proof (x86_gop_shape enc (f_pos st2) (length buf) buf 0 (-1) (f_mask st2) (le_n _) Hb ltac:(lia)) as Hs2.
      destruct (x86_gop enc (f_pos st1) 0 (-1) (f_mask st1) buf) as [[[[i1 pp1] pm1] o1] r1].
      destruct (x86_gop enc (f_pos st2) 0 (-1) (f_mask st2) buf) as [[[[i2 pp2] pm2] o2] r2].
      destruct Hrel as (-> & -> & Hi & Hx). destruct Hs1 as (_ & Hpp1 & _). destruct Hs2 as (_ & Hpp2 & _).
      intros E. injection E as <- <- <-.
      eexists. split; [reflexivity|]. split; cbn [f_pos f_mask].
      * rewrite Hp. f_equal. lia.
      * rewrite !x86_epi_eff by assumption. destruct Hx as (_ & _ & Hx). specialize (Hx 0 ltac:(lia)).
        replace (0 - (pp1 - i1)) with (i1 - pp1) in Hx by lia. replace (0 - (pp2 - i2)) with (i2 - pp2) in Hx by lia.
        exact Hx.
  - (* chunking *)
    intros st A B st1 oA rA st2 oB rB HbA HbB.
    change (bcj_code X86 enc st A) with (x86_code enc st A).
    change (bcj_code X86 enc st1 (rA ++ B)) with (x86_code enc st1 (rA ++ B)).
    change (bcj_code X86 enc st (A ++ B)) with (x86_code enc st (A ++ B)).
    assert (HbAB : bytes_ok (A ++ B) = true) by (apply bytes_ok_app; auto).
    rewrite (x86_code_eq enc st A) by assumption.
    destruct (zlen A <? 5) eqn:EA5.
    + (* nothing was done on A *)
      intros E. injection E as <- <- <-. cbn [app]. intros E2. rewrite E2.
      exists st2. split; [reflexivity|apply feq_refl].
    + pose proof (x86_gop_shape enc (f_pos st) (length A) A 0 (-1) (f_mask st) (le_n _) HbA ltac:(lia)) as HsA.
      pose proof (x86_gop_app enc (f_pos st) (length A) A B 0 (-1) (f_mask st) (le_n _)) as Happ.
      destruct (x86_gop enc (f_pos st) 0 (-1) (f_mask st) A) as [[[[iA ppA] pmA] oA'] rA'] eqn:EgA.
      destruct HsA as (HiA & HppA & HrA & HlA & H5A & HboA).
      intros E. injection E as <- <- <-.
      assert (HbR : bytes_ok (rA' ++ B) = true).
      { apply bytes_ok_app. split; [rewrite <- HrA; apply bytes_ok_skipn; assumption|assumption]. }
      rewrite (x86_code_eq enc _ (rA' ++ B)) by assumption. cbn [f_pos f_mask].
      rewrite (x86_code_eq enc st (A ++ B)) by assumption.
      assert (EAB5 : (zlen (A ++ B) <? 5) = false).
      { apply Z.ltb_ge. apply Z.ltb_ge in EA5. rewrite zlen_app. pose proof (zlen_nonneg B). lia. }
      rewrite EAB5, Happ.
      destruct (zlen (rA' ++ B) <? 5) eqn:ER5.
      * (* the second call does nothing: then the continued loop does nothing either *)
        intros E. injection E as <- <- <-.
        apply zlen_lt5 in ER5. rewrite x86_gop_short by assumption.
        eexists. split; [reflexivity|apply feq_refl].
      * (* the loop continued from inside vs. restarted from the saved state *)
        pose proof (x86_gop_rel enc (length (rA' ++ B)) (rA' ++ B) (f_pos st) iA ppA pmA
                      (u64 (f_pos st + iA)) 0 (-1) (x86_epi iA ppA pmA) (le_n _)) as Hrel.
        replace (-1 - 0) with (-1) in Hrel by lia.
        specialize (Hrel (xrel_epi iA ppA pmA HppA)).
        specialize (Hrel ltac:(intros j; rewrite pc32_shift; f_equal; lia)).
        pose proof (x86_gop_shape enc (f_pos st) (length (rA' ++ B)) (rA' ++ B) iA ppA pmA (le_n _) HbR HppA) as Hs1.
        pose proof (x86_gop_shape enc (u64 (f_pos st + iA)) (length (rA' ++ B)) (rA' ++ B) 0 (-1) (x86_epi iA ppA pmA) (le_n _) HbR ltac:(lia)) as Hs2.
        destruct (x86_gop enc (f_pos st) iA ppA pmA (rA' ++ B)) as [[[[i1 pp1] pm1] o1] r1].
        destruct (x86_gop enc (u64 (f_pos st + iA)) 0 (-1) (x86_epi iA ppA pmA) (rA' ++ B)) as [[[[i2 pp2] pm2] o2] r2].
        destruct Hrel as (-> & -> & Hi & Hx). destruct Hs1 as (Hi1 & Hpp1 & _). destruct Hs2 as (Hi2 & Hpp2 & _).
        intros E. injection E as <- <- <-.
        eexists. split; [reflexivity|].
        split; cbn [f_pos f_mask].
        -- unfold u64. rewrite Zplus_mod_idemp_l. f_equal. lia.
        -- rewrite !x86_epi_eff by assumption. destruct Hx as (_ & _ & Hx). specialize (Hx 0 ltac:(lia)).
           replace (0 - (pp1 - i1)) with (i1 - pp1) in Hx by lia. replace (0 - (pp2 - i2)) with (i2 - pp2) in Hx by lia.
           symmetry. exact Hx.
Qed.
