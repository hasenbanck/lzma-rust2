(* Filter/Bcj2ReaderProofs.v — BCJ2Reader::read ([bcj2_read], Filter/Bcj2.v) over the four streams of the
   specification encoder, delivered by the inner readers in ANY chunking (pieces of any length, also
   not multiples of four for CALL/JUMP) and read with ANY history of destination sizes: the calls
   return the original bytes in order, none fails.  Built on decode_spec (one decode() call keeps the
   invariant and the number of carried bytes of an incomplete word) and exit_analysis (where it
   stops). *)
From LzVerif Require Import Codec.RangeArithProofs Codec.RangeEncProofs.
From LzVerif Require Import Filter.BcjStream Filter.BcjStreamProofs.
From LzVerif Require Import Filter.Bcj2 Filter.Bcj2Enc Filter.Bcj2EncProofs Filter.Bcj2RcProofs Filter.Bcj2ScanProofs Filter.Bcj2InvProofs
  Filter.Bcj2LoopProofs Filter.Bcj2DecProofs Filter.Bcj2SpecProofs Filter.Bcj2SlackProofs.

Definition dscript (ev : list inner_event) : Prop := script_ok ev /\ script_errs ev = [].

Lemma dscript_read ev n : dscript ev -> 0 < n ->
  exists data ev', inner_read ev n = (BjData data, ev') /\ dscript ev' /\
    script_data ev = data ++ script_data ev' /\ (data = [] -> script_data ev = []).
Proof.
  intros [Hok Herr] Hn. destruct (inner_read ev n) as [ret ev'] eqn:E.
  destruct (inner_read_spec ev n ret ev' Hok Hn E) as (Hok' & Hret).
  destruct ret as [data|c].
  - destruct Hret as (H1 & H2 & H3 & H4). exists data, ev'. split; [reflexivity|].
    split; [split; [exact Hok' | rewrite H3; exact Herr]|]. split; [exact H1|].
    intros Hd. destruct (H4 Hd) as [-> _]. reflexivity.
  - subst ev. cbn [script_errs] in Herr. discriminate.
Qed.

Definition fut_of (ins : inners) : futures :=
  let '(m, c, j, r) := ins in mkFut (script_data m) (script_data c) (script_data j) (script_data r).
Definition ins_ok (ins : inners) : Prop :=
  let '(m, c, j, r) := ins in dscript m /\ dscript c /\ dscript j /\ dscript r.

Lemma land3_mod4 x : 0 <= x -> Z.land x 3 = x mod 4.
Proof. intros H. change 3 with (Z.ones 2). rewrite Z.land_ones by lia. reflexivity. Qed.

(* MAIN / RC: one read *)
Lemma fill_once s ev : bcj2_is_32bit_stream s = false -> dscript ev ->
  exists data ev', bcj2_fill 4 s ev [] 0 = Ok (None, data, zlen data, ev') /\ dscript ev' /\
    script_data ev = data ++ script_data ev' /\ (data = [] -> script_data ev = []).
Proof.
  intros Hs Hd. cbn [bcj2_fill]. rewrite Z.sub_0_r.
  destruct (dscript_read ev BUF_SIZE Hd ltac:(unfold BUF_SIZE; lia)) as (data & ev' & Hr & Hd' & Hsd & Hnil).
  rewrite Hr. exists data, ev'. rewrite Hs, andb_false_r.
  destruct data as [|x l]; cbn [app]; rewrite ?Z.add_0_l; msplit; try assumption; reflexivity.
Qed.

(* CALL / JUMP: reads until four bytes are there *)
Lemma fill_word s : bcj2_is_32bit_stream s = true -> forall fuel ev buf,
  dscript ev -> zlen buf < 4 -> 4 <= zlen (buf ++ script_data ev) -> (Z.to_nat (4 - zlen buf) <= fuel)%nat ->
  exists got ev', bcj2_fill fuel s ev buf (zlen buf) = Ok (None, buf ++ got, zlen (buf ++ got), ev') /\ dscript ev' /\
    script_data ev = got ++ script_data ev' /\ 4 <= zlen (buf ++ got) /\ got <> [].
Proof.
  intros Hs. induction fuel as [|f IH]; intros ev buf Hd Hb H4 Hf; [lia|].
  cbn [bcj2_fill].
  pose proof (zlen_nonneg buf) as Hnn.
  destruct (dscript_read ev (BUF_SIZE - zlen buf) Hd ltac:(unfold BUF_SIZE; lia)) as (data & ev' & Hr & Hd' & Hsd & Hnil).
  rewrite Hr.
  destruct data as [|x l].
  { rewrite (Hnil eq_refl), app_nil_r in H4. lia. }
  rewrite Hs, andb_true_r. rewrite <- zlen_app.
  destruct (Z.ltb_spec (zlen (buf ++ x :: l)) 4) as [Hlt|Hge].
  - destruct (IH ev' (buf ++ x :: l) Hd' Hlt) as (got & ev'' & Hfill & Hd'' & Hsd' & H4' & Hne).
    + rewrite <- app_assoc, <- Hsd. exact H4.
    + rewrite zlen_app, zlen_cons in *. pose proof (zlen_nonneg l). lia.
    + exists ((x :: l) ++ got), ev''. rewrite app_assoc. split; [exact Hfill|]. split; [exact Hd''|].
      split; [rewrite Hsd, Hsd', app_assoc; reflexivity|]. split; [exact H4'|]. discriminate.
  - exists (x :: l), ev'. msplit; try assumption; try reflexivity. discriminate.
Qed.

Definition rinv (rc_out : list Z) (r : b2reader) (ins : inners) (c : b2cfg) : Prop :=
  b2inv rc_out (br_dec r) (fut_of ins) c /\
  br_extra_call r = slack (bd_call (br_dec r)) /\
  br_extra_jump r = slack (bd_jump (br_dec r)) /\
  br_size r = zlen (rem_out c) /\ br_err r = None /\ ins_ok ins.

(* projections of the reader's setters, and the stream selectors at a given stream number *)
Ltac br_simpl :=
  cbn [br_dec br_extra_call br_extra_jump br_size br_err br_set_dec br_set_size br_set_extra br_extra
       bd_stream inner_get inner_set bcj2_is_32bit_stream
       BCJ2_STREAM_MAIN BCJ2_STREAM_CALL BCJ2_STREAM_JUMP BCJ2_STREAM_RC Z.eqb Pos.eqb orb] in *.

(* MAIN / RC: the empty buffer takes the next piece whole *)
Lemma b2inv_refill_main rc_out d F c data fm' :
  b2inv rc_out d F c -> sb_live (bd_main d) = [] -> f_main F = data ++ fm' ->
  b2inv rc_out (bd_set_stream d 0 (mkSb data (zlen data))) (mkFut fm' (f_call F) (f_jump F) (f_rc F)) c.
Proof.
  intros (((Hm & Hmf) & Hrest) & Hst & Hrc) Hl Hf.
  split; [|split; [exact Hst | exact Hrc]]. split; [|exact Hrest].
  split; [|reflexivity]. bd_simpl. rewrite <- Hm, Hl, Hf. reflexivity.
Qed.

Lemma b2inv_refill_rc rc_out d F c data fr' :
  b2inv rc_out d F c -> sb_live (bd_rc d) = [] -> f_rc F = data ++ fr' ->
  b2inv rc_out (bd_set_stream d 3 (mkSb data (zlen data))) (mkFut (f_main F) (f_call F) (f_jump F) fr') c.
Proof.
  intros (Hcore & Hst & Hrc) Hl Hf.
  split; [exact Hcore|]. split; [exact Hst|].
  unfold g_rcph, g_rc, sb_full in *. rewrite Hl, Hf in Hrc. cbn [app] in Hrc.
  destruct (c_ph c); bd_simpl; msplit; try reflexivity; tauto.
Qed.

(* CALL / JUMP: the piece goes behind the carried bytes; whole words become available *)
Lemma sb_word_refill live : 4 <= zlen live -> sb_word (mkSb live (zlen live - Z.land (zlen live) 3)).
Proof.
  intros H4. unfold sb_word. cbn [sb_live sb_avail]. rewrite land3_mod4 by lia. msplit; (Z.div_mod_to_equations; lia).
Qed.

Lemma b2inv_refill_word (call : bool) rc_out d F c got f' :
  b2inv rc_out d F c ->
  let live := sb_live (if call then bd_call d else bd_jump d) ++ got in
  (if call then f_call F else f_jump F) = got ++ f' -> 4 <= zlen live ->
  b2inv rc_out (bd_set_stream d (if call then 1 else 2) (mkSb live (zlen live - Z.land (zlen live) 3)))
        (if call then mkFut (f_main F) f' (f_jump F) (f_rc F) else mkFut (f_main F) (f_call F) f' (f_rc F)) c.
Proof.
  intros ((Hmain & (Hc & Hcw & Hj & Hjw) & Hrest) & Hst & Hrc) live Hf H4.
  pose proof (sb_word_refill live H4) as Hw.
  destruct call;
    (split; [|split; [exact Hst | exact Hrc]]); (split; [exact Hmain|]); (split; [|exact Hrest]);
    unfold g_cj, bd_set_stream; br_simpl; bd_simpl; msplit; try assumption; unfold live; rewrite <- app_assoc, <- Hf; assumption.
Qed.

Definition rloop_prop (rc_out : list Z) (fuel : nat) : Prop :=
  forall lim r ins c out rs,
    rinv rc_out r ins c -> 0 <= bd_dest (br_dec r) <= lim -> lim - bd_dest (br_dec r) <= br_size r ->
    (inners_data_len ins + 2 <= fuel)%nat ->
    exists r' ins' c' delta,
      bcj2_read_loop false fuel lim r ins out rs (bd_dest (br_dec r)) = Ok (rev out ++ delta, None, r', ins') /\
      rinv rc_out r' ins' c' /\ rem_out c = delta ++ rem_out c' /\
      bd_dest (br_dec r) + zlen delta = lim /\ (inners_data_len ins' <= inners_data_len ins)%nat.

(* the next round: [delta1] has been decoded up to [c1], a refill has taken data out of the inner
   readers ([ins'] holds less than [ins]) and restored the invariant for [r3] *)
Lemma rloop_continue rc_out f lim (dest0 : Z) ins c out rs c1 delta1 r3 ins' :
  rloop_prop rc_out f ->
  rinv rc_out r3 ins' c1 -> rem_out c = delta1 ++ rem_out c1 -> bd_dest (br_dec r3) = dest0 + zlen delta1 ->
  0 <= dest0 -> dest0 + zlen delta1 <= lim -> lim - dest0 <= zlen (rem_out c) ->
  (inners_data_len ins' < inners_data_len ins)%nat -> (inners_data_len ins + 2 <= S f)%nat ->
  exists r' ins'' c' delta,
    bcj2_read_loop false f lim r3 ins' (rev delta1 ++ out) (rs + zlen delta1) (dest0 + zlen delta1) =
      Ok (rev out ++ delta, None, r', ins'') /\
    rinv rc_out r' ins'' c' /\ rem_out c = delta ++ rem_out c' /\
    dest0 + zlen delta = lim /\ (inners_data_len ins'' <= inners_data_len ins)%nat.
Proof.
  intros IH Hrinv Hrem Hd3 H0 Hle Hroom Hlt Hfuel.
  pose proof Hrinv as (_ & _ & _ & Hsz & _).
  pose proof (zlen_nonneg delta1). rewrite Hrem, zlen_app in Hroom.
  destruct (IH lim r3 ins' c1 (rev delta1 ++ out) (rs + zlen delta1) Hrinv ltac:(lia) ltac:(lia) ltac:(lia))
    as (r' & ins'' & c' & delta2 & Hres & Hrinv' & Hrem' & Hd' & Hlen').
  rewrite Hd3 in Hres, Hd'.
  exists r', ins'', c', (delta1 ++ delta2). split.
  { rewrite Hres. rewrite rev_app_distr, rev_involutive, <- app_assoc. reflexivity. }
  split; [exact Hrinv'|]. split; [rewrite Hrem, Hrem', app_assoc; reflexivity|].
  rewrite zlen_app. split; lia.
Qed.

Lemma rloop_step rc_out f : rloop_prop rc_out f -> rloop_prop rc_out (S f).
Proof.
  intros IH lim r ins c out rs (Hinv & Hxc & Hxj & Hsize & Herr & Hins) Hdest Hroom Hfuel.
  destruct (decode_spec rc_out _ lim _ _ Hinv Hdest) as (d1 & c1 & delta1 & Hdec & Hinv1 & Hrem1 & Hdest1 & Hle1 & Hex1 & Hsc & Hsj).
  rewrite app_nil_r in Hdec.
  cbn [bcj2_read_loop]. rewrite Hdec. cbn [obind negb].
  cbn [br_set_dec br_dec br_size br_set_size br_extra_call br_extra_jump br_err].
  pose proof (zlen_nonneg delta1) as Hd1n.
  replace (bd_dest d1 <? bd_dest (br_dec r)) with false by (symmetry; apply Z.ltb_ge; lia).
  assert (Hszl : br_size r = zlen delta1 + zlen (rem_out c1)) by (rewrite Hsize, Hrem1; apply zlen_app).
  pose proof (zlen_nonneg (rem_out c1)) as Hr1n.
  replace (br_size r <? bd_dest d1 - bd_dest (br_dec r)) with false by (symmetry; apply Z.ltb_ge; lia).
  replace (bd_dest d1 - bd_dest (br_dec r)) with (zlen delta1) by lia.
  replace (br_size r - zlen delta1) with (zlen (rem_out c1)) by lia.
  rewrite Hsize in Hroom.
  set (r2 := br_set_size (br_set_dec r d1) (zlen (rem_out c1))).
  (* the reader around a decoder [d3] that differs from [d1] in stream buffers only *)
  assert (Hrinv : forall d3 xc xj ins', b2inv rc_out d3 (fut_of ins') c1 -> ins_ok ins' ->
            xc = slack (bd_call d3) -> xj = slack (bd_jump d3) ->
            rinv rc_out (mkB2 d3 xc xj (zlen (rem_out c1)) (br_err r)) ins' c1).
  { intros d3 xc xj ins' H1 H2 H3 H4. unfold rinv. cbn [br_dec br_extra_call br_extra_jump br_size br_err]. msplit; try assumption; reflexivity. }
  assert (Hxc1 : br_extra_call r = slack (bd_call d1)) by congruence.
  assert (Hxj1 : br_extra_jump r = slack (bd_jump d1)) by congruence.
  destruct ins as [[[im ic] ij] ir]. pose proof Hins as (Him & Hic & Hij & Hir).
  cbn [inners_data_len] in Hfuel.
  destruct (exit_analysis _ _ _ _ _ Hinv1 Hex1)
    as [(Hs & Hph & Hav & Hlm & Hr) | [(Hs & Hav & Hlr & Hne) | [(call & Hs & Hav & Hw & H4) | (Hs & Hd & Hne)]]].
  - (* MAIN *)
    rewrite Hs. unfold BCJ2_NUM_STREAMS. cbn [Z.leb Z.compare].
    unfold r2. br_simpl.
    rewrite Hlm. cbn [Z.to_nat firstn zlen length Z.of_nat Z.ltb Z.compare].
    destruct (fill_once 0 im eq_refl Him) as (data & im' & Hfill & Him' & Hsd & Hnil).
    rewrite Hfill. cbn [obind].
    pose proof (b2inv_refill_main rc_out d1 (fut_of (im, ic, ij, ir)) _ data (script_data im') Hinv1 Hlm Hsd) as Hinv3.
    specialize (Hrinv _ _ _ (im', ic, ij, ir) Hinv3 (conj Him' (conj Hic (conj Hij Hir))) Hxc1 Hxj1).
    destruct (Z.eqb_spec (zlen data) 0) as [Hz|Hz].
    + (* end of the MAIN stream *)
      apply zlen_zero_nil in Hz. subst data. specialize (Hnil eq_refl). cbn [app] in Hsd.
      destruct c1 as [ph1 its1 prev1 pos1 e1 t1]. cbn [c_ph] in Hph. subst ph1.
      pose proof Hinv1 as (((Hm1 & _) & _) & _). cbn [fut_of f_main c_its] in Hm1. rewrite Hlm, Hnil in Hm1. cbn [app] in Hm1.
      symmetry in Hm1. apply its_nil_of_main in Hm1. subst its1.
      destruct (final_state _ _ _ _ _ _ _ Hinv1 Hr) as [Hcode _].
      change (rem_out (mkCfg PhScan [] prev1 pos1 e1 t1)) with (@nil Z) in *.
      unfold bcj2_read_tail, bd_set_stream. cbn [r2 br_size br_set_size br_set_dec br_dec bd_code bd_state].
      replace (bd_code d1 =? 0) with true by (rewrite Hcode; reflexivity).
      replace (bd_state d1 =? BCJ2_STREAM_MAIN) with true by (rewrite Hs; reflexivity).
      cbn [zlen length Z.of_nat Z.eqb negb andb].
      eexists _, (im', ic, ij, ir), (mkCfg PhScan [] prev1 pos1 e1 t1), delta1.
      split; [rewrite rev_app_distr, rev_involutive; reflexivity|].
      split; [exact Hrinv|]. split; [exact Hrem1|].
      change (zlen []) with 0 in *.
      split; [lia|]. cbn [inners_data_len]. rewrite Hsd. lia.
    + (* more MAIN bytes: next round *)
      apply (rloop_continue rc_out f lim _ (im, ic, ij, ir) c _ _ c1); try assumption; try lia.
      cbn [inners_data_len]. rewrite Hsd, app_length. unfold zlen in Hz. lia.
  - (* RC *)
    rewrite Hs. unfold BCJ2_NUM_STREAMS. cbn [Z.leb Z.compare Pos.compare Pos.compare_cont].
    unfold r2. br_simpl.
    rewrite Hlr. cbn [Z.to_nat firstn zlen length Z.of_nat Z.ltb Z.compare].
    destruct (fill_once 3 ir eq_refl Hir) as (data & ir' & Hfill & Hir' & Hsd & Hnil).
    rewrite Hfill. cbn [obind].
    cbn [fut_of f_rc] in Hne.
    destruct (Z.eqb_spec (zlen data) 0) as [Hz|Hz]; [exfalso; apply Hne, Hnil, zlen_zero_nil, Hz|].
    pose proof (b2inv_refill_rc rc_out d1 (fut_of (im, ic, ij, ir)) _ data (script_data ir') Hinv1 Hlr Hsd) as Hinv3.
    specialize (Hrinv _ _ _ (im, ic, ij, ir') Hinv3 (conj Him (conj Hic (conj Hij Hir'))) Hxc1 Hxj1).
    apply (rloop_continue rc_out f lim _ (im, ic, ij, ir) c _ _ c1); try assumption; try lia.
    cbn [inners_data_len]. rewrite Hsd, app_length. unfold zlen in Hz. lia.
  - (* CALL / JUMP *)
    cbv zeta in Hav, Hw, H4.
    set (s := if call then 1 else 2) in *. set (sb := if call then bd_call d1 else bd_jump d1) in *.
    assert (Hs4 : (BCJ2_NUM_STREAMS <=? s) = false) by (destruct call; reflexivity).
    assert (H32 : bcj2_is_32bit_stream s = true) by (destruct call; reflexivity).
    assert (Hstream : bd_stream d1 s = sb) by (destruct call; reflexivity).
    assert (Hextra : br_extra r2 s = zlen (sb_live sb)).
    { unfold sb, s, r2, slack in *. destruct call; br_simpl; lia. }
    rewrite Hs, Hs4. cbv zeta. rewrite Hstream, Hextra, H32.
    assert (Hfa : firstn (Z.to_nat (zlen (sb_live sb))) (sb_live sb) = sb_live sb)
      by (unfold zlen; rewrite Nat2Z.id; apply firstn_all).
    rewrite Hfa, Z.ltb_irrefl.
    destruct Hw as (_ & _ & Hlt4). rewrite Hav in Hlt4.
    set (ev := if call then ic else ij).
    assert (Hget : inner_get (im, ic, ij, ir) s = ev) by (destruct call; reflexivity).
    assert (Hev : dscript ev) by (destruct call; assumption).
    assert (Hfut : (if call then f_call (fut_of (im, ic, ij, ir)) else f_jump (fut_of (im, ic, ij, ir))) = script_data ev) by (destruct call; reflexivity).
    rewrite Hfut in H4. rewrite Hget.
    destruct (fill_word s H32 4%nat ev (sb_live sb) Hev ltac:(lia) H4 ltac:(pose proof (zlen_nonneg (sb_live sb)); lia))
      as (got & ev' & Hfill & Hev' & Hsd & H4' & Hgne).
    rewrite Hfill. cbn [obind].
    set (live2 := sb_live sb ++ got) in *.
    replace (zlen live2 =? 0) with false by (symmetry; apply Z.eqb_neq; lia).
    replace (zlen live2 <? 4) with false by (symmetry; apply Z.ltb_ge; lia).
    rewrite <- Hfut in Hsd.
    pose proof (b2inv_refill_word call rc_out d1 (fut_of (im, ic, ij, ir)) _ got (script_data ev') Hinv1 Hsd H4') as Hinv3.
    fold sb s live2 in Hinv3.
    apply (rloop_continue rc_out f lim _ (im, ic, ij, ir) c _ _ c1); try assumption; try lia.
    + unfold s, sb, ev in *. pose proof (land3_mod4 (zlen live2)) as Hland.
      unfold r2, slack in *.
      destruct call; br_simpl;
        (apply Hrinv; [exact Hinv3 | cbn [ins_ok]; tauto | |]; unfold slack, bd_set_stream; br_simpl; bd_simpl; lia).
    + unfold s, ev in *. apply (f_equal (@length Z)) in Hsd. rewrite app_length in Hsd.
      assert (0 < length got)%nat by (destruct got; [contradiction | cbn [length]; lia]).
      destruct call; br_simpl; cbn [inners_data_len fut_of f_call f_jump] in *; lia.
  - (* destination full *)
    unfold BCJ2_NUM_STREAMS. replace (4 <=? bd_state d1) with true by (symmetry; apply Z.leb_le; lia).
    unfold bcj2_read_tail. cbn [r2 br_size br_set_size br_set_dec br_dec].
    assert (Hnz : zlen (rem_out c1) <> 0) by (intros Hz; apply Hne, zlen_zero_nil, Hz).
    replace (zlen (rem_out c1) =? 0) with false by (symmetry; apply Z.eqb_neq; exact Hnz). cbn [andb].
    eexists _, (im, ic, ij, ir), c1, delta1. split; [rewrite rev_app_distr, rev_involutive; reflexivity|].
    split; [apply (Hrinv d1 _ _ _ Hinv1 Hins Hxc1 Hxj1)|]. split; [exact Hrem1|]. split; lia.
Qed.

Theorem rloop_spec rc_out : forall fuel, rloop_prop rc_out fuel.
Proof.
  induction fuel as [|f IH]; [|apply rloop_step; exact IH].
  intros lim r ins c out rs _ _ _ Hf. lia.
Qed.

Lemma b2inv_set_dest rc_out d F c x : b2inv rc_out d F c -> b2inv rc_out (bd_set_dest d x) F c.
Proof.
  intros (H1 & H2 & H3). split; [apply (b2core_frame _ d); [exact H1 | reflexivity ..]|]. split; [exact H2|].
  unfold g_rcph in *. destruct (c_ph c); exact H3.
Qed.

Lemma read_spec rc_out fuel r ins c n :
  rinv rc_out r ins c -> 0 <= n -> (inners_data_len ins + 2 <= fuel)%nat ->
  exists r' ins' c',
    bcj2_read fuel r ins n = Ok (firstn (Z.to_nat n) (rem_out c), None, r', ins') /\
    rinv rc_out r' ins' c' /\ rem_out c' = skipn (Z.to_nat n) (rem_out c) /\
    (inners_data_len ins' <= inners_data_len ins)%nat.
Proof.
  intros Hrinv Hn Hf. pose proof Hrinv as (Hinv & Hxc & Hxj & Hsize & Herr & Hins).
  unfold bcj2_read, bcj2_read_gen. rewrite Herr.
  replace (if 0 <? n then @None Z else None) with (@None Z) by (destruct (0 <? n); reflexivity).
  pose proof (zlen_nonneg (rem_out c)) as Hrn.
  set (lim := if br_size r <? n then br_size r else n).
  assert (Hlim : 0 <= lim /\ lim <= n /\ lim <= br_size r /\ (lim = n \/ lim = br_size r /\ br_size r < n)).
  { unfold lim. destruct (Z.ltb_spec (br_size r) n); lia. }
  assert (Hfirst : firstn (Z.to_nat n) (rem_out c) = firstn (Z.to_nat lim) (rem_out c) /\
                   skipn (Z.to_nat n) (rem_out c) = skipn (Z.to_nat lim) (rem_out c)).
  { destruct Hlim as (_ & _ & _ & [-> | [Hl Hlt]]); [split; reflexivity|].
    rewrite Hl, Hsize. unfold zlen in *. rewrite Nat2Z.id, firstn_all, skipn_all.
    rewrite firstn_all2 by lia. rewrite skipn_all2 by lia. split; reflexivity. }
  destruct Hfirst as [Hfn Hsn]. rewrite Hfn, Hsn.
  destruct (Z.leb_spec lim 0) as [Hl0|Hl0].
  - assert (lim = 0) by lia. replace (Z.to_nat lim) with 0%nat by lia. cbn [firstn skipn].
    exists r, ins, c. msplit; try assumption; try reflexivity; try lia.
  - set (r0 := br_set_dec r (bd_set_dest (br_dec r) 0)).
    assert (Hrinv0 : rinv rc_out r0 ins c).
    { unfold rinv, r0. br_simpl. bd_simpl. msplit; assumption. }
    destruct (rloop_spec rc_out fuel lim r0 ins c [] 0 Hrinv0) as (r' & ins' & c' & delta & Hres & Hrinv' & Hrem & Hd & Hlen).
    { unfold r0. br_simpl. bd_simpl. lia. }
    { unfold r0. br_simpl. bd_simpl. lia. }
    { exact Hf. }
    assert (Hd0 : bd_dest (br_dec r0) = 0) by reflexivity. rewrite Hd0 in Hres, Hd. cbn [rev app] in Hres.
    rewrite Hres. exists r', ins', c'.
    assert (Hdl : Z.to_nat lim = length delta) by (unfold zlen in Hd; lia).
    rewrite Hrem, Hdl, firstn_app_exact, skipn_app_exact by reflexivity. msplit; try assumption; reflexivity.
Qed.

Lemma read_calls_spec rc_out fuel : forall sizes r ins c,
  rinv rc_out r ins c -> Forall (fun n => 0 <= n) sizes -> (inners_data_len ins + 2 <= fuel)%nat ->
  exists r' ins',
    bcj2_read_calls fuel r ins sizes = Ok (firstn (Z.to_nat (fold_right Z.add 0 sizes)) (rem_out c), [], r', ins').
Proof.
  induction sizes as [|n ns IH]; intros r ins c Hrinv Hs Hf.
  - cbn [bcj2_read_calls fold_right Z.to_nat firstn]. exists r, ins. reflexivity.
  - inversion Hs as [|? ? Hn Hns]; subst.
    destruct (read_spec rc_out fuel r ins c n Hrinv Hn Hf) as (r1 & ins1 & c1 & Hread & Hrinv1 & Hrem1 & Hlen1).
    destruct (IH r1 ins1 c1 Hrinv1 Hns ltac:(lia)) as (r2 & ins2 & Hcalls).
    cbn [bcj2_read_calls fold_right]. rewrite Hread. cbn [obind]. rewrite Hcalls. cbn [obind app].
    exists r2, ins2. do 2 f_equal.
    assert (Hsum : 0 <= fold_right Z.add 0 ns).
    { clear -Hns. induction Hns as [|x l Hx Hl IHl]; cbn [fold_right]; lia. }
    rewrite Hrem1. replace (Z.to_nat (n + fold_right Z.add 0 ns)) with (Z.to_nat n + Z.to_nat (fold_right Z.add 0%Z ns))%nat by lia.
    rewrite firstn_add. reflexivity.
Qed.

Lemma rinv_new its rc_out pm pc pj pr :
  items_wf 0 0 its -> events_bits (b2_events its) <= 4294967289 -> rc_out = bcj2_rc_bytes (b2_events its) ->
  concat pm = b2_main its -> concat pc = b2_call its -> concat pj = b2_jump its -> concat pr = rc_out ->
  rinv rc_out (bcj2_reader_new (zlen (b2_orig its))) (data_script pm, data_script pc, data_script pj, data_script pr) (cfg0 its).
Proof.
  intros Hwf Hbits Hout Hm Hc Hj Hr.
  assert (Hw0 : sb_word sb_empty) by (unfold sb_word; cbn; lia).
  unfold rinv, bcj2_reader_new. cbn [br_dec br_extra_call br_extra_jump br_size br_err].
  msplit; try reflexivity.
  - unfold bdec_new at 1. apply b2inv_init; try assumption;
      cbn [fut_of f_main f_call f_jump f_rc sb_empty sb_live app]; rewrite ?data_script_data; try assumption.
    + split; [exact Hm | reflexivity].
    + reflexivity.
  - unfold ins_ok, dscript. msplit; first [apply data_script_ok | apply data_script_errs].
Qed.

(* Any well-formed item list: its four streams, cut into pieces in any way, read with any history of
   destination sizes. *)
Theorem bcj2_reader_items its pm pc pj pr sizes :
  items_wf 0 0 its -> events_bits (b2_events its) <= 4294967289 ->
  concat pm = b2_main its -> concat pc = b2_call its -> concat pj = b2_jump its ->
  concat pr = bcj2_rc_bytes (b2_events its) ->
  Forall (fun n => 0 <= n) sizes ->
  let ins := (data_script pm, data_script pc, data_script pj, data_script pr) in
  exists r' ins',
    bcj2_read_calls (bcj2_read_fuel ins) (bcj2_reader_new (zlen (b2_orig its))) ins sizes =
      Ok (firstn (Z.to_nat (fold_right Z.add 0 sizes)) (b2_orig its), [], r', ins').
Proof.
  intros Hwf Hbits Hm Hc Hj Hr Hs ins.
  pose proof (rinv_new its (concat pr) pm pc pj pr Hwf Hbits Hr Hm Hc Hj eq_refl) as Hrinv.
  destruct (read_calls_spec _ (bcj2_read_fuel ins) sizes _ _ _ Hrinv Hs) as (r' & ins' & Hcalls).
  { unfold bcj2_read_fuel, ins. lia. }
  exists r', ins'. exact Hcalls.
Qed.

Theorem bcj2_reader_any_chunking data ds pm pc pj pr sizes :
  bytes_ok data = true -> Z.of_nat (length data) <= 4294967289 ->
  (let '(m, c, j, r) := bcj2_encode data ds in concat pm = m /\ concat pc = c /\ concat pj = j /\ concat pr = r) ->
  Forall (fun n => 0 <= n) sizes ->
  let ins := (data_script pm, data_script pc, data_script pj, data_script pr) in
  exists r' ins',
    bcj2_read_calls (bcj2_read_fuel ins) (bcj2_reader_new (zlen data)) ins sizes =
      Ok (firstn (Z.to_nat (fold_right Z.add 0 sizes)) data, [], r', ins').
Proof.
  intros Hb Hl Hparts Hs. unfold bcj2_encode in Hparts. cbv beta iota zeta in Hparts.
  destruct Hparts as (Hm & Hc & Hj & Hr).
  destruct (parse_facts data ds Hb Hl) as (Hwf & Horig & Hbits).
  pose proof (bcj2_reader_items _ pm pc pj pr sizes Hwf Hbits Hm Hc Hj Hr Hs) as H. rewrite Horig in H. exact H.
Qed.

(* a zero-length read returns at once and changes nothing, in every state *)
Theorem bcj2_reader_zero_read fuel r ins : bcj2_read fuel r ins 0 = Ok ([], None, r, ins).
Proof.
  unfold bcj2_read, bcj2_read_gen. cbn [Z.ltb Z.compare].
  destruct (Z.ltb_spec (br_size r) 0) as [H|H].
  - replace (br_size r <=? 0) with true by (symmetry; apply Z.leb_le; lia). reflexivity.
  - reflexivity.
Qed.
