(* Filter/Bcj2SlackProofs.v — the bytes of an incomplete CALL/JUMP word kept behind lims
   (zlen live - avail).  decode() never changes their number: the only step that touches a CALL or
   JUMP buffer takes a whole word off both its live region and its avail.  The decoder proofs carry
   [cj_slack] along ([loop_post], Filter/Bcj2LoopProofs.v); the reader needs it to know that its
   `extra_read_sizes` still describe the buffers after a decode() call. *)
From LzVerif Require Import Base.Bytes Filter.Bcj2.

Definition slack (b : sbuf) : Z := zlen (sb_live b) - sb_avail b.
Definition cj_slack (d d' : bdec) : Prop :=
  slack (bd_call d') = slack (bd_call d) /\ slack (bd_jump d') = slack (bd_jump d).

Lemma cj_slack_trans a b c : cj_slack a b -> cj_slack b c -> cj_slack a c.
Proof. intros [H1 H2] [H3 H4]. split; congruence. Qed.

Lemma cj_slack_frame d d' : bd_call d' = bd_call d -> bd_jump d' = bd_jump d -> cj_slack d d'.
Proof. intros Hc Hj. unfold cj_slack. rewrite Hc, Hj. split; reflexivity. Qed.
