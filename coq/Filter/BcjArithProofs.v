(* Filter/BcjArithProofs.v — arithmetic reading of the bit operations used by the BCJ models:
   masks as [mod], shifts as [* 2^k] and [/ 2^k], disjoint [lor] as [+]; byte recombination. *)
From LzVerif Require Import Base.Bytes Filter.Bcj.


Lemma lor_add_low a b k : 0 <= k -> 0 <= b < 2 ^ k -> Z.lor (a * 2 ^ k) b = a * 2 ^ k + b.
Proof.
  intros Hk Hb.
  assert (HL : Z.land (a * 2 ^ k) b = 0).
  { apply Z.bits_inj'; intros n Hn. rewrite Z.land_spec, Z.bits_0.
    destruct (Z.lt_ge_cases n k) as [Hlt|Hge].
    - rewrite Z.mul_pow2_bits_low by lia. reflexivity.
    - rewrite <- (Z.mod_small b (2 ^ k)) by lia.
      rewrite Z.mod_pow2_bits_high by lia. apply andb_false_r. }
  rewrite <- Z.lxor_lor by assumption. symmetry. apply Z.add_nocarry_lxor. assumption.
Qed.

Lemma lor_add_low' a b k : 0 <= k -> 0 <= b < 2 ^ k -> Z.lor b (a * 2 ^ k) = a * 2 ^ k + b.
Proof. intros. rewrite Z.lor_comm. apply lor_add_low; assumption. Qed.

(* x land (2^n - 1) * 2^m : the field of n bits starting at bit m *)
Lemma land_field x n m : 0 <= n -> 0 <= m ->
  Z.land x (Z.ones n * 2 ^ m) = (x / 2 ^ m) mod 2 ^ n * 2 ^ m.
Proof.
  intros Hn Hm. apply Z.bits_inj'; intros k Hk.
  rewrite Z.land_spec.
  destruct (Z.lt_ge_cases k m) as [Hlt|Hge].
  - rewrite !Z.mul_pow2_bits_low by lia. apply andb_false_r.
  - rewrite !Z.mul_pow2_bits by lia.
    destruct (Z.lt_ge_cases (k - m) n) as [Hl2|Hg2].
    + rewrite Z.ones_spec_low by lia. rewrite Z.mod_pow2_bits_low by lia.
      rewrite Z.div_pow2_bits by lia. rewrite andb_true_r. f_equal. lia.
    + rewrite Z.ones_spec_high by lia. rewrite Z.mod_pow2_bits_high by lia. apply andb_false_r.
Qed.

Lemma land_low x n : 0 <= n -> Z.land x (Z.ones n) = x mod 2 ^ n.
Proof. intros. apply Z.land_ones. assumption. Qed.

Lemma s32_range x : -2147483648 <= s32 x < 2147483648.
Proof. unfold s32. (Z.div_mod_to_equations; lia). Qed.
Lemma s32_small x : -2147483648 <= x < 2147483648 -> s32 x = x.
Proof. unfold s32. (Z.div_mod_to_equations; lia). Qed.

(* s32 only depends on its argument modulo 2^32, and is the identity modulo 2^32 *)
Lemma s32_eq_mod x y : x mod 4294967296 = y mod 4294967296 -> s32 x = s32 y.
Proof. intros H. unfold s32. (Z.div_mod_to_equations; lia). Qed.
Lemma s32_mod x : s32 x mod 4294967296 = x mod 4294967296.
Proof. unfold s32. (Z.div_mod_to_equations; lia). Qed.
Lemma s32_add_l a b : s32 (s32 a + b) = s32 (a + b).
Proof. apply s32_eq_mod. rewrite <- Zplus_mod_idemp_l, s32_mod, Zplus_mod_idemp_l. reflexivity. Qed.
Lemma s32_sub_l a b : s32 (s32 a - b) = s32 (a - b).
Proof. apply s32_eq_mod. rewrite <- Zminus_mod_idemp_l, s32_mod, Zminus_mod_idemp_l. reflexivity. Qed.

(* s32 and addsub modulo a divisor of 2^32 *)
Lemma s32_mod_div M y : 0 < M -> 4294967296 mod M = 0 -> s32 y mod M = y mod M.
Proof.
  intros HM Hd. assert (D : (M | 4294967296)) by (apply Z.mod_divide; lia).
  rewrite (Znumtheory.Zmod_div_mod M 4294967296 (s32 y)), s32_mod, <- Znumtheory.Zmod_div_mod by (assumption || lia).
  reflexivity.
Qed.

Lemma addsub_inv_mod M x v p : 0 < M -> 4294967296 mod M = 0 ->
  x mod M = addsub true v p mod M -> addsub false x p mod M = v mod M.
Proof.
  intros HM Hd H. unfold addsub in *. rewrite s32_mod_div in * by assumption.
  rewrite <- Zminus_mod_idemp_l, H, Zminus_mod_idemp_l. f_equal. lia.
Qed.

Lemma u8_range x : 0 <= u8 x < 256.
Proof. unfold u8. (Z.div_mod_to_equations; lia). Qed.
Lemma u8_small x : 0 <= x < 256 -> u8 x = x.
Proof. unfold u8. (Z.div_mod_to_equations; lia). Qed.
Lemma u32_range x : 0 <= u32 x < 4294967296.
Proof. unfold u32. (Z.div_mod_to_equations; lia). Qed.

Definition byte (x : Z) : Prop := 0 <= x < 256.

Lemma bytes_ok_cons x l : bytes_ok (x :: l) = true <-> byte x /\ bytes_ok l = true.
Proof. unfold bytes_ok, byte. cbn [forallb]. rewrite andb_true_iff, is_byte_iff. tauto. Qed.

(* pc32 only depends on pos + i, and modulo 2^32 at that *)
Lemma pc32_mod2 pos i : pc32 pos i mod 2 = (pos + i) mod 2.
Proof. unfold pc32, s32, u64. (Z.div_mod_to_equations; lia). Qed.
Lemma pc32_mod4 pos i : pc32 pos i mod 4 = (pos + i) mod 4.
Proof. unfold pc32, s32, u64. (Z.div_mod_to_equations; lia). Qed.
Lemma pc32_mod16 pos i : pc32 pos i mod 16 = (pos + i) mod 16.
Proof. unfold pc32, s32, u64. (Z.div_mod_to_equations; lia). Qed.

Lemma pc32_shift pos n i : pc32 (u64 (pos + n)) i = pc32 pos (n + i).
Proof.
  unfold pc32, u64. f_equal. rewrite Zplus_mod_idemp_l. f_equal. lia.
Qed.

(* Disjoint lor as +, in the form lia can discharge: one operand is a multiple of 2^k, the other
   is below 2^k. *)
Lemma lor_add_mod a b k : 0 <= k -> a mod 2 ^ k = 0 -> 0 <= b < 2 ^ k -> Z.lor a b = a + b.
Proof.
  intros Hk Ha Hb.
  assert (E : a = a / 2 ^ k * 2 ^ k).
  { pose proof (Z.div_mod a (2 ^ k) ltac:(lia)). lia. }
  rewrite E at 1. rewrite lor_add_low by assumption. lia.
Qed.
Lemma lor_add_mod' a b k : 0 <= k -> a mod 2 ^ k = 0 -> 0 <= b < 2 ^ k -> Z.lor b a = a + b.
Proof. intros. rewrite Z.lor_comm. apply lor_add_mod with k; assumption. Qed.

(* land with a literal mask made of n ones starting at bit m *)
Lemma land_mask x c n m : c = Z.ones n * 2 ^ m -> 0 <= n -> 0 <= m ->
  Z.land x c = (x / 2 ^ m) mod 2 ^ n * 2 ^ m.
Proof. intros -> Hn Hm. apply land_field; assumption. Qed.

(* a mask below 2^k only sees the low k bits *)
Lemma land_mod_low x m k : 0 <= k -> 0 <= m < 2 ^ k -> Z.land x m = Z.land (x mod 2 ^ k) m.
Proof.
  intros Hk Hm. rewrite <- (Z.land_ones x k) by assumption.
  rewrite <- Z.land_assoc. f_equal.
  rewrite Z.land_comm, Z.land_ones by assumption. symmetry. apply Z.mod_small. assumption.
Qed.

(* trailing zeros and width of a contiguous mask, for the tactic below *)
Definition mask_tz (c : Z) : Z := Z.log2 (Z.land c (- c)).
Definition mask_width (c : Z) : Z := Z.log2 (c / 2 ^ mask_tz c) + 1.

Ltac is_pos_cst p :=
  lazymatch p with
  | xH => idtac
  | xO ?q => is_pos_cst q
  | xI ?q => is_pos_cst q
  end.
Ltac is_Z_cst c :=
  lazymatch c with
  | Z0 => idtac
  | Zpos ?p => is_pos_cst p
  | Zneg ?p => is_pos_cst p
  end.

(* comparisons between literals, and a literal on the left of an equation: by evaluation *)
Ltac lit :=
  lazymatch goal with
  | |- ?a <= ?b => is_Z_cst a; is_Z_cst b; intro; discriminate
  | |- ?a < ?b => is_Z_cst a; is_Z_cst b; reflexivity
  | |- ?a = _ => is_Z_cst a; reflexivity
  end.

Lemma land_mask0 x c n : c = Z.ones n -> 0 <= n -> Z.land x c = x mod 2 ^ n.
Proof. intros -> Hn. apply Z.land_ones; assumption. Qed.

(* rewrite every  Z.land x <literal contiguous mask>  into (x / 2^m) mod 2^n * 2^m *)
Ltac land_lit_step :=
  match goal with
  | |- context [Z.land ?x ?c] =>
      is_Z_cst c;
      let m := eval compute in (mask_tz c) in
      let n := eval compute in (mask_width c) in
      let pm := eval compute in (2 ^ m) in
      let pn := eval compute in (2 ^ n) in
      lazymatch m with
      | 0 => rewrite (land_mask0 x c n) by lit; change (2 ^ n) with pn
      | _ => rewrite (land_mask x c n m) by lit;
             change (2 ^ m) with pm; change (2 ^ n) with pn
      end
  end.
Ltac land_lits := repeat land_lit_step.

Ltac shift_lit_step :=
  match goal with
  | |- context [Z.shiftl ?x ?k] =>
      is_Z_cst k; let pk := eval compute in (2 ^ k) in
      rewrite (Z.shiftl_mul_pow2 x k) by lit; change (2 ^ k) with pk
  | |- context [Z.shiftr ?x ?k] =>
      is_Z_cst k; let pk := eval compute in (2 ^ k) in
      rewrite (Z.shiftr_div_pow2 x k) by lit; change (2 ^ k) with pk
  end.
Ltac shift_lits := repeat shift_lit_step.

(* evaluate the powers of two with a literal exponent *)
Ltac pow_lits :=
  repeat match goal with
  | |- context [2 ^ ?e] => let v := eval compute in (2 ^ e) in progress change (2 ^ e) with v
  | H : context [2 ^ ?e] |- _ => let v := eval compute in (2 ^ e) in progress change (2 ^ e) with v in H
  end.
(* turn one  Z.lor a b  into  a + b  using bit position k as the separation; in a nest of lors the
   innermost first, since nothing is known of an operand that is still a lor *)
Ltac not_lor a := lazymatch a with Z.lor _ _ => fail | _ => idtac end.
Ltac lor_plus k :=
  let pk := eval compute in (2 ^ k) in
  match goal with
  | |- context [Z.lor ?a ?b] =>
      not_lor a; not_lor b;
      first [ rewrite (lor_add_mod a b k) by (change (2 ^ k) with pk; first [lit | (Z.div_mod_to_equations; lia)])
            | rewrite (lor_add_mod' b a k) by (change (2 ^ k) with pk; first [lit | (Z.div_mod_to_equations; lia)]) ]
  end.

(* every byte: a boolean property of one byte checked by computation *)
Fixpoint zrange (lo : Z) (n : nat) : list Z :=
  match n with O => [] | S k => lo :: zrange (lo + 1) k end.
Lemma zrange_in lo n x : lo <= x < lo + Z.of_nat n -> In x (zrange lo n).
Proof.
  revert lo; induction n as [|k IH]; intros lo H; [lia|].
  cbn [zrange]. destruct (Z.eq_dec lo x); [left; assumption|right]. apply IH. lia.
Qed.
Lemma byte_sweep (P : Z -> bool) :
  forallb P (zrange 0 256) = true -> forall b, 0 <= b < 256 -> P b = true.
Proof.
  intros H b Hb. rewrite forallb_forall in H. apply H. apply zrange_in. cbn. lia.
Qed.
Lemma byte2_sweep (P : Z -> Z -> bool) :
  forallb (fun a => forallb (P a) (zrange 0 256)) (zrange 0 256) = true ->
  forall a b, 0 <= a < 256 -> 0 <= b < 256 -> P a b = true.
Proof.
  intros H a b Ha Hb. rewrite forallb_forall in H.
  specialize (H a (zrange_in 0 256 a ltac:(cbn; lia))).
  rewrite forallb_forall in H. apply H. apply zrange_in. cbn. lia.
Qed.

(* the four bytes of a word and back *)
Lemma word_bytes_spec d :
  word_bytes d = (d mod 256, (d / 256) mod 256, (d / 65536) mod 256, (d / 16777216) mod 256).
Proof.
  unfold word_bytes. shift_lits. land_lits. unfold u8.
  repeat match goal with |- (_, _) = (_, _) => f_equal end; (Z.div_mod_to_equations; lia).
Qed.

(* disjoint lor as + when one operand lives in the bit field [m, m+n) and the other is zero there *)
Lemma lor_add_field a b m n : 0 <= m -> 0 <= n ->
  (a / 2 ^ m) mod 2 ^ n = 0 -> b mod 2 ^ m = 0 -> 0 <= b < 2 ^ (m + n) -> Z.lor a b = a + b.
Proof.
  intros Hm Hn Ha Hb Hr.
  assert (HL : Z.land a b = 0).
  { apply Z.bits_inj'; intros k Hk. rewrite Z.land_spec, Z.bits_0.
    destruct (Z.lt_ge_cases k m) as [Hlt|Hge].
    - replace b with (b / 2 ^ m * 2 ^ m) by (pose proof (Z.div_mod b (2 ^ m) ltac:(lia)); lia).
      rewrite Z.mul_pow2_bits_low by lia. apply andb_false_r.
    - destruct (Z.lt_ge_cases k (m + n)) as [Hl2|Hg2].
      + assert (E : Z.testbit a k = Z.testbit ((a / 2 ^ m) mod 2 ^ n) (k - m)).
        { rewrite Z.mod_pow2_bits_low by lia. rewrite Z.div_pow2_bits by lia. f_equal. lia. }
        rewrite E, Ha, Z.bits_0. reflexivity.
      + rewrite <- (Z.mod_small b (2 ^ (m + n))) by lia.
        rewrite Z.mod_pow2_bits_high by lia. apply andb_false_r. }
  rewrite <- Z.lxor_lor by assumption. symmetry. apply Z.add_nocarry_lxor. assumption.
Qed.

Ltac lor_field m n :=
  let pm := eval compute in (2 ^ m) in
  let pn := eval compute in (2 ^ n) in
  let pmn := eval compute in (2 ^ (m + n)) in
  match goal with
  | |- context [Z.lor ?a ?b] =>
      not_lor a; not_lor b;
      rewrite (lor_add_field a b m n)
        by (change (2 ^ (m + n)) with pmn; change (2 ^ m) with pm; change (2 ^ n) with pn; first [lit | (Z.div_mod_to_equations; lia)])
  end.

(* the 32-bit word of four bytes, least significant first *)
Definition w4 (b0 b1 b2 b3 : Z) : Z := b0 + 256 * b1 + 65536 * b2 + 16777216 * b3.

Lemma le32_w4 b0 b1 b2 b3 : byte b0 -> byte b1 -> byte b2 -> byte b3 -> le32 b0 b1 b2 b3 = w4 b0 b1 b2 b3.
Proof.
  unfold byte, le32, w4. intros. shift_lits. lor_plus 8. lor_plus 16. lor_plus 24. lia.
Qed.

Lemma w4_range b0 b1 b2 b3 : byte b0 -> byte b1 -> byte b2 -> byte b3 -> 0 <= w4 b0 b1 b2 b3 < 4294967296.
Proof. unfold byte, w4. lia. Qed.

Lemma w4_bytes n : w4 (n mod 256) ((n / 256) mod 256) ((n / 65536) mod 256) ((n / 16777216) mod 256) = n mod 4294967296.
Proof. unfold w4. (Z.div_mod_to_equations; lia). Qed.

Lemma w4_byte0 b0 b1 b2 b3 : byte b0 -> byte b1 -> byte b2 -> byte b3 ->
  w4 b0 b1 b2 b3 mod 256 = b0 /\ (w4 b0 b1 b2 b3 / 256) mod 256 = b1 /\
  (w4 b0 b1 b2 b3 / 65536) mod 256 = b2 /\ (w4 b0 b1 b2 b3 / 16777216) mod 256 = b3.
Proof. unfold byte, w4. intros. repeat split; (Z.div_mod_to_equations; lia). Qed.

(* a field (x / d) mod m only depends on x modulo any multiple of d * m *)
Lemma fld_eqm x y d m M : 0 < d -> 0 < m -> 0 < M -> M mod (d * m) = 0 -> x mod M = y mod M ->
  (x / d) mod m = (y / d) mod m.
Proof.
  intros Hd Hm HM Hdiv H.
  assert (Hdm : 0 < d * m) by (apply Z.mul_pos_pos; assumption).
  assert (D : (d * m | M)) by (apply Z.mod_divide; [apply Z.neq_sym, Z.lt_neq; exact Hdm|exact Hdiv]).
  assert (E : x mod (d * m) = y mod (d * m)).
  { rewrite (Znumtheory.Zmod_div_mod (d * m) M x), (Znumtheory.Zmod_div_mod (d * m) M y), H by assumption.
    reflexivity. }
  assert (Hd0 : d <> 0) by (apply Z.neq_sym, Z.lt_neq; exact Hd).
  rewrite !Z.rem_mul_r in E by assumption.
  assert (E0 : x mod d = y mod d).
  { apply (f_equal (fun z => z mod d)) in E.
    rewrite !(Z.mul_comm d), !Z.mod_add, !Z.mod_mod in E by assumption. exact E. }
  rewrite E0 in E. apply Z.add_reg_l in E. apply Z.mul_reg_l in E; assumption.
Qed.
