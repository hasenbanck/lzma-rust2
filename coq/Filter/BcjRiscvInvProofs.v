(* Filter/BcjRiscvInvProofs.v — the RISC-V filter: its loop as a windowed loop (one-step unfolding,
   shape of a step, the stream facts), and the filter is its own inverse (start offset even).
   * The loop: a step that only moves on (by 2, 4 or 6 bytes) looks at the bytes it steps over and,
     when moving by 6, at the low bits of the byte after them - the only thing later conversions
     can change there is bit 7 of an AUIPC opcode byte - so the decoder repeats it
     ([code_inverse_riscv] from [riscv_step_invertible]).
   * The steps: JAL (the scrambled 21-bit immediate, unpacked, is added to / subtracted from the
     position); AUIPC + an instruction using its rd (packed as "AUIPC x2" + big-endian address) and
     the escape of an AUIPC x0/x2 that looks like a packed pair - each form of the encoder is
     recognised as its counterpart by the decoder and converted back ([riscv_steps_invertible]). *)
From LzVerif Require Import Base.Bytes Filter.Bcj Filter.BcjStream Filter.BcjArithProofs
  Filter.BcjStreamProofs Filter.BcjWinProofs.

Lemma riscv_go_unfold enc pos i b0 b1 b2 b3 b4 b5 b6 b7 t :
  riscv_go enc pos i (b0 :: b1 :: b2 :: b3 :: b4 :: b5 :: b6 :: b7 :: t) =
  match riscv_step enc (pc32 pos i) b0 b1 b2 b3 b4 b5 b6 b7 with
  | RSkip n =>
      if n =? 2 then do r <- riscv_go enc pos (i + 2) (b2 :: b3 :: b4 :: b5 :: b6 :: b7 :: t);
                     let '(o, rest) := r in Ok (b0 :: b1 :: o, rest)
      else if n =? 4 then do r <- riscv_go enc pos (i + 4) (b4 :: b5 :: b6 :: b7 :: t);
                          let '(o, rest) := r in Ok (b0 :: b1 :: b2 :: b3 :: o, rest)
      else if n =? 6 then do r <- riscv_go enc pos (i + 6) (b6 :: b7 :: t);
                          let '(o, rest) := r in Ok (b0 :: b1 :: b2 :: b3 :: b4 :: b5 :: o, rest)
      else Panic 9
  | RJal c1 c2 c3 =>
      do r <- riscv_go enc pos (i + 4) (b4 :: b5 :: b6 :: b7 :: t);
      let '(o, rest) := r in Ok (b0 :: c1 :: c2 :: c3 :: o, rest)
  | RAuipc c0 c1 c2 c3 c4 c5 c6 c7 =>
      do r <- riscv_go enc pos (i + 8) t;
      let '(o, rest) := r in Ok (c0 :: c1 :: c2 :: c3 :: c4 :: c5 :: c6 :: c7 :: o, rest)
  end.
Proof. reflexivity. Qed.

Lemma riscv_go_short enc pos i l : (length l < 8)%nat -> riscv_go enc pos i l = Ok ([], l).
Proof.
  intros H. do 8 (destruct l as [|? l]; [reflexivity|]). cbn [length] in H. lia.
Qed.

(* one step as a function of the 8-byte window *)
Definition riscv_win (enc : bool) (pc : Z) (w : list Z) : outcome (nat * list Z) :=
  match w with
  | [b0; b1; b2; b3; b4; b5; b6; b7] =>
      match riscv_step enc pc b0 b1 b2 b3 b4 b5 b6 b7 with
      | RSkip n =>
          if n =? 2 then Ok (2%nat, [b0; b1])
          else if n =? 4 then Ok (4%nat, [b0; b1; b2; b3])
          else if n =? 6 then Ok (6%nat, [b0; b1; b2; b3; b4; b5])
          else Panic 9
      | RJal c1 c2 c3 => Ok (4%nat, [b0; c1; c2; c3])
      | RAuipc c0 c1 c2 c3 c4 c5 c6 c7 => Ok (8%nat, [c0; c1; c2; c3; c4; c5; c6; c7])
      end
  | _ => Panic 0
  end.

Lemma riscv_go_step enc pos i l : (8 <= length l)%nat ->
  riscv_go enc pos i l =
  (do s <- riscv_win enc (pc32 pos i) (firstn 8 l);
   let '(n, e) := s in
   do r <- riscv_go enc pos (i + Z.of_nat n) (skipn n l);
   let '(o, rest) := r in Ok (e ++ o, rest)).
Proof.
  intros H. do 8 (destruct l as [|? l]; [cbn [length] in H; lia|]).
  rewrite riscv_go_unfold. cbn [firstn riscv_win].
  destruct (riscv_step enc (pc32 pos i) z z0 z1 z2 z3 z4 z5 z6) as [n|c1 c2 c3|c0 c1 c2 c3 c4 c5 c6 c7].
  - destruct (n =? 2); [reflexivity|]. destruct (n =? 4); [reflexivity|]. destruct (n =? 6); reflexivity.
  - reflexivity.
  - reflexivity.
Qed.

(* what a step can answer *)
Lemma riscv_step_shape enc pc b0 b1 b2 b3 b4 b5 b6 b7 :
  match riscv_step enc pc b0 b1 b2 b3 b4 b5 b6 b7 with
  | RSkip n => n = 2 \/ n = 4 \/ n = 6
  | RJal c1 c2 c3 => byte c1 /\ byte c2 /\ byte c3
  | RAuipc c0 c1 c2 c3 c4 c5 c6 c7 =>
      byte c0 /\ byte c1 /\ byte c2 /\ byte c3 /\ byte c4 /\ byte c5 /\ byte c6 /\ byte c7
  end.
Proof.
  unfold riscv_step. cbv zeta.
  repeat match goal with |- context [if ?c then _ else _] => destruct c end;
    try (left; reflexivity); try (right; left; reflexivity); try (right; right; reflexivity);
    unfold byte; repeat split; apply u8_range.
Qed.

Lemma riscv_win_ok enc pc w : length w = 8%nat -> bytes_ok w = true ->
  exists n e, riscv_win enc pc w = Ok (n, e) /\ (1 <= n <= 8)%nat /\ length e = n /\ bytes_ok e = true.
Proof.
  intros Hl Hb. do 8 (destruct w as [|? w]; [cbn [length] in Hl; lia|]).
  destruct w; [|cbn [length] in Hl; lia]. clear Hl.
  repeat (apply bytes_ok_cons in Hb; let H := fresh "B" in destruct Hb as [H Hb]).
  cbn [riscv_win].
  pose proof (riscv_step_shape enc pc z z0 z1 z2 z3 z4 z5 z6) as Hs.
  destruct (riscv_step enc pc z z0 z1 z2 z3 z4 z5 z6) as [n|c1 c2 c3|c0 c1 c2 c3 c4 c5 c6 c7].
  - destruct Hs as [-> | [-> | ->]]; cbn [Z.eqb Pos.eqb]; eexists _, _; (split; [reflexivity|]);
      (split; [lia|]); (split; [reflexivity|]);
      repeat (apply bytes_ok_cons; split; [assumption|]); reflexivity.
  - destruct Hs as (C1 & C2 & C3). eexists _, _. split; [reflexivity|]. split; [lia|]. split; [reflexivity|].
    repeat (apply bytes_ok_cons; split; [assumption|]); reflexivity.
  - destruct Hs as (C0 & C1 & C2 & C3 & C4 & C5 & C6 & C7).
    eexists _, _. split; [reflexivity|]. split; [lia|]. split; [reflexivity|].
    repeat (apply bytes_ok_cons; split; [assumption|]); reflexivity.
Qed.

Lemma riscv_code enc st buf : bcj_code RISCV enc st buf = out_code (riscv_go enc) st buf.
Proof. reflexivity. Qed.

Lemma code_facts_riscv enc : code_facts RISCV enc.
Proof.
  exact (win_code_facts 8 ltac:(lia) riscv_win riscv_go riscv_go_short riscv_go_step riscv_win_ok RISCV riscv_code enc).
Qed.

(* What the loop-level inverse needs from one step, for an even position pc and a window of bytes:
   - a step that only moves on (by n = 2, 4, 6) is repeated by the decoder whatever the later
     conversions did to the bytes behind those it stepped over, provided byte 6 keeps its low 7 bits
     when n = 6;
   - a converted JAL / AUIPC pair is converted back. *)
Definition riscv_step_invertible : Prop :=
  forall pc b0 b1 b2 b3 b4 b5 b6 b7, pc mod 2 = 0 ->
    byte b0 -> byte b1 -> byte b2 -> byte b3 -> byte b4 -> byte b5 -> byte b6 -> byte b7 ->
    match riscv_step true pc b0 b1 b2 b3 b4 b5 b6 b7 with
    | RSkip n =>
        forall y2 y3 y4 y5 y6 y7, byte y2 -> byte y3 -> byte y4 -> byte y5 -> byte y6 -> byte y7 ->
          (2 < n -> y2 = b2 /\ y3 = b3) -> (4 < n -> y4 = b4 /\ y5 = b5 /\ y6 mod 128 = b6 mod 128) ->
          riscv_step false pc b0 b1 y2 y3 y4 y5 y6 y7 = RSkip n
    | RJal c1 c2 c3 =>
        forall y4 y5 y6 y7, riscv_step false pc b0 c1 c2 c3 y4 y5 y6 y7 = RJal b1 b2 b3
    | RAuipc c0 c1 c2 c3 c4 c5 c6 c7 =>
        riscv_step false pc c0 c1 c2 c3 c4 c5 c6 c7 = RAuipc b0 b1 b2 b3 b4 b5 b6 b7
    end.

Lemma lor_mod_pow2 a b k : 0 <= k -> Z.lor a b mod 2 ^ k = Z.lor (a mod 2 ^ k) (b mod 2 ^ k).
Proof. intros Hk. rewrite <- !Z.land_ones by assumption. apply Z.land_lor_distr_l. Qed.

Lemma new_full_low7 A B : A mod 128 = 0 -> B mod 128 = 0 -> u8 (Z.lor (Z.lor 23 A) B) mod 128 = 23.
Proof.
  intros HA HB. unfold u8.
  replace (Z.lor (Z.lor 23 A) B mod 256 mod 128) with (Z.lor (Z.lor 23 A) B mod 2 ^ 7) by (change (2 ^ 7) with 128; (Z.div_mod_to_equations; lia)).
  rewrite !lor_mod_pow2 by lia. change (2 ^ 7) with 128. rewrite HA, HB. reflexivity.
Qed.

(* the first byte a step emits keeps the low seven bits of the byte it looked at *)
Lemma riscv_step_first enc pc b0 b1 b2 b3 b4 b5 b6 b7 : byte b0 ->
  match riscv_step enc pc b0 b1 b2 b3 b4 b5 b6 b7 with
  | RAuipc c0 _ _ _ _ _ _ _ => c0 mod 128 = b0 mod 128
  | _ => True
  end.
Proof.
  intros H0. unfold riscv_step. cbv zeta.
  destruct (b0 =? 239); [destruct (negb _); [exact I|destruct enc; exact I]|].
  destruct (Z.land b0 127 =? 23) eqn:E17; [|exact I].
  apply Z.eqb_eq in E17. revert E17. land_lits. intros E17. rewrite E17.
  repeat match goal with |- context [if ?c then _ else _] => destruct c end; try exact I;
    apply new_full_low7; shift_lits; unfold u32; try (Z.div_mod_to_equations; lia).
  all: land_lits; lia.
Qed.

(* the first byte of what the loop returns keeps its low seven bits *)
Lemma riscv_go_hd enc pos i o r x0 t : riscv_go enc pos i (x0 :: t) = Ok (o, r) -> byte x0 ->
  exists y0 t', o ++ r = y0 :: t' /\ y0 mod 128 = x0 mod 128.
Proof.
  intros Hgo Hx0.
  destruct (Nat.lt_ge_cases (length (x0 :: t)) 8) as [Hs|Hs].
  - rewrite riscv_go_short in Hgo by assumption. injection Hgo as <- <-. exists x0, t. auto.
  - destruct t as [|b1 [|b2 [|b3 [|b4 [|b5 [|b6 [|b7 t]]]]]]]; try (cbn [length] in Hs; lia).
    rewrite riscv_go_unfold in Hgo.
    pose proof (riscv_step_first enc (pc32 pos i) x0 b1 b2 b3 b4 b5 b6 b7 Hx0) as Hf.
    destruct (riscv_step enc (pc32 pos i) x0 b1 b2 b3 b4 b5 b6 b7) as [n|c1 c2 c3|c0 c1 c2 c3 c4 c5 c6 c7].
    + destruct (n =? 2).
      { destruct (riscv_go enc pos (i + 2) _) as [[o' r']| | |]; cbn [obind] in Hgo; try discriminate.
        injection Hgo as <- <-. eexists _, _. split; [reflexivity|reflexivity]. }
      destruct (n =? 4).
      { destruct (riscv_go enc pos (i + 4) _) as [[o' r']| | |]; cbn [obind] in Hgo; try discriminate.
        injection Hgo as <- <-. eexists _, _. split; [reflexivity|reflexivity]. }
      destruct (n =? 6); [|discriminate].
      destruct (riscv_go enc pos (i + 6) _) as [[o' r']| | |]; cbn [obind] in Hgo; try discriminate.
      injection Hgo as <- <-. eexists _, _. split; [reflexivity|reflexivity].
    + destruct (riscv_go enc pos (i + 4) _) as [[o' r']| | |]; cbn [obind] in Hgo; try discriminate.
      injection Hgo as <- <-. eexists _, _. split; [reflexivity|reflexivity].
    + destruct (riscv_go enc pos (i + 8) _) as [[o' r']| | |]; cbn [obind] in Hgo; try discriminate.
      injection Hgo as <- <-. eexists _, _. split; [reflexivity|exact Hf].
Qed.

(* the 21-bit JAL immediate from its six fields, and the fields back; the fields are variables of
   their own: over nested quotients of the bytes the same facts cost lia fifteen times as much *)
Definition jal_word (p q r s t u : Z) : Z := p * 2 + q * 16 + r * 2048 + s * 4096 + t * 65536 + u * 1048576.

Lemma jal_fields p q r s t u : 0 <= p < 8 -> 0 <= q < 128 -> 0 <= r < 2 -> 0 <= s < 16 -> 0 <= t < 16 -> 0 <= u < 2 ->
  let x := jal_word p q r s t u in
  0 <= x < 2097152 /\ x mod 2 = 0 /\
  (x / 4096) mod 16 = s /\ (x / 65536) mod 16 = t /\ (x / 2048) mod 2 = r /\
  (x / 2) mod 8 = p /\ (x / 16) mod 128 = q /\ (x / 1048576) mod 2 = u.
Proof. unfold jal_word. intros. cbv zeta. repeat split; (Z.div_mod_to_equations; lia). Qed.

Definition jal_addr (b1 b2 b3 : Z) : Z :=
  jal_word (b2 / 32) (b3 mod 128) ((b2 / 16) mod 2) (b1 / 16) (b2 mod 16) (b3 / 128).

Lemma jal_enc_spec pc b1 b2 b3 b4 b5 b6 b7 : byte b1 -> byte b2 -> byte b3 -> Z.land b1 13 = 0 ->
  riscv_step true pc 239 b1 b2 b3 b4 b5 b6 b7 =
  let a := s32 (jal_addr b1 b2 b3 + pc) in
  RJal (b1 mod 16 + (a / 131072) mod 16 * 16) ((a / 512) mod 256) ((a / 2) mod 256).
Proof.
  unfold byte. intros H1 H2 H3 Hd. unfold riscv_step. cbv zeta.
  change (239 =? 239) with true. cbv iota. rewrite Hd. cbn [Z.eqb negb].
  shift_lits. land_lits.
  lor_field 4 4. lor_field 16 4. lor_field 11 1. lor_field 1 3. lor_field 4 7. lor_field 20 1.
  assert (Ea : b1 / 16 mod 16 * 16 * 256 + b2 mod 16 * 65536 + b2 / 16 mod 2 * 16 * 128 + b2 / 32 mod 8 * 32 / 16 +
               b3 mod 128 * 16 + b3 / 128 mod 2 * 128 * 8192 = jal_addr b1 b2 b3) by (unfold jal_addr, jal_word; (Z.div_mod_to_equations; lia)).
  rewrite Ea. assert (Hj : 0 <= jal_addr b1 b2 b3 < 2097152) by (unfold jal_addr, jal_word; (Z.div_mod_to_equations; lia)).
  rewrite (s32_small (jal_addr b1 b2 b3)) by lia.
  set (a := s32 (jal_addr b1 b2 b3 + pc)). clearbody a. clear. unfold u32, u8. f_equal; (Z.div_mod_to_equations; lia).
Qed.

Lemma jal_dec_spec pc c1 c2 c3 y4 y5 y6 y7 : byte c1 -> byte c2 -> byte c3 -> Z.land c1 13 = 0 ->
  riscv_step false pc 239 c1 c2 c3 y4 y5 y6 y7 =
  let a := s32 (c1 / 16 * 131072 + c2 * 512 + c3 * 2 - pc) in
  RJal (c1 mod 16 + (a / 4096) mod 16 * 16)
       ((a / 65536) mod 16 + (a / 2048) mod 2 * 16 + (a / 2) mod 8 * 32)
       ((a / 16) mod 128 + (a / 1048576) mod 2 * 128).
Proof.
  unfold byte. intros H1 H2 H3 Hd. unfold riscv_step. cbv zeta.
  change (239 =? 239) with true. cbv iota. rewrite Hd. cbn [Z.eqb negb].
  shift_lits. land_lits.
  lor_field 9 8. lor_field 1 8.
  assert (Ea : c1 / 16 mod 16 * 16 * 8192 + c2 * 512 + c3 * 2 = c1 / 16 * 131072 + c2 * 512 + c3 * 2) by (Z.div_mod_to_equations; lia).
  rewrite Ea.
  rewrite (s32_small (c1 / 16 * 131072 + c2 * 512 + c3 * 2)) by (Z.div_mod_to_equations; lia).
  set (a := s32 (c1 / 16 * 131072 + c2 * 512 + c3 * 2 - pc)).
  assert (Ha : -2147483648 <= a < 2147483648) by (unfold a; apply s32_range).
  clearbody a. unfold u32.
  assert (E4 : s32 (a * 16) / 32 mod 8 * 32 = (a / 2) mod 8 * 32) by (unfold s32; (Z.div_mod_to_equations; lia)).
  rewrite E4.
  lor_field 4 4. lor_field 4 1. lor_field 5 3. lor_field 7 1.
  unfold u8. f_equal; (Z.div_mod_to_equations; lia).
Qed.

(* the three bytes that carry an even 21-bit address, beside the low nibble l of the first *)
Lemma jal_bytes a l : 0 <= l < 16 -> a mod 2 = 0 ->
  let c1 := l + (a / 131072) mod 16 * 16 in let c2 := (a / 512) mod 256 in let c3 := (a / 2) mod 256 in
  byte c1 /\ byte c2 /\ byte c3 /\ c1 mod 16 = l /\ c1 / 16 * 131072 + c2 * 512 + c3 * 2 = a mod 2097152.
Proof. unfold byte. intros Hl Ha. cbv zeta. repeat split; (Z.div_mod_to_equations; lia). Qed.

Lemma jal_inverse pc b1 b2 b3 : pc mod 2 = 0 -> byte b1 -> byte b2 -> byte b3 ->
  let a := s32 (jal_addr b1 b2 b3 + pc) in
  let c1 := b1 mod 16 + (a / 131072) mod 16 * 16 in
  let c2 := (a / 512) mod 256 in
  let c3 := (a / 2) mod 256 in
  let a' := s32 (c1 / 16 * 131072 + c2 * 512 + c3 * 2 - pc) in
  byte c1 /\ byte c2 /\ byte c3 /\ c1 mod 16 = b1 mod 16 /\
  c1 mod 16 + (a' / 4096) mod 16 * 16 = b1 /\
  (a' / 65536) mod 16 + (a' / 2048) mod 2 * 16 + (a' / 2) mod 8 * 32 = b2 /\
  (a' / 16) mod 128 + (a' / 1048576) mod 2 * 128 = b3.
Proof.
  intros Hp H1 H2 H3. cbv zeta.
  unfold byte in H1, H2, H3.
  destruct (jal_fields (b2 / 32) (b3 mod 128) ((b2 / 16) mod 2) (b1 / 16) (b2 mod 16) (b3 / 128))
    as (Hx & Hx2 & F1 & F2 & F3 & F4 & F5 & F6); [(Z.div_mod_to_equations; lia)|(Z.div_mod_to_equations; lia)|(Z.div_mod_to_equations; lia)|(Z.div_mod_to_equations; lia)|(Z.div_mod_to_equations; lia)|(Z.div_mod_to_equations; lia)|].
  fold (jal_addr b1 b2 b3) in *.
  set (x := jal_addr b1 b2 b3) in *. set (a := s32 (x + pc)).
  assert (Ha : a mod 2 = 0).
  { unfold a. rewrite (s32_mod_div 2) by reflexivity. rewrite <- Zplus_mod_idemp_l, Hx2, Z.add_0_l. exact Hp. }
  destruct (jal_bytes a (b1 mod 16) (Z.mod_pos_bound b1 16 eq_refl) Ha) as (C1 & C2 & C3 & El & Ec).
  rewrite Ec, El.
  assert (Ea' : s32 (a mod 2097152 - pc) mod 2097152 = x mod 2097152).
  { change (addsub false (a mod 2097152) pc mod 2097152 = x mod 2097152).
    apply addsub_inv_mod; [reflexivity|reflexivity|]. apply Z.mod_mod. discriminate. }
  set (a' := s32 (a mod 2097152 - pc)) in *.
  rewrite (fld_eqm a' x 4096 16 2097152), (fld_eqm a' x 65536 16 2097152), (fld_eqm a' x 2048 2 2097152),
    (fld_eqm a' x 2 8 2097152), (fld_eqm a' x 16 128 2097152), (fld_eqm a' x 1048576 2 2097152) by (reflexivity || exact Ea').
  rewrite F1, F2, F3, F4, F5, F6.
  split; [exact C1|]. split; [exact C2|]. split; [exact C3|]. split; [reflexivity|].
  clear -H1 H2 H3. repeat split; (Z.div_mod_to_equations; lia).
Qed.

Lemma land_shifted_mask x m k : 0 <= k -> Z.land x (m * 2 ^ k) = Z.land (x / 2 ^ k) m * 2 ^ k.
Proof.
  intros Hk. apply Z.bits_inj'; intros n Hn. rewrite Z.land_spec.
  destruct (Z.lt_ge_cases n k).
  - rewrite !Z.mul_pow2_bits_low by lia. apply andb_false_r.
  - rewrite !Z.mul_pow2_bits by lia. rewrite Z.land_spec, Z.div_pow2_bits by lia. f_equal. f_equal. lia.
Qed.

Lemma zrange32_sweep (P : Z -> bool) : forallb P (zrange 0 32) = true -> forall r, 0 <= r < 32 -> P r = true.
Proof. intros H r Hr. rewrite forallb_forall in H. apply H. apply zrange_in. cbn. lia. Qed.

(* rd of the AUIPC: bits 7..11 *)
Definition rv_rd (inst : Z) : Z := (inst / 128) mod 32.
Definition rd_special (rd : Z) : bool := (rd =? 0) || (rd =? 2).

Lemma land_1D r : 0 <= r < 32 -> (Z.land r 29 =? 0) = rd_special r.
Proof.
  intros Hr. apply (zrange32_sweep (fun r => Bool.eqb (Z.land r 29 =? 0) (rd_special r))) in Hr.
  - apply Bool.eqb_prop. exact Hr.
  - vm_compute. reflexivity.
Qed.

Lemma land_E80 x : 0 <= x -> (Z.land x 3712 =? 0) = rd_special (rv_rd x).
Proof.
  intros Hx. change 3712 with (29 * 2 ^ 7). rewrite land_shifted_mask by lia.
  rewrite (land_mod_low (x / 2 ^ 7) 29 5) by lia. change (2 ^ 7) with 128. change (2 ^ 5) with 32.
  fold (rv_rd x). rewrite <- land_1D by (unfold rv_rd; (Z.div_mod_to_equations; lia)).
  apply eq_true_iff_eq. rewrite !Z.eqb_eq.
  pose proof (Z.land_nonneg (rv_rd x) 29). lia.
Qed.

Lemma land_split x m1 m2 : Z.land m1 m2 = 0 -> Z.land x (m1 + m2) = Z.land x m1 + Z.land x m2.
Proof.
  intros H.
  assert (E : m1 + m2 = Z.lor m1 m2) by (rewrite <- Z.lxor_lor by assumption; apply Z.add_nocarry_lxor; assumption).
  rewrite E, Z.land_lor_distr_r.
  assert (H2 : Z.land (Z.land x m1) (Z.land x m2) = 0).
  { apply Z.bits_inj'; intros n Hn. rewrite !Z.land_spec, Z.bits_0.
    assert (Hb : Z.testbit (Z.land m1 m2) n = false) by (rewrite H; apply Z.bits_0).
    rewrite Z.land_spec in Hb. destruct (Z.testbit x n), (Z.testbit m1 n), (Z.testbit m2 n); auto. }
  rewrite <- Z.lxor_lor by assumption. symmetry. apply Z.add_nocarry_lxor. assumption.
Qed.

Lemma rv_check_sweep rd r2 b : 0 <= rd < 32 -> 0 <= r2 < 32 -> 0 <= b < 4 ->
  (Z.lxor (rd * 32768) (b + r2 * 32768) =? 3) = (b =? 3) && (r2 =? rd).
Proof.
  intros H1 H2 H3.
  assert (H : forallb (fun rd => forallb (fun r2 => forallb (fun b =>
              Bool.eqb (Z.lxor (rd * 32768) (b + r2 * 32768) =? 3) ((b =? 3) && (r2 =? rd)))
              (zrange 0 4)) (zrange 0 32)) (zrange 0 32) = true) by (vm_compute; reflexivity).
  rewrite forallb_forall in H. specialize (H rd (zrange_in 0 32 rd ltac:(cbn; lia))).
  rewrite forallb_forall in H. specialize (H r2 (zrange_in 0 32 r2 ltac:(cbn; lia))).
  rewrite forallb_forall in H. specialize (H b (zrange_in 0 4 b ltac:(cbn; lia))).
  apply Bool.eqb_prop. exact H.
Qed.

Lemma land_lxor_l a b c : Z.land (Z.lxor a b) c = Z.lxor (Z.land a c) (Z.land b c).
Proof.
  apply Z.bits_inj'; intros n Hn. rewrite !Z.land_spec, !Z.lxor_spec, !Z.land_spec.
  destruct (Z.testbit a n), (Z.testbit b n), (Z.testbit c n); reflexivity.
Qed.

Lemma rv_check inst inst2 : 0 <= inst < 4294967296 -> 0 <= inst2 < 4294967296 ->
  (Z.land (Z.lxor (u32 (Z.shiftl inst 8)) inst2) 1015811 =? 3) =
  (inst2 mod 4 =? 3) && ((inst2 / 32768) mod 32 =? rv_rd inst).
Proof.
  intros H1 H2. rewrite land_lxor_l.
  set (A := u32 (Z.shiftl inst 8)).
  change 1015811 with (3 + 31 * 2 ^ 15).
  rewrite (land_split A 3 (31 * 2 ^ 15)) by reflexivity.
  rewrite (land_split inst2 3 (31 * 2 ^ 15)) by reflexivity.
  rewrite (land_shifted_mask A 31 15) by lia. rewrite (land_shifted_mask inst2 31 15) by lia.
  rewrite (land_mod_low (A / 2 ^ 15) 31 5) by lia. rewrite (land_mod_low (inst2 / 2 ^ 15) 31 5) by lia.
  assert (L31 : forall x, 0 <= x < 32 -> Z.land x 31 = x).
  { intros x Hx. change 31 with (Z.ones 5). rewrite Z.land_ones by lia. apply Z.mod_small. exact Hx. }
  assert (L3 : forall x, Z.land x 3 = x mod 4).
  { intros x. change 3 with (Z.ones 2). rewrite Z.land_ones by lia. reflexivity. }
  change (2 ^ 15) with 32768. change (2 ^ 5) with 32.
  rewrite (L31 ((A / 32768) mod 32)) by (Z.div_mod_to_equations; lia). rewrite (L31 ((inst2 / 32768) mod 32)) by (Z.div_mod_to_equations; lia).
  rewrite !L3.
  assert (E1 : A mod 4 = 0) by (unfold A, u32; rewrite Z.shiftl_mul_pow2 by lia; change (2 ^ 8) with 256; (Z.div_mod_to_equations; lia)).
  assert (E2 : (A / 32768) mod 32 = rv_rd inst)
    by (unfold A, u32, rv_rd; rewrite Z.shiftl_mul_pow2 by lia; change (2 ^ 8) with 256; (Z.div_mod_to_equations; lia)).
  rewrite E1, E2, Z.add_0_l.
  apply rv_check_sweep; unfold rv_rd; (Z.div_mod_to_equations; lia).
Qed.

Lemma land_1D_small r : 0 <= r < 32 -> 0 <= Z.land r 29 < 128.
Proof.
  intros Hr. apply (zrange32_sweep (fun r => (0 <=? Z.land r 29) && (Z.land r 29 <? 128))) in Hr.
  - apply andb_true_iff in Hr. destruct Hr as [Ha Hb]. apply Z.leb_le in Ha. apply Z.ltb_lt in Hb. lia.
  - vm_compute. reflexivity.
Qed.

(* the test of the rd = x0/x2 branch *)
Definition rv_fake_field (inst : Z) : Z := (u32 (inst - 12544) / 128) mod 128.
Lemma rv_fake_cond inst : 0 <= inst < 4294967296 ->
  (Z.land (u32 (inst - 12544)) 16256 >=? Z.land (Z.shiftr inst 27) 29) =
  negb (rv_fake_field inst =? 0) || rd_special (inst / 134217728).
Proof.
  intros Hi. rewrite Z.shiftr_div_pow2 by lia. change (2 ^ 27) with 134217728.
  set (r := inst / 134217728). assert (Hr : 0 <= r < 32) by (unfold r; (Z.div_mod_to_equations; lia)).
  rewrite <- (land_1D r Hr). pose proof (land_1D_small r Hr) as Hs.
  set (x := Z.land r 29) in *.
  land_lits. fold (rv_fake_field inst). set (f := rv_fake_field inst).
  assert (Hf : 0 <= f < 128) by (unfold f, rv_fake_field; (Z.div_mod_to_equations; lia)).
  apply eq_true_iff_eq. rewrite orb_true_iff, negb_true_iff, Z.geb_le, Z.eqb_neq, Z.eqb_eq. lia.
Qed.

Definition lebytes (v : Z) : Z * Z * Z * Z := (v mod 256, (v / 256) mod 256, (v / 65536) mod 256, (v / 16777216) mod 256).

Definition auipc_packed (inst2 : Z) : Z := 279 + inst2 mod 1048576 * 4096.

Definition rv_pair (n m : Z) : riscv_act :=
  RAuipc (n mod 256) ((n / 256) mod 256) ((n / 65536) mod 256) ((n / 16777216) mod 256)
         (m mod 256) ((m / 256) mod 256) ((m / 65536) mod 256) ((m / 16777216) mod 256).

Definition bswap32 (a : Z) : Z := w4 ((a / 16777216) mod 256) ((a / 65536) mod 256) ((a / 256) mod 256) (a mod 256).

Lemma bswap32_w4 b0 b1 b2 b3 : byte b0 -> byte b1 -> byte b2 -> byte b3 ->
  bswap32 (w4 b0 b1 b2 b3) = w4 b3 b2 b1 b0.
Proof.
  intros H0 H1 H2 H3. unfold bswap32.
  destruct (w4_byte0 b0 b1 b2 b3 H0 H1 H2 H3) as (-> & -> & -> & ->). reflexivity.
Qed.

Lemma bswap32_invol a : bswap32 (bswap32 a) = a mod 4294967296.
Proof.
  unfold bswap32 at 2. rewrite bswap32_w4 by (unfold byte; (Z.div_mod_to_equations; lia)). apply w4_bytes.
Qed.

Lemma bswap32_range a : 0 <= bswap32 a < 4294967296.
Proof. unfold bswap32, w4. (Z.div_mod_to_equations; lia). Qed.

Lemma rv_pair_mod n m n' m' : n mod 4294967296 = n' mod 4294967296 -> m mod 4294967296 = m' mod 4294967296 ->
  rv_pair n m = rv_pair n' m'.
Proof. intros Hn Hm. unfold rv_pair. f_equal; (Z.div_mod_to_equations; lia). Qed.

Lemma rv_pair_w4 b0 b1 b2 b3 b4 b5 b6 b7 :
  byte b0 -> byte b1 -> byte b2 -> byte b3 -> byte b4 -> byte b5 -> byte b6 -> byte b7 ->
  rv_pair (w4 b0 b1 b2 b3) (w4 b4 b5 b6 b7) = RAuipc b0 b1 b2 b3 b4 b5 b6 b7.
Proof. unfold byte, rv_pair, w4. intros. f_equal; (Z.div_mod_to_equations; lia). Qed.

(* one step at an AUIPC, on the two instruction words *)
Definition auipc_step (enc : bool) (pc inst inst2 : Z) : riscv_act :=
  if rd_special (rv_rd inst) then
    if negb (rv_fake_field inst =? 0) || rd_special (inst / 134217728) then RSkip 4
    else if enc then
      rv_pair (23 + inst / 134217728 * 128 + inst2 / 4096 * 4096) (inst / 4096 + inst2 mod 4096 * 1048576)
    else
      let a := s32 (s32 (bswap32 inst2) - pc) in
      rv_pair (23 + inst / 134217728 * 128 + u32 (s32 (a + 2048)) / 4096 * 4096) (inst / 4096 + a mod 4096 * 1048576)
  else if (inst2 mod 4 =? 3) && ((inst2 / 32768) mod 32 =? rv_rd inst) then
    if enc then
      rv_pair (auipc_packed inst2) (bswap32 (s32 (s32 (s32 (inst / 4096 * 4096) + s32 inst2 / 1048576) + pc)))
    else rv_pair (auipc_packed inst2) (s32 (s32 (inst / 4096 * 4096) + inst2 / 1048576))
  else RSkip 6.

(* an AUIPC x0/x2 that the decoder would take for a packed pair has inst mod 2^14 = 0x3117 *)
Lemma rv_fake_field_0 inst : 0 <= inst < 4294967296 -> inst mod 128 = 23 -> rv_fake_field inst = 0 ->
  inst mod 16384 = 12567.
Proof. unfold rv_fake_field, u32. intros Hi H7 Hf. (Z.div_mod_to_equations; lia). Qed.

Lemma auipc_fake_inverse pc inst inst2 :
  0 <= inst < 4294967296 -> 0 <= inst2 < 4294967296 -> inst mod 128 = 23 ->
  rv_fake_field inst = 0 -> rd_special (inst / 134217728) = false ->
  auipc_step false pc (23 + inst / 134217728 * 128 + inst2 / 4096 * 4096) (inst / 4096 + inst2 mod 4096 * 1048576) =
  rv_pair inst inst2.
Proof.
  intros Hi Hi2 H7 Hf Hr. pose proof (rv_fake_field_0 inst Hi H7 Hf) as H14.
  set (rs := inst / 134217728) in *. assert (Hrs : 0 <= rs < 32) by (unfold rs; (Z.div_mod_to_equations; lia)).
  set (n := 23 + rs * 128 + inst2 / 4096 * 4096). set (i2 := inst / 4096 + inst2 mod 4096 * 1048576).
  assert (Hrd : rv_rd n = rs) by (unfold rv_rd, n; (Z.div_mod_to_equations; lia)).
  assert (Ec : i2 mod 4 = 3 /\ (i2 / 32768) mod 32 = rs) by (unfold i2, rs; (Z.div_mod_to_equations; lia)).
  unfold auipc_step. rewrite Hrd, Hr. destruct Ec as [-> ->]. rewrite !Z.eqb_refl. cbn [andb].
  apply rv_pair_mod.
  - unfold auipc_packed, i2. (Z.div_mod_to_equations; lia).
  - rewrite s32_add_l, s32_mod. unfold n, i2. (Z.div_mod_to_equations; lia).
Qed.

Lemma auipc_real_inverse pc inst inst2 :
  0 <= inst < 4294967296 -> 0 <= inst2 < 4294967296 -> inst mod 128 = 23 ->
  rd_special (rv_rd inst) = false -> inst2 mod 4 = 3 -> (inst2 / 32768) mod 32 = rv_rd inst ->
  auipc_step false pc (auipc_packed inst2)
    (bswap32 (s32 (s32 (s32 (inst / 4096 * 4096) + s32 inst2 / 1048576) + pc))) =
  rv_pair inst inst2.
Proof.
  intros Hi Hi2 H7 Hrd Hc1 Hc2.
  set (n := auipc_packed inst2).
  assert (Hn : rv_rd n = 2 /\ rv_fake_field n = 0 /\ n / 134217728 = rv_rd inst)
    by (unfold n, auipc_packed, rv_fake_field, u32, rv_rd in *; (Z.div_mod_to_equations; lia)).
  destruct Hn as (Hn1 & Hn2 & Hn3).
  unfold auipc_step. rewrite Hn1, Hn2, Hn3, Hrd. cbn [rd_special Z.eqb Pos.eqb orb negb].
  cbv zeta. rewrite bswap32_invol.
  set (L := s32 inst2 / 1048576). assert (HL : -2048 <= L < 2048 /\ L mod 4096 = inst2 / 1048576) by (unfold L, s32; (Z.div_mod_to_equations; lia)).
  set (U := inst / 4096 * 4096).
  rewrite (s32_add_l U L).
  assert (Ea : s32 (s32 (s32 (s32 (U + L) + pc) mod 4294967296) - pc) = s32 (U + L)).
  { rewrite s32_sub_l. apply s32_eq_mod.
    rewrite <- Zminus_mod_idemp_l, Z.mod_mod, s32_mod, Zminus_mod_idemp_l by lia.
    replace (s32 (U + L) + pc - pc) with (s32 (U + L)) by lia. apply s32_mod. }
  rewrite Ea. apply rv_pair_mod.
  - unfold u32. rewrite s32_add_l, s32_mod.
    unfold U, rv_rd in *. (Z.div_mod_to_equations; lia).
  - unfold n, auipc_packed. 
    assert (Em : s32 (U + L) mod 4096 = inst2 / 1048576).
    { replace 4294967296 with (4096 * 1048576) in * by reflexivity. unfold s32, U. (Z.div_mod_to_equations; lia). }
    rewrite Em. (Z.div_mod_to_equations; lia).
Qed.

Lemma rv_pair_u8 n m :
  RAuipc (u8 n) (u8 (Z.shiftr n 8)) (u8 (Z.shiftr n 16)) (u8 (Z.shiftr n 24))
         (u8 m) (u8 (Z.shiftr m 8)) (u8 (Z.shiftr m 16)) (u8 (Z.shiftr m 24)) = rv_pair n m.
Proof. shift_lits. reflexivity. Qed.

Lemma rv_pair_u8_be n a :
  RAuipc (u8 n) (u8 (Z.shiftr n 8)) (u8 (Z.shiftr n 16)) (u8 (Z.shiftr n 24))
         (u8 (Z.shiftr a 24)) (u8 (Z.shiftr a 16)) (u8 (Z.shiftr a 8)) (u8 a) = rv_pair n (bswap32 a).
Proof.
  shift_lits. unfold u8, rv_pair, bswap32.
  destruct (w4_byte0 ((a / 16777216) mod 256) ((a / 65536) mod 256) ((a / 256) mod 256) (a mod 256))
    as (-> & -> & -> & ->); unfold byte; try (Z.div_mod_to_equations; lia). reflexivity.
Qed.

(* the word AUIPC rd, imm20 and the pair word: disjoint fields *)
Lemma auipc_word_lor q X : 0 <= q < 32 -> Z.lor (Z.lor 23 (q * 128)) (X * 4096) = 23 + q * 128 + X * 4096.
Proof.
  intros Hq. rewrite (lor_add_mod' (q * 128) 23 7) by (change (2 ^ 7) with 128; (Z.div_mod_to_equations; lia)).
  rewrite (lor_add_mod' (X * 4096) (q * 128 + 23) 12) by (change (2 ^ 12) with 4096; (Z.div_mod_to_equations; lia)). lia.
Qed.

Lemma pair_word_lor h Y : 0 <= h < 1048576 ->
  Z.lor h ((Y * 1048576) mod 4294967296) = h + Y mod 4096 * 1048576.
Proof.
  intros Hh. change 4294967296 with (4096 * 1048576). rewrite Zmult_mod_distr_r.
  rewrite (lor_add_mod' (Y mod 4096 * 1048576) h 20) by (change (2 ^ 20) with 1048576; (Z.div_mod_to_equations; lia)). lia.
Qed.

Lemma auipc_packed_lor inst2 :
  Z.lor (Z.lor 23 (2 * 128)) ((inst2 * 4096) mod 4294967296) = auipc_packed inst2.
Proof.
  change 4294967296 with (1048576 * 4096). rewrite Zmult_mod_distr_r.
  rewrite auipc_word_lor by lia. reflexivity.
Qed.

Lemma riscv_step_auipc enc pc b0 b1 b2 b3 b4 b5 b6 b7 :
  byte b0 -> byte b1 -> byte b2 -> byte b3 -> byte b4 -> byte b5 -> byte b6 -> byte b7 ->
  b0 mod 128 = 23 ->
  riscv_step enc pc b0 b1 b2 b3 b4 b5 b6 b7 = auipc_step enc pc (w4 b0 b1 b2 b3) (w4 b4 b5 b6 b7).
Proof.
  intros H0 H1 H2 H3 H4 H5 H6 H7 E0. unfold riscv_step. cbv zeta.
  assert (Hne : (b0 =? 239) = false) by (apply Z.eqb_neq; (Z.div_mod_to_equations; lia)). rewrite Hne.
  assert (H17 : (Z.land b0 127 =? 23) = true) by (apply Z.eqb_eq; land_lits; exact E0). rewrite H17.
  rewrite !le32_w4, <- (bswap32_w4 b4 b5 b6 b7) by assumption.
  pose proof (w4_range b0 b1 b2 b3 H0 H1 H2 H3) as Hi. pose proof (w4_range b4 b5 b6 b7 H4 H5 H6 H7) as Hi2.
  set (inst := w4 b0 b1 b2 b3) in *. set (inst2 := w4 b4 b5 b6 b7) in *.
  rewrite land_E80, rv_check, rv_fake_cond by lia. unfold auipc_step.
  assert (Hq : 0 <= inst / 134217728 < 32 /\ 0 <= inst / 4096 < 1048576) by (Z.div_mod_to_equations; lia).
  destruct (rd_special (rv_rd inst)); cbn [negb].
  - destruct (negb (rv_fake_field inst =? 0) || rd_special (inst / 134217728)); [reflexivity|].
    destruct enc; rewrite rv_pair_u8; shift_lits; land_lits; unfold u32;
      rewrite auipc_word_lor, pair_word_lor by lia.
    + rewrite (Z.mod_small (inst2 / 4096)) by (Z.div_mod_to_equations; lia). reflexivity.
    + set (a := s32 (s32 (bswap32 inst2) - pc)).
      rewrite (Z.mod_small (_ / 4096)) by (Z.div_mod_to_equations; lia).
      replace ((a mod 4294967296) mod 4096) with (a mod 4096) by (Z.div_mod_to_equations; lia). reflexivity.
  - destruct ((inst2 mod 4 =? 3) && ((inst2 / 32768) mod 32 =? rv_rd inst)); [|reflexivity]. cbn [negb].
    destruct enc; [rewrite rv_pair_u8_be|rewrite rv_pair_u8]; shift_lits; land_lits; unfold u32;
      rewrite auipc_packed_lor, (Z.mod_small (inst / 4096)) by lia; reflexivity.
Qed.

Lemma riscv_step_pair enc pc n m : 0 <= n < 4294967296 -> 0 <= m < 4294967296 -> n mod 128 = 23 ->
  match rv_pair n m with
  | RAuipc c0 c1 c2 c3 c4 c5 c6 c7 => riscv_step enc pc c0 c1 c2 c3 c4 c5 c6 c7 = auipc_step enc pc n m
  | _ => True
  end.
Proof.
  intros Hn Hm H7. unfold rv_pair.
  rewrite riscv_step_auipc by (unfold byte; (Z.div_mod_to_equations; lia)).
  rewrite !w4_bytes, !Z.mod_small by assumption. reflexivity.
Qed.

(* the test for a pair only looks at the low seven bits of byte 6 *)
Lemma auipc_pair_test_low b4 b5 b6 b7 y6 y7 : byte b4 -> byte b5 -> byte b6 -> byte y6 -> y6 mod 128 = b6 mod 128 ->
  w4 b4 b5 y6 y7 mod 4 = w4 b4 b5 b6 b7 mod 4 /\
  (w4 b4 b5 y6 y7 / 32768) mod 32 = (w4 b4 b5 b6 b7 / 32768) mod 32.
Proof. unfold byte, w4. intros. split; (Z.div_mod_to_equations; lia). Qed.

Lemma rv_skip2_jal enc pc b1 b2 b3 b4 b5 b6 b7 : Z.land b1 13 <> 0 ->
  riscv_step enc pc 239 b1 b2 b3 b4 b5 b6 b7 = RSkip 2.
Proof.
  intros H. unfold riscv_step. cbv zeta. change (239 =? 239) with true. cbv iota.
  destruct (Z.eqb_spec (Z.land b1 13) 0); [contradiction|reflexivity].
Qed.

Lemma rv_skip2_other enc pc b0 b1 b2 b3 b4 b5 b6 b7 : byte b0 -> b0 <> 239 -> b0 mod 128 <> 23 ->
  riscv_step enc pc b0 b1 b2 b3 b4 b5 b6 b7 = RSkip 2.
Proof.
  intros H0 Hne H17. unfold riscv_step. cbv zeta.
  destruct (Z.eqb_spec b0 239); [contradiction|].
  destruct (Z.eqb_spec (Z.land b0 127) 23) as [E|_]; [|reflexivity].
  revert E. land_lits. intros E. contradiction.
Qed.

Lemma land13_low b c : byte b -> byte c -> c mod 16 = b mod 16 -> Z.land c 13 = Z.land b 13.
Proof.
  intros Hb Hc E. rewrite (land_mod_low c 13 4), (land_mod_low b 13 4) by lia.
  change (2 ^ 4) with 16. rewrite E. reflexivity.
Qed.

Lemma riscv_steps_invertible : riscv_step_invertible.
Proof.
  intros pc b0 b1 b2 b3 b4 b5 b6 b7 Hpc H0 H1 H2 H3 H4 H5 H6 H7.
  destruct (Z.eq_dec b0 239) as [->|Hne].
  - destruct (Z.eq_dec (Z.land b1 13) 0) as [Hd|Hd].
    + rewrite jal_enc_spec by assumption. cbv zeta.
      pose proof (jal_inverse pc b1 b2 b3 Hpc H1 H2 H3) as Hj. cbv zeta in Hj.
      destruct Hj as (C1 & C2 & C3 & Elow & E1 & E2 & E3).
      intros y4 y5 y6 y7.
      rewrite jal_dec_spec; try assumption.
      * cbv zeta. rewrite E1, E2, E3. reflexivity.
      * rewrite (land13_low b1 _ H1 C1 Elow). exact Hd.
    + rewrite rv_skip2_jal by assumption. intros y2 y3 y4 y5 y6 y7 _ _ _ _ _ _ _ _.
      apply rv_skip2_jal. assumption.
  - destruct (Z.eq_dec (b0 mod 128) 23) as [E0|E0].
    2:{ rewrite rv_skip2_other by assumption. intros y2 y3 y4 y5 y6 y7 _ _ _ _ _ _ _ _.
        apply rv_skip2_other; assumption. }
    rewrite riscv_step_auipc by assumption.
    pose proof (w4_range b0 b1 b2 b3 H0 H1 H2 H3) as Hi. pose proof (w4_range b4 b5 b6 b7 H4 H5 H6 H7) as Hi2.
    assert (E7 : w4 b0 b1 b2 b3 mod 128 = 23) by (unfold w4, byte in *; (Z.div_mod_to_equations; lia)).
    rewrite <- (rv_pair_w4 b0 b1 b2 b3 b4 b5 b6 b7) by assumption.
    set (inst := w4 b0 b1 b2 b3) in *. set (inst2 := w4 b4 b5 b6 b7) in *.
    unfold auipc_step.
    destruct (rd_special (rv_rd inst)) eqn:Erd.
    + destruct (negb (rv_fake_field inst =? 0) || rd_special (inst / 134217728)) eqn:Ef.
      * intros y2 y3 y4 y5 y6 y7 Y2 Y3 Y4 Y5 Y6 Y7 Hy23 _. destruct (Hy23 ltac:(lia)) as [-> ->].
        rewrite riscv_step_auipc by assumption. fold inst. unfold auipc_step. rewrite Erd, Ef. reflexivity.
      * apply orb_false_iff in Ef. destruct Ef as [Ef Er]. apply negb_false_iff, Z.eqb_eq in Ef.
        pose proof (riscv_step_pair false pc (23 + inst / 134217728 * 128 + inst2 / 4096 * 4096)
                      (inst / 4096 + inst2 mod 4096 * 1048576) ltac:((Z.div_mod_to_equations; lia)) ltac:((Z.div_mod_to_equations; lia)) ltac:((Z.div_mod_to_equations; lia))) as Hd.
        rewrite auipc_fake_inverse in Hd by assumption. exact Hd.
    + destruct ((inst2 mod 4 =? 3) && ((inst2 / 32768) mod 32 =? rv_rd inst)) eqn:Echk.
      * apply andb_true_iff in Echk. destruct Echk as [Ec1 Ec2]. apply Z.eqb_eq in Ec1, Ec2.
        pose proof (riscv_step_pair false pc (auipc_packed inst2)
                      (bswap32 (s32 (s32 (s32 (inst / 4096 * 4096) + s32 inst2 / 1048576) + pc)))
                      ltac:(unfold auipc_packed; (Z.div_mod_to_equations; lia)) (bswap32_range _) ltac:(unfold auipc_packed; (Z.div_mod_to_equations; lia))) as Hd.
        rewrite auipc_real_inverse in Hd by assumption. exact Hd.
      * intros y2 y3 y4 y5 y6 y7 Y2 Y3 Y4 Y5 Y6 Y7 Hy23 Hy456.
        destruct (Hy23 ltac:(lia)) as [-> ->]. destruct (Hy456 ltac:(lia)) as (-> & -> & Hy6).
        rewrite riscv_step_auipc by assumption. fold inst. unfold auipc_step. rewrite Erd.
        destruct (auipc_pair_test_low b4 b5 b6 b7 y6 y7 H4 H5 H6 Y6 Hy6) as [-> ->].
        fold inst2. rewrite Echk. reflexivity.
Qed.

Lemma code_inverse_riscv st : f_pos st mod 2 = 0 -> code_inverse RISCV st.
Proof.
  intros H buf.
  apply (win_code_inverse 8 ltac:(lia) riscv_win riscv_go riscv_go_short riscv_go_step riscv_win_ok RISCV riscv_code 2);
    [|exact H].
  intros pos i l n e o r Hal Hl Hb Es Eg.
  do 8 (destruct l as [|? l]; [cbn [length] in Hl; lia|]).
  assert (Hbs : bytes_ok (skipn n (z :: z0 :: z1 :: z2 :: z3 :: z4 :: z5 :: z6 :: l)) = true)
    by (apply bytes_ok_skipn; exact Hb).
  destruct (win_out 8 ltac:(lia) riscv_win riscv_go riscv_go_short riscv_go_step riscv_win_ok true _ _ _ _ _ Hbs Eg)
    as [HbY HlY].
  repeat (apply bytes_ok_cons in Hb; let H := fresh "B" in destruct Hb as [H Hb]).
  assert (Hpc : pc32 pos i mod 2 = 0) by (rewrite pc32_mod2; assumption).
  pose proof (riscv_steps_invertible (pc32 pos i) z z0 z1 z2 z3 z4 z5 z6 Hpc B B0 B1 B2 B3 B4 B5 B6) as Hst.
  pose proof (riscv_step_shape true (pc32 pos i) z z0 z1 z2 z3 z4 z5 z6) as Hsh.
  cbn [firstn riscv_win] in Es.
  destruct (riscv_step true (pc32 pos i) z z0 z1 z2 z3 z4 z5 z6) as [k|c1 c2 c3|c0 c1 c2 c3 c4 c5 c6 c7].
  - (* the encoder only moved on: the decoder sees the bytes stepped over and, behind them, the
       beginning of what the encoder's loop made of the rest *)
    destruct Hsh as [-> | [-> | ->]]; cbn [Z.eqb Pos.eqb] in Es; injection Es as <- <-;
      (split; [reflexivity|]); cbn [skipn length] in HlY, Eg; cbn [app].
    + destruct (o ++ r) as [|y2 [|y3 [|y4 [|y5 [|y6 [|y7 t']]]]]]; try (cbn [length] in HlY; lia).
      repeat (apply bytes_ok_cons in HbY; let H := fresh "Y" in destruct HbY as [H HbY]).
      cbn [firstn riscv_win]. rewrite (Hst y2 y3 y4 y5 y6 y7) by (assumption || lia). reflexivity.
    + destruct (o ++ r) as [|y4 [|y5 [|y6 [|y7 t']]]]; try (cbn [length] in HlY; lia).
      repeat (apply bytes_ok_cons in HbY; let H := fresh "Y" in destruct HbY as [H HbY]).
      cbn [firstn riscv_win]. rewrite (Hst z1 z2 y4 y5 y6 y7) by (assumption || lia || auto). reflexivity.
    + destruct (riscv_go_hd true pos _ o r z5 (z6 :: l) Eg B5) as (y6 & t6 & Ey & Hy6).
      rewrite Ey in HbY, HlY |- *. destruct t6 as [|y7 t']; [cbn [length] in HlY; lia|].
      repeat (apply bytes_ok_cons in HbY; let H := fresh "Y" in destruct HbY as [H HbY]).
      cbn [firstn riscv_win]. rewrite (Hst z1 z2 z3 z4 y6 y7) by (assumption || lia || auto). reflexivity.
  - injection Es as <- <-. split; [reflexivity|]. cbn [skipn length] in HlY. cbn [app].
    destruct (o ++ r) as [|y4 [|y5 [|y6 [|y7 t']]]]; try (cbn [length] in HlY; lia).
    cbn [firstn riscv_win]. rewrite Hst. reflexivity.
  - injection Es as <- <-. split; [reflexivity|]. cbn [app firstn riscv_win]. rewrite Hst. reflexivity.
Qed.
