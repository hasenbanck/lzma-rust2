(* Filter/Bcj2ScanProofs.v — the copy loop of Bcj2Decoder::decode ([bcj2_scan]) against the item list of
   the specification encoder, written as its leading literal items followed by the rest
   ([map B2Lit lits ++ rest]): the loop steps over exactly [lits] and stops at a candidate or at its
   bound.  Also what the literal items contribute to the streams. *)
From LzVerif Require Import Filter.Bcj2 Filter.Bcj2Enc Filter.Bcj2EncProofs.

(* split conjunctions without unfolding [isb] *)
Ltac msplit := repeat match goal with |- _ /\ _ => split end.

Definition is_lit (it : b2item) : bool := match it with B2Lit _ => true | _ => false end.

(* the head item is a literal exactly when its MAIN byte fails the candidate test *)
Lemma items_wf_head prev pos it r : items_wf prev pos (it :: r) ->
  is_lit it = negb (bcj2_is_cand prev (b2_main1 it)) /\ isb (b2_main1 it).
Proof.
  destruct it; cbn [items_wf b2_main1 is_lit]; intros H;
    [destruct H as (H1 & -> & _) | destruct H as (H1 & -> & _) | destruct H as (H1 & _ & _ & _ & _ & -> & _)]; auto.
Qed.

(* the literal items at the head of [its], at most [n] of them; where they stop short of [n] a
   candidate follows (or the list ends) *)
Lemma lit_split n : forall its, exists lits rest,
  its = map B2Lit lits ++ rest /\ (length lits <= n)%nat /\
  ((length lits < n)%nat -> rest = [] \/ exists it r, rest = it :: r /\ is_lit it = false).
Proof.
  induction n as [|n IH]; intros its; [exists [], its; cbn; msplit; [reflexivity | lia | lia]|].
  destruct its as [|[b|b idx|b idx ic r0 r1 r2 r3 a] r].
  2: { destruct (IH r) as (lits & rest & -> & Hl & Hs). exists (b :: lits), rest. cbn [map app length].
       msplit; [reflexivity | lia | intros H; apply Hs; lia]. }
  all: eexists [], _; cbn [map app length]; msplit; [reflexivity | lia | intros _; eauto].
Qed.

Lemma last_cons {A} (a : A) l d : last (a :: l) d = last l a.
Proof. revert a d; induction l as [|b l IH]; intros a d; [reflexivity|]. change (last (a :: b :: l) d) with (last (b :: l) d). rewrite !IH. reflexivity. Qed.

Lemma last_rev_hd {A} (l : list A) d : last l d = match rev l with [] => d | p :: _ => p end.
Proof. destruct l as [|x l] using rev_ind; [reflexivity|]. rewrite last_last, rev_app_distr. reflexivity. Qed.

(* behind the literals: previous byte = the last of them, offset advanced by their number *)
Lemma lits_wf lits : forall prev pos rest, items_wf prev pos (map B2Lit lits ++ rest) -> isb prev ->
  items_wf (last lits prev) (pos + zlen lits) rest /\ isb (last lits prev).
Proof.
  induction lits as [|a l IH]; intros prev pos rest Hwf Hp.
  - cbn [last]. rewrite zlen_nil, Z.add_0_r. auto.
  - cbn [map app items_wf] in Hwf. destruct Hwf as (Ha & _ & Hwf).
    rewrite last_cons, zlen_cons. replace (pos + (zlen l + 1)) with (pos + 1 + zlen l) by lia. apply IH; assumption.
Qed.

(* their MAIN bytes are their original bytes; they have no events and no CALL/JUMP bytes *)
Lemma lits_streams lits rest :
  b2_main (map B2Lit lits ++ rest) = lits ++ b2_main rest /\ b2_orig (map B2Lit lits ++ rest) = lits ++ b2_orig rest /\
  b2_events (map B2Lit lits ++ rest) = b2_events rest /\ b2_call (map B2Lit lits ++ rest) = b2_call rest /\
  b2_jump (map B2Lit lits ++ rest) = b2_jump rest.
Proof.
  unfold b2_main, b2_orig, b2_events, b2_call, b2_jump. induction lits as [|a l (H1 & H2 & H3 & H4 & H5)]; [auto 6|].
  cbn [map app flat_map b2_main1 b2_orig1 b2_event1 b2_call1 b2_jump1]. rewrite H1, H2, H3, H4, H5. auto 6.
Qed.

(* The scan over [lits ++ m']: it stops behind [lits], at its bound or in front of the MAIN byte of a
   candidate.  The second hypothesis: the 0F 8x test on the first byte, made before the loop, failed. *)
Lemma scan_lits : forall lits n prev pos rest m' acc,
  items_wf prev pos (map B2Lit lits ++ rest) -> (length lits <= n)%nat ->
  ((length lits < n)%nat -> exists it r m'', rest = it :: r /\ is_lit it = false /\ m' = b2_main1 it :: m'') ->
  (forall b tl, lits ++ m' = b :: tl -> (prev =? 15) && (Z.land b 240 =? 128) = false) ->
  bcj2_scan n (lits ++ m') acc = Some (rev lits ++ acc, m', (n - length lits)%nat).
Proof.
  induction lits as [|a l IH]; intros n prev pos rest m' acc Hwf Hn Hstop Hhd.
  - cbn [app rev length] in *. rewrite Nat.sub_0_r. destruct n as [|n]; [reflexivity|].
    destruct Hstop as (it & r & m'' & -> & Hnl & ->); [lia|].
    destruct (items_wf_head _ _ _ _ Hwf) as [Hc _]. rewrite Hnl in Hc.
    specialize (Hhd _ _ eq_refl). unfold bcj2_is_cand in Hc. rewrite Hhd, orb_false_r in Hc.
    cbn [bcj2_scan]. destruct (Z.eqb_spec (b2_main1 it) 15) as [E|_]; [rewrite E in Hc; discriminate Hc|].
    cbn [negb]. destruct (Z.land (b2_main1 it) 254 =? 232); [reflexivity | discriminate Hc].
  - cbn [map app items_wf length rev] in *. destruct Hwf as (_ & Hc & Hwf).
    destruct n as [|n]; [lia|]. cbn [bcj2_scan Nat.sub]. rewrite <- app_assoc. cbn [app].
    assert (Hnext : (forall b tl, l ++ m' = b :: tl -> (a =? 15) && (Z.land b 240 =? 128) = false) ->
              bcj2_scan n (l ++ m') (a :: acc) = Some (rev l ++ a :: acc, m', (n - length l)%nat))
      by (intros H; apply (IH n a (pos + 1) rest); [exact Hwf | lia | intros; apply Hstop; lia | exact H]).
    unfold bcj2_is_cand in Hc. apply orb_false_elim in Hc as [Hc _].
    destruct (Z.eqb_spec a 15) as [->|Ha]; cbn [negb].
    + destruct n as [|n'].
      * destruct l; [reflexivity | cbn [length] in Hn; lia].
      * destruct (l ++ m') as [|c tl] eqn:Etl.
        { destruct l; [|discriminate Etl]. destruct Hstop as (? & ? & ? & _ & _ & ->); [cbn [length]; lia | discriminate Etl]. }
        destruct (Z.eqb_spec (Z.land c 240) 128) as [Hc8|Hc8]; cbn [negb].
        -- (* 0F 8x: a candidate, so no literal *)
           destruct l as [|c' l']; [cbn [app] in Etl; subst m'; reflexivity|].
           cbn [app] in Etl. injection Etl as -> _. cbn [map app items_wf] in Hwf. destruct Hwf as (_ & Hx & _).
           unfold bcj2_is_cand in Hx. rewrite Hc8 in Hx. cbn in Hx. rewrite orb_true_r in Hx. discriminate Hx.
        -- apply Hnext. intros b tl' E. injection E as <- _.
           destruct (Z.eqb_spec (Z.land c 240) 128); [contradiction | apply andb_false_r].
    + rewrite Hc. apply Hnext. intros b tl _. destruct (Z.eqb_spec a 15); [contradiction | reflexivity].
Qed.

Lemma app_split_le {A} (c : list A) : forall a b d, a ++ b = c ++ d -> (length c <= length a)%nat ->
  exists m, a = c ++ m /\ d = m ++ b.
Proof.
  induction c as [|x c IH]; intros a b d H Hl; [exists a; auto|].
  destruct a as [|y a]; [cbn [length] in Hl; lia|]. cbn [app length] in *. injection H as -> H.
  destruct (IH a b d H ltac:(lia)) as (m & -> & ->). exists m. auto.
Qed.
