(* Filter/Bcj2DecProofs.v — one call of Bcj2Decoder::decode ([bcj2_decode_rev]) from any state that satisfies
   the invariant: the start-up loop over the first five RC bytes, the bytes waiting in temp, then the
   outer loop (Filter/Bcj2LoopProofs.v). *)
From LzVerif Require Import Codec.RangeArithProofs Codec.RangeEncProofs Codec.RangeProofs.
From LzVerif Require Import Filter.Bcj2 Filter.Bcj2Enc Filter.Bcj2EncProofs Filter.Bcj2RcProofs Filter.Bcj2ScanProofs Filter.Bcj2SlackProofs Filter.Bcj2InvProofs Filter.Bcj2LoopProofs.

Lemma temp_nth d k r0 r1 r2 r3 : bd_t0 d = r0 -> bd_t1 d = r1 -> bd_t2 d = r2 -> bd_t3 d = r3 -> 0 <= k < 4 ->
  exists x, bd_temp d k = Some x /\ skipn (Z.to_nat k) [r0; r1; r2; r3] = x :: skipn (Z.to_nat (k + 1)) [r0; r1; r2; r3].
Proof.
  intros <- <- <- <- Hk. assert (Hc : k = 0 \/ k = 1 \/ k = 2 \/ k = 3) by lia.
  destruct Hc as [-> | [-> | [-> | ->]]]; eexists; split; reflexivity.
Qed.

Lemma bd_set_dest_state_same d : bd_set_dest (bd_set_state d (bd_state d)) (bd_dest d) = d.
Proof. destruct d; reflexivity. Qed.

Lemma flush_none lim d o : 8 <= bd_state d -> bcj2_flush_temp 4 lim d o = Ok (false, d, o).
Proof.
  intros H. cbn [bcj2_flush_temp]. unfold BCJ2_DEC_STATE_ORIG_3.
  replace (7 <? bd_state d) with true by (symmetry; apply Z.ltb_lt; lia). reflexivity.
Qed.

(* [m] bytes of temp are stored: all that are left, or as many as there is room for *)
Lemma flush_spec lim r0 r1 r2 r3 : forall fuel k d o,
  (Z.to_nat (4 - k) <= fuel)%nat -> 0 <= k <= 4 -> bd_state d = 4 + k ->
  bd_t0 d = r0 -> bd_t1 d = r1 -> bd_t2 d = r2 -> bd_t3 d = r3 -> 0 <= bd_dest d <= lim ->
  exists m, 0 <= m <= 4 - k /\ m <= lim - bd_dest d /\ (m < 4 - k -> bd_dest d + m = lim) /\
    bcj2_flush_temp fuel lim d o =
      Ok (m <? 4 - k, bd_set_dest (bd_set_state d (4 + k + m)) (bd_dest d + m),
          rev (firstn (Z.to_nat m) (skipn (Z.to_nat k) [r0; r1; r2; r3])) ++ o).
Proof.
  induction fuel as [|f IH]; intros k d o Hf Hk Hst T0 T1 T2 T3 Hd.
  all: assert (Hsame : bd_set_dest (bd_set_state d (4 + k + 0)) (bd_dest d + 0) = d)
         by (rewrite !Z.add_0_r, <- Hst; apply bd_set_dest_state_same).
  all: cbn [bcj2_flush_temp]; rewrite Hst; unfold BCJ2_DEC_STATE_ORIG_3, BCJ2_DEC_STATE_ORIG_0.
  - exists 0. rewrite Hsame. replace (7 <? 4 + k) with true by (symmetry; apply Z.ltb_lt; lia).
    replace (0 <? 4 - k) with false by (symmetry; apply Z.ltb_ge; lia). msplit; try lia. reflexivity.
  - destruct (Z.ltb_spec 7 (4 + k)) as [H7|H7].
    + exists 0. rewrite Hsame. replace (0 <? 4 - k) with false by (symmetry; apply Z.ltb_ge; lia). msplit; try lia. reflexivity.
    + destruct (Z.eqb_spec (bd_dest d) lim) as [He|He].
      * exists 0. rewrite Hsame. replace (0 <? 4 - k) with true by (symmetry; apply Z.ltb_lt; lia). msplit; try lia. reflexivity.
      * unfold store_ok.
        replace (0 <=? bd_dest d) with true by (symmetry; apply Z.leb_le; lia).
        replace (bd_dest d <? lim) with true by (symmetry; apply Z.ltb_lt; lia). cbn [andb negb].
        replace (4 + k - 4) with k by lia.
        destruct (temp_nth d k r0 r1 r2 r3 T0 T1 T2 T3 ltac:(lia)) as (x & Hx & Hsk).
        rewrite Hx.
        destruct (IH (k + 1) (bd_set_dest (bd_set_state d (4 + k + 1)) (bd_dest d + 1)) (x :: o)) as (m & M1 & M2 & M3 & M4);
          try (bd_simpl; first [assumption | lia]).
        bd_simpl.
        exists (m + 1). msplit; try lia.
        rewrite M4. replace (m + 1 <? 4 - k) with (m <? 4 - (k + 1)) by (destruct (Z.ltb_spec m (4 - (k + 1))), (Z.ltb_spec (m + 1) (4 - k)); lia).
        rewrite Hsk. replace (Z.to_nat (m + 1)) with (S (Z.to_nat m)) by lia. cbn [firstn rev]. rewrite <- app_assoc.
        replace (4 + (k + 1) + m) with (4 + k + (m + 1)) by lia. replace (bd_dest d + 1 + m) with (bd_dest d + (m + 1)) by lia.
        reflexivity.
Qed.

Lemma firstn_skipn_step {A} k (l : list A) x tl :
  skipn k l = x :: tl -> firstn (S k) l = firstn k l ++ [x] /\ skipn (S k) l = tl.
Proof.
  revert l; induction k as [|k IH]; intros [|y l] H; try discriminate.
  - injection H as -> ->. split; reflexivity.
  - cbn [skipn] in H. destruct (IH l H) as [E1 E2]. split; [rewrite !firstn_cons, E1; reflexivity | exact E2].
Qed.

(* while at most three bytes behind the leading 0 are in, the shift loses nothing *)
Lemma be_val_lead0 k body : bytes_ok body = true -> (k <= 4)%nat -> 0 <= be_val (firstn k (0 :: body)) < 16777216.
Proof.
  intros Hb Hk. destruct k as [|k]; [cbn [firstn]; rewrite be_val_nil; lia|].
  rewrite firstn_cons, be_val_cons, Z.mul_0_r, Z.add_0_r.
  assert (Hf : bytes_ok (firstn k body) = true).
  { rewrite <- (firstn_skipn k body) in Hb. apply bytes_ok_app in Hb. tauto. }
  pose proof (be_val_bound _ Hf) as Hv.
  assert (Hl : zlen (firstn k body) <= 3) by (unfold zlen; rewrite firstn_length; lia).
  pose proof (Z.pow_le_mono_r 256 _ 3 ltac:(lia) Hl) as Hp. change (256 ^ 3) with 16777216 in Hp. lia.
Qed.

Lemma code_shift_in_be_val l x : 0 <= be_val l < 16777216 -> isb x -> code_shift_in (be_val l) x = be_val (l ++ [x]).
Proof.
  unfold isb. intros Hl Hx. unfold code_shift_in, wrap32. rewrite Z.mod_small by lia.
  rewrite lor_shift8 by lia. rewrite be_val_snoc. lia.
Qed.

(* The loop stops after k' bytes in all, with the RC buffer [rb] left: for want of a byte (k' < 5),
   or done.  The Rust code counts the bytes in `range`. *)
Lemma init_spec body fr : bytes_ok body = true ->
  forall fuel k d,
  (Z.to_nat (5 - k) <= fuel)%nat -> 0 <= k <= 5 -> bd_range d = k ->
  bd_code d = be_val (firstn (Z.to_nat k) (0 :: body)) ->
  sb_full (bd_rc d) -> sb_live (bd_rc d) ++ fr = skipn (Z.to_nat k) (0 :: body) ->
  exists k' rb, k <= k' <= 5 /\ sb_full rb /\ sb_live rb ++ fr = skipn (Z.to_nat k') (0 :: body) /\
    let d' := bd_set_rc d rb k' (be_val (firstn (Z.to_nat k') (0 :: body))) in
    (k' < 5 /\ sb_avail rb = 0 /\ bcj2_init_loop fuel d = Ok (InitRet true (bd_set_state d' BCJ2_STREAM_RC))) \/
    (k' = 5 /\ bcj2_init_loop fuel d = Ok (InitDone d')).
Proof.
  intros Hbody.
  assert (Hsame : forall k d, bd_range d = k -> bd_code d = be_val (firstn (Z.to_nat k) (0 :: body)) ->
            bd_set_rc d (bd_rc d) k (be_val (firstn (Z.to_nat k) (0 :: body))) = d).
  { intros k d Hr Hc. rewrite <- Hc, <- Hr. apply bd_set_rc_same. }
  assert (Hdone : forall fuel d, bd_range d = 5 -> bcj2_init_loop fuel d = Ok (InitDone d))
    by (intros fuel d Hr; destruct fuel; cbn [bcj2_init_loop]; rewrite Hr; reflexivity).
  induction fuel as [|f IH]; intros k d Hf Hk Hr Hc Hfull Hl.
  all: destruct (Z.eq_dec k 5) as [Hk5|Hk5]; [|try lia].
  1,2: exists k, (bd_rc d); cbv zeta; rewrite (Hsame k d Hr Hc);
       (split; [lia|]); (split; [exact Hfull|]); (split; [exact Hl|]); right; split; [exact Hk5 | apply Hdone; lia].
  cbn [bcj2_init_loop]. rewrite Hr.
  replace (k =? 5) with false by (symmetry; apply Z.eqb_neq; exact Hk5).
  assert (Htest : (k =? 1) && negb (bd_code d =? 0) = false).
  { destruct (Z.eqb_spec k 1) as [->|]; [|reflexivity]. rewrite Hc. reflexivity. }
  rewrite Htest.
  destruct (sb_live (bd_rc d)) as [|x l] eqn:El.
  - (* the buffer is empty *)
    destruct (sb_pop_nil _ Hfull El) as [Hpop Hav]. rewrite Hpop.
    exists k, (bd_rc d). cbv zeta. rewrite (Hsame k d Hr Hc), El.
    split; [lia|]. split; [exact Hfull|]. split; [exact Hl|]. left. split; [lia|]. split; [exact Hav | reflexivity].
  - destruct (sb_pop_cons _ _ _ Hfull El) as [Hpop Hfull']. rewrite Hpop.
    cbn [app] in Hl. symmetry in Hl. destruct (firstn_skipn_step _ _ _ _ Hl) as [Hfs Hsk].
    assert (Hx : isb x).
    { assert (Hb : bytes_ok (0 :: body) = true) by (apply bytes_ok_cons; split; [lia | exact Hbody]).
      rewrite <- (firstn_skipn (Z.to_nat k) (0 :: body)), Hl in Hb. apply bytes_ok_app in Hb as [_ Hb].
      apply bytes_ok_cons in Hb. exact (proj1 Hb). }
    replace (S (Z.to_nat k)) with (Z.to_nat (k + 1)) in Hfs, Hsk by lia.
    destruct (IH (k + 1) (bd_set_rc d (mkSb l (sb_avail (bd_rc d) - 1)) (k + 1) (code_shift_in (bd_code d) x)))
      as (k' & rb & K1 & K2 & K3 & K4); bd_simpl; try lia; try assumption.
    + rewrite Hc, Hfs. apply code_shift_in_be_val; [apply be_val_lead0; [exact Hbody | lia] | exact Hx].
    + rewrite Hsk. reflexivity.
    + exists k', rb. split; [lia|]. split; [exact K2|]. split; [exact K3 | exact K4].
Qed.

Lemma b2core_scan_of rc_out d F ph its prev pos e t :
  b2core rc_out d F (mkCfg ph its prev pos e t) ->
  match ph with
  | PhInit _ => True
  | PhTemp k r0 r1 r2 r3 => True
  | _ => False
  end ->
  b2core rc_out d F (mkCfg PhScan its prev pos e t).
Proof.
  intros (H1 & H2 & H3 & H4 & H5 & H6) Hph. unfold b2core in *. bd_simpl.
  destruct ph as [k| |ic r0 r1 r2 r3|k r0 r1 r2 r3]; try contradiction.
  - msplit; assumption.
  - msplit; try assumption. unfold g_regs in *. bd_simpl.
    destruct H6 as (_ & _ & _ & T3 & Hip & Hp & _). split; [rewrite T3; symmetry; exact Hp | exact Hip].
Qed.

Lemma g_rc_range rc_out rb r c fr e : g_rc rc_out rb r c fr e -> renc_inv e -> (r <=? 5) = false.
Proof. intros [_ Hok] HI. pose proof (rc_ok_range _ _ _ _ _ Hok HI). apply Z.leb_gt. lia. Qed.

Theorem decode_spec rc_out F lim d c :
  b2inv rc_out d F c -> 0 <= bd_dest d <= lim ->
  loop_post rc_out F lim d c [] (bcj2_decode_rev lim d).
Proof.
  destruct c as [ph its prev pos e t]. intros (Hcore & Hstate & Hrcph) Hdest.
  pose proof Hcore as (_ & _ & (HI & Ht & Htab & Hout & Hsize & Hbytes) & _).
  bd_simpl. unfold bcj2_decode_rev.
  assert (Hfuel : forall d, (Z.to_nat (sb_avail (bd_main d)) + 2 <= bcj2_loop_fuel d)%nat) by (intros; unfold bcj2_loop_fuel; lia).
  destruct ph as [k| |ic r0 r1 r2 r3|k r0 r1 r2 r3]; unfold g_rcph in Hrcph; cbn [c_ph c_e] in Hrcph; cbn [g_state] in Hstate.
  - (* start-up *)
    destruct Hrcph as (Hk & Hr & He & Hfull & Hcode & Hlive). subst e.
    replace (bd_range d <=? 5) with true by (symmetry; apply Z.leb_le; lia).
    destruct (renc_output_head t (b2_events its) Ht (b2_events_ok its)) as (b1 & b2 & b3 & b4 & rest & Hhead & Hc0).
    { unfold RC_MAX_BITS. cbn [renc_init re_cache_size] in Hsize. lia. }
    rewrite <- Hout in Hhead. rewrite Hhead in Hbytes. apply bytes_ok_cons in Hbytes as [_ Hbody].
    rewrite Hhead in Hcode, Hlive.
    destruct (init_spec _ (f_rc F) Hbody 5%nat k (bd_set_state d BCJ2_DEC_STATE_OK))
      as (k' & rb & K1 & K2 & K3 & [(K4 & K5 & K6) | (K4 & K6)]); bd_simpl; try assumption; try lia.
    + (* for want of a byte *)
      rewrite K6. cbn [obind]. rewrite <- Hhead in K3 |- *.
      apply (loop_post_exit _ _ _ _ _ _ _ (mkCfg (PhInit k') its prev pos renc_init t) []);
        [| reflexivity | symmetry; apply Z.add_0_r | bd_simpl; lia | split; [reflexivity | exact K5] | apply cj_slack_frame; reflexivity].
      split; [|split].
      * apply (b2core_frame _ d); [exact Hcore | reflexivity ..].
      * right. reflexivity.
      * unfold g_rcph. bd_simpl. msplit; try reflexivity; try assumption; lia.
    + (* all five: the code is that of a normalised decoder *)
      subst k'. rewrite K6. cbn [obind].
      assert (Hcode5 : be_val (firstn (Z.to_nat 5) (0 :: b1 :: b2 :: b3 :: b4 :: rest)) = ((b1 * 256 + b2) * 256 + b3) * 256 + b4).
      { unfold be_val. change (Z.to_nat 5) with 5%nat. cbn [firstn rev app le_value]. lia. }
      rewrite Hcode5. bd_simpl.
      replace (((b1 * 256 + b2) * 256 + b3) * 256 + b4 =? 4294967295) with false by (symmetry; apply Z.eqb_neq; lia).
      set (d2 := bd_set_rc (bd_set_rc _ _ _ _) _ _ _).
      apply loop_post_prepend with (pre := []) (d1 := d2) (c1 := mkCfg PhScan its prev pos renc_init t);
        [apply loop_spec | reflexivity | unfold d2; bd_simpl; rewrite zlen_nil; lia | apply cj_slack_frame; reflexivity].
      * apply (b2core_frame _ d); [|reflexivity ..]. apply (b2core_scan_of _ _ _ (PhInit k)); [exact Hcore | exact I].
      * unfold d2. bd_simpl. split; [exact K2|].
        apply rc_norm_ok; [|exact HI]. change (Z.to_nat 5) with 5%nat in K3. cbn [skipn] in K3. rewrite K3.
        apply rc_norm_init. exact Hhead.
      * split; [reflexivity | pose proof (Hfuel d2); lia].
      * unfold d2. bd_simpl. exact Hdest.
  - (* between two items *)
    rewrite (g_rc_range _ _ _ _ _ _ Hrcph HI).
    assert (Hloop : loop_post rc_out F lim d (mkCfg PhScan its prev pos e t) [] (bcj2_loop (bcj2_loop_fuel d) lim d [])).
    { apply loop_spec; try assumption. split; [destruct Hstate as [-> | [-> | [-> | ->]]]; reflexivity | specialize (Hfuel d); lia]. }
    unfold BCJ2_DEC_STATE_ORIG_0. destruct (Z.leb_spec 4 (bd_state d)) as [H4|H4]; [|exact Hloop].
    rewrite flush_none by lia. exact Hloop.
  - (* waiting for a word *)
    rewrite (g_rc_range _ _ _ _ _ _ Hrcph HI).
    unfold BCJ2_DEC_STATE_ORIG_0. replace (4 <=? bd_state d) with false by (rewrite Hstate; destruct ic; reflexivity).
    apply loop_spec; try assumption. split; [exact Hstate | apply Hfuel].
  - (* operand bytes in temp *)
    rewrite (g_rc_range _ _ _ _ _ _ Hrcph HI).
    pose proof Hcore as (C1 & C2 & C3 & C4 & C5 & Hregs). unfold g_regs in Hregs. bd_simpl.
    destruct Hregs as (T0 & T1 & T2 & T3 & Hip & Hp3 & I0 & I1 & I2 & I3 & Hk).
    unfold BCJ2_DEC_STATE_ORIG_0. replace (4 <=? bd_state d) with true by (symmetry; apply Z.leb_le; lia).
    destruct (flush_spec lim r0 r1 r2 r3 4%nat k d [] ltac:(lia) ltac:(lia) Hstate T0 T1 T2 T3 Hdest) as (m & M1 & M2 & M3 & M4).
    rewrite M4. cbn [obind].
    set (w := skipn (Z.to_nat k) [r0; r1; r2; r3]).
    assert (Hzl : zlen (firstn (Z.to_nat m) w) = m) by (unfold zlen, w; rewrite firstn_length, skipn_length; cbn [length]; lia).
    set (d2 := bd_set_dest (bd_set_state d (4 + k + m)) (bd_dest d + m)).
    assert (Hcore2 : forall ph', b2core rc_out d F (mkCfg ph' its prev pos e t) -> b2core rc_out d2 F (mkCfg ph' its prev pos e t))
      by (intros ph' H; apply (b2core_frame _ d); [exact H | reflexivity ..]).
    destruct (Z.ltb_spec m (4 - k)) as [Hlt|Hge].
    + (* the destination is full *)
      apply (loop_post_exit _ _ _ _ _ _ _ (mkCfg (PhTemp (k + m) r0 r1 r2 r3) its prev pos e t));
        [| | unfold d2; bd_simpl; lia | unfold d2; bd_simpl; lia | exact (M3 Hlt) | apply cj_slack_frame; reflexivity].
      * apply b2inv_running; [discriminate | apply Hcore2 | unfold d2; bd_simpl; cbn [g_state]; lia | exact Hrcph].
        unfold b2core. bd_simpl. msplit; try assumption. unfold g_regs. bd_simpl. msplit; try assumption; lia.
      * cbn [rem_out c_ph c_its]. rewrite app_assoc. f_equal. unfold w.
        replace (Z.to_nat (k + m)) with (Z.to_nat k + Z.to_nat m)%nat by lia.
        rewrite <- skipn_skipn. symmetry. apply firstn_skipn.
    + (* all of temp stored: state = ORIG, the loop goes on *)
      apply loop_post_prepend with (pre := firstn (Z.to_nat m) w) (d1 := d2) (c1 := mkCfg PhScan its prev pos e t);
        [apply loop_spec | | unfold d2; bd_simpl; lia | apply cj_slack_frame; reflexivity].
      * apply Hcore2. apply (b2core_scan_of _ _ _ (PhTemp k r0 r1 r2 r3)); [exact Hcore | exact I].
      * exact Hrcph.
      * split; [unfold d2; bd_simpl; replace (4 + k + m) with 8 by lia; reflexivity | pose proof (Hfuel d2); lia].
      * unfold d2. bd_simpl. lia.
      * cbn [rem_out c_ph c_its]. f_equal. symmetry. apply firstn_all2. unfold w. rewrite skipn_length. cbn [length]. lia.
Qed.
