(* Filter/Bcj2InvProofs.v — the invariant that ties a state of the decoder model (Filter/Bcj2.v) to a
   position in the item list of the specification encoder (Filter/Bcj2Enc.v), and the lemmas about
   the pieces of decode(): normalisation, the word of the CALL/JUMP stream, the final normalisation.
   Defines the invariant [b2inv] (over [b2phase], [b2cfg], [futures], [b2core]) and the exits [exit_ok] that
   Bcj2LoopProofs.v, Bcj2DecProofs.v, Bcj2ReaderProofs.v and Bcj2SpecProofs.v state their results with. *)
From LzVerif Require Import Codec.ProbProofs Codec.RangeArithProofs Codec.RangeEncProofs.
From LzVerif Require Import Filter.Bcj2 Filter.Bcj2Enc Filter.Bcj2EncProofs Filter.Bcj2RcProofs Filter.Bcj2ScanProofs Filter.Bcj2SlackProofs.

(* where the decoder stands *)
Inductive b2phase :=
| PhInit (k : Z)                        (* k bytes of the RC stream read by the start-up loop *)
| PhScan                                (* between two items *)
| PhWord (ic : bool) (r0 r1 r2 r3 : Z)  (* a converted candidate: opcode stored, bit 1 decoded, its word not yet read *)
| PhTemp (k r0 r1 r2 r3 : Z).           (* word read, operand bytes k..3 still in temp *)

(* [c_its]: the items not yet begun; [c_prev]/[c_pos]: previous original byte and offset where they
   begin; [c_e]/[c_t]: the range encoder before their events *)
Record b2cfg := mkCfg {
  c_ph : b2phase; c_its : list b2item; c_prev : Z; c_pos : Z; c_e : renc; c_t : Codec.Range.probs }.

(* what is still in the inner readers *)
Record futures := mkFut { f_main : list Z; f_call : list Z; f_jump : list Z; f_rc : list Z }.

(* the original bytes not yet delivered *)
Definition rem_out (c : b2cfg) : list Z :=
  match c_ph c with
  | PhInit _ | PhScan => b2_orig (c_its c)
  | PhWord _ r0 r1 r2 r3 => [r0; r1; r2; r3] ++ b2_orig (c_its c)
  | PhTemp k r0 r1 r2 r3 => skipn (Z.to_nat k) [r0; r1; r2; r3] ++ b2_orig (c_its c)
  end.

Definition sb_full (b : sbuf) : Prop := sb_avail b = zlen (sb_live b).
Definition sb_word (b : sbuf) : Prop :=
  0 <= sb_avail b <= zlen (sb_live b) /\ sb_avail b mod 4 = 0 /\ zlen (sb_live b) - sb_avail b < 4.

Definition g_main (mb : sbuf) (fm : list Z) (its : list b2item) : Prop :=
  sb_live mb ++ fm = b2_main its /\ sb_full mb.

(* the word a PhWord state waits for; [pos] = offset behind the operand *)
Definition pend_word (ph : b2phase) (pos : Z) (call : bool) : list Z :=
  match ph with
  | PhWord ic r0 r1 r2 r3 => if Bool.eqb ic call then be32 (wrap32 (le32 r0 r1 r2 r3 + wrap32 pos)) else []
  | _ => []
  end.

Definition g_cj (cb jb : sbuf) (fc fj : list Z) (ph : b2phase) (pos : Z) (its : list b2item) : Prop :=
  sb_live cb ++ fc = pend_word ph pos true ++ b2_call its /\ sb_word cb /\
  sb_live jb ++ fj = pend_word ph pos false ++ b2_jump its /\ sb_word jb.

Definition g_enc (rc_out : list Z) (pl : list Z) (e : renc) (t : Codec.Range.probs) (its : list b2item) : Prop :=
  renc_inv e /\ probs_ok t /\ ptab_rel pl t /\
  rc_out = renc_bytes (renc_finish (fst (renc_events e t (b2_events its)))) /\
  re_cache_size e + events_bits (b2_events its) + 5 < 4294967296 /\ bytes_ok rc_out = true.

Definition g_rc (rc_out : list Z) (rb : sbuf) (range code : Z) (fr : list Z) (e : renc) : Prop :=
  sb_full rb /\ rc_ok rc_out range code (sb_live rb ++ fr) e.

Definition g_regs (d : bdec) (c : b2cfg) : Prop :=
  match c_ph c with
  | PhInit _ | PhScan => bd_t3 d = c_prev c /\ bd_ip d = wrap32 (c_pos c)
  | PhWord ic r0 r1 r2 r3 =>
      (bd_t3 d =? 232) = ic /\ bd_ip d = wrap32 (c_pos c - 4) /\ c_prev c = r3 /\
      isb r0 /\ isb r1 /\ isb r2 /\ isb r3
  | PhTemp k r0 r1 r2 r3 =>
      bd_t0 d = r0 /\ bd_t1 d = r1 /\ bd_t2 d = r2 /\ bd_t3 d = r3 /\ bd_ip d = wrap32 (c_pos c) /\
      c_prev c = r3 /\ isb r0 /\ isb r1 /\ isb r2 /\ isb r3 /\ 0 <= k <= 3
  end.

Definition g_state (st : Z) (ph : b2phase) : Prop :=
  match ph with
  | PhInit _ => st = 9 \/ st = 3
  | PhScan => st = 0 \/ st = 3 \/ st = 8 \/ st = 9
  | PhWord ic _ _ _ _ => st = if ic then 1 else 2
  | PhTemp k _ _ _ _ => st = 4 + k
  end.

Definition b2core (rc_out : list Z) (d : bdec) (F : futures) (c : b2cfg) : Prop :=
  g_main (bd_main d) (f_main F) (c_its c) /\
  g_cj (bd_call d) (bd_jump d) (f_call F) (f_jump F) (c_ph c) (c_pos c) (c_its c) /\
  g_enc rc_out (bd_probs d) (c_e c) (c_t c) (c_its c) /\
  items_wf (c_prev c) (c_pos c) (c_its c) /\ isb (c_prev c) /\
  g_regs d c.

(* the RC side: start-up phase or running *)
Definition g_rcph (rc_out : list Z) (d : bdec) (F : futures) (c : b2cfg) : Prop :=
  match c_ph c with
  | PhInit k =>
      0 <= k <= 4 /\ bd_range d = k /\ c_e c = renc_init /\ sb_full (bd_rc d) /\
      bd_code d = be_val (firstn (Z.to_nat k) rc_out) /\
      sb_live (bd_rc d) ++ f_rc F = skipn (Z.to_nat k) rc_out
  | _ => g_rc rc_out (bd_rc d) (bd_range d) (bd_code d) (f_rc F) (c_e c)
  end.

Definition b2inv (rc_out : list Z) (d : bdec) (F : futures) (c : b2cfg) : Prop :=
  b2core rc_out d F c /\ g_state (bd_state d) (c_ph c) /\ g_rcph rc_out d F c.

(* how a decode() call may end *)
Definition exit_ok (lim : Z) (d : bdec) (c : b2cfg) : Prop :=
  match c_ph c with
  | PhInit _ => bd_state d = 3 /\ sb_avail (bd_rc d) = 0
  | PhScan =>
      (bd_state d = 0 /\ sb_avail (bd_main d) = 0 /\ 16777216 <= bd_range d) \/
      (bd_state d = 3 /\ sb_avail (bd_rc d) = 0 /\ bd_range d < 16777216) \/
      (bd_state d = 8 /\ bd_dest d = lim /\ c_its c <> [])
  | PhWord ic _ _ _ _ => sb_avail (if ic then bd_call d else bd_jump d) = 0
  | PhTemp _ _ _ _ _ => bd_dest d = lim
  end.

(* projections of the decoder's setters and of the proof-side records, everywhere *)
Ltac bd_simpl :=
  cbn [bd_set_state bd_set_dest bd_set_rc bd_set_main bd_set_bit bd_set_conv
       bd_main bd_call bd_jump bd_rc bd_dest bd_state bd_ip bd_t0 bd_t1 bd_t2 bd_t3 bd_range bd_code bd_probs
       sb_live sb_avail c_ph c_its c_prev c_pos c_e c_t f_main f_call f_jump f_rc] in *.

(* [b2core] reads the MAIN/CALL/JUMP buffers, the probabilities, temp and ip, nothing else *)
Lemma b2core_frame rc_out d d' F c :
  b2core rc_out d F c ->
  bd_main d' = bd_main d -> bd_call d' = bd_call d -> bd_jump d' = bd_jump d -> bd_probs d' = bd_probs d ->
  bd_t0 d' = bd_t0 d -> bd_t1 d' = bd_t1 d -> bd_t2 d' = bd_t2 d -> bd_t3 d' = bd_t3 d -> bd_ip d' = bd_ip d ->
  b2core rc_out d' F c.
Proof.
  intros H E1 E2 E3 E4 E5 E6 E7 E8 E9. unfold b2core, g_regs in *.
  rewrite E1, E2, E3, E4, E5, E6, E7, E8, E9. exact H.
Qed.

(* the phases in which the RC side is running *)
Lemma g_rcph_running rc_out d F c : (forall k, c_ph c <> PhInit k) ->
  g_rcph rc_out d F c = g_rc rc_out (bd_rc d) (bd_range d) (bd_code d) (f_rc F) (c_e c).
Proof. intros H. unfold g_rcph. destruct (c_ph c) as [k| | |]; [destruct (H k eq_refl) | reflexivity ..]. Qed.

Lemma b2inv_running rc_out d F c : (forall k, c_ph c <> PhInit k) ->
  b2core rc_out d F c -> g_state (bd_state d) (c_ph c) ->
  g_rc rc_out (bd_rc d) (bd_range d) (bd_code d) (f_rc F) (c_e c) -> b2inv rc_out d F c.
Proof. intros Hph Hcore Hst Hrc. split; [exact Hcore|]. split; [exact Hst|]. rewrite g_rcph_running by exact Hph. exact Hrc. Qed.

Lemma sb_full_nil_avail b : sb_full b -> sb_avail b = 0 -> sb_live b = [].
Proof.
  unfold sb_full, zlen. intros H H0. destruct (sb_live b); [reflexivity|]. cbn [length] in H. lia.
Qed.

Lemma sb_pop_nil b : sb_full b -> sb_live b = [] -> sb_pop b = PopEmpty /\ sb_avail b = 0.
Proof. unfold sb_full, sb_pop. intros H E. rewrite E in H. rewrite H. split; reflexivity. Qed.

Lemma sb_pop_cons b x l : sb_full b -> sb_live b = x :: l ->
  sb_pop b = PopByte x (mkSb l (sb_avail b - 1)) /\ sb_full (mkSb l (sb_avail b - 1)).
Proof.
  unfold sb_full, sb_pop. intros H E. rewrite E in *. rewrite zlen_cons in H. pose proof (zlen_nonneg l).
  destruct (Z.eqb_spec (sb_avail b) 0); [lia|]. split; [reflexivity|]. cbn [sb_avail sb_live]. lia.
Qed.

Lemma bd_set_rc_same d : bd_set_rc d (bd_rc d) (bd_range d) (bd_code d) = d.
Proof. destruct d; reflexivity. Qed.

Lemma normalize_spec rc_out d fr e :
  g_rc rc_out (bd_rc d) (bd_range d) (bd_code d) fr e -> renc_inv e ->
  (bcj2_normalize d = NormNeed /\ sb_avail (bd_rc d) = 0 /\ bd_range d < 16777216) \/
  (exists rb r c, bcj2_normalize d = NormOk (bd_set_rc d rb r c) /\
     sb_full rb /\ rc_norm rc_out r c (sb_live rb ++ fr) e).
Proof.
  intros [Hfull Hok] HI. unfold bcj2_normalize, K_TOP_VALUE.
  destruct (Z.ltb_spec (bd_range d) 16777216) as [Hlt|Hge].
  - destruct (sb_live (bd_rc d)) as [|x l] eqn:El.
    + destruct (sb_pop_nil _ Hfull El) as [Hpop Hav]. rewrite Hpop. left. auto.
    + destruct (sb_pop_cons _ _ _ Hfull El) as [Hpop Hf']. rewrite Hpop. right.
      exists (mkSb l (sb_avail (bd_rc d) - 1)), (wrap32 (bd_range d * 256)), (code_shift_in (bd_code d) x).
      split; [reflexivity|]. split; [exact Hf'|].
      cbn [sb_live]. cbn [app] in Hok. apply (rc_ok_step _ _ _ _ _ _ Hok Hlt).
  - right. exists (bd_rc d), (bd_range d), (bd_code d). rewrite bd_set_rc_same.
    split; [reflexivity|]. split; [exact Hfull | apply (rc_ok_big _ _ _ _ _ Hok Hge)].
Qed.

(* the opportunistic normalisation after `break` *)
Lemma finish_spec rc_out d fr e o :
  g_rc rc_out (bd_rc d) (bd_range d) (bd_code d) fr e -> renc_inv e ->
  exists rb r c, bcj2_finish d o = Ok (true, bd_set_rc d rb r c, o) /\
    g_rc rc_out rb r c fr e.
Proof.
  intros Hg HI. unfold bcj2_finish.
  destruct (normalize_spec _ _ _ _ Hg HI) as [(Hn & _) | (rb & r & c & Hn & Hf & Hm)].
  - rewrite Hn. exists (bd_rc d), (bd_range d), (bd_code d). rewrite bd_set_rc_same. split; [reflexivity | exact Hg].
  - rewrite Hn. exists rb, r, c. split; [reflexivity|]. split; [exact Hf|].
    apply rc_norm_ok; assumption.
Qed.

Lemma wrap32_ip_back pos : wrap32 (wrap32 (pos - 4) + 4) = wrap32 pos.
Proof. rewrite wrap32_add_l. f_equal. lia. Qed.

Lemma sb_word_take b : sb_word b -> sb_avail b <> 0 ->
  exists b0 b1 b2 b3 rest, sb_live b = b0 :: b1 :: b2 :: b3 :: rest /\ sb_word (mkSb rest (sb_avail b - 4)) /\
    slack (mkSb rest (sb_avail b - 4)) = slack b.
Proof.
  unfold sb_word, slack. intros (Ha & Hm & He) Hne.
  assert (H4 : 4 <= sb_avail b) by (Z.div_mod_to_equations; lia).
  destruct (sb_live b) as [|b0 [|b1 [|b2 [|b3 rest]]]] eqn:El;
    try (unfold zlen in Ha; cbn [length] in Ha; lia).
  exists b0, b1, b2, b3, rest. split; [reflexivity|]. cbn [sb_live sb_avail].
  rewrite !zlen_cons in *. pose proof (zlen_nonneg rest). (Z.div_mod_to_equations; lia).
Qed.

Lemma out_firstn_rev rem (v0 v1 v2 : Z) v3 (o : list Z) : 0 <= rem < 4 ->
  (if 2 <? rem then v2 :: v1 :: v0 :: o else if 1 <? rem then v1 :: v0 :: o else if 0 <? rem then v0 :: o else o) =
  rev (firstn (Z.to_nat rem) [v0; v1; v2; v3]) ++ o.
Proof.
  intros H. assert (Hc : rem = 0 \/ rem = 1 \/ rem = 2 \/ rem = 3) by lia.
  destruct Hc as [-> | [-> | [-> | ->]]]; reflexivity.
Qed.

(* The buffer a pending word is read from, [sb] = CALL or JUMP according to [ic]: it starts with the
   word, and once the word is taken off ([rest]) the CALL/JUMP part of the invariant holds again in
   any phase [ph'] that waits for no word. *)
Lemma g_cj_word ic cb jb fc fj r0 r1 r2 r3 pos its :
  g_cj cb jb fc fj (PhWord ic r0 r1 r2 r3) pos its ->
  let sb := if ic then cb else jb in
  let w := be32 (wrap32 (le32 r0 r1 r2 r3 + wrap32 pos)) in
  sb_word sb /\ sb_live sb ++ (if ic then fc else fj) = w ++ (if ic then b2_call its else b2_jump its) /\
  forall rest n ph', sb_live sb = w ++ rest -> sb_word (mkSb rest n) -> (forall call, pend_word ph' pos call = []) ->
    g_cj (if ic then mkSb rest n else cb) (if ic then jb else mkSb rest n) fc fj ph' pos its.
Proof.
  intros (Hc & Hcw & Hj & Hjw).
  destruct ic; cbn [pend_word Bool.eqb app] in Hc, Hj; cbv zeta; (split; [assumption|]); (split; [assumption|]);
    intros rest n ph' Hl Hn Hp; unfold g_cj; rewrite !Hp; cbn [app sb_live].
  - rewrite Hl, <- app_assoc in Hc. apply app_inv_head in Hc. msplit; assumption.
  - rewrite Hl, <- app_assoc in Hj. apply app_inv_head in Hj. msplit; assumption.
Qed.

Lemma conv_spec rc_out lim d F o ic r0 r1 r2 r3 its prev pos e t :
  b2core rc_out d F (mkCfg (PhWord ic r0 r1 r2 r3) its prev pos e t) ->
  0 <= bd_dest d <= lim ->
  (sb_avail (if ic then bd_call d else bd_jump d) = 0 /\
   bcj2_conv lim d o = Ok (CvBreak (bd_set_state d (if ic then 1 else 2)) o)) \/
  (exists d', lim - bd_dest d < 4 /\
     bcj2_conv lim d o = Ok (CvBreak d' (rev (firstn (Z.to_nat (lim - bd_dest d)) [r0; r1; r2; r3]) ++ o)) /\
     b2core rc_out d' F (mkCfg (PhTemp (lim - bd_dest d) r0 r1 r2 r3) its prev pos e t) /\
     bd_state d' = 4 + (lim - bd_dest d) /\ bd_dest d' = lim /\
     bd_rc d' = bd_rc d /\ bd_range d' = bd_range d /\ bd_code d' = bd_code d /\ cj_slack d d') \/
  (exists d', 4 <= lim - bd_dest d /\
     bcj2_conv lim d o = Ok (CvCont d' (r3 :: r2 :: r1 :: r0 :: o)) /\
     b2core rc_out d' F (mkCfg PhScan its prev pos e t) /\
     bd_state d' = bd_state d /\ bd_dest d' = bd_dest d + 4 /\
     bd_rc d' = bd_rc d /\ bd_range d' = bd_range d /\ bd_code d' = bd_code d /\ bd_main d' = bd_main d /\
     cj_slack d d').
Proof.
  intros (Hmain & Hcj & Henc & Hwf & Hprev & Hregs) Hdest.
  unfold g_regs in Hregs. bd_simpl.
  destruct Hregs as (Ht3 & Hip & Hp3 & I0 & I1 & I2 & I3).
  destruct (g_cj_word _ _ _ _ _ _ _ _ _ _ _ Hcj) as (Hw & Hside & Hcj'). clear Hcj.
  pose proof (le32_range _ _ _ _ I0 I1 I2 I3) as Hrel.
  set (abs := wrap32 (le32 r0 r1 r2 r3 + wrap32 pos)) in *.
  destruct (be32_value abs (wrap32_range _)) as (a0 & a1 & a2 & a3 & Hbe & Hval).
  pose proof (le32_bytes _ _ _ _ I0 I1 I2 I3) as Hle. cbv zeta in Hle. destruct Hle as (L0 & L1 & L2 & L3).
  assert (Hsub : wrap32 (abs - wrap32 (bd_ip d + 4)) = le32 r0 r1 r2 r3).
  { rewrite Hip, wrap32_ip_back. apply abs_rel. exact Hrel. }
  unfold bcj2_conv. rewrite Ht3. cbv zeta.
  set (sb := if ic then bd_call d else bd_jump d) in *.
  destruct (Z.eqb_spec (sb_avail sb) 0) as [Hz|Hnz]; [left; split; [exact Hz | reflexivity]|].
  right.
  destruct (sb_word_take _ Hw Hnz) as (b0 & b1 & b2 & b3 & rest & Hl & Hw' & Hsl).
  rewrite Hl, Hbe in Hside. injection Hside as -> -> -> -> _.
  specialize (Hcj' rest (sb_avail sb - 4)). rewrite Hl, Hbe in Hcj'. specialize (fun ph' => Hcj' ph' eq_refl Hw').
  rewrite Hl.
  rewrite Hval, Hsub, L0, L1, L2, L3.
  replace (lim <? bd_dest d) with false by (symmetry; apply Z.ltb_ge; lia).
  rewrite Hip, wrap32_ip_back.
  assert (Hslack : forall ip dest st t0 t1 t2 t3,
            cj_slack d (bd_set_conv d ic (mkSb rest (sb_avail sb - 4)) ip dest st t0 t1 t2 t3)).
  { intros. unfold cj_slack, sb in *. destruct ic; bd_simpl; auto. }
  destruct (Z.ltb_spec (lim - bd_dest d) 4) as [Hr4|Hr4].
  - left. eexists. split; [exact Hr4|]. split.
    { rewrite (out_firstn_rev _ r0 r1 r2 r3) by lia. reflexivity. }
    split.
    { unfold b2core. bd_simpl. msplit; try assumption.
      - apply Hcj'. reflexivity.
      - unfold g_regs. bd_simpl. msplit; try reflexivity; try assumption; lia. }
    bd_simpl. unfold BCJ2_DEC_STATE_ORIG_0. msplit; try reflexivity; try lia. apply Hslack.
  - right. eexists. split; [exact Hr4|]. split; [reflexivity|].
    split.
    { unfold b2core. bd_simpl. msplit; try assumption.
      - apply Hcj'. reflexivity.
      - unfold g_regs. bd_simpl. split; [symmetry; exact Hp3 | reflexivity]. }
    bd_simpl. msplit; try reflexivity. apply Hslack.
Qed.

(* between two items the CALL/JUMP part depends on the items only through their CALL and JUMP bytes *)
Lemma g_cj_scan cb jb fc fj pos its pos' its' :
  b2_call its = b2_call its' -> b2_jump its = b2_jump its' ->
  g_cj cb jb fc fj PhScan pos its -> g_cj cb jb fc fj PhScan pos' its'.
Proof. intros Ec Ej H. unfold g_cj in *. cbn [pend_word] in *. rewrite <- Ec, <- Ej. exact H. Qed.

(* a converted candidate has been met: its word is the next one of its stream *)
Lemma g_cj_conv cb jb fc fj pos b idx ic r0 r1 r2 r3 a pos' rest :
  a = wrap32 (le32 r0 r1 r2 r3 + wrap32 pos') ->
  g_cj cb jb fc fj PhScan pos (B2Conv b idx ic r0 r1 r2 r3 a :: rest) ->
  g_cj cb jb fc fj (PhWord ic r0 r1 r2 r3) pos' rest.
Proof.
  intros -> H. unfold g_cj, b2_call, b2_jump in *. cbn [pend_word flat_map b2_call1 b2_jump1] in *.
  destruct ic; cbn [Bool.eqb app] in *; exact H.
Qed.
