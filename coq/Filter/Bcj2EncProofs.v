(* Filter/Bcj2EncProofs.v — facts about the specification encoder of Filter/Bcj2Enc.v: the item list
   it parses the data into is well formed (every item records the candidate test, the probability
   index and the absolute address the format prescribes at its position), it covers the data exactly,
   and its range-coder events are in range. *)
From LzVerif Require Import Codec.RangeArithProofs Codec.RangeEncProofs.
From LzVerif Require Import Filter.Bcj2Enc.

Definition isb (x : Z) : Prop := 0 <= x < 256.

(* well-formed item list, starting with previous byte [prev] at offset [pos] (not reduced mod 2^32) *)
Fixpoint items_wf (prev pos : Z) (its : list b2item) : Prop :=
  match its with
  | [] => True
  | B2Lit b :: r => isb b /\ bcj2_is_cand prev b = false /\ items_wf b (pos + 1) r
  | B2Cand b idx :: r =>
      isb b /\ bcj2_is_cand prev b = true /\ idx = bcj2_spec_index prev b /\ items_wf b (pos + 1) r
  | B2Conv b idx ic r0 r1 r2 r3 a :: r =>
      isb b /\ isb r0 /\ isb r1 /\ isb r2 /\ isb r3 /\
      bcj2_is_cand prev b = true /\ idx = bcj2_spec_index prev b /\ ic = (b =? 232) /\
      a = wrap32 (le32 r0 r1 r2 r3 + wrap32 (pos + 5)) /\ items_wf r3 (pos + 5) r
  end.

Lemma wrap32_add_l a b : wrap32 (wrap32 a + b) = wrap32 (a + b).
Proof. unfold wrap32. rewrite Zplus_mod_idemp_l. reflexivity. Qed.
Lemma wrap32_add_r a b : wrap32 (a + wrap32 b) = wrap32 (a + b).
Proof. unfold wrap32. rewrite Zplus_mod_idemp_r. reflexivity. Qed.
Lemma wrap32_idem a : wrap32 (wrap32 a) = wrap32 a.
Proof. unfold wrap32. rewrite Z.mod_mod by lia. reflexivity. Qed.
Lemma bytes_ok_isb b l : bytes_ok (b :: l) = true -> isb b /\ bytes_ok l = true.
Proof. intros H. apply bytes_ok_cons in H. exact H. Qed.

(* The three ways [bcj2_parse] consumes the head of the data: a literal, a candidate left as it is, a
   candidate converted together with the four bytes behind it. *)
Lemma bcj2_parse_ind (P : list Z -> Z -> Z -> list bool -> list b2item -> Prop) :
  (forall prev ip ds, P [] prev ip ds []) ->
  (forall b rest prev ip ds, bcj2_is_cand prev b = false ->
     let its := bcj2_parse rest b (wrap32 (ip + 1)) ds in
     P rest b (wrap32 (ip + 1)) ds its -> P (b :: rest) prev ip ds (B2Lit b :: its)) ->
  (forall b rest prev ip ds, bcj2_is_cand prev b = true ->
     let ds' := snd (next_decision ds) in
     let its := bcj2_parse rest b (wrap32 (ip + 1)) ds' in
     P rest b (wrap32 (ip + 1)) ds' its -> P (b :: rest) prev ip ds (B2Cand b (bcj2_spec_index prev b) :: its)) ->
  (forall b r0 r1 r2 r3 rest4 prev ip ds, bcj2_is_cand prev b = true ->
     let ds' := snd (next_decision ds) in
     let ip' := wrap32 (ip + 5) in
     let its := bcj2_parse rest4 r3 ip' ds' in
     P rest4 r3 ip' ds' its ->
     P (b :: r0 :: r1 :: r2 :: r3 :: rest4) prev ip ds
       (B2Conv b (bcj2_spec_index prev b) (b =? 232) r0 r1 r2 r3 (wrap32 (le32 r0 r1 r2 r3 + ip')) :: its)) ->
  forall data prev ip ds, P data prev ip ds (bcj2_parse data prev ip ds).
Proof.
  intros Hnil Hlit Hcand Hconv data.
  assert (Hn : (length data <= length data)%nat) by lia. revert Hn. generalize (length data) at 2. intros n. revert data.
  induction n as [|n IH]; intros data Hn prev ip ds.
  - destruct data; [apply Hnil | cbn [length] in Hn; lia].
  - destruct data as [|b rest]; [apply Hnil|]. cbn [length] in Hn.
    cbn [bcj2_parse]. destruct (bcj2_is_cand prev b) eqn:Ec; [|apply Hlit; [exact Ec | apply IH; lia]].
    pose proof (Hcand b rest prev ip ds Ec (IH rest ltac:(lia) _ _ _)) as Hc.
    pose proof (fun r0 r1 r2 r3 rest4 Hl => Hconv b r0 r1 r2 r3 rest4 prev ip ds Ec (IH rest4 Hl _ _ _)) as Hv.
    destruct (next_decision ds) as [dcs ds']. cbn [snd] in Hc, Hv.
    destruct rest as [|r0 [|r1 [|r2 [|r3 rest4]]]]; try exact Hc.
    destruct dcs; [|exact Hc]. apply Hv. cbn [length] in Hn. lia.
Qed.

Lemma bcj2_parse_wf data prev ip ds : forall pos,
  bytes_ok data = true -> ip = wrap32 pos -> items_wf prev pos (bcj2_parse data prev ip ds).
Proof.
  apply (bcj2_parse_ind (fun data prev ip ds its => forall pos, bytes_ok data = true -> ip = wrap32 pos -> items_wf prev pos its)); clear.
  - intros. exact I.
  - intros b rest prev ip ds Ec its IH pos Hb Hip. apply bytes_ok_isb in Hb as [Hb0 Hbr].
    cbn [items_wf]. split; [exact Hb0|]. split; [exact Ec|]. apply IH; [exact Hbr | subst ip; apply wrap32_add_l].
  - intros b rest prev ip ds Ec ds' its IH pos Hb Hip. apply bytes_ok_isb in Hb as [Hb0 Hbr].
    cbn [items_wf]. split; [exact Hb0|]. split; [exact Ec|]. split; [reflexivity|].
    apply IH; [exact Hbr | subst ip; apply wrap32_add_l].
  - intros b r0 r1 r2 r3 rest4 prev ip ds Ec ds' ip' its IH pos Hb Hip.
    apply bytes_ok_isb in Hb as [Hb0 Hb]. apply bytes_ok_isb in Hb as [H0 Hb]. apply bytes_ok_isb in Hb as [H1 Hb].
    apply bytes_ok_isb in Hb as [H2 Hb]. apply bytes_ok_isb in Hb as [H3 Hb].
    assert (Hip5 : ip' = wrap32 (pos + 5)) by (unfold ip'; subst ip; apply wrap32_add_l).
    cbn [items_wf]. split; [exact Hb0|]. split; [exact H0|]. split; [exact H1|]. split; [exact H2|].
    split; [exact H3|]. split; [exact Ec|]. split; [reflexivity|]. split; [reflexivity|].
    split; [rewrite Hip5; reflexivity|]. apply IH; [exact Hb | exact Hip5].
Qed.

Lemma bcj2_parse_orig data prev ip ds : b2_orig (bcj2_parse data prev ip ds) = data.
Proof.
  apply (bcj2_parse_ind (fun data _ _ _ its => b2_orig its = data)); clear; unfold b2_orig; intros;
    cbn [flat_map b2_orig1 app]; repeat f_equal; assumption.
Qed.

Lemma bcj2_parse_length data prev ip ds : (length (bcj2_parse data prev ip ds) <= length data)%nat.
Proof.
  apply (bcj2_parse_ind (fun data _ _ _ its => (length its <= length data)%nat)); clear; intros; cbn [length] in *; lia.
Qed.

Lemma b2_events_ok its : forallb ev_ok (b2_events its) = true.
Proof.
  unfold b2_events. induction its as [|it r IH]; [reflexivity|].
  cbn [flat_map]. rewrite forallb_app, IH, andb_true_r.
  destruct it; reflexivity.
Qed.

Lemma b2_events_bits its : events_bits (b2_events its) <= zlen its.
Proof.
  unfold b2_events. induction its as [|it r IH]; [cbn; unfold zlen; cbn; lia|].
  cbn [flat_map]. rewrite events_bits_app, zlen_cons.
  destruct it; cbn [b2_event1 events_bits ev_bits]; lia.
Qed.

Lemma le32_range r0 r1 r2 r3 : isb r0 -> isb r1 -> isb r2 -> isb r3 -> 0 <= le32 r0 r1 r2 r3 < 4294967296.
Proof. unfold isb, le32. lia. Qed.

Lemma be32_value v : 0 <= v < 4294967296 ->
  exists b0 b1 b2 b3, be32 v = [b0; b1; b2; b3] /\ ((b0 * 256 + b1) * 256 + b2) * 256 + b3 = v.
Proof.
  intros Hv. unfold be32. rewrite !shiftr_div by lia.
  change (2 ^ 24) with 16777216. change (2 ^ 16) with 65536. change (2 ^ 8) with 256.
  do 4 eexists. split; [reflexivity|]. (Z.div_mod_to_equations; lia).
Qed.

Lemma le32_bytes r0 r1 r2 r3 : isb r0 -> isb r1 -> isb r2 -> isb r3 ->
  let v := le32 r0 r1 r2 r3 in
  v mod 256 = r0 /\ Z.shiftr v 8 mod 256 = r1 /\ Z.shiftr v 16 mod 256 = r2 /\ Z.shiftr v 24 mod 256 = r3.
Proof.
  unfold isb, le32. intros H0 H1 H2 H3. cbv zeta. rewrite !shiftr_div by lia.
  change (2 ^ 24) with 16777216. change (2 ^ 16) with 65536. change (2 ^ 8) with 256.
  repeat split; (Z.div_mod_to_equations; lia).
Qed.

(* abs - ip' = rel (mod 2^32) *)
Lemma abs_rel rel ip : 0 <= rel < 4294967296 -> wrap32 (wrap32 (rel + ip) - ip) = rel.
Proof.
  intros H. unfold wrap32. rewrite Zminus_mod_idemp_l.
  replace (rel + ip - ip) with rel by lia. apply Z.mod_small. exact H.
Qed.
