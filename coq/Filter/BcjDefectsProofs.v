(* Filter/BcjDefectsProofs.v — what was wrong before repo-patches/11-13, and what is wrong today
   (BCJWriter under a partition of the data into write calls), each with a computed witness.
   Replays on the implementation: docs/design-notes/bcj.md. *)
From LzVerif Require Import Base.Bytes Filter.Bcj Filter.BcjStream Filter.BcjDefects Filter.BcjArithProofs
  Filter.BcjStreamProofs.

(* BCJWriter is not independent of the write partition (known finding bcj-writer-midstream-tail;
   present in the repaired code) *)
Theorem bcj_writer_partition_refuted :
  exists a start parts,
    bytes_ok (concat parts) = true /\
    (* what reaches the sink differs from the filtered stream ... *)
    bcj_enc_parts a start parts <> bcj_stream a true start (concat parts) /\
    (* ... and does not decode to the data *)
    (exists out, bcj_enc_parts a start parts = Ok out /\ bcj_stream a false start out <> Ok (concat parts)) /\
    (* although a single write call does *)
    (exists out1, bcj_enc_parts a start [concat parts] = Ok out1 /\ bcj_stream a false start out1 = Ok (concat parts)) /\
    (* the witness lies in the known class *)
    ~ no_midstream_tail a (bcj_init a start) parts.
Proof.
  exists ARM, 0, [[0]; [0; 0; 235; 1; 2; 3; 235]].
  split; [reflexivity|]. split; [vm_compute; discriminate|].
  split; [eexists; split; [vm_compute; reflexivity|vm_compute; discriminate]|].
  split; [eexists; split; [vm_compute; reflexivity|vm_compute; reflexivity]|].
  vm_compute. intros [[H|H] _]; discriminate.
Qed.

(* the same for x86, where practically every call leaves a tail *)
Theorem bcj_writer_partition_refuted_x86 :
  exists start parts,
    bcj_enc_parts X86 start parts <> bcj_stream X86 true start (concat parts) /\
    ~ no_midstream_tail X86 (bcj_init X86 start) parts.
Proof.
  exists 0, [[232; 0; 0; 0]; [0; 232; 0; 0; 0; 0]].
  split; [vm_compute; discriminate|]. vm_compute. intros [[H|H] _]; discriminate.
Qed.

(* before repo-patches/11: overflow panics *)
(* `src + p`: start offset 0x7FFFFFEC, first word C1 09 0F EB (harness: bcj_enc arm 2147483628 ...) *)
Theorem bcj_checked_add_refuted :
  exists start b0 b1 b2,
    start mod 4 = 0 /\ 0 <= start < 4294967296 /\
    arm_word_old true (start + 8) 0 b0 b1 b2 235 = Panic 1 /\
    (* the repaired code converts the word, and the decoder gives it back *)
    (let '(c0, c1, c2, c3) := arm_word true (pc32 (start + 8) 0) b0 b1 b2 235 in
     arm_word false (pc32 (start + 8) 0) c0 c1 c2 c3 = (b0, b1, b2, 235)).
Proof. exists 2147483628, 193, 9, 15. repeat split; try reflexivity; try lia. Qed.

(* `start_pos + 8` on usize *)
Theorem bcj_checked_start_refuted : exists start, 0 <= start < 18446744073709551616 /\ new_arm_old start = Panic 1.
Proof. exists 18446744073709551612. split; [lia|reflexivity]. Qed.

(* where the old arithmetic did not panic it computed what the repaired code computes *)
Lemma arm_word_old_agrees enc pos i b0 b1 b2 b3 r :
  0 <= pos + i -> arm_word_old enc pos i b0 b1 b2 b3 = Ok r -> r = arm_word enc (pc32 pos i) b0 b1 b2 b3.
Proof.
  intros Hpos. unfold arm_word_old, arm_word, add_usize_checked, add_i32_checked, sub_i32_checked, addsub, pc32, u64.
  destruct (b3 =? 235); [|intros E; congruence].
  cbv zeta. destruct (Z.ltb_spec 18446744073709551615 (pos + i)); cbn [obind]; [discriminate|].
  rewrite (Z.mod_small (pos + i)) by lia.
  set (src := s32 _). set (p := s32 (pos + i)).
  destruct enc; cbn [obind].
  - destruct (Z.ltb_spec (src + p) (-2147483648)); cbn [orb obind]; [discriminate|].
    destruct (Z.ltb_spec 2147483647 (src + p)); cbn [obind]; [discriminate|].
    intros E. rewrite (s32_small (src + p)) by lia. congruence.
  - destruct (Z.ltb_spec (src - p) (-2147483648)); cbn [orb obind]; [discriminate|].
    destruct (Z.ltb_spec 2147483647 (src - p)); cbn [obind]; [discriminate|].
    intros E. rewrite (s32_small (src - p)) by lia. congruence.
Qed.

(* before repo-patches/12: bytes the sink did not take were lost *)
Theorem bcj_writer_short_count_refuted :
  exists a start k buf out, 0 < k /\
    bcj_write_old_short a k (bcj_init a start) buf = Ok out /\ (length (snd out) < length buf)%nat.
Proof. exists ARM64, 0, 2, [198; 20; 182]. eexists. split; [lia|]. split; [vm_compute; reflexivity|cbn; lia]. Qed.

(* before repo-patches/13: a transient failure was remembered: from then on every call fails with Interrupted *)
Theorem bcj_reader_interrupted_sticky_refuted :
  exists a start inner,
    script_errs inner = [E_INTERRUPTED] /\
    (exists st1 inner1,
       bcj_read_old 10 a (bcj_reader_new a start) inner 4 = Ok ([], Some E_INTERRUPTED, st1, inner1) /\
       script_errs inner1 = [] /\
       forall fuel n, 0 < n -> bcj_read_old fuel a st1 inner1 n = Ok ([], Some E_INTERRUPTED, st1, inner1)).
Proof.
  exists ARM, 0, [IErr 8; IData [1; 2; 3; 4]]. split; [reflexivity|].
  eexists _, _. split; [vm_compute; reflexivity|]. split; [reflexivity|].
  intros fuel n Hn. unfold bcj_read_old. destruct (Z.leb_spec n 0); [lia|]. reflexivity.
Qed.

(* a failure after some bytes had been copied: the call fails and the bytes are gone (the state
   has moved past them); the repaired reader hands them out *)
Theorem bcj_reader_bytes_lost_refuted :
  exists a start inner st1 inner1 st2 inner2,
    bcj_read_old 10 a (bcj_reader_new a start) inner 4 = Ok ([1; 2; 3; 235], None, st1, inner1) /\
    (* four more converted bytes are ready, the caller asks for eight, the inner reader fails *)
    bcj_read_old 10 a st1 inner1 8 = Ok ([], Some 6, st2, inner2) /\ r_live st2 = [] /\
    bcj_read 10 a st1 inner1 8 = Ok ([5; 6; 7; 8], None, mkR (r_filter st2) (r_pos st2) 0 0 [] false (Some 6), inner2).
Proof.
  exists ARM64, 0, [IData [1; 2; 3; 235; 5; 6; 7; 8]; IErr 6].
  eexists _, _, _, _. split; [vm_compute; reflexivity|]. split; [vm_compute; reflexivity|].
  split; [vm_compute; reflexivity|vm_compute; reflexivity].
Qed.
