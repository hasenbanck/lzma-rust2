(* Filter/BcjStreamProofs.v — BCJReader and BCJWriter against the stream-level meaning of a filter.
   Generic part: everything is derived from three facts about one architecture's `code`
   (totality with a short untouched rest, compatibility with an equivalence of filter states,
   chunking), collected in [code_facts]; the instances are in Filter/BcjInstProofs.v (word filters,
   ARM-Thumb), BcjRiscvInvProofs.v, BcjIa64Proofs.v and BcjX86Proofs.v. *)
From LzVerif Require Import Base.Bytes Filter.Bcj Filter.BcjStream Filter.BcjArithProofs.

Lemma firstn_add {A} (n m : nat) (l : list A) :
  firstn (n + m) l = firstn n l ++ firstn m (skipn n l).
Proof.
  revert l; induction n as [|n IH]; intros l; [reflexivity|].
  destruct l as [|x t]; [cbn; rewrite firstn_nil; reflexivity|].
  cbn [Nat.add firstn skipn app]. rewrite IH. reflexivity.
Qed.

Lemma zlen_firstn {A} (n : nat) (l : list A) : (n <= length l)%nat -> zlen (firstn n l) = Z.of_nat n.
Proof. intros H. unfold zlen. rewrite firstn_length. f_equal. lia. Qed.

Lemma zlen_skipn {A} (n : nat) (l : list A) : zlen (skipn n l) = zlen l - Z.of_nat (Nat.min n (length l)).
Proof. unfold zlen. rewrite skipn_length. lia. Qed.

(* equivalence of filter states: same position, same low three bits of prev_mask (all that any
   later step of the x86 filter looks at; the other filters do not look at prev_mask at all) *)
Definition feq (s1 s2 : fstate) : Prop := f_pos s1 = f_pos s2 /\ f_mask s1 mod 8 = f_mask s2 mod 8.

Lemma feq_refl s : feq s s.
Proof. split; reflexivity. Qed.
Lemma feq_sym s1 s2 : feq s1 s2 -> feq s2 s1.
Proof. intros [H1 H2]. split; congruence. Qed.
Lemma feq_trans s1 s2 s3 : feq s1 s2 -> feq s2 s3 -> feq s1 s3.
Proof. intros [H1 H2] [H3 H4]. split; congruence. Qed.

Definition code_total (a : arch) (enc : bool) : Prop :=
  forall st buf, bytes_ok buf = true ->
    exists st' o r, bcj_code a enc st buf = Ok (st', o, r) /\
      skipn (length o) buf = r /\ (length o + length r = length buf)%nat /\ (length r < 16)%nat /\
      bytes_ok o = true.

Definition code_respects (a : arch) (enc : bool) : Prop :=
  forall st1 st2 buf s1' o r, feq st1 st2 -> bytes_ok buf = true ->
    bcj_code a enc st1 buf = Ok (s1', o, r) ->
    exists s2', bcj_code a enc st2 buf = Ok (s2', o, r) /\ feq s1' s2'.

Definition code_chunks (a : arch) (enc : bool) : Prop :=
  forall st A B st1 oA rA st2 oB rB, bytes_ok A = true -> bytes_ok B = true ->
    bcj_code a enc st A = Ok (st1, oA, rA) ->
    bcj_code a enc st1 (rA ++ B) = Ok (st2, oB, rB) ->
    exists st2', bcj_code a enc st (A ++ B) = Ok (st2', oA ++ oB, rB) /\ feq st2 st2'.

Definition code_facts (a : arch) (enc : bool) : Prop :=
  code_total a enc /\ code_respects a enc /\ code_chunks a enc.

(* decoding undoes encoding, from filter state [st]: the decoder applied to the encoder's output
   buffer (converted prefix ++ untouched rest) processes the same length, ends in the same state
   and gives the buffer back *)
Definition code_inverse (a : arch) (st : fstate) : Prop :=
  forall buf, bytes_ok buf = true ->
  exists st' out rest,
    bcj_code a true st buf = Ok (st', out, rest) /\
    bcj_code a false st (out ++ rest) = Ok (st', firstn (length out) buf, rest) /\
    firstn (length out) buf ++ rest = buf /\ bytes_ok out = true.

Section Generic.
Variable a : arch.
Variable enc : bool.
Hypothesis Htot : code_total a enc.
Hypothesis Hresp : code_respects a enc.
Hypothesis Hchunk : code_chunks a enc.

(* the converted prefix only grows when more data is appended; appending nothing changes nothing *)
Lemma code_nil_rest st A st1 oA rA : bytes_ok A = true ->
  bcj_code a enc st A = Ok (st1, oA, rA) ->
  exists st2, bcj_code a enc st1 rA = Ok (st2, [], rA) /\ feq st2 st1.
Proof.
  intros HbA HA.
  destruct (Htot st A HbA) as (s' & o & r & E & Hr & Hl & _ & Hbo).
  rewrite HA in E. injection E as <- <- <-.
  assert (HbrA : bytes_ok rA = true) by (rewrite <- Hr; apply bytes_ok_skipn; assumption).
  destruct (Htot st1 rA HbrA) as (st2 & oB & rB & EB & HrB & HlB & _ & _).
  assert (EB' : bcj_code a enc st1 (rA ++ []) = Ok (st2, oB, rB)) by (rewrite app_nil_r; exact EB).
  destruct (Hchunk st A [] st1 oA rA st2 oB rB HbA eq_refl HA EB') as (st2' & E2 & Hf).
  rewrite app_nil_r in E2. rewrite HA in E2. injection E2 as E2a E2b E2c.
  assert (oB = []).
  { apply (f_equal (@length Z)) in E2b. rewrite app_length in E2b. destruct oB; [reflexivity|cbn in E2b; lia]. }
  subst oB rB. exists st2. split; [exact EB|]. rewrite E2a. exact Hf.
Qed.

End Generic.

Section Writer.
Variable a : arch.
Hypothesis Htot : code_total a true.
Hypothesis Hchunk : code_chunks a true.

(* The write-call histories in which BCJWriter behaves like a stream filter: no call leaves an
   unconverted tail while more data follows.  The complement is the known finding
   bcj-writer-midstream-tail. *)
Fixpoint no_midstream_tail (f : fstate) (parts : list (list Z)) : Prop :=
  match parts with
  | [] => True
  | p :: ps =>
      match bcj_code a true f p with
      | Ok (f', o, rest) => (rest = [] \/ concat ps = []) /\ no_midstream_tail f' ps
      | _ => False
      end
  end.

Lemma code_empty f : exists f', bcj_code a true f [] = Ok (f', [], []).
Proof.
  destruct (Htot f [] eq_refl) as (f' & o & r & E & _ & Hl & _).
  cbn [length] in Hl. destruct o; [|cbn in Hl; lia]. destruct r; [|cbn in Hl; lia]. eauto.
Qed.

Lemma write_calls_empty ps : forall f, concat ps = [] -> exists f', bcj_write_calls a f ps = Ok (f', []).
Proof.
  induction ps as [|p ps IH]; intros f Hc; [eexists; reflexivity|].
  cbn [concat] in Hc. apply app_eq_nil in Hc. destruct Hc as [-> Hc].
  destruct (code_empty f) as (f' & E). destruct (IH f' Hc) as (f'' & E2).
  exists f''. cbn [bcj_write_calls]. unfold bcj_write. rewrite E. cbn [obind app]. rewrite E2. reflexivity.
Qed.

Theorem writer_partition_known parts : forall f,
  bytes_ok (concat parts) = true -> no_midstream_tail f parts ->
  exists f1 f2 o r, bcj_write_calls a f parts = Ok (f1, o ++ r) /\
                    bcj_code a true f (concat parts) = Ok (f2, o, r).
Proof.
  induction parts as [|p ps IH]; intros f Hb Hn.
  - destruct (code_empty f) as (f' & E). exists f, f', [], []. split; [reflexivity|exact E].
  - cbn [concat] in Hb. apply bytes_ok_app in Hb. destruct Hb as [Hbp Hbs].
    cbn [no_midstream_tail] in Hn.
    destruct (bcj_code a true f p) as [[[f' o] rest]| | |] eqn:Ep; try contradiction.
    destruct Hn as [Hcase Hn].
    cbn [bcj_write_calls concat]. unfold bcj_write. rewrite Ep. cbn [obind].
    destruct Hcase as [Hr|Hc].
    + subst rest.
      destruct (IH f' Hbs Hn) as (f1 & f2 & o2 & r2 & Ew & Ec).
      rewrite Ew. cbn [obind].
      assert (Ec' : bcj_code a true f' ([] ++ concat ps) = Ok (f2, o2, r2)) by exact Ec.
      destruct (Hchunk f p (concat ps) f' o [] f2 o2 r2 Hbp Hbs Ep Ec') as (f2' & E2 & _).
      exists f1, f2', (o ++ o2), r2. split; [|exact E2].
      rewrite app_nil_r, app_assoc. reflexivity.
    + destruct (write_calls_empty ps f' Hc) as (f'' & Ew). rewrite Ew. cbn [obind].
      rewrite Hc, !app_nil_r. exists f'', f', o, rest. split; [reflexivity|exact Ep].
Qed.

End Writer.

Definition script_ok (evs : list inner_event) : Prop :=
  Forall (fun e => match e with IData p => p <> [] | IErr _ => True end) evs.

(* the error codes a script will produce, in order *)
Fixpoint script_errs (evs : list inner_event) : list Z :=
  match evs with
  | [] => []
  | IData _ :: rest => script_errs rest
  | IErr c :: rest => c :: script_errs rest
  end.

Lemma inner_read_spec evs n ret inner' :
  script_ok evs -> 0 < n -> inner_read evs n = (ret, inner') ->
  script_ok inner' /\
  match ret with
  | BjData data =>
      script_data evs = data ++ script_data inner' /\ zlen data <= n /\
      script_errs inner' = script_errs evs /\
      (data = [] -> evs = [] /\ inner' = [])
  | BjErr c => evs = IErr c :: inner'
  end.
Proof.
  intros Hok Hn H. unfold inner_read in H.
  destruct (Z.leb_spec n 0); [lia|].
  destruct evs as [|[p|c] rest].
  - injection H as <- <-. split; [constructor|]. split; [reflexivity|]. split; [cbn; lia|]. auto.
  - inversion Hok as [|? ? Hp Hrest]; subst.
    destruct (Z.leb_spec (zlen p) n) as [Hle|Hgt].
    + injection H as <- <-. split; [assumption|]. split; [reflexivity|]. split; [assumption|].
      split; [reflexivity|]. intros ->. congruence.
    + injection H as <- <-.
      assert (Hlt : (Z.to_nat n < length p)%nat) by (unfold zlen in Hgt; lia).
      split.
      { constructor; [|assumption]. intros E. apply (f_equal (@length Z)) in E.
        rewrite skipn_length in E. cbn in E. lia. }
      split; [cbn [script_data]; rewrite app_assoc, firstn_skipn; reflexivity|].
      split; [unfold zlen; rewrite firstn_length; lia|]. split; [reflexivity|].
      intros E. apply (f_equal (@length Z)) in E. rewrite firstn_length in E. cbn in E. lia.
  - inversion Hok; subst. injection H as <- <-. split; [assumption|reflexivity].
Qed.

Lemma firstn_firstn_app {A} (n m : nat) (l X : list A) :
  (n <= m)%nat -> (m <= length l)%nat -> firstn n (firstn m l ++ X) = firstn n l.
Proof.
  intros Hnm Hml. rewrite firstn_app, firstn_firstn.
  rewrite firstn_length. replace (n - Nat.min m (length l))%nat with 0%nat by lia.
  cbn [firstn]. rewrite app_nil_r. f_equal. lia.
Qed.

(* a first piece of min(n, everything) followed by the first t of the rest *)
Lemma firstn_app_min {A} (n t : nat) (o G : list A) : length o = Nat.min n (length (o ++ G)) ->
  firstn (n + t) (o ++ G) = o ++ firstn t G.
Proof.
  rewrite app_length. intros H. rewrite firstn_app, firstn_all2 by lia. f_equal.
  destruct G as [|x G]; [rewrite !firstn_nil; reflexivity|]. cbn [length] in H. f_equal. lia.
Qed.

Section Reader.
Variable a : arch.
Hypothesis Htot : code_total a false.
Hypothesis Hresp : code_respects a false.
Hypothesis Hchunk : code_chunks a false.

Variable st0 : fstate.          (* the filter as constructed *)
Variable S : list Z.            (* all the data of the inner stream *)
Variables (stS : fstate) (oS rS : list Z).
Hypothesis HbS : bytes_ok S = true.
Hypothesis HS : bcj_code a false st0 S = Ok (stS, oS, rS).

(* what the reader must deliver: code applied to the whole stream, the tail passed through *)
Let F : list Z := oS ++ rS.

Definition rs_wf (rs : rstate) : Prop :=
  zlen (r_live rs) = r_filtered rs + r_unfiltered rs /\ 0 <= r_filtered rs /\ 0 <= r_unfiltered rs /\
  0 <= r_pos rs /\ r_pos rs + r_filtered rs + r_unfiltered rs <= 4096.

(* [D]: the data obtained from the inner reader so far; [G]: what is still to be delivered.  The
   filtered part of the live region continues what has been delivered to the converted prefix of
   D, the unfiltered part is the rest `code` left of D. *)
Definition rinv (rs : rstate) (G D : list Z) (inner : list inner_event) : Prop :=
  exists stD oD rD,
    bcj_code a false st0 D = Ok (stD, oD, rD) /\ feq stD (r_filter rs) /\ rs_wf rs /\
    S = D ++ script_data inner /\
    if r_end rs then script_data inner = [] /\ r_unfiltered rs = 0 /\ G = r_live rs
    else skipn (Z.to_nat (r_filtered rs)) (r_live rs) = rD /\
         exists pre, pre ++ firstn (Z.to_nat (r_filtered rs)) (r_live rs) = oD /\ F = pre ++ G.

(* the converted prefix of a prefix of the stream is a prefix of the final output *)
Lemma prefix_of_F D rest stD oD rD :
  S = D ++ rest -> bcj_code a false st0 D = Ok (stD, oD, rD) ->
  exists X, F = oD ++ X /\ (rest = [] -> X = rD).
Proof.
  intros ES ED.
  assert (HbD : bytes_ok D = true /\ bytes_ok rest = true)
    by (apply bytes_ok_app; rewrite <- ES; exact HbS).
  destruct HbD as [HbD HbI].
  destruct (Htot st0 D HbD) as (s' & o & r & E & Hr & _ & _ & _).
  rewrite ED in E. injection E as <- <- <-.
  assert (HbrD : bytes_ok (rD ++ rest) = true).
  { apply bytes_ok_app. split; [rewrite <- Hr; apply bytes_ok_skipn; exact HbD|exact HbI]. }
  destruct (Htot stD (rD ++ rest) HbrD) as (st2 & oB & rB & EB & HrB & HlB & _ & _).
  destruct (Hchunk st0 D rest stD oD rD st2 oB rB HbD HbI ED EB) as (st2' & E2 & _).
  rewrite <- ES, HS in E2. injection E2 as _ E2b E2c.
  exists (oB ++ rB). unfold F. rewrite E2b, E2c, app_assoc. split; [reflexivity|].
  intros ->. rewrite app_nil_r in EB.
  destruct (code_nil_rest a false Htot Hchunk st0 D stD oD rD HbD ED) as (st3 & E3 & _).
  rewrite EB in E3. injection E3 as _ -> ->. reflexivity.
Qed.

(* before the end of the inner stream, what is still to be delivered begins with the filtered bytes *)
Lemma rinv_G rs G D inner : rinv rs G D inner -> r_end rs = false ->
  exists X, G = firstn (Z.to_nat (r_filtered rs)) (r_live rs) ++ X /\
            (script_data inner = [] -> X = skipn (Z.to_nat (r_filtered rs)) (r_live rs)).
Proof.
  intros (stD & oD & rD & ED & _ & _ & ES & Hcase) He. rewrite He in Hcase.
  destruct Hcase as (Hsk & pre & Hpre & EF).
  destruct (prefix_of_F D (script_data inner) stD oD rD ES ED) as (X & EF' & EX).
  exists X. rewrite Hsk. split; [|exact EX].
  rewrite EF', <- Hpre, <- app_assoc in EF. exact (eq_sym (app_inv_head _ _ _ EF)).
Qed.

(* copying c of the filtered bytes out, whatever becomes of pos *)
Lemma rinv_copy rs G D inner c pos' : rinv rs G D inner -> 0 <= c <= r_filtered rs ->
  0 <= pos' -> pos' + (r_filtered rs - c) + r_unfiltered rs <= 4096 ->
  rinv (mkR (r_filter rs) pos' (r_filtered rs - c) (r_unfiltered rs) (skipn (Z.to_nat c) (r_live rs)) (r_end rs) (r_err rs))
       (skipn (Z.to_nat c) G) D inner /\
  firstn (Z.to_nat c) G = firstn (Z.to_nat c) (r_live rs) /\ (Z.to_nat c <= length G)%nat.
Proof.
  intros Hinv Hc Hp0 Hp1. pose proof (rinv_G rs G D inner Hinv) as HG.
  destruct Hinv as (stD & oD & rD & ED & Hfeq & (Hzl & Hf0 & Hu0 & _ & _) & ES & Hcase).
  assert (Hwf : rs_wf (mkR (r_filter rs) pos' (r_filtered rs - c) (r_unfiltered rs) (skipn (Z.to_nat c) (r_live rs)) (r_end rs) (r_err rs))).
  { unfold rs_wf. cbn [r_pos r_filtered r_unfiltered r_live]. rewrite zlen_skipn. unfold zlen in *. lia. }
  assert (Hll : (Z.to_nat (r_filtered rs) <= length (r_live rs))%nat) by (unfold zlen in Hzl; lia).
  destruct (r_end rs) eqn:He.
  - destruct Hcase as (Hin & Hu & ->). split; [|split; [reflexivity|lia]].
    exists stD, oD, rD. cbn [r_filter r_filtered r_unfiltered r_live r_end].
    split; [exact ED|]. split; [exact Hfeq|]. split; [exact Hwf|]. split; [exact ES|]. split; [exact Hin|]. split; [exact Hu|reflexivity].
  - destruct (HG eq_refl) as (X & -> & _). destruct Hcase as (Hsk & pre & Hpre & EF).
    assert (E1 : firstn (Z.to_nat c) (firstn (Z.to_nat (r_filtered rs)) (r_live rs) ++ X) = firstn (Z.to_nat c) (r_live rs))
      by (apply firstn_firstn_app; lia).
    split; [|split; [exact E1|rewrite app_length, firstn_length; lia]].
    exists stD, oD, rD. cbn [r_filter r_filtered r_unfiltered r_live r_end].
    split; [exact ED|]. split; [exact Hfeq|]. split; [exact Hwf|]. split; [exact ES|].
    split; [rewrite skipn_skipn, <- Hsk; f_equal; lia|].
    exists (pre ++ firstn (Z.to_nat c) (r_live rs)). split.
    + rewrite <- Hpre, <- app_assoc. f_equal.
      replace (Z.to_nat (r_filtered rs)) with (Z.to_nat c + Z.to_nat (r_filtered rs - c))%nat by lia.
      apply eq_sym, firstn_add.
    + rewrite EF, <- app_assoc, <- E1, firstn_skipn. reflexivity.
Qed.

(* the inner reader has reported its end: the unfiltered tail becomes ready to be copied out *)
Lemma rinv_eof flt pos u live err G D : rinv (mkR flt pos 0 u live false err) G D [] ->
  rinv (mkR flt pos u 0 live true err) G D [].
Proof.
  intros Hinv. destruct (rinv_G _ _ _ _ Hinv eq_refl) as (X & -> & EX).
  destruct Hinv as (stD & oD & rD & ED & Hfeq & Hwf & ES & _).
  exists stD, oD, rD. cbn [r_filter r_filtered r_unfiltered r_live r_end] in *.
  split; [exact ED|]. split; [exact Hfeq|]. split; [unfold rs_wf in *; cbn [r_pos r_filtered r_unfiltered r_live] in *; lia|].
  split; [exact ES|]. split; [reflexivity|]. split; [reflexivity|]. exact (EX eq_refl).
Qed.

(* data arrived: it is filtered together with the carried-over tail *)
Lemma rinv_data flt pos u live err G D inner data inner' :
  rinv (mkR flt pos 0 u live false err) G D inner -> script_data inner = data ++ script_data inner' ->
  pos + u + zlen data <= 4096 ->
  exists flt' o r,
    bcj_code a false flt (live ++ data) = Ok (flt', o, r) /\ zlen o <= u + zlen data /\
    rinv (mkR flt' pos (zlen o) (u + zlen data - zlen o) (o ++ r) false err) G (D ++ data) inner'.
Proof.
  intros (stD & oD & rD & ED & Hfeq & (Hzl & _ & _ & Hp0 & _) & ES & Hsk & pre & Hpre & EF) Econc Hroom.
  cbn [r_filter r_pos r_filtered r_unfiltered r_live r_end Z.to_nat skipn firstn] in *.
  rewrite app_nil_r in Hpre. subst rD pre.
  assert (HbD : bytes_ok D = true /\ bytes_ok (data ++ script_data inner') = true)
    by (apply bytes_ok_app; rewrite <- Econc, <- ES; exact HbS).
  destruct HbD as [HbD HbI]. apply bytes_ok_app in HbI. destruct HbI as [HbData _].
  destruct (Htot st0 D HbD) as (s' & o & r & E & Hr & _). rewrite ED in E. injection E as <- <- <-.
  assert (HbIn : bytes_ok (live ++ data) = true)
    by (apply bytes_ok_app; split; [rewrite <- Hr; apply bytes_ok_skipn; exact HbD|exact HbData]).
  destruct (Htot stD (live ++ data) HbIn) as (s1 & o1 & r1 & E1 & _ & Hl1 & _).
  destruct (Hresp stD flt (live ++ data) s1 o1 r1 Hfeq HbIn E1) as (flt' & E1' & Hfeq1).
  destruct (Hchunk st0 D data stD oD live s1 o1 r1 HbD HbData ED E1) as (sD' & ED' & HfeqD).
  rewrite app_length in Hl1.
  assert (Hlens : zlen o1 + zlen r1 = u + zlen data) by (unfold zlen in *; lia).
  pose proof (zlen_nonneg o1). pose proof (zlen_nonneg r1).
  exists flt', o1, r1. split; [exact E1'|]. split; [lia|].
  exists sD', (oD ++ o1), r1. cbn [r_filter r_pos r_filtered r_unfiltered r_live r_end].
  split; [exact ED'|]. split; [apply feq_trans with s1; [apply feq_sym; exact HfeqD|exact Hfeq1]|].
  split; [unfold rs_wf; cbn [r_pos r_filtered r_unfiltered r_live]; rewrite zlen_app; lia|].
  split; [rewrite <- app_assoc, <- Econc; exact ES|].
  replace (Z.to_nat (zlen o1)) with (length o1) by (unfold zlen; lia).
  rewrite skipn_app, skipn_all, firstn_app, firstn_all, Nat.sub_diag. cbn [skipn firstn app].
  split; [reflexivity|]. exists oD. rewrite app_nil_r. split; [reflexivity|exact EF].
Qed.

(* What one pass through the loop of read() achieves.  [size] = bytes copied by earlier
   iterations of the same call.  Either no failure of the inner reader is met: the call delivers
   exactly min(len, what is left) bytes; or the next failure [c] of the script is consumed: the
   call delivers fewer bytes, reports the error only if it delivered nothing at all, and remembers
   it unless it is the transient one. *)
Definition loop_post (rs : rstate) (inner : list inner_event) (len size : Z) (G out : list Z)
                     (e : option Z) (rs' : rstate) (inner' : list inner_event) : Prop :=
  (e = None /\ length out = Nat.min (Z.to_nat len) (length G) /\
   r_err rs' = r_err rs /\ script_errs inner' = script_errs inner)
  \/
  (exists c, script_errs inner = c :: script_errs inner' /\ Z.of_nat (length out) <= len /\
     e = (if 0 <? size + Z.of_nat (length out) then None else Some c) /\
     r_err rs' = (if c =? E_INTERRUPTED then r_err rs else Some c)).

Lemma read_loop_ok : forall fuel rs inner len size G D,
  rinv rs G D inner -> script_ok inner -> 0 < len -> 0 <= size ->
  (length (script_data inner) + (if r_end rs then 0 else 1) < fuel)%nat ->
  exists out e rs' inner' D' G',
    bcj_read_loop fuel a rs inner len size = Ok (out, e, rs', inner') /\ G = out ++ G' /\
    loop_post rs inner len size G out e rs' inner' /\
    rinv rs' G' D' inner' /\ script_ok inner' /\
    (length (script_data inner') <= length (script_data inner))%nat.
Proof.
  induction fuel as [|fuel IH]; intros rs inner len size G D Hinv Hne Hlen Hsize Hfuel; [lia|].
  pose proof Hinv as (stD0 & oD0 & rD0 & _ & _ & (Hzl & Hf0 & Hu0 & Hp0 & Hcap) & _ & Hcase).
  destruct rs as [flt pos filtered unfiltered live endr rerr].
  cbn [r_filter r_pos r_filtered r_unfiltered r_live r_end r_err] in *.
  cbn [bcj_read_loop r_filter r_pos r_filtered r_unfiltered r_live r_end r_err].
  set (copy := if 0 <? filtered then Z.min filtered len else 0).
  assert (Hcopy : copy = Z.min filtered len) by (unfold copy; destruct (Z.ltb_spec 0 filtered); lia).
  set (pos' := if pos + copy + (filtered - copy) + unfiltered =? FILTER_BUF_SIZE then 0 else pos + copy).
  assert (Hpos' : 0 <= pos' <= pos + copy /\ (pos' = 0 \/ pos' + (filtered - copy) + unfiltered < 4096)).
  { unfold pos', FILTER_BUF_SIZE. destruct (Z.eqb_spec (pos + copy + (filtered - copy) + unfiltered) 4096); lia. }
  destruct (rinv_copy _ G D inner copy pos' Hinv) as (Hinv1 & Hout & HcG);
    cbn [r_filter r_filtered r_unfiltered r_live r_end r_err] in *; try lia.
  set (out := firstn (Z.to_nat copy) live) in *. set (live' := skipn (Z.to_nat copy) live) in *.
  assert (HG : G = out ++ skipn (Z.to_nat copy) G) by (rewrite <- Hout; symmetry; apply firstn_skipn).
  assert (Hlo : length out = Z.to_nat copy) by (rewrite <- Hout, firstn_length; lia).
  (* the call returns here: the caller's buffer is full or everything has been delivered *)
  assert (Hret : length out = Nat.min (Z.to_nat len) (length G) ->
            exists out0 e rs' inner' D' G',
              Ok (out, None, mkR flt pos' (filtered - copy) unfiltered live' endr rerr, inner) = Ok (out0, e, rs', inner') /\
              G = out0 ++ G' /\
              loop_post (mkR flt pos filtered unfiltered live endr rerr) inner len size G out0 e rs' inner' /\
              rinv rs' G' D' inner' /\ script_ok inner' /\
              (length (script_data inner') <= length (script_data inner))%nat).
  { intros Hmin. eexists _, _, _, _, D, _. split; [reflexivity|]. split; [exact HG|].
    split; [left; auto|]. auto. }
  destruct endr.
  { rewrite orb_true_r. apply Hret. destruct Hcase as (_ & -> & ->). unfold zlen in Hzl. lia. }
  rewrite orb_false_r.
  destruct (Z.eqb_spec (len - copy) 0) as [Hz|Hnz]; [apply Hret; lia|].
  (* everything filtered has been copied out; get more from the inner reader *)
  assert (Hf' : filtered - copy = 0) by lia. rewrite Hf' in *. cbn [Z.eqb negb].
  destruct (Z.ltb_spec FILTER_BUF_SIZE (pos' + 0 + unfiltered)) as [Hbad|_]; [unfold FILTER_BUF_SIZE in Hbad; lia|].
  (* the unfiltered tail is what `code` left, so it is short and there is room in the buffer *)
  assert (Hroom : 0 < FILTER_BUF_SIZE - (pos' + 0 + unfiltered)).
  { destruct Hinv1 as (stD & oD & rD & ED & _ & (Hzl1 & _) & ES & Hsk & _).
    cbn [r_filtered r_unfiltered r_live Z.to_nat skipn] in *.
    assert (HbD : bytes_ok D = true) by (rewrite ES in HbS; apply bytes_ok_app in HbS; tauto).
    destruct (Htot st0 D HbD) as (s' & o & r & E & _ & _ & Hr16 & _). rewrite ED in E. injection E as _ _ <-.
    subst rD. unfold FILTER_BUF_SIZE, zlen in *. lia. }
  destruct (inner_read inner (FILTER_BUF_SIZE - (pos' + 0 + unfiltered))) as [ret inner'] eqn:Eir.
  destruct (inner_read_spec _ _ _ _ Hne Hroom Eir) as (Hne' & Hret').
  destruct ret as [data|c].
  2:{ (* the inner reader fails *)
    subst inner. cbn [script_data script_errs] in *.
    eexists out, (if 0 <? size + copy then None else Some c), _, inner', D, _.
    split; [destruct (0 <? size + copy); reflexivity|]. split; [exact HG|].
    split; [|split; [exact Hinv1|split; [exact Hne'|lia]]].
    right. exists c. cbn [r_err]. rewrite Hlo. replace (Z.of_nat (Z.to_nat copy)) with copy by lia.
    split; [reflexivity|]. split; [lia|]. split; reflexivity. }
  destruct Hret' as (Econc & Hdlen & Herrs & Hnil).
  assert (Hsd : length (script_data inner) = (length data + length (script_data inner'))%nat)
    by (rewrite Econc; apply app_length).
  (* what the rest of the call delivers comes behind [out] *)
  assert (Hrec : forall rs1 D1, rinv rs1 (skipn (Z.to_nat copy) G) D1 inner' -> r_err rs1 = rerr ->
            (length (script_data inner') + (if r_end rs1 then 0 else 1) < fuel)%nat ->
            exists out0 e rs' inner'' D' G',
              (do r <- bcj_read_loop fuel a rs1 inner' (len - copy) (size + copy); Ok (push_out out r)) = Ok (out0, e, rs', inner'') /\
              G = out0 ++ G' /\
              loop_post (mkR flt pos filtered unfiltered live false rerr) inner len size G out0 e rs' inner'' /\
              rinv rs' G' D' inner'' /\ script_ok inner'' /\
              (length (script_data inner'') <= length (script_data inner))%nat).
  { intros rs1 D1 Hinv2 Herr2 Hfuel2.
    destruct (IH rs1 inner' (len - copy) (size + copy) _ D1 Hinv2 Hne' ltac:(lia) ltac:(lia) Hfuel2)
      as (out2 & e2 & rs2 & in2 & D2 & G2 & E2 & HG2 & Hpost2 & Hinv3 & Hne2 & Hl2).
    rewrite E2. cbn [obind push_out]. exists (out ++ out2), e2, rs2, in2, D2, G2.
    split; [reflexivity|]. split; [rewrite <- app_assoc, <- HG2; exact HG|].
    split; [|split; [exact Hinv3|split; [exact Hne2|lia]]].
    assert (HlG : length G = (Z.to_nat copy + length (skipn (Z.to_nat copy) G))%nat)
      by (rewrite HG at 1; rewrite app_length, Hlo; reflexivity).
    unfold loop_post in *. rewrite app_length, Hlo. cbn [r_err]. rewrite Herr2 in Hpost2.
    destruct Hpost2 as [(He2 & Hlo2 & Hr2 & Hes2)|(c & Hes2 & Hol2 & He2 & Hr2)].
    - left. split; [exact He2|]. split; [lia|]. split; [exact Hr2|congruence].
    - right. exists c. split; [congruence|]. split; [lia|]. split; [|exact Hr2].
      replace (size + Z.of_nat (Z.to_nat copy + length out2)) with (size + copy + Z.of_nat (length out2)) by lia.
      exact He2. }
  destruct (Z.eqb_spec (zlen data) 0) as [Hd0|Hdn0].
  - (* end of the inner stream *)
    assert (data = []) by (destruct data; [reflexivity|rewrite zlen_cons in Hd0; pose proof (zlen_nonneg data); lia]).
    subst data. destruct (Hnil eq_refl) as [-> ->].
    apply (Hrec _ D (rinv_eof _ _ _ _ _ _ _ Hinv1)); [reflexivity|cbn [script_data length r_end]; lia].
  - destruct (rinv_data _ _ _ _ _ _ _ _ data inner' Hinv1 Econc) as (flt' & o & r & E1 & Hlo1 & Hinv2);
      [unfold FILTER_BUF_SIZE in *; lia|].
    fold live'. rewrite E1. cbn [obind].
    destruct (Z.ltb_spec (unfiltered + zlen data) (zlen o)) as [Hbad|_]; [lia|].
    apply (Hrec _ _ Hinv2); [reflexivity|].
    pose proof (zlen_nonneg data). unfold zlen in *. cbn [r_end]. lia.
Qed.

(* one read() call *)
Definition read_post (rs : rstate) (inner : list inner_event) (len : Z) (G out : list Z)
                     (e : option Z) (rs' : rstate) (inner' : list inner_event) : Prop :=
  (len <= 0 /\ out = [] /\ e = None /\ rs' = rs /\ inner' = inner) \/
  (0 < len /\ exists e0, r_err rs = Some e0 /\ out = [] /\ e = Some e0 /\ rs' = rs /\ inner' = inner) \/
  (0 < len /\ r_err rs = None /\ loop_post rs inner len 0 G out e rs' inner').

Lemma read_ok fuel rs inner len G D :
  rinv rs G D inner -> script_ok inner ->
  (length (script_data inner) + 1 < fuel)%nat ->
  exists out e rs' inner' D' G',
    bcj_read fuel a rs inner len = Ok (out, e, rs', inner') /\ G = out ++ G' /\
    read_post rs inner len G out e rs' inner' /\
    rinv rs' G' D' inner' /\ script_ok inner' /\
    (length (script_data inner') <= length (script_data inner))%nat.
Proof.
  intros Hinv Hne Hfuel. unfold bcj_read.
  destruct (Z.leb_spec len 0) as [Hz|Hpos].
  - exists [], None, rs, inner, D, G. split; [reflexivity|]. split; [reflexivity|]. split; [left; auto|]. auto.
  - destruct (r_err rs) as [e0|] eqn:Ee.
    + exists [], (Some e0), rs, inner, D, G. split; [reflexivity|]. split; [reflexivity|].
      split; [right; left; split; [assumption|exists e0; auto]|]. auto.
    + destruct (read_loop_ok fuel rs inner len 0 G D Hinv Hne Hpos ltac:(lia)
                  ltac:(destruct (r_end rs); lia)) as (out & e & rs' & inner' & D' & G' & E & HG & Hpost & Hrest).
      exists out, e, rs', inner', D', G'. split; [exact E|]. split; [exact HG|]. split; [right; right; auto|]. exact Hrest.
Qed.

(* a script without failures: every history of read calls gives exactly the prefix asked for *)
Lemma read_calls_ok fuel sizes : forall rs inner G D,
  rinv rs G D inner -> script_ok inner -> script_errs inner = [] -> r_err rs = None ->
  Forall (fun n => 0 <= n) sizes ->
  (length (script_data inner) + 1 < fuel)%nat ->
  exists rs' inner',
    bcj_read_calls fuel a rs inner sizes = Ok (firstn (Z.to_nat (fold_right Z.add 0 sizes)) G, [], rs', inner').
Proof.
  induction sizes as [|n ns IH]; intros rs inner G D Hinv Hne Hnoerr Herr Hs Hfuel.
  - exists rs, inner. reflexivity.
  - inversion Hs as [|? ? Hn Hns]; subst.
    destruct (read_ok fuel rs inner n G D Hinv Hne Hfuel)
      as (o1 & e1 & rs1 & in1 & D1 & G1 & E1 & -> & Hpost & Hinv1 & Hne1 & Hl1).
    assert (Hres : e1 = None /\ length o1 = Nat.min (Z.to_nat n) (length (o1 ++ G1)) /\
                   r_err rs1 = None /\ script_errs in1 = []).
    { destruct Hpost as [(Hz & -> & -> & -> & ->)|[(_ & e0 & He0 & _)|(Hpos & _ & Hlp)]].
      - replace (Z.to_nat n) with 0%nat by lia. auto.
      - congruence.
      - destruct Hlp as [(-> & Hlo & Hr & Hes)|(c & Hes & _)]; [|rewrite Hnoerr in Hes; discriminate].
        split; [reflexivity|]. split; [exact Hlo|]. split; congruence. }
    destruct Hres as (-> & Hlo1 & Herr1 & Hnoerr1).
    destruct (IH rs1 in1 G1 D1 Hinv1 Hne1 Hnoerr1 Herr1 Hns ltac:(lia)) as (rs2 & in2 & E2).
    cbn [bcj_read_calls]. rewrite E1. cbn [obind]. rewrite E2. cbn [obind app].
    exists rs2, in2. cbn [fold_right].
    assert (Hsum : 0 <= fold_right Z.add 0 ns) by (clear -Hns; induction Hns; cbn [fold_right]; lia).
    rewrite Z2Nat.inj_add, firstn_app_min by assumption. reflexivity.
Qed.

(* the caller's loop over an arbitrary script *)
Lemma drive_ok all : Forall (fun s => 0 < s) all ->
  forall calls fuel rs inner G D cur,
  rinv rs G D inner -> script_ok inner -> Forall (fun s => 0 < s) cur ->
  (forall c0, r_err rs = Some c0 -> c0 <> E_INTERRUPTED) ->
  (length (script_data inner) + 1 < fuel)%nat ->
  (length G + length (script_errs inner) + 1 < calls)%nat ->
  exists out e,
    bcj_drive calls fuel a rs inner all cur = Ok (out, e) /\
    (exists Y, G = out ++ Y) /\ (e = None -> out = G) /\
    (forall c, e = Some c -> c <> E_INTERRUPTED /\ (In c (script_errs inner) \/ r_err rs = Some c)).
Proof.
  intros Hall. induction calls as [|calls IH]; intros fuel rs inner G D cur Hinv Hne Hcur Hsticky Hfuel Hcalls; [lia|].
  cbn [bcj_drive].
  set (pick := match cur with s :: rest => (s, rest) | [] => match all with s :: rest => (s, rest) | [] => (4096, []) end end).
  assert (Hpick : 0 < fst pick /\ Forall (fun s => 0 < s) (snd pick)).
  { unfold pick. destruct cur as [|s rest].
    - destruct all as [|s rest]; cbn [fst snd]; [split; [lia|constructor]|inversion Hall; auto].
    - inversion Hcur; auto. }
  destruct pick as [sz next]. cbn [fst snd] in Hpick. destruct Hpick as [Hsz Hnext].
  destruct (read_ok fuel rs inner sz G D Hinv Hne Hfuel)
    as (o1 & e1 & rs1 & in1 & D1 & G1 & E1 & -> & Hpost & Hinv1 & Hne1 & Hl1).
  rewrite E1. cbn [obind]. rewrite app_length in Hcalls.
  destruct Hpost as [(Hz & _)|[(_ & e0 & He0 & -> & -> & -> & ->)|(_ & Herr & Hlp)]]; [lia| |].
  - (* the remembered error *)
    pose proof (Hsticky e0 He0) as Hne0.
    destruct (Z.eqb_spec e0 E_INTERRUPTED); [contradiction|].
    exists [], (Some e0). split; [reflexivity|]. split; [exists G1; reflexivity|].
    split; [discriminate|]. intros c Hc. injection Hc as <-. auto.
  - (* the loop ran: on the rest, the same with what is left of script and output *)
    assert (Hgo : (forall c0, r_err rs1 = Some c0 -> c0 <> E_INTERRUPTED) ->
              (length G1 + length (script_errs in1) + 1 < calls)%nat ->
              exists o2 e2, bcj_drive calls fuel a rs1 in1 all next = Ok (o2, e2) /\
                (exists Y, G1 = o2 ++ Y) /\ (e2 = None -> o2 = G1) /\
                (forall c, e2 = Some c -> c <> E_INTERRUPTED /\ (In c (script_errs in1) \/ r_err rs1 = Some c)))
      by (intros Hst Hc; exact (IH fuel rs1 in1 G1 D1 next Hinv1 Hne1 Hnext Hst ltac:(lia) Hc)).
    destruct Hlp as [(-> & Hlo1 & Herr1 & Hes1)|(c & Hes & Hol & He1 & Herr1)].
    + (* no failure met *)
      destruct (Z.leb_spec sz 0); [lia|].
      destruct o1 as [|x o1'].
      * exists [], None. split; [reflexivity|]. split; [exists G1; reflexivity|].
        split; [|discriminate]. intros _. cbn [length app] in Hlo1. destruct G1; [reflexivity|cbn [length] in Hlo1; lia].
      * assert (Hst : forall c0, r_err rs1 = Some c0 -> c0 <> E_INTERRUPTED) by (intros c0 Hc0; apply Hsticky; congruence).
        destruct (Hgo Hst ltac:(rewrite Hes1; cbn [length] in Hcalls; lia)) as (o2 & e2 & E2 & (Y & HY) & Hnone & Hsome).
        rewrite E2. cbn [obind].
        exists ((x :: o1') ++ o2), e2. split; [reflexivity|].
        split; [exists Y; rewrite <- app_assoc, <- HY; reflexivity|].
        split; [intros He; rewrite (Hnone He); reflexivity|].
        intros c Hc. destruct (Hsome c Hc) as [Hc8 [Hin|Hr]]; (split; [assumption|]); [left; congruence|right; congruence].
    + (* a failure of the inner reader was consumed *)
      rewrite Hes in Hcalls. cbn [length] in Hcalls.
      assert (Hst1 : c = E_INTERRUPTED -> forall c0, r_err rs1 = Some c0 -> c0 <> E_INTERRUPTED).
      { intros Hc c0 Hc0. apply Hsticky. rewrite Herr1 in Hc0. destruct (Z.eqb_spec c E_INTERRUPTED); [exact Hc0|contradiction]. }
      assert (Hsome1 : forall c', c' <> E_INTERRUPTED -> In c' (script_errs in1) \/ r_err rs1 = Some c' ->
                In c' (script_errs inner) \/ r_err rs = Some c').
      { intros c' Hn8 [Hin|Hr]; [left; rewrite Hes; right; exact Hin|].
        rewrite Herr1 in Hr. destruct (Z.eqb_spec c E_INTERRUPTED); [right; exact Hr|].
        left. rewrite Hes. left. congruence. }
      destruct o1 as [|x o1'].
      * (* nothing delivered: the call returned the error *)
        change (0 <? 0 + Z.of_nat (@length Z [])) with false in He1. subst e1.
        destruct (Z.eqb_spec c E_INTERRUPTED) as [Hc8|Hc8].
        -- destruct (Hgo (Hst1 Hc8) ltac:(lia)) as (o2 & e2 & E2 & HY & Hnone & Hsome).
           exists o2, e2. split; [exact E2|]. split; [exact HY|]. split; [exact Hnone|].
           intros c' Hc'. destruct (Hsome c' Hc') as [Hn8 H']. auto.
        -- exists [], (Some c). split; [reflexivity|]. split; [exists G1; reflexivity|].
           split; [discriminate|]. intros c' Hc'. injection Hc' as <-. split; [assumption|].
           left. rewrite Hes. left. reflexivity.
      * assert (Hpos1 : (0 <? 0 + Z.of_nat (length (x :: o1'))) = true) by (apply Z.ltb_lt; cbn [length]; lia).
        rewrite Hpos1 in He1. subst e1.
        destruct (Z.leb_spec sz 0); [lia|].
        assert (Hst : forall c0, r_err rs1 = Some c0 -> c0 <> E_INTERRUPTED).
        { intros c0 Hc0. destruct (Z.eq_dec c E_INTERRUPTED) as [Hc|Hc]; [exact (Hst1 Hc c0 Hc0)|].
          rewrite Herr1 in Hc0. destruct (Z.eqb_spec c E_INTERRUPTED); congruence. }
        destruct (Hgo Hst ltac:(cbn [length] in Hcalls; lia)) as (o2 & e2 & E2 & (Y & HY) & Hnone & Hsome).
        rewrite E2. cbn [obind].
        exists ((x :: o1') ++ o2), e2. split; [reflexivity|].
        split; [exists Y; rewrite <- app_assoc, <- HY; reflexivity|].
        split; [intros He; rewrite (Hnone He); reflexivity|].
        intros c' Hc'. destruct (Hsome c' Hc') as [Hn8 H']. auto.
Qed.

End Reader.

Lemma data_script_ok parts : script_ok (data_script parts).
Proof.
  induction parts as [|p ps IH]; [constructor|]. destruct p; cbn [data_script]; [exact IH|].
  constructor; [discriminate|exact IH].
Qed.
Lemma data_script_errs parts : script_errs (data_script parts) = [].
Proof. induction parts as [|p ps IH]; [reflexivity|]. destruct p; cbn [data_script script_errs]; exact IH. Qed.
Lemma data_script_data parts : script_data (data_script parts) = concat parts.
Proof.
  induction parts as [|p ps IH]; [reflexivity|]. destruct p; cbn [data_script script_data concat app]; [exact IH|].
  rewrite IH. reflexivity.
Qed.
Lemma script_errs_length inner : (length (script_errs inner) <= length inner)%nat.
Proof. induction inner as [|[p|c] rest IH]; cbn [script_errs length]; lia. Qed.

Lemma rinv_init a st0 S :
  bcj_code a false st0 [] = Ok (st0, [], []) ->
  forall oS rS inner, S = script_data inner -> rinv a st0 S oS rS (mkR st0 0 0 0 [] false None) (oS ++ rS) [] inner.
Proof.
  intros Hnil oS rS inner ES. exists st0, [], []. cbn [r_filter r_pos r_filtered r_unfiltered r_live r_end].
  split; [exact Hnil|]. split; [apply feq_refl|]. split; [unfold rs_wf; cbn; lia|]. split; [exact ES|].
  split; [reflexivity|]. exists []. split; reflexivity.
Qed.

(* C07, BCJReader, fault-free inner reader: the bytes obtained by ANY history of read calls
   (destination sizes [sizes], zeros allowed) from an inner reader delivering ANY chunking [parts]
   of the stream are the first (sum of sizes) bytes of `code` applied to the whole stream with the
   unconvertible tail passed through; no call fails. *)
Theorem reader_any_sizes a :
  code_facts a false ->
  forall st0, bcj_code a false st0 [] = Ok (st0, [], []) ->
  forall parts sizes stS oS rS,
    bytes_ok (concat parts) = true -> Forall (fun n => 0 <= n) sizes ->
    bcj_code a false st0 (concat parts) = Ok (stS, oS, rS) ->
    exists rs' inner',
      bcj_read_calls (bcj_read_fuel (data_script parts)) a (mkR st0 0 0 0 [] false None) (data_script parts) sizes =
        Ok (firstn (Z.to_nat (fold_right Z.add 0 sizes)) (oS ++ rS), [], rs', inner').
Proof.
  intros (Htot & Hresp & Hchunk) st0 Hnil parts sizes stS oS rS Hb Hs HS.
  destruct (read_calls_ok a Htot Hresp Hchunk st0 (concat parts) stS oS rS Hb HS
              (bcj_read_fuel (data_script parts)) sizes (mkR st0 0 0 0 [] false None) (data_script parts) (oS ++ rS) [])
    as (rs' & inner' & E).
  - apply rinv_init; [exact Hnil|]. symmetry. apply data_script_data.
  - apply data_script_ok.
  - apply data_script_errs.
  - reflexivity.
  - exact Hs.
  - unfold bcj_read_fuel. lia.
  - exists rs', inner'. exact E.
Qed.

(* BCJReader over an inner reader that may fail (repo-patches/13), read by the usual loop that
   repeats a call failing with Interrupted: the bytes obtained are a prefix of the stream-level
   result; the loop ends normally exactly with the whole result; it ends with an error only with a
   non-transient error of the inner reader; if the inner reader only ever fails transiently the
   whole result is obtained. *)
Theorem reader_drive a :
  code_facts a false ->
  forall st0, bcj_code a false st0 [] = Ok (st0, [], []) ->
  forall inner sizes stS oS rS,
    script_ok inner -> bytes_ok (script_data inner) = true -> Forall (fun s => 0 < s) sizes ->
    bcj_code a false st0 (script_data inner) = Ok (stS, oS, rS) ->
    exists out e,
      bcj_drive (bcj_drive_calls inner sizes) (bcj_read_fuel inner) a (mkR st0 0 0 0 [] false None) inner sizes sizes
        = Ok (out, e) /\
      (exists Y, oS ++ rS = out ++ Y) /\
      (e = None -> out = oS ++ rS) /\
      (forall c, e = Some c -> c <> E_INTERRUPTED /\ In c (script_errs inner)) /\
      (Forall (fun c => c = E_INTERRUPTED) (script_errs inner) -> e = None /\ out = oS ++ rS).
Proof.
  intros (Htot & Hresp & Hchunk) st0 Hnil inner sizes stS oS rS Hok Hb Hs HS.
  destruct (Htot st0 (script_data inner) Hb) as (s' & o & r & E & _ & Hl & _ & _).
  rewrite HS in E. injection E as <- <- <-.
  destruct (drive_ok a Htot Hresp Hchunk st0 (script_data inner) stS oS rS Hb HS sizes Hs
              (bcj_drive_calls inner sizes) (bcj_read_fuel inner) (mkR st0 0 0 0 [] false None) inner (oS ++ rS) [] sizes)
    as (out & e & E & HY & Hnone & Hsome).
  - apply rinv_init; [exact Hnil|reflexivity].
  - exact Hok.
  - exact Hs.
  - cbn [r_err]. discriminate.
  - unfold bcj_read_fuel. lia.
  - rewrite app_length. pose proof (script_errs_length inner).
    unfold bcj_drive_calls. nia.
  - exists out, e. split; [exact E|]. split; [exact HY|]. split; [exact Hnone|].
    assert (Hsome' : forall c, e = Some c -> c <> E_INTERRUPTED /\ In c (script_errs inner)).
    { intros c Hc. destruct (Hsome c Hc) as [H8 [Hin|Hr]]; [auto|cbn [r_err] in Hr; discriminate]. }
    split; [exact Hsome'|].
    intros Hall. assert (e = None).
    { destruct e as [c|]; [|reflexivity]. destruct (Hsome' c eq_refl) as [H8 Hin].
      rewrite Forall_forall in Hall. specialize (Hall c Hin). contradiction. }
    split; [assumption|auto].
Qed.
