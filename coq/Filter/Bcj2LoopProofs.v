(* Filter/Bcj2LoopProofs.v — the outer loop of Bcj2Decoder::decode ([bcj2_loop]) run from a state that
   satisfies the invariant of Filter/Bcj2InvProofs.v: it returns true, has stored the next original
   bytes, and stops in a state that satisfies the invariant again, at one of the exits [exit_ok]. *)
From LzVerif Require Import Codec.RangeEncProofs.
From LzVerif Require Import Filter.Bcj2 Filter.Bcj2Enc Filter.Bcj2EncProofs Filter.Bcj2RcProofs Filter.Bcj2ScanProofs Filter.Bcj2SlackProofs Filter.Bcj2InvProofs.

Definition loop_pre (fuel : nat) (d : bdec) (c : b2cfg) : Prop :=
  match c_ph c with
  | PhScan => bcj2_is_32bit_stream (bd_state d) = false /\ (Z.to_nat (sb_avail (bd_main d)) + 1 <= fuel)%nat
  | PhWord ic _ _ _ _ => bd_state d = (if ic then 1 else 2) /\ (Z.to_nat (sb_avail (bd_main d)) + 2 <= fuel)%nat
  | _ => False
  end.

(* [res] returns true from a state that satisfies the invariant at one of the exits, having stored the
   next original bytes [delta] on top of [o] *)
Definition loop_post (rc_out : list Z) (F : futures) (lim : Z) (d : bdec) (c : b2cfg) (o : list Z) (res : outcome dres) : Prop :=
  exists d' c' delta,
    res = Ok (true, d', rev delta ++ o) /\
    b2inv rc_out d' F c' /\ rem_out c = delta ++ rem_out c' /\
    bd_dest d' = bd_dest d + zlen delta /\ bd_dest d' <= lim /\ exit_ok lim d' c' /\ cj_slack d d'.

Definition loop_prop (rc_out : list Z) (F : futures) (fuel : nat) : Prop :=
  forall lim d c o,
    b2core rc_out d F c ->
    g_rc rc_out (bd_rc d) (bd_range d) (bd_code d) (f_rc F) (c_e c) ->
    loop_pre fuel d c -> 0 <= bd_dest d <= lim ->
    loop_post rc_out F lim d c o (bcj2_loop fuel lim d o).

(* returning with [delta] stored *)
Lemma loop_post_exit rc_out F lim d c o d' c' delta :
  b2inv rc_out d' F c' -> rem_out c = delta ++ rem_out c' -> bd_dest d' = bd_dest d + zlen delta -> bd_dest d' <= lim ->
  exit_ok lim d' c' -> cj_slack d d' ->
  loop_post rc_out F lim d c o (Ok (true, d', rev delta ++ o)).
Proof. intros. exists d', c', delta. msplit; assumption || reflexivity. Qed.

(* returning at once *)
Lemma loop_post_stop rc_out F lim d c o d' :
  b2inv rc_out d' F c -> bd_dest d' = bd_dest d -> bd_dest d <= lim -> exit_ok lim d' c -> cj_slack d d' ->
  loop_post rc_out F lim d c o (Ok (true, d', o)).
Proof.
  intros Hinv Hd Hle Hex Hsl. apply (loop_post_exit _ _ _ _ _ _ _ c []); try assumption; try reflexivity; rewrite ?zlen_nil; lia.
Qed.

(* storing [pre] and going on from [d1], [c1] *)
Lemma loop_post_prepend rc_out F lim d c o pre d1 c1 res :
  loop_post rc_out F lim d1 c1 (rev pre ++ o) res ->
  rem_out c = pre ++ rem_out c1 -> bd_dest d1 = bd_dest d + zlen pre -> cj_slack d d1 ->
  loop_post rc_out F lim d c o res.
Proof.
  intros (d' & c' & delta & Hres & Hinv & Hrem & Hd & Hle & Hex & Hsl) Hr Hd1 Hs1.
  exists d', c', (pre ++ delta). rewrite rev_app_distr, <- app_assoc, zlen_app. msplit; try assumption.
  - rewrite Hr, Hrem. apply app_assoc.
  - lia.
  - exact (cj_slack_trans _ _ _ Hs1 Hsl).
Qed.

(* `break`: the final normalisation, then return *)
Lemma finish_post rc_out F lim d c o :
  b2core rc_out d F c -> g_state (bd_state d) (c_ph c) ->
  g_rc rc_out (bd_rc d) (bd_range d) (bd_code d) (f_rc F) (c_e c) ->
  match c_ph c with PhWord _ _ _ _ _ | PhTemp _ _ _ _ _ => True | _ => False end ->
  bd_dest d <= lim -> exit_ok lim d c ->
  loop_post rc_out F lim d c o (bcj2_finish d o).
Proof.
  intros Hcore Hst Hrc Hph Hle Hex. pose proof Hcore as (_ & _ & (HI & _) & _).
  destruct (finish_spec _ _ _ _ o Hrc HI) as (rb & r & cc & Hfin & Hg). rewrite Hfin.
  apply loop_post_stop; [|reflexivity | exact Hle | | apply cj_slack_frame; reflexivity].
  - apply b2inv_running; [intros k E; rewrite E in Hph; exact Hph | | exact Hst | exact Hg].
    apply (b2core_frame _ d); [exact Hcore | reflexivity ..].
  - unfold exit_ok in *. destruct (c_ph c); try contradiction; exact Hex.
Qed.

Lemma zlen_firstn4 (rem r0 r1 r2 r3 : Z) : 0 <= rem < 4 -> zlen (firstn (Z.to_nat rem) [r0; r1; r2; r3]) = rem.
Proof. intros H. unfold zlen. rewrite firstn_length. cbn [length]. lia. Qed.

Lemma after_conv rc_out F f lim d o ic r0 r1 r2 r3 its prev pos e t :
  loop_prop rc_out F f ->
  b2core rc_out d F (mkCfg (PhWord ic r0 r1 r2 r3) its prev pos e t) ->
  g_rc rc_out (bd_rc d) (bd_range d) (bd_code d) (f_rc F) e ->
  bcj2_is_32bit_stream (bd_state d) = false ->
  (Z.to_nat (sb_avail (bd_main d)) + 1 <= f)%nat ->
  0 <= bd_dest d <= lim ->
  loop_post rc_out F lim d (mkCfg (PhWord ic r0 r1 r2 r3) its prev pos e t) o
    (do c <- bcj2_conv lim d o;
     match c with
     | CvBreak d' o' => bcj2_finish d' o'
     | CvCont d' o' => bcj2_loop f lim d' o'
     end).
Proof.
  intros IH Hcore Hrc Hst Hfuel Hdest.
  destruct (conv_spec _ lim _ _ o _ _ _ _ _ _ _ _ _ _ Hcore Hdest)
    as [(Hav & Hcv) | [(d' & Hrem & Hcv & Hcore' & Hst' & Hd' & E1 & E2 & E3 & Hsl) | (d' & Hrem & Hcv & Hcore' & Hst' & Hd' & E1 & E2 & E3 & E4 & Hsl)]];
    rewrite Hcv; cbn [obind].
  - (* the word is not there: state = CALL / JUMP *)
    apply loop_post_prepend with (pre := []) (d1 := bd_set_state d (if ic then 1 else 2)) (c1 := mkCfg (PhWord ic r0 r1 r2 r3) its prev pos e t);
      [apply finish_post | reflexivity | | apply cj_slack_frame; reflexivity].
    + apply (b2core_frame _ d); [exact Hcore | reflexivity ..].
    + reflexivity.
    + exact Hrc.
    + exact I.
    + bd_simpl. lia.
    + exact Hav.
    + bd_simpl. rewrite zlen_nil. lia.
  - (* fewer than four bytes of room: the operand goes to temp *)
    apply loop_post_prepend with (pre := firstn (Z.to_nat (lim - bd_dest d)) [r0; r1; r2; r3]) (d1 := d') (c1 := mkCfg (PhTemp (lim - bd_dest d) r0 r1 r2 r3) its prev pos e t);
      [apply finish_post | | | exact Hsl].
    + exact Hcore'.
    + exact Hst'.
    + rewrite E1, E2, E3. exact Hrc.
    + exact I.
    + lia.
    + exact Hd'.
    + cbn [rem_out c_ph c_its]. rewrite app_assoc, firstn_skipn. reflexivity.
    + rewrite zlen_firstn4 by lia. lia.
  - (* the operand is stored, next round *)
    apply loop_post_prepend with (pre := [r0; r1; r2; r3]) (d1 := d') (c1 := mkCfg PhScan its prev pos e t);
      [apply IH | reflexivity | | exact Hsl].
    + exact Hcore'.
    + rewrite E1, E2, E3. exact Hrc.
    + unfold loop_pre. cbn [c_ph]. rewrite Hst', E4. split; assumption.
    + lia.
    + exact Hd'.
Qed.

(* the scan with the 0F 8x test on the first byte that precedes it *)
Lemma scanned_spec n lits rest prev pos live m' b tl :
  items_wf prev pos (map B2Lit lits ++ rest) -> (length lits <= n)%nat -> (1 <= n)%nat ->
  ((length lits < n)%nat -> exists it r m'', rest = it :: r /\ is_lit it = false /\ m' = b2_main1 it :: m'') ->
  live = lits ++ m' -> live = b :: tl ->
  (if (prev =? 15) && (Z.land b 240 =? 128) then Some ([], live, n) else bcj2_scan n live []) =
  Some (rev lits, m', (n - length lits)%nat).
Proof.
  intros Hwf Hn H1 Hstop -> Hl.
  destruct ((prev =? 15) && (Z.land b 240 =? 128)) eqn:Et.
  - destruct lits as [|a l]; [cbn [app rev length]; rewrite Nat.sub_0_r; reflexivity|].
    cbn [map app items_wf] in Hwf, Hl. injection Hl as -> _. destruct Hwf as (_ & Hc & _).
    unfold bcj2_is_cand in Hc. rewrite Et, orb_true_r in Hc. discriminate Hc.
  - rewrite (scan_lits lits n prev pos rest m' [] Hwf Hn Hstop), app_nil_r; [reflexivity|].
    intros b' tl' E. rewrite Hl in E. injection E as <- _. exact Et.
Qed.

Lemma spec_index_range prev b : isb prev -> 0 <= bcj2_spec_index prev b < 258.
Proof. unfold isb, bcj2_spec_index. intros H. destruct (b =? 232); [lia|]. destruct (b =? 233); lia. Qed.

Lemma wrap32_add_both a b : wrap32 (wrap32 a + wrap32 b) = wrap32 (a + b).
Proof. rewrite wrap32_add_l, wrap32_add_r. reflexivity. Qed.

(* Stepping over literal items: the state [dm] in which the copy loop has passed them satisfies the
   core invariant at the items behind them. *)
Lemma skip_lits rc_out d F lits rest prev pos e t m' st :
  b2core rc_out d F (mkCfg PhScan (map B2Lit lits ++ rest) prev pos e t) -> sb_live (bd_main d) = lits ++ m' ->
  b2core rc_out (bd_set_main d (mkSb m' (sb_avail (bd_main d) - zlen lits)) (last lits prev)
                   (wrap32 (bd_ip d + wrap32 (zlen lits))) (bd_dest d + zlen lits) st)
         F (mkCfg PhScan rest (last lits prev) (pos + zlen lits) e t).
Proof.
  intros ((Hm & Hmfull) & Hcj & Henc & Hwf & Hprev & Hregs) Hlive.
  unfold g_regs in Hregs. bd_simpl. destruct Hregs as [_ Hip].
  destruct (lits_streams lits rest) as (Smain & _ & Sev & Scall & Sjump).
  destruct (lits_wf lits _ _ _ Hwf Hprev) as [Hwf' Hisb'].
  rewrite Hlive, Smain, <- app_assoc in Hm. apply app_inv_head in Hm.
  unfold sb_full in Hmfull. rewrite Hlive, zlen_app in Hmfull.
  unfold b2core. bd_simpl. msplit; try assumption.
  - split; [exact Hm | unfold sb_full; bd_simpl; lia].
  - exact (g_cj_scan _ _ _ _ _ _ _ _ Scall Sjump Hcj).
  - unfold g_enc in *. rewrite <- Sev. exact Henc.
  - split; [reflexivity|]. rewrite Hip. apply wrap32_add_both.
Qed.

(* one range-coded bit: the decoder's inline [bcj2_bit] reads the bit the encoder wrote and both
   move on to the rest of the events *)
Lemma bit_step rc_out pl e t its rest idx bit rb r cc fr :
  g_enc rc_out pl e t its -> b2_events its = EBit idx bit :: b2_events rest ->
  bit = 0 \/ bit = 1 -> 0 <= idx < 258 -> sb_full rb -> rc_norm rc_out r cc (sb_live rb ++ fr) e ->
  exists r' c' p' e1 t1,
    bcj2_bit r cc (prob_get t idx) = Ok (bit, r', c', p') /\
    g_enc rc_out (zupd pl idx p') e1 t1 rest /\ g_rc rc_out rb r' c' fr e1.
Proof.
  intros (HI & Ht & Htab & Hout & Hsize & Hbytes) Hev Hbit Hidx Hfull Hnorm.
  rewrite Hev in Hout, Hsize. cbn [renc_events] in Hout. cbn [events_bits ev_bits] in Hsize.
  pose proof (events_bits_nonneg (b2_events rest)) as Hebn.
  destruct (encode_bit_ok e t idx bit HI Ht Hbit ltac:(lia)) as (I1 & T1 & S1 & _).
  pose proof (fun Hf => b2_bit_ok rc_out e t idx bit r cc _ HI Ht Hbit ltac:(lia) Hbytes Hnorm Hf) as Hb.
  destruct (encode_bit e t idx bit) as [e1 t1]. cbn [fst snd] in *.
  destruct Hb as (r' & c' & p' & Hbb & Ht1 & Hok').
  { rewrite Hout. apply renc_output_fut; [exact I1 | exact T1 | apply b2_events_ok | lia]. }
  exists r', c', p', e1, t1. split; [exact Hbb|]. split; [|split; assumption].
  unfold g_enc. msplit; try assumption; [rewrite Ht1; apply ptab_rel_upd; assumption | lia].
Qed.

(* A round whose copy loop has stopped in front of a candidate [it]: its MAIN byte [b0] is stored, its
   bit decoded, and the loop goes on behind it - through the conversion block if the bit is 1. *)
Lemma cand_round rc_out F f lim d o it rest prev pos e t b0 rest' av ip dest :
  loop_prop rc_out F f ->
  b2core rc_out d F (mkCfg PhScan (it :: rest) prev pos e t) -> is_lit it = false ->
  sb_full (bd_rc d) -> rc_norm rc_out (bd_range d) (bd_code d) (sb_live (bd_rc d) ++ f_rc F) e ->
  bcj2_is_32bit_stream (bd_state d) = false -> (Z.to_nat (sb_avail (bd_main d)) <= f)%nat ->
  0 <= bd_dest d < lim ->
  sb_live (bd_main d) = b0 :: rest' -> av = sb_avail (bd_main d) - 1 -> ip = wrap32 (pos + 1) -> dest = bd_dest d + 1 ->
  let d2 := bd_set_main d (mkSb rest' av) b0 ip dest (bd_state d) in
  let idx := bcj2_prob_index b0 prev in
  loop_post rc_out F lim d (mkCfg PhScan (it :: rest) prev pos e t) o
    (match zth (bd_probs d2) idx with
     | None => Panic 1
     | Some ttt =>
         do r <- bcj2_bit (bd_range d2) (bd_code d2) ttt;
         let '(bit, range, code, p') := r in
         let d3 := bd_set_bit d2 range code (zupd (bd_probs d2) idx p') in
         if bit =? 0 then bcj2_loop f lim d3 (b0 :: o)
         else
           do c <- bcj2_conv lim d3 (b0 :: o);
           match c with
           | CvBreak d' o' => bcj2_finish d' o'
           | CvCont d' o' => bcj2_loop f lim d' o'
           end
     end).
Proof.
  intros IH Hcore Hnl Hrbf Hnorm Hst Hfuel Hdest Hlive -> -> -> d2 idx.
  pose proof Hcore as ((Hm & Hmfull) & Hcj & Henc & Hwf & Hprev & _).
  pose proof Henc as (HI & _ & Htab & _).
  bd_simpl. unfold sb_full in Hmfull. rewrite Hlive in Hm, Hmfull. rewrite zlen_cons in Hmfull. pose proof (zlen_nonneg rest').
  unfold b2_main in Hm. cbn [app map] in Hm. injection Hm as Hb0 Hmrest. fold (b2_main rest) in Hmrest.
  assert (Hgm : g_main (mkSb rest' (sb_avail (bd_main d) - 1)) (f_main F) rest)
    by (split; [exact Hmrest | unfold sb_full; bd_simpl; lia]).
  change (bcj2_prob_index b0 prev) with (bcj2_spec_index prev b0) in idx.
  pose proof (spec_index_range prev b0 Hprev) as Hidx. fold idx in Hidx.
  unfold d2. bd_simpl. rewrite (proj2 Htab _ Hidx).
  pose proof (fun bit Hev Hb => bit_step _ _ _ _ _ rest idx bit _ _ _ _ Henc Hev Hb Hidx Hrbf Hnorm) as Hbit.
  destruct it as [bl|b1 idx0|b1 idx0 ic r0 r1 r2 r3 a]; [discriminate Hnl| |];
    cbn [b2_main1] in Hb0; subst b0; cbn [items_wf] in Hwf.
  - (* not converted: bit 0 *)
    destruct Hwf as (Hb1 & Hcand & Hidx0 & Hwf2). fold idx in Hidx0. subst idx0.
    destruct (Hbit 0 eq_refl (or_introl eq_refl)) as (r' & c' & p' & e1 & t1 & Hbb & Henc1 & Hrc3).
    rewrite Hbb. cbn [obind Z.eqb].
    set (d3 := bd_set_bit _ r' c' _).
    set (c3 := mkCfg PhScan rest b1 (pos + 1) e1 t1).
    apply loop_post_prepend with (pre := [b1]) (d1 := d3) (c1 := c3);
      [apply IH | reflexivity | unfold d3; bd_simpl; rewrite zlen_cons, zlen_nil; lia | apply cj_slack_frame; reflexivity].
    + unfold b2core, d3, c3. bd_simpl. msplit; try assumption. split; reflexivity.
    + exact Hrc3.
    + unfold loop_pre, d3, c3. bd_simpl. split; [exact Hst | lia].
    + unfold d3. bd_simpl. lia.
  - (* converted: bit 1 *)
    destruct Hwf as (Hb1 & J0 & J1 & J2 & J3 & Hcand & Hidx0 & Hic & Ha & Hwf2). fold idx in Hidx0. subst idx0.
    destruct (Hbit 1 eq_refl (or_intror eq_refl)) as (r' & c' & p' & e1 & t1 & Hbb & Henc1 & Hrc3).
    rewrite Hbb. cbn [obind Z.eqb].
    set (d3 := bd_set_bit _ r' c' _).
    set (cW := mkCfg (PhWord ic r0 r1 r2 r3) rest r3 (pos + 5) e1 t1).
    apply loop_post_prepend with (pre := [b1]) (d1 := d3) (c1 := cW);
      [apply after_conv | reflexivity | unfold d3; bd_simpl; rewrite zlen_cons, zlen_nil; lia | apply cj_slack_frame; reflexivity].
    + exact IH.
    + unfold b2core, d3, cW. bd_simpl. msplit; try assumption.
      * exact (g_cj_conv _ _ _ _ pos b1 idx ic _ _ _ _ a _ _ Ha Hcj).
      * unfold g_regs. bd_simpl. msplit; try assumption; try reflexivity; [symmetry; exact Hic | f_equal; lia].
    + exact Hrc3.
    + exact Hst.
    + unfold d3. bd_simpl. lia.
    + unfold d3. bd_simpl. lia.
Qed.

(* One round that starts between two items: normalise, scan at most [num] bytes of the MAIN buffer,
   then either everything scanned was literal and decode() returns, or a candidate is met. *)
Lemma loop_scan rc_out F f lim d o its prev pos e t :
  loop_prop rc_out F f ->
  b2core rc_out d F (mkCfg PhScan its prev pos e t) ->
  g_rc rc_out (bd_rc d) (bd_range d) (bd_code d) (f_rc F) e ->
  bcj2_is_32bit_stream (bd_state d) = false ->
  (Z.to_nat (sb_avail (bd_main d)) + 1 <= S f)%nat ->
  0 <= bd_dest d <= lim ->
  loop_post rc_out F lim d (mkCfg PhScan its prev pos e t) o (bcj2_loop (S f) lim d o).
Proof.
  intros IH Hcore Hrc Hst Hfuel Hdest.
  pose proof Hcore as ((Hm & Hmfull) & _ & (HI & _) & Hwf & _ & Hregs).
  unfold g_regs in Hregs. bd_simpl. destruct Hregs as [Ht3 Hip].
  (* an exit that only sets the state *)
  assert (Hstop : forall rb r cc st, g_rc rc_out rb r cc (f_rc F) e -> g_state st PhScan ->
            exit_ok lim (bd_set_state (bd_set_rc d rb r cc) st) (mkCfg PhScan its prev pos e t) ->
            loop_post rc_out F lim d (mkCfg PhScan its prev pos e t) o (Ok (true, bd_set_state (bd_set_rc d rb r cc) st, o))).
  { intros rb r cc st Hg Hs Hex.
    apply loop_post_stop; [| reflexivity | lia | exact Hex | apply cj_slack_frame; reflexivity].
    apply b2inv_running; [discriminate | | exact Hs | exact Hg].
    apply (b2core_frame _ d); [exact Hcore | reflexivity ..]. }
  cbn [bcj2_loop]. rewrite Hst.
  destruct (normalize_spec _ _ _ _ Hrc HI) as [(Hn & Hav & Hlt) | (rb & r & cc & Hn & Hrbf & Hnorm)]; rewrite Hn.
  - (* the RC buffer is empty *)
    rewrite <- (bd_set_rc_same d) at 1. apply Hstop; [exact Hrc | cbn; auto |].
    unfold exit_ok. bd_simpl. right. left. auto.
  - pose proof (rc_norm_range _ _ _ _ _ Hnorm HI) as Hr.
    assert (Hrc1 : g_rc rc_out rb r cc (f_rc F) e) by (split; [exact Hrbf | apply rc_norm_ok; assumption]).
    assert (Hcore1 : b2core rc_out (bd_set_rc d rb r cc) F (mkCfg PhScan its prev pos e t))
      by (apply (b2core_frame _ d); [exact Hcore | reflexivity ..]).
    cbv zeta. bd_simpl.
    unfold sb_full in Hmfull. pose proof (zlen_nonneg (sb_live (bd_main d))) as Hnn.
    replace (sb_avail (bd_main d) <? 0) with false by (symmetry; apply Z.ltb_ge; lia).
    destruct (Z.eqb_spec (sb_avail (bd_main d)) 0) as [Hav0|Hav0].
    + (* the MAIN buffer is empty *)
      apply Hstop; [exact Hrc1 | cbn; auto |]. unfold exit_ok. bd_simpl. left. msplit; [reflexivity | exact Hav0 | lia].
    + replace (lim <? bd_dest d) with false by (symmetry; apply Z.ltb_ge; lia).
      set (room := lim - bd_dest d) in *.
      set (num := if room <? sb_avail (bd_main d) then room else sb_avail (bd_main d)) in *.
      assert (Hnum : 0 <= num /\ num <= room /\ num <= sb_avail (bd_main d) /\ (num < sb_avail (bd_main d) -> num = room)).
      { unfold num. destruct (Z.ltb_spec room (sb_avail (bd_main d))); lia. }
      destruct (Z.eqb_spec num 0) as [Hnum0|Hnum0].
      * (* no room *)
        apply Hstop; [exact Hrc1 | cbn; auto |]. unfold exit_ok. bd_simpl. right. right.
        split; [reflexivity|]. split; [lia|].
        intros ->. unfold b2_main in Hm. cbn [map] in Hm. apply app_eq_nil in Hm as [Hm _].
        rewrite Hm in Hmfull. unfold zlen in Hmfull. cbn in Hmfull. lia.
      * set (n := Z.to_nat num) in *.
        destruct (lit_split n its) as (lits & rest & -> & Hln & Hend).
        destruct (lits_streams lits rest) as (Smain & Sorig & _). rewrite Smain in Hm.
        destruct (app_split_le _ _ _ _ Hm ltac:(unfold zlen in Hmfull; lia)) as (m' & Hlive & Hm').
        assert (Hfull' : sb_avail (bd_main d) - zlen lits = zlen m') by (rewrite Hlive, zlen_app in Hmfull; lia).
        pose proof (zlen_nonneg m') as Hm'n. unfold zlen in Hfull', Hm'n.
        (* where the literals stop short of n: the MAIN byte of a candidate *)
        assert (Hcand : (length lits < n)%nat -> exists it r m'', rest = it :: r /\ is_lit it = false /\ m' = b2_main1 it :: m'').
        { intros Hlt. destruct m' as [|b0 m'']; [cbn [length] in Hfull'; lia|].
          destruct (Hend Hlt) as [-> | (it & r1 & -> & Hnl)]; [discriminate Hm'|].
          injection Hm' as <- _. exists it, r1, m''. auto. }
        pose proof (skip_lits _ _ _ _ _ _ _ _ _ m' (bd_state d) Hcore1 Hlive) as Hcorem. bd_simpl.
        destruct (sb_live (bd_main d)) as [|b tl] eqn:Elive; [unfold zlen in Hmfull; cbn [length] in Hmfull; lia|].
        rewrite Ht3, (scanned_spec n lits rest prev pos _ m' b tl Hwf Hln ltac:(lia) Hcand Hlive eq_refl).
        rewrite <- last_rev_hd. set (prevj := last lits prev) in *.
        destruct (n - length lits)%nat as [|mm] eqn:Enj.
        -- (* everything scanned is literal: decode() returns *)
           assert (Hj : zlen lits = num) by (unfold zlen; lia).
           destruct (rev lits) as [|lastb revtl] eqn:Erev.
           { apply (f_equal (@length Z)) in Erev. rewrite rev_length in Erev. cbn [length] in Erev. lia. }
           cbn [Z.of_nat sb_avail]. rewrite Z.sub_0_r, <- Erev, <- Hj.
           replace lastb with prevj by (unfold prevj; rewrite last_rev_hd, Erev; reflexivity).
           set (st := if _ =? 0 then _ else _).
           assert (Hst' : g_state st PhScan) by (unfold st; destruct (_ =? 0); cbn; auto).
           destruct Hcorem as ((Hmj & Hfj) & Hrestm). unfold sb_full in Hfj. bd_simpl.
           apply (loop_post_exit _ _ _ _ _ _ _ (mkCfg PhScan rest prevj (pos + zlen lits) e t) lits);
             [| exact Sorig | bd_simpl; lia | bd_simpl; lia | | apply cj_slack_frame; reflexivity].
           ++ apply b2inv_running; [discriminate | | exact Hst' | exact Hrc1].
              split; [split; assumption | exact Hrestm].
           ++ unfold exit_ok, st. bd_simpl.
              destruct (Z.eqb_spec (sb_avail (bd_main d) - zlen lits) 0) as [Hz|Hz].
              ** left. msplit; [reflexivity | exact Hz | lia].
              ** right. right. msplit; [reflexivity | lia |].
                 intros ->. unfold b2_main in Hmj. cbn [map] in Hmj. apply app_eq_nil in Hmj as [-> _]. cbn [length] in *. lia.
        -- (* a candidate behind the literals *)
           destruct (Hcand ltac:(lia)) as (it & r0 & m'' & -> & Hnl & ->).
           replace (num - Z.of_nat (S mm)) with (zlen lits) by (unfold zlen; lia).
           set (dm := bd_set_main _ _ _ _ _ _) in Hcorem.
           apply loop_post_prepend with (pre := lits) (d1 := dm) (c1 := mkCfg PhScan (it :: r0) prevj (pos + zlen lits) e t);
             [| exact Sorig | unfold dm; bd_simpl; lia | apply cj_slack_frame; reflexivity].
           apply (cand_round rc_out F f lim dm (rev lits ++ o) it r0 prevj (pos + zlen lits) e t (b2_main1 it) m''); try assumption.
           all: unfold dm; bd_simpl; try reflexivity; try (unfold zlen; cbn [length] in *; lia).
           rewrite Hip, wrap32_add_both. f_equal. lia.
Qed.

Theorem loop_spec rc_out F : forall fuel, loop_prop rc_out F fuel.
Proof.
  induction fuel as [|f IH]; intros lim d c o Hcore Hrc Hpre Hdest.
  - unfold loop_pre in Hpre. destruct (c_ph c); try contradiction; destruct Hpre as [_ H]; lia.
  - destruct c as [ph its prev pos e t]. unfold loop_pre in Hpre. cbn [c_ph c_e] in *.
    destruct ph as [k| |ic r0 r1 r2 r3|k r0 r1 r2 r3]; try contradiction; destruct Hpre as [Hst Hf].
    + apply loop_scan; assumption.
    + cbn [bcj2_loop]. rewrite Hst.
      replace (bcj2_is_32bit_stream (if ic then 1 else 2)) with true by (destruct ic; reflexivity).
      apply loop_post_prepend with (pre := []) (d1 := bd_set_state d BCJ2_DEC_STATE_OK) (c1 := mkCfg (PhWord ic r0 r1 r2 r3) its prev pos e t);
        [apply after_conv | reflexivity | | apply cj_slack_frame; reflexivity].
      * exact IH.
      * apply (b2core_frame _ d); [exact Hcore | reflexivity ..].
      * exact Hrc.
      * reflexivity.
      * bd_simpl. lia.
      * exact Hdest.
      * bd_simpl. rewrite zlen_nil. lia.
Qed.
