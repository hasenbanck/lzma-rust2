(* Filter/Bcj2DefectsProofs.v — the defects of the BCJ2 code before repo-patches/15 and /16, each with a
   computed witness (replayed on the real code: docs/design-notes/bcj2.md). *)
From LzVerif Require Import Base.Bytes Filter.BcjStream Filter.Bcj2 Filter.Bcj2Enc Filter.Bcj2Defects.

(* A transient failure of an inner reader lost the bytes decoded before it in the same call: five
   literal bytes, the MAIN reader delivers them and then fails once with Interrupted when asked for
   more; the caller repeats the call as every `Read` user does.  Old code: no byte arrives and the
   stream ends normally (uncompressed_size was already 0).  Repaired code: the data. *)
Lemma bcj2_reader_interrupted_drops_bytes_refuted :
  exists data ins sizes,
    (let '(m, c, j, r) := bcj2_encode data [] in
     fst (fst (fst ins)) = [IData m; IErr E_INTERRUPTED] /\ snd (fst (fst ins)) = data_script [c] /\
     snd (fst ins) = data_script [j] /\ snd ins = data_script [r]) /\
    bcj2_dec_script_old (zlen data) ins sizes = Ok ([], None) /\
    bcj2_dec_script (zlen data) ins sizes = Ok (data, None) /\ data <> [].
Proof.
  exists [52; 136; 160; 142; 171], ([IData [52; 136; 160; 142; 171]; IErr 8], [], [], [IData [0; 0; 0; 0; 0]]), [4188; 1].
  vm_compute. repeat split; discriminate.
Qed.

(* A transient failure between the two halves of a CALL word: the old refill forgot the first two
   bytes (extra_read_sizes was only written after the loop) and the reader ended with InvalidData on a
   correctly encoded input. *)
Lemma bcj2_reader_partial_word_lost_refuted :
  exists data ds ins,
    (let '(m, c, j, r) := bcj2_encode data ds in
     fst (fst (fst ins)) = data_script [m] /\
     snd (fst (fst ins)) = [IData (firstn 2 c); IErr E_INTERRUPTED; IData (skipn 2 c)] /\
     snd (fst ins) = data_script [j] /\ snd ins = data_script [r]) /\
    bcj2_dec_script_old (zlen data) ins [] = Ok ([], Some E_INVALID_DATA) /\
    bcj2_dec_script (zlen data) ins [] = Ok (data, None).
Proof.
  exists [232; 1; 2; 3; 4; 7], [true], ([IData [232; 7]], [IData [4; 3]; IErr 8; IData [2; 6]], [], [IData [0; 127; 255; 252; 0]]).
  vm_compute. repeat split.
Qed.

(* A permanent failure after decoded bytes: the old code returned the error and dropped the bytes; the
   repaired code hands the bytes out and reports the error with the next call. *)
Lemma bcj2_reader_error_after_bytes_refuted :
  exists data ins,
    bcj2_dec_script_old (zlen data) ins [4188] = Ok ([], Some E_OTHER) /\
    bcj2_dec_script (zlen data) ins [4188] = Ok (data, Some E_OTHER) /\ data <> [].
Proof.
  exists [52; 136; 160; 142; 171], ([IData [52; 136; 160; 142; 171]; IErr 6], [], [], [IData [0; 0; 0; 0; 0]]).
  vm_compute. repeat split; discriminate.
Qed.

(* The checked `+=` of the instruction pointer: the first byte behind 4 GiB of output. *)
Lemma bcj2_ip_checked_add_refuted :
  exists ip num, 0 <= ip < 4294967296 /\ 0 < num <= BUF_SIZE /\
    ip_add_checked ip num = Panic 2 /\ wrap32 (ip + wrap32 num) = 0.
Proof. exists 4294967295, 1. vm_compute. repeat split; discriminate. Qed.
