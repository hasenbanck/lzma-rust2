(* Filter/BcjInstProofs.v — the filters that convert aligned 4-byte words (ARM, ARM64, PowerPC,
   SPARC: one loop [go4] over a word function) and ARM-Thumb as loops of Filter/BcjWinProofs.v:
   the stream facts, and the inverse at the level of `code` from the per-word inverses of
   Filter/BcjWordProofs.v. *)
From LzVerif Require Import Base.Bytes Filter.Bcj Filter.BcjStream Filter.BcjArithProofs
  Filter.BcjWordProofs Filter.BcjStreamProofs Filter.BcjWinProofs.

Lemma u64_add_idem x y : u64 (u64 (x + y)) = u64 (x + y).
Proof. unfold u64. apply Z.mod_mod. lia. Qed.

Lemma pure_code_out go st buf : pure_code go st buf = out_code (fun pos i l => Ok (go pos i l)) st buf.
Proof. unfold pure_code, out_code. destruct (go (f_pos st) 0 buf). reflexivity. Qed.

(* one step of [go4 f] on the 4-byte window *)
Definition go4_win (f : word4) (pc : Z) (w : list Z) : outcome (nat * list Z) :=
  match w with
  | [b0; b1; b2; b3] => let '(c0, c1, c2, c3) := f pc b0 b1 b2 b3 in Ok (4%nat, [c0; c1; c2; c3])
  | _ => Panic 0
  end.

Lemma go4_short f pos i l : (length l < 4)%nat -> go4 f pos i l = ([], l).
Proof.
  destruct l as [|b0 [|b1 [|b2 [|b3 t]]]]; cbn [length]; intros H; try reflexivity. lia.
Qed.

Lemma go4_step f pos i l : (4 <= length l)%nat ->
  Ok (go4 f pos i l) =
  (do s <- go4_win f (pc32 pos i) (firstn 4 l);
   let '(n, e) := s in
   do r <- Ok (go4 f pos (i + Z.of_nat n) (skipn n l));
   let '(o, rest) := r in Ok (e ++ o, rest)).
Proof.
  intros H. do 4 (destruct l as [|? l]; [cbn [length] in H; lia|]).
  cbn [go4 firstn go4_win]. destruct (f (pc32 pos i) z z0 z1 z2) as [[[c0 c1] c2] c3].
  cbn [obind skipn]. change (Z.of_nat 4) with 4. destruct (go4 f pos (i + 4) l). reflexivity.
Qed.

Lemma go4_win_ok f : word4_bytes f -> forall pc w, length w = 4%nat -> bytes_ok w = true ->
  exists n e, go4_win f pc w = Ok (n, e) /\ (1 <= n <= 4)%nat /\ length e = n /\ bytes_ok e = true.
Proof.
  intros Hf pc w Hl Hb. do 4 (destruct w as [|? w]; [cbn [length] in Hl; lia|]).
  destruct w; [|cbn [length] in Hl; lia].
  repeat (apply bytes_ok_cons in Hb; let H := fresh "B" in destruct Hb as [H Hb]).
  cbn [go4_win]. destruct (f pc z z0 z1 z2) as [[[c0 c1] c2] c3] eqn:Ef.
  destruct (Hf _ _ _ _ _ _ _ _ _ B B0 B1 B2 Ef) as (G0 & G1 & G2 & G3).
  eexists _, _. split; [reflexivity|]. split; [lia|]. split; [reflexivity|].
  repeat (apply bytes_ok_cons; split; [assumption|]). reflexivity.
Qed.

Section Word4.
Variable a : arch.
Variable f : bool -> word4.
Hypothesis Hcode : forall enc st buf, bcj_code a enc st buf = pure_code (go4 (f enc)) st buf.
Hypothesis Hbytes : forall enc, word4_bytes (f enc).

Let go (enc : bool) (pos i : Z) (l : list Z) := Ok (go4 (f enc) pos i l).
Let step (enc : bool) := go4_win (f enc).

Let Hshort : forall enc pos i l, (length l < 4)%nat -> go enc pos i l = Ok ([], l).
Proof. intros enc pos i l H. unfold go. rewrite go4_short by assumption. reflexivity. Qed.
Let Hstep enc pos i l := go4_step (f enc) pos i l.
Let Hok enc := go4_win_ok (f enc) (Hbytes enc).
Let Hout : forall enc st buf, bcj_code a enc st buf = out_code (go enc) st buf.
Proof. intros. rewrite Hcode. apply pure_code_out. Qed.

Lemma word4_code_facts enc : code_facts a enc.
Proof. exact (win_code_facts 4 ltac:(lia) step go Hshort Hstep Hok a Hout enc). Qed.

Lemma word4_code_inverse : word4_inv (f true) (f false) ->
  forall st buf, f_pos st mod 4 = 0 -> bytes_ok buf = true ->
  exists st' out rest,
    bcj_code a true st buf = Ok (st', out, rest) /\
    bcj_code a false st (out ++ rest) = Ok (st', firstn (length out) buf, rest) /\
    firstn (length out) buf ++ rest = buf /\ bytes_ok out = true.
Proof.
  intros Hinv. apply (win_code_inverse 4 ltac:(lia) step go Hshort Hstep Hok a Hout 4).
  intros pos i l n e o r Hal Hl Hb Es _.
  do 4 (destruct l as [|? l]; [cbn [length] in Hl; lia|]).
  repeat (apply bytes_ok_cons in Hb; let H := fresh "B" in destruct Hb as [H Hb]).
  unfold step in *. cbn [firstn go4_win] in Es.
  destruct (f true (pc32 pos i) z z0 z1 z2) as [[[c0 c1] c2] c3] eqn:Ef. injection Es as <- <-.
  assert (Hp : pc32 pos i mod 4 = 0) by (rewrite pc32_mod4; assumption).
  split; [reflexivity|]. cbn [app firstn go4_win].
  rewrite (Hinv _ _ _ _ _ Hp B B0 B1 B2 _ _ _ _ Ef). reflexivity.
Qed.

End Word4.

Lemma code_facts_arm enc : code_facts ARM enc.
Proof. apply (word4_code_facts ARM arm_word); [reflexivity|exact arm_word_bytes]. Qed.
Lemma code_facts_arm64 enc : code_facts ARM64 enc.
Proof. apply (word4_code_facts ARM64 arm64_word); [reflexivity|exact arm64_word_bytes]. Qed.
Lemma code_facts_ppc enc : code_facts PPC enc.
Proof. apply (word4_code_facts PPC ppc_word); [reflexivity|exact ppc_word_bytes]. Qed.
Lemma code_facts_sparc enc : code_facts SPARC enc.
Proof. apply (word4_code_facts SPARC sparc_word); [reflexivity|exact sparc_word_bytes]. Qed.

Lemma code_inverse_arm st : f_pos st mod 4 = 0 -> code_inverse ARM st.
Proof. intros H buf. apply (word4_code_inverse ARM arm_word); auto using arm_word_bytes, arm_word_inv. Qed.
Lemma code_inverse_arm64 st : f_pos st mod 4 = 0 -> code_inverse ARM64 st.
Proof. intros H buf. apply (word4_code_inverse ARM64 arm64_word); auto using arm64_word_bytes, arm64_word_inv. Qed.
Lemma code_inverse_ppc st : f_pos st mod 4 = 0 -> code_inverse PPC st.
Proof. intros H buf. apply (word4_code_inverse PPC ppc_word); auto using ppc_word_bytes, ppc_word_inv. Qed.
Lemma code_inverse_sparc st : f_pos st mod 4 = 0 -> code_inverse SPARC st.
Proof. intros H buf. apply (word4_code_inverse SPARC sparc_word); auto using sparc_word_bytes, sparc_word_inv. Qed.

(* ARM-Thumb: a BL pair is converted and stepped over; anything else moves on by two bytes *)
Definition thumb_win (enc : bool) (pc : Z) (w : list Z) : outcome (nat * list Z) :=
  match w with
  | [b0; b1; b2; b3] =>
      if thumb_match b1 b3 then
        let '(c0, c1, c2, c3) := thumb_word enc pc b0 b1 b2 b3 in Ok (4%nat, [c0; c1; c2; c3])
      else Ok (2%nat, [b0; b1])
  | _ => Panic 0
  end.

Lemma thumb_go_win enc pos i l : (4 <= length l)%nat ->
  Ok (thumb_go enc pos i l) =
  (do s <- thumb_win enc (pc32 pos i) (firstn 4 l);
   let '(n, e) := s in
   do r <- Ok (thumb_go enc pos (i + Z.of_nat n) (skipn n l));
   let '(o, rest) := r in Ok (e ++ o, rest)).
Proof.
  intros H. do 4 (destruct l as [|? l]; [cbn [length] in H; lia|]).
  rewrite thumb_go_step. cbn [firstn thumb_win]. destruct (thumb_match z0 z2).
  - destruct (thumb_word enc (pc32 pos i) z z0 z1 z2) as [[[c0 c1] c2] c3].
    cbn [obind skipn]. change (Z.of_nat 4) with 4. destruct (thumb_go enc pos (i + 4) l). reflexivity.
  - cbn [obind skipn]. change (Z.of_nat 2) with 2. destruct (thumb_go enc pos (i + 2) (z1 :: z2 :: l)). reflexivity.
Qed.

Lemma thumb_win_ok enc pc w : length w = 4%nat -> bytes_ok w = true ->
  exists n e, thumb_win enc pc w = Ok (n, e) /\ (1 <= n <= 4)%nat /\ length e = n /\ bytes_ok e = true.
Proof.
  intros Hl Hb. do 4 (destruct w as [|? w]; [cbn [length] in Hl; lia|]).
  destruct w; [|cbn [length] in Hl; lia].
  repeat (apply bytes_ok_cons in Hb; let H := fresh "B" in destruct Hb as [H Hb]).
  cbn [thumb_win]. destruct (thumb_match z0 z2).
  - destruct (thumb_word enc pc z z0 z1 z2) as [[[c0 c1] c2] c3] eqn:Ew.
    destruct (thumb_word_bytes _ _ _ _ _ _ _ _ _ _ Ew) as (G0 & G1 & G2 & G3).
    eexists _, _. split; [reflexivity|]. split; [lia|]. split; [reflexivity|].
    repeat (apply bytes_ok_cons; split; [assumption|]). reflexivity.
  - eexists _, _. split; [reflexivity|]. split; [lia|]. split; [reflexivity|].
    repeat (apply bytes_ok_cons; split; [assumption|]). reflexivity.
Qed.

Definition thumb_loop (enc : bool) (pos i : Z) (l : list Z) := Ok (thumb_go enc pos i l).

Lemma thumb_loop_short enc pos i l : (length l < 4)%nat -> thumb_loop enc pos i l = Ok ([], l).
Proof. intros H. unfold thumb_loop. rewrite thumb_go_short by assumption. reflexivity. Qed.

Lemma thumb_code enc st buf : bcj_code ARMT enc st buf = out_code (thumb_loop enc) st buf.
Proof. apply pure_code_out. Qed.

Lemma code_facts_armthumb enc : code_facts ARMT enc.
Proof.
  exact (win_code_facts 4 ltac:(lia) thumb_win thumb_loop thumb_loop_short thumb_go_win thumb_win_ok ARMT thumb_code enc).
Qed.

(* a step that does not convert looked at byte 3, which is byte 1 of what the loop goes on with:
   [thumb_go_second] *)
Lemma code_inverse_armthumb st : f_pos st mod 2 = 0 -> code_inverse ARMT st.
Proof.
  intros H buf.
  apply (win_code_inverse 4 ltac:(lia) thumb_win thumb_loop thumb_loop_short thumb_go_win thumb_win_ok ARMT thumb_code 2);
    [|exact H].
  intros pos i l n e o r Hal Hl Hb Es Eg.
  do 4 (destruct l as [|? l]; [cbn [length] in Hl; lia|]).
  pose proof Hb as Hb0.
  apply bytes_ok_cons in Hb; destruct Hb as [B0 Hb]. apply bytes_ok_cons in Hb; destruct Hb as [B1 Hb2].
  pose proof Hb2 as Hb. apply bytes_ok_cons in Hb; destruct Hb as [B2 Hb]. apply bytes_ok_cons in Hb; destruct Hb as [B3 Hb].
  cbn [firstn thumb_win] in Es.
  destruct (thumb_match z0 z2) eqn:Em.
  - destruct (thumb_word true (pc32 pos i) z z0 z1 z2) as [[[c0 c1] c2] c3] eqn:Ew. injection Es as <- <-.
    assert (Hp : pc32 pos i mod 2 = 0) by (rewrite pc32_mod2; assumption).
    destruct (thumb_word_inv _ _ _ _ _ _ _ _ _ Hp B0 B1 B2 B3 Em Ew) as (Ed & Em').
    split; [reflexivity|]. cbn [app firstn thumb_win]. rewrite Em', Ed. reflexivity.
  - injection Es as <- <-. split; [reflexivity|].
    unfold thumb_loop in Eg. cbn [skipn] in Eg. apply Ok_inj in Eg.
    destruct (thumb_go_second _ _ _ _ _ _ _ _ Hb2 Eg) as (y2 & y3 & t' & -> & Ky & By).
    cbn [app firstn thumb_win].
    rewrite (thumb_match_div z0 z2 z0 y3) by auto. rewrite Em. reflexivity.
Qed.
