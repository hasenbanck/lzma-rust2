(* Io/ScriptProofs.v — read_exact / write_all hide how the source chops its data and how often it
   reports Interrupted: they see only the byte content of the script and its terminal fault. *)
From LzVerif Require Import Base.Bytes Io.Script.

Lemma firstn_skipn_app {A} (n : nat) (l : list A) : firstn n l ++ skipn n l = l.
Proof. apply firstn_skipn. Qed.

Lemma script_ok_tail r s : script_ok (r :: s) = true -> script_ok s = true.
Proof. unfold script_ok; cbn [forallb]. intros H. apply andb_true_iff in H as [_ H]. exact H. Qed.

Lemma read_exact_0 fuel s acc : read_exact fuel s 0 acc = (Ok acc, s).
Proof. destruct fuel; reflexivity. Qed.

(* taking n of b ++ r: what b gives, then the rest of the request from what is left *)
Lemma firstn_app_left {A} n (b r : list A) :
  firstn n (b ++ r) = firstn n b ++ firstn (n - length (firstn n b)) (skipn n b ++ r).
Proof.
  rewrite firstn_app, firstn_length. destruct (Nat.le_gt_cases n (length b)).
  - rewrite Nat.min_l by lia. replace (n - length b)%nat with 0%nat by lia. rewrite Nat.sub_diag. reflexivity.
  - rewrite Nat.min_r, skipn_all2 by lia. reflexivity.
Qed.

Lemma skipn_app_left {A} n (b r : list A) :
  skipn n (b ++ r) = skipn (n - length (firstn n b)) (skipn n b ++ r).
Proof.
  rewrite skipn_app, firstn_length. destruct (Nat.le_gt_cases n (length b)).
  - rewrite Nat.min_l by lia. replace (n - length b)%nat with 0%nat by lia. rewrite Nat.sub_diag. reflexivity.
  - rewrite Nat.min_r, skipn_all2 by lia. reflexivity.
Qed.

(* one read() call answered with data: a non-empty prefix of the response is delivered, what is
   left of it is offered again *)
Lemma src_read_data b t n : script_ok (RData b :: t) = true -> (0 < n)%nat ->
  exists s1, src_read (RData b :: t) n = (Ok (firstn n b), s1) /\ firstn n b <> [] /\
    script_bytes s1 = skipn n b ++ script_bytes t /\ script_end s1 = script_end t /\ script_ok s1 = true /\
    (length s1 + (n - length (firstn n b)) <= length t + n)%nat /\ (length s1 <= S (length t))%nat.
Proof.
  intros Hok Hn. pose proof (script_ok_tail _ _ Hok) as Hokt.
  unfold script_ok in Hok; cbn [forallb] in Hok. apply andb_true_iff in Hok as [Hb _].
  destruct b as [|x b']; [discriminate|]. destruct n as [|m]; [lia|]. clear Hb Hn.
  cbn [src_read]. set (b := x :: b'). eexists. split; [reflexivity|]. split; [discriminate|].
  destruct (skipn (S m) b) as [|y ys] eqn:Es.
  - repeat split; try assumption; cbn [length]; lia.
  - assert (Hl : length (firstn (S m) b) = S m).
    { apply firstn_length_le. apply (f_equal (@length Z)) in Es. rewrite skipn_length in Es. cbn [length] in Es. lia. }
    cbn [script_bytes script_end length]. rewrite Hl. repeat split; [|lia|lia].
    unfold script_ok; cbn [forallb]. exact Hokt.
Qed.

(* read_exact n returns the next n bytes of the script's content, whatever the chopping *)
Theorem read_exact_abstracts : forall fuel s n acc,
  script_ok s = true ->
  (length s + n < fuel)%nat ->
  (n <= length (script_bytes s))%nat ->
  exists s', read_exact fuel s n acc = (Ok (acc ++ firstn n (script_bytes s)), s') /\
             script_bytes s' = skipn n (script_bytes s) /\ script_end s' = script_end s /\
             script_ok s' = true /\ (length s' <= length s)%nat.
Proof.
  induction fuel as [|f IH]; intros s n acc Hok Hfuel Hn; [lia|].
  destruct n as [|m].
  - rewrite read_exact_0. cbn [firstn skipn]. rewrite app_nil_r. exists s. repeat split; auto.
  - cbn [read_exact]. destruct s as [|[b| |k|] t]; try (cbn in Hn; lia).
    + (* data *)
      destruct (src_read_data b t (S m) Hok ltac:(lia)) as (s1 & -> & Hg & Hb1 & He1 & Hok1 & Hl1 & Hl1').
      cbn [script_bytes script_end] in *. rewrite app_length in Hn.
      pose proof (firstn_length (S m) b) as Lg. pose proof (skipn_length (S m) b) as Ls.
      destruct (firstn (S m) b) as [|g gs] eqn:Eg; [contradiction|]. rewrite <- Eg in *.
      destruct (IH s1 (S m - length (firstn (S m) b))%nat (acc ++ firstn (S m) b) Hok1) as (s' & E & Hsb & Hse & Hso & Hsl).
      { cbn [length] in Hfuel. lia. }
      { rewrite Hb1, app_length. lia. }
      exists s'. rewrite E, Hsb, Hse, Hb1, He1, <- app_assoc, <- firstn_app_left, <- skipn_app_left.
      repeat split; [exact Hso | cbn [length]; lia].
    + (* interrupted: retried *)
      cbn [src_read]. change (E_INTERRUPTED =? E_INTERRUPTED) with true. cbv iota.
      destruct (IH t (S m) acc (script_ok_tail _ _ Hok)) as (s' & E & Hsb & Hse & Hso & Hsl).
      { cbn [length] in Hfuel. lia. }
      { cbn [script_bytes] in Hn. exact Hn. }
      exists s'. rewrite E. cbn [script_bytes script_end]. repeat split; auto. cbn [length]; lia.
Qed.

(* when the content is shorter than requested the call fails with the script's terminal fault *)
Theorem read_exact_short : forall fuel s n acc,
  script_ok s = true ->
  (length s + n < fuel)%nat ->
  (length (script_bytes s) < n)%nat ->
  exists s', read_exact fuel s n acc = (Err (script_end s), s').
Proof.
  induction fuel as [|f IH]; intros s n acc Hok Hfuel Hn; [lia|].
  destruct n as [|m]; [lia|].
  cbn [read_exact]. destruct s as [|[b| |k|] t].
  - cbn [src_read]. eexists. reflexivity.
  - destruct (src_read_data b t (S m) Hok ltac:(lia)) as (s1 & -> & Hg & Hb1 & He1 & Hok1 & Hl1 & _).
    cbn [script_bytes script_end] in *. rewrite app_length in Hn.
    pose proof (firstn_length (S m) b) as Lg. pose proof (skipn_length (S m) b) as Ls.
    destruct (firstn (S m) b) as [|g gs] eqn:Eg; [contradiction|]. rewrite <- Eg in *. rewrite <- He1.
    apply IH; [exact Hok1 | cbn [length] in Hfuel; lia | rewrite Hb1, app_length; lia].
  - cbn [src_read script_end]. change (E_INTERRUPTED =? E_INTERRUPTED) with true. cbv iota.
    apply IH; [exact (script_ok_tail _ _ Hok) | cbn [length] in Hfuel; lia | exact Hn].
  - cbn [src_read script_end]. unfold script_ok in Hok; cbn [forallb] in Hok.
    apply andb_true_iff in Hok as [Hk _]. apply negb_true_iff in Hk. rewrite Hk.
    eexists. reflexivity.
  - cbn [src_read script_end]. eexists. reflexivity.
Qed.

(* a sink that only short-writes or reports Interrupted *)
Definition sink_soft (s : list wresp) : bool :=
  forallb (fun r => match r with WAccept _ | WInterrupted => true | _ => false end) s.

Theorem write_all_soft : forall fuel s buf taken,
  sink_soft s = true -> (length s + length buf < fuel)%nat ->
  exists s', write_all fuel s buf taken = (Ok tt, taken ++ buf, s').
Proof.
  induction fuel as [|f IH]; intros s buf taken Hs Hf; [lia|].
  destruct buf as [|x t]; [exists s; cbn [write_all]; rewrite app_nil_r; reflexivity|].
  cbn [write_all]. destruct s as [|r rs]; [eexists; reflexivity|].
  unfold sink_soft in Hs; cbn [forallb] in Hs. apply andb_true_iff in Hs as [Hr Hrs]. fold (sink_soft rs) in Hrs.
  destruct r as [n| | |]; try discriminate.
  - set (k := Nat.min (Nat.max n 1) (length (x :: t))).
    destruct (IH rs (skipn k (x :: t)) (taken ++ firstn k (x :: t)) Hrs) as (s' & E).
    { rewrite skipn_length. cbn [length] in *. lia. }
    exists s'. rewrite E. rewrite <- app_assoc, firstn_skipn. reflexivity.
  - destruct (IH rs (x :: t) taken Hrs) as (s' & E); [cbn [length] in *; lia|].
    exists s'. exact E.
Qed.

Theorem write_all_prefix : forall fuel s buf taken r taken' s',
  write_all fuel s buf taken = (r, taken', s') -> exists p, taken' = taken ++ p /\ exists q, buf = p ++ q.
Proof.
  induction fuel as [|f IH]; intros s buf taken r taken' s' H.
  - destruct buf; cbn [write_all] in H; inversion H; subst; exists []; rewrite app_nil_r; split; auto; eexists; reflexivity.
  - destruct buf as [|x t]; [cbn [write_all] in H; inversion H; subst; exists []; rewrite app_nil_r; split; auto; exists []; reflexivity|].
    cbn [write_all] in H. destruct s as [|w ws].
    + inversion H; subst. exists (x :: t). split; [reflexivity|]. exists []. rewrite app_nil_r. reflexivity.
    + destruct w as [n| |kind|].
      * set (k := Nat.min (Nat.max n 1) (length (x :: t))) in *.
        apply IH in H as (p & Hp & q & Hq).
        exists (firstn k (x :: t) ++ p). split; [rewrite Hp, app_assoc; reflexivity|].
        exists q. rewrite <- app_assoc, <- Hq, firstn_skipn. reflexivity.
      * apply IH in H. exact H.
      * inversion H; subst. exists []. rewrite app_nil_r. split; auto. exists (x :: t). reflexivity.
      * inversion H; subst. exists []. rewrite app_nil_r. split; auto. exists (x :: t). reflexivity.
Qed.
